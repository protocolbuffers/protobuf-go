(* Proofs about Text/TextNumModel.v: everything strconv.FormatFloat(x, 'g', -1, bits)
   can emit for a finite x is lexed by parseNumber as ONE number token whose
   string is the whole rendering and which strconv.ParseFloat accepts
   syntactically (exported in Props/C25.v; it is the lexical fact behind the float statements of C24). *)
From Coq Require Import List Arith NArith ZArith Lia Bool.
From Coq Require Import ZifyBool ZifyNat ZifyN.
From PB Require Import Base.PBytes Base.Utf8Model Text.TextStrModel Text.TextNumModel.
Import ListNotations.
Open Scope N_scope.

(* The output grammar of FormatFloat 'g' / -1:
   e-form:  sign? digit (dot digits)? e (plus|minus) digit digits
   f-form:  sign? (0 | nonzero-digit digits?) (dot digits)?
   both are instances of:  sign? intpart (dot digits)? (e sign digits)?  with
   intpart = 0 | nonzero-digit followed by digits, and "digits" non-empty *)
Definition all_digits (l : list byte) : Prop := Forall (fun b => is_digit b = true) l.

Inductive int_part : list byte -> Prop :=
| ip_zero : int_part [x30]
| ip_nz d ds : in_rng 49 57 (b2n d) = true -> all_digits ds -> int_part (d :: ds).

Inductive frac_part : list byte -> Prop :=
| fp_none : frac_part []
| fp_some ds : ds <> [] -> all_digits ds -> frac_part (x2e :: ds).

Inductive exp_part : list byte -> Prop :=
| ep_none : exp_part []
| ep_some sg ds : (b2n sg = 43 \/ b2n sg = 45) -> ds <> [] -> all_digits ds -> exp_part (x65 :: sg :: ds).

Definition is_nil {A} (l : list A) : bool := match l with [] => true | _ => false end.

Definition not_digit_head (s : list byte) : Prop := match s with [] => True | b :: _ => is_digit b = false end.

Lemma span_digits ds : all_digits ds -> forall rest, not_digit_head rest ->
  span_count is_digit (ds ++ rest) = (length ds, rest).
Proof.
  induction 1 as [|d ds Hd _ IH]; intros rest Hr.
  - cbn [app length]. destruct rest as [|b r]; [reflexivity|]. cbn [span_count]. cbn in Hr. now rewrite Hr.
  - cbn [app span_count length]. rewrite Hd, IH by assumption. reflexivity.
Qed.

Lemma delim_not_digit rest : at_delim rest = true -> not_digit_head rest.
Proof.
  destruct rest as [|b r]; [intros _; exact I|]. cbn [at_delim not_digit_head]. unfold is_delim, is_digit, in_rng. cbv zeta. lia.
Qed.

Lemma delim_head_facts b r : at_delim (b :: r) = true ->
  b2n b <> 46 /\ b2n b <> 101 /\ b2n b <> 69 /\ b2n b <> 102 /\ b2n b <> 70 /\ is_digit b = false.
Proof. cbn [at_delim]. unfold is_delim, is_digit, in_rng. cbv zeta. lia. Qed.

(* the three stages of parse_number_tail: fraction, exponent, suffix and delimiter check *)
Definition pn_frac (kind : N) (size : nat) (s : list byte) : option (N * nat * list byte) :=
  match s with
  | b :: r =>
    if b2n b =? 46 then
      match r, kind with
      | [], 4 => None
      | _, _ => let '(n, r') := span_count is_digit r in Some (4, (size + 1 + n)%nat, r')
      end
    else Some (kind, size, s)
  | [] => Some (kind, size, s)
  end.

Definition pn_exp (kind : N) (size : nat) (s : list byte) : option (N * nat * list byte) :=
  match s with
  | e :: ((c :: r2) as r1) =>
    if (b2n e =? 101) || (b2n e =? 69) then
      if (b2n c =? 43) || (b2n c =? 45) then
        match r2 with
        | [] => None
        | _ => let '(n, r') := span_count is_digit r2 in Some (4, (size + 2 + n)%nat, r')
        end
      else let '(n, r') := span_count is_digit r1 in Some (4, (size + 1 + n)%nat, r')
    else Some (kind, size, s)
  | _ => Some (kind, size, s)
  end.

Definition pn_suffix (neg : bool) (sep : nat) (kind : N) (size : nat) (s : list byte) : option number :=
  let '(kind, size, s) :=
    match s with
    | b :: r => if (b2n b =? 102) || (b2n b =? 70) then (4, S size, r) else (kind, size, s)
    | [] => (kind, size, s)
    end in
  if at_delim s then Some {| nkind := kind; nneg := neg; nsize := size; nsep := sep |} else None.

Definition pn_exp_suffix (neg : bool) (sep : nat) (kind : N) (size : nat) (s : list byte) : option number :=
  match pn_exp kind size s with
  | None => None
  | Some (kind, size, s) => pn_suffix neg sep kind size s
  end.

Lemma parse_number_tail_eq kind neg size sep s :
  parse_number_tail kind neg size sep s =
  match pn_frac kind size s with
  | None => None
  | Some (kind, size, s) => pn_exp_suffix neg sep kind size s
  end.
Proof. reflexivity. Qed.

Lemma tail_exp neg size sep kind ex rest :
  exp_part ex -> at_delim rest = true ->
  pn_exp_suffix neg sep kind size (ex ++ rest) =
  Some {| nkind := if is_nil ex then kind else 4; nneg := neg; nsize := (size + length ex)%nat; nsep := sep |}.
Proof.
  intros Hex Hd. unfold pn_exp_suffix, pn_exp, pn_suffix. destruct Hex as [|sg ds Hsg Hne Hds].
  - cbn [app is_nil length]. rewrite Nat.add_0_r.
    destruct rest as [|b [|c r]].
    + reflexivity.
    + destruct (delim_head_facts b [] Hd) as (_ & _ & _ & H1 & H2 & _).
      replace ((b2n b =? 102) || (b2n b =? 70)) with false by lia. rewrite Hd. reflexivity.
    + destruct (delim_head_facts b (c :: r) Hd) as (_ & H3 & H4 & H1 & H2 & _).
      replace ((b2n b =? 101) || (b2n b =? 69)) with false by lia.
      replace ((b2n b =? 102) || (b2n b =? 70)) with false by lia. rewrite Hd. reflexivity.
  - cbn [app is_nil length]. change (b2n x65) with 101. cbn [N.eqb Pos.eqb orb].
    replace ((b2n sg =? 43) || (b2n sg =? 45)) with true by lia.
    destruct ds as [|d ds']; [congruence|]. cbn [app].
    change (d :: ds' ++ rest) with ((d :: ds') ++ rest).
    rewrite span_digits by (assumption || now apply delim_not_digit).
    destruct rest as [|b r].
    + cbn [at_delim]. do 2 f_equal. cbn [length]. lia.
    + destruct (delim_head_facts b r Hd) as (_ & _ & _ & H1 & H2 & _).
      replace ((b2n b =? 102) || (b2n b =? 70)) with false by lia. rewrite Hd.
      do 2 f_equal. cbn [length]. lia.
Qed.

Lemma exp_head_not_digit ex rest : exp_part ex -> at_delim rest = true -> not_digit_head (ex ++ rest).
Proof. intros [|sg ds _ _ _] Hd; [now apply delim_not_digit|reflexivity]. Qed.

Lemma exp_head_not_dot ex rest : exp_part ex -> at_delim rest = true ->
  match ex ++ rest with b :: _ => b2n b <> 46 | [] => True end.
Proof.
  intros [|sg ds _ _ _] Hd; cbn [app]; [|vm_compute; discriminate].
  destruct rest as [|b r]; [trivial|]. now destruct (delim_head_facts b r Hd).
Qed.

Lemma tail_ok neg size sep fr ex rest :
  frac_part fr -> exp_part ex -> at_delim rest = true ->
  parse_number_tail 0 neg size sep (fr ++ ex ++ rest) =
  Some {| nkind := if is_nil fr && is_nil ex then 0 else 4; nneg := neg;
          nsize := (size + length fr + length ex)%nat; nsep := sep |}.
Proof.
  intros Hfr Hex Hd. rewrite parse_number_tail_eq. unfold pn_frac.
  destruct Hfr as [|ds Hne Hds].
  - cbn [app is_nil andb length]. rewrite Nat.add_0_r.
    pose proof (exp_head_not_dot ex rest Hex Hd) as Hdot.
    destruct (ex ++ rest) as [|b r] eqn:E.
    + pose proof (tail_exp neg size sep 0 ex rest Hex Hd) as T. rewrite E in T. exact T.
    + replace (b2n b =? 46) with false by lia.
      pose proof (tail_exp neg size sep 0 ex rest Hex Hd) as T. rewrite E in T. exact T.
  - cbn [app is_nil andb]. change (b2n x2e) with 46. cbn [N.eqb Pos.eqb].
    destruct ds as [|d ds']; [congruence|]. cbn [app].
    change (d :: ds' ++ ex ++ rest) with ((d :: ds') ++ ex ++ rest).
    rewrite span_digits by (assumption || now apply exp_head_not_digit).
    pose proof (tail_exp neg (size + 1 + length (d :: ds')) sep 4 ex rest Hex Hd) as T.
    rewrite T. destruct (is_nil ex); do 2 f_equal; cbn [length]; lia.
Qed.

Definition float_text (neg : bool) (ip fr ex : list byte) : list byte :=
  (if neg then [x2d] else []) ++ ip ++ fr ++ ex.

Lemma frac_exp_not_digit fr ex rest : frac_part fr -> exp_part ex -> at_delim rest = true ->
  not_digit_head (fr ++ ex ++ rest).
Proof. intros [|ds _ _] Hex Hd; [cbn [app]; apply exp_head_not_digit; assumption|reflexivity]. Qed.

Lemma frac_exp_head fr ex rest : frac_part fr -> exp_part ex -> at_delim rest = true ->
  match fr ++ ex ++ rest with
  | b :: _ => b2n b <> 120 /\ b2n b <> 88 /\ in_rng 48 55 (b2n b) = false
  | [] => True
  end.
Proof.
  intros [|ds _ _] Hex Hd; cbn [app]; [|vm_compute; repeat split; discriminate].
  destruct Hex as [|sg ds _ _ _]; cbn [app]; [|vm_compute; repeat split; discriminate].
  destruct rest as [|b r]; [trivial|]. cbn [at_delim] in Hd. unfold is_delim, in_rng in *. cbv zeta in Hd. lia.
Qed.

(* parse_number after the optional sign *)
Definition pn_unsigned (neg : bool) (size sep : nat) (s : list byte) : option number :=
  match s with
  | [] => None
  | c :: r =>
    if b2n c =? 48 then
      match r with
      | c1 :: r1 =>
        if (b2n c1 =? 120) || (b2n c1 =? 88) then
          let '(n, rest) := span_count is_hexdig r1 in
          match n with
          | O => None
          | _ => if at_delim rest
                 then Some {| nkind := 1; nneg := neg; nsize := (size + 2 + n)%nat; nsep := sep |}
                 else None
          end
        else if in_rng 48 55 (b2n c1) then
          let '(n, rest) := span_count is_octd r1 in
          if at_delim rest
          then Some {| nkind := 2; nneg := neg; nsize := (size + 2 + n)%nat; nsep := sep |}
          else None
        else parse_number_tail 0 neg (S size) sep r
      | [] => parse_number_tail 0 neg (S size) sep r
      end
    else if in_rng 49 57 (b2n c) then
      let '(n, rest) := span_count is_digit r in
      parse_number_tail 0 neg (size + 1 + n)%nat sep rest
    else if b2n c =? 46 then parse_number_tail 4 neg size sep s
    else None
  end.

Lemma parse_unsigned neg size sep ip fr ex rest :
  int_part ip -> frac_part fr -> exp_part ex -> at_delim rest = true ->
  pn_unsigned neg size sep (ip ++ fr ++ ex ++ rest) =
  Some {| nkind := if is_nil fr && is_nil ex then 0 else 4; nneg := neg;
          nsize := (size + length ip + length fr + length ex)%nat; nsep := sep |}.
Proof.
  intros Hip Hfr Hex Hd. unfold pn_unsigned. destruct Hip as [|d ds Hnz Hds].
  - cbn [app]. change (b2n x30) with 48. cbn [N.eqb Pos.eqb].
    pose proof (frac_exp_head fr ex rest Hfr Hex Hd) as Hh.
    pose proof (tail_ok neg (S size) sep fr ex rest Hfr Hex Hd) as T.
    destruct (fr ++ ex ++ rest) as [|c1 r1] eqn:E.
    + rewrite T. do 2 f_equal. cbn [length]. lia.
    + destruct Hh as (H1 & H2 & H3).
      replace ((b2n c1 =? 120) || (b2n c1 =? 88)) with false by lia. rewrite H3.
      rewrite T. do 2 f_equal. cbn [length]. lia.
  - cbn [app]. replace (b2n d =? 48) with false by (unfold in_rng in Hnz; lia). rewrite Hnz.
    rewrite span_digits by (assumption || now apply frac_exp_not_digit).
    rewrite tail_ok by assumption. do 2 f_equal. cbn [length]. lia.
Qed.

Lemma int_part_digits ip : int_part ip -> all_digits ip /\ ip <> [].
Proof.
  intros [|d ds Hnz Hds]; (split; [|discriminate]).
  - constructor; [reflexivity|constructor].
  - constructor; [unfold is_digit, in_rng in *; lia|assumption].
Qed.

Lemma last_byte_digits pre ds : ds <> [] -> all_digits ds -> 48 <= last_byte (pre ++ ds) <= 57.
Proof.
  intros Hne Hds. unfold last_byte. rewrite rev_app_distr.
  destruct (rev ds) as [|l r] eqn:El.
  - apply (f_equal (@rev byte)) in El. rewrite rev_involutive in El. contradiction.
  - cbn [app]. assert (Hin : In l ds) by (apply in_rev; rewrite El; now left).
    unfold all_digits in Hds. rewrite Forall_forall in Hds. specialize (Hds _ Hin).
    unfold is_digit, in_rng in Hds. lia.
Qed.

Lemma float_text_last neg ip fr ex : int_part ip -> frac_part fr -> exp_part ex ->
  48 <= last_byte (float_text neg ip fr ex) <= 57.
Proof.
  intros Hip Hfr Hex. unfold float_text. destruct Hex as [|sg ds0 _ Hne0 Hds0].
  - destruct Hfr as [|ds1 Hne1 Hds1].
    + rewrite !app_nil_r. apply last_byte_digits; apply (int_part_digits ip Hip).
    + rewrite app_nil_r. change (x2e :: ds1) with ([x2e] ++ ds1). rewrite !app_assoc.
      now apply last_byte_digits.
  - change (x65 :: sg :: ds0) with ([x65; sg] ++ ds0). rewrite !app_assoc. now apply last_byte_digits.
Qed.

(* a token that ends in a digit and has no gap after its sign is its own string *)
Lemma number_string_plain num s rest :
  nsep num = O -> nsize num = length s -> 48 <= last_byte s <= 57 -> number_string num (s ++ rest) = s.
Proof.
  intros Hsep Hs Hl. unfold number_string. rewrite Hsep, Hs. cbn [Nat.eqb negb]. rewrite andb_false_r.
  assert (Hf : firstn (length s) (s ++ rest) = s)
    by (rewrite firstn_app, Nat.sub_diag, firstn_all, firstn_O, app_nil_r; reflexivity).
  rewrite Hf. replace ((last_byte s =? 102) || (last_byte s =? 70)) with false by lia.
  rewrite andb_false_r. exact Hf.
Qed.

(* the sign step of parse_number: nothing to skip between the sign and the first digit *)
Lemma parse_number_signed (neg : bool) ip t : int_part ip ->
  parse_number ((if neg then [x2d] else []) ++ ip ++ t) = pn_unsigned neg (if neg then 1%nat else O) O (ip ++ t).
Proof.
  intros Hip. destruct (int_part_digits ip Hip) as [Hd Hne].
  destruct ip as [|c r]; [congruence|]. inversion Hd as [|? ? Hc _]; subst.
  unfold is_digit, in_rng in Hc. unfold parse_number. destruct neg; cbn [app].
  - change (b2n x2d =? 45) with true. cbn [consume_ws].
    replace ((b2n c =? 32) || (b2n c =? 10) || (b2n c =? 13) || (b2n c =? 9)) with false by lia.
    replace (b2n c =? 35) with false by lia. rewrite Nat.sub_diag. reflexivity.
  - replace (b2n c =? 45) with false by lia. reflexivity.
Qed.

Theorem float_text_accepted neg ip fr ex rest :
  int_part ip -> frac_part fr -> exp_part ex -> at_delim rest = true ->
  let s := float_text neg ip fr ex in
  exists num, parse_number (s ++ rest) = Some num /\
              nsize num = length s /\ nneg num = neg /\ nsep num = O /\
              nkind num = (if is_nil fr && is_nil ex then 0 else 4) /\
              number_string num (s ++ rest) = s.
Proof.
  intros Hip Hfr Hex Hd. cbv zeta.
  exists {| nkind := if is_nil fr && is_nil ex then 0 else 4; nneg := neg;
            nsize := length (float_text neg ip fr ex); nsep := O |}.
  split.
  - unfold float_text. rewrite <- !app_assoc, parse_number_signed, parse_unsigned by assumption.
    do 2 f_equal. rewrite !app_length. destruct neg; cbn [length]; lia.
  - cbn [nsize nneg nsep nkind]. repeat split.
    apply number_string_plain; [reflexivity|reflexivity|now apply float_text_last].
Qed.

(* ... and strconv.ParseFloat's syntax accepts the token string *)
Lemma span_digits_nil ds : all_digits ds -> span_count is_digit ds = (length ds, []).
Proof. intros H. rewrite <- (app_nil_r ds) at 1. now apply span_digits. Qed.

Theorem float_text_syntax_ok neg ip fr ex :
  int_part ip -> frac_part fr -> exp_part ex -> float_syntax_ok (float_text neg ip fr ex) = true.
Proof.
  intros Hip Hfr Hex. unfold float_syntax_ok, float_text.
  pose proof (int_part_digits ip Hip) as Hipd.
  destruct Hipd as [Hipd Hipne].
  assert (Hstrip : (match (if neg then [x2d] else []) ++ ip ++ fr ++ ex with
                    | c :: r => if (b2n c =? 45) || (b2n c =? 43) then r else (if neg then [x2d] else []) ++ ip ++ fr ++ ex
                    | [] => (if neg then [x2d] else []) ++ ip ++ fr ++ ex end) = ip ++ fr ++ ex).
  { destruct neg; [reflexivity|]. cbn [app]. destruct ip as [|c r]; [congruence|]. cbn [app].
    inversion Hipd as [|? ? Hc _]; subst. unfold is_digit, in_rng in Hc.
    replace ((b2n c =? 45) || (b2n c =? 43)) with false by lia. reflexivity. }
  rewrite Hstrip.
  assert (Hnd : not_digit_head (fr ++ ex)).
  { destruct Hfr; [|reflexivity]. destruct Hex; [exact I|reflexivity]. }
  rewrite span_digits by assumption.
  destruct Hfr as [|ds Hne Hds].
  - cbn [app]. destruct Hex as [|sg es Hsg Hene Hes].
    + destruct ip; [congruence|reflexivity].
    + change (b2n x65 =? 46) with false. cbv iota.
      replace (Nat.eqb (length ip + 0) 0) with false by (destruct ip; [congruence|reflexivity]).
      change ((b2n x65 =? 101) || (b2n x65 =? 69)) with true. cbv iota.
      replace ((b2n sg =? 45) || (b2n sg =? 43)) with true by lia.
      rewrite span_digits_nil by assumption. destruct es; [congruence|reflexivity].
  - cbn [app]. change (b2n x2e =? 46) with true. cbv iota.
    assert (Hnd2 : not_digit_head ex) by (destruct Hex; [exact I|reflexivity]).
    rewrite span_digits by assumption.
    replace (Nat.eqb (length ip + length ds) 0) with false by (destruct ip; [congruence|reflexivity]).
    destruct Hex as [|sg es Hsg Hene Hes]; [reflexivity|].
    change ((b2n x65 =? 101) || (b2n x65 =? 69)) with true. cbv iota.
    replace ((b2n sg =? 45) || (b2n sg =? 43)) with true by lia.
    rewrite span_digits_nil by assumption. destruct es; [congruence|reflexivity].
Qed.

Print Assumptions float_text_accepted.
Print Assumptions float_text_syntax_ok.
