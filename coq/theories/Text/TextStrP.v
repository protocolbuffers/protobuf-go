(* Proofs about Text/TextStrModel.v: every byte list written by appendString
   is read back by parseString (C25). *)
From Coq Require Import List Arith NArith ZArith Lia Bool.
From Coq Require Import ZifyBool ZifyNat ZifyN.
From PB Require Import Base.PBytes Base.PBytesP Base.Utf8Model Base.Utf8P Text.TextStrModel.
Import ListNotations.
Open Scope N_scope.

Lemma firstn_app_exact {A} (a t : list A) n : length a = n -> firstn n (a ++ t) = a.
Proof. intros <-. apply firstn_app_len. Qed.
Lemma skipn_app_exact {A} (a t : list A) n : length a = n -> skipn n (a ++ t) = t.
Proof. intros <-. apply skipn_app_len. Qed.
Definition printable (b : byte) : Prop := 32 <= b2n b <= 126.

Lemma lt16_cases d : d < 16 ->
  d = 0 \/ d = 1 \/ d = 2 \/ d = 3 \/ d = 4 \/ d = 5 \/ d = 6 \/ d = 7 \/ d = 8 \/ d = 9 \/
  d = 10 \/ d = 11 \/ d = 12 \/ d = 13 \/ d = 14 \/ d = 15.
Proof. lia. Qed.

Lemma hexval_hexdig d : d < 16 -> hexval (hexdig d) = Some d.
Proof. intros H. apply lt16_cases in H. repeat (destruct H as [->|H]); try subst d; reflexivity. Qed.

Lemma hexdig_printable d : d < 16 -> printable (hexdig d).
Proof. intros H. unfold printable, hexdig. destruct (d <? 10) eqn:E; rewrite b2n_n2b by lia; lia. Qed.

Lemma is_hexd_hexdig d : d < 16 -> is_hexd (hexdig d) = true.
Proof. intros H. unfold is_hexd. now rewrite hexval_hexdig. Qed.

Lemma hex_fixed_length w : forall v, length (hex_fixed w v) = w.
Proof. induction w as [|w IH]; intros v; cbn [hex_fixed]; [reflexivity|]. rewrite app_length, IH. cbn. lia. Qed.

Lemma hex_fixed_printable w : forall v, Forall printable (hex_fixed w v).
Proof.
  induction w as [|w IH]; intros v; cbn [hex_fixed]; [constructor|].
  apply Forall_app; split; [apply IH|]. constructor; [|constructor].
  apply hexdig_printable. apply N.mod_lt. discriminate.
Qed.

Lemma digits_val_app base l1 : forall acc l2,
  digits_val base acc (l1 ++ l2) =
  match digits_val base acc l1 with Some a => digits_val base a l2 | None => None end.
Proof.
  induction l1 as [|b l1 IH]; intros acc l2; cbn [app digits_val]; [reflexivity|].
  destruct (hexval b); [|reflexivity]. destruct (n <? base); [apply IH|reflexivity].
Qed.

Lemma digits_val_hex_fixed w : forall v acc,
  digits_val 16 acc (hex_fixed w v) = Some (acc * 16 ^ N.of_nat w + v mod 16 ^ N.of_nat w).
Proof.
  induction w as [|w IH]; intros v acc.
  - cbn [hex_fixed digits_val]. change (16 ^ N.of_nat 0) with 1. rewrite N.mod_1_r. f_equal. lia.
  - cbn [hex_fixed]. rewrite digits_val_app, IH. cbn [digits_val].
    rewrite hexval_hexdig by (apply N.mod_lt; discriminate).
    replace (v mod 16 <? 16) with true by (pose proof (N.mod_lt v 16); lia).
    f_equal. rewrite Nat2N.inj_succ, N.pow_succ_r'.
    set (m := 16 ^ N.of_nat w). assert (m <> 0) by (apply N.pow_nonzero; discriminate).
    rewrite (N.mod_mul_r v 16 m) by (discriminate || assumption). lia.
Qed.

Lemma parse_uint_hex_fixed w v : (0 < w)%nat -> v < 16 ^ N.of_nat w -> parse_uint 16 (hex_fixed w v) = Some v.
Proof.
  intros Hw Hv. unfold parse_uint.
  destruct (hex_fixed w v) eqn:E.
  - pose proof (hex_fixed_length w v) as L. rewrite E in L. cbn in L. lia.
  - rewrite <- E, digits_val_hex_fixed. f_equal. rewrite N.mod_small by assumption. lia.
Qed.

Lemma hex_fixed_zero k : hex_fixed k 0 = repeat x30 k.
Proof.
  induction k as [|k IH]; [reflexivity|]. cbn [hex_fixed]. change (0 / 16) with 0. change (0 mod 16) with 0.
  rewrite IH. change (hexdig 0) with x30. now rewrite <- repeat_cons.
Qed.

Lemma hex_fixed_pad n : forall k r, r < 16 ^ N.of_nat n -> hex_fixed (k + n) r = repeat x30 k ++ hex_fixed n r.
Proof.
  induction n as [|n IH]; intros k r Hr.
  - change (16 ^ N.of_nat 0) with 1 in Hr. assert (r = 0) by lia. subst.
    rewrite Nat.add_0_r, hex_fixed_zero. cbn [hex_fixed]. now rewrite app_nil_r.
  - rewrite Nat.add_succ_r. cbn [hex_fixed]. rewrite IH, app_assoc; [reflexivity|].
    rewrite Nat2N.inj_succ, N.pow_succ_r' in Hr. apply N.div_lt_upper_bound; lia.
Qed.

(* number of hex digits as the Go code computes it from bits.Len32 *)
Definition ndig (r : N) : nat := S (N.to_nat ((N.size r - 1) / 4)).

Lemma size_m1 r : r <> 0 -> N.size r - 1 = N.log2 r.
Proof. intros H. rewrite N.size_log2 by exact H. lia. Qed.

Lemma ndig_small r : r < 16 -> ndig r = 1%nat.
Proof.
  intros H. unfold ndig. destruct (N.eq_dec r 0) as [->|Hz]; [reflexivity|].
  rewrite size_m1 by exact Hz.
  assert (N.log2 r < 4) by (apply N.log2_lt_pow2; [lia|exact H]).
  replace (N.log2 r / 4) with 0 by (symmetry; apply N.div_small; assumption). reflexivity.
Qed.

Lemma ndig_step r : 16 <= r -> ndig r = S (ndig (r / 16)).
Proof.
  intros H. unfold ndig.
  assert (Hq : 1 <= r / 16) by (apply N.div_le_lower_bound; lia).
  rewrite !size_m1 by lia.
  assert (Hl : N.log2 (r / 16) = N.log2 r - 4).
  { change 16 with (2 ^ 4). rewrite <- N.shiftr_div_pow2. apply N.log2_shiftr. }
  assert (4 <= N.log2 r) by (apply N.log2_le_pow2; [lia|exact H]).
  rewrite Hl. f_equal.
  replace (N.log2 r) with ((N.log2 r - 4) + 1 * 4) at 1 by lia.
  rewrite N.div_add by discriminate. lia.
Qed.

(* r < 16^w = 2^(4w) says log2 r < 4w, that is log2 r / 4 < w *)
Lemma ndig_le w r : (0 < w)%nat -> (ndig r <= w)%nat <-> r < 16 ^ N.of_nat w.
Proof.
  intros Hw. unfold ndig. destruct (N.eq_dec r 0) as [->|Hz].
  - change ((N.size 0 - 1) / 4) with 0.
    assert (0 < 16 ^ N.of_nat w) by (apply N.neq_0_lt_0, N.pow_nonzero; discriminate). lia.
  - rewrite size_m1 by exact Hz. change 16 with (2 ^ 4). rewrite <- N.pow_mul_r.
    rewrite (N.log2_lt_pow2 r) by lia.
    pose proof (N.div_mod (N.log2 r) 4 ltac:(discriminate)).
    pose proof (N.mod_lt (N.log2 r) 4 ltac:(discriminate)). lia.
Qed.

Lemma fmt_hex_fixed : forall fuel r, r < 16 ^ N.of_nat (S fuel) -> fmt_base_fuel fuel 16 r = hex_fixed (ndig r) r.
Proof.
  induction fuel as [|fuel IH]; intros r Hr.
  - change (16 ^ N.of_nat 1) with 16 in Hr. rewrite ndig_small by exact Hr. reflexivity.
  - cbn [fmt_base_fuel]. destruct (r <? 16) eqn:E.
    + rewrite ndig_small by lia. cbn [hex_fixed app]. now rewrite N.mod_small by lia.
    + rewrite ndig_step by lia. cbn [hex_fixed]. f_equal. apply IH.
      rewrite (Nat2N.inj_succ (S fuel)), N.pow_succ_r' in Hr. apply N.div_lt_upper_bound; lia.
Qed.

(* the fuel fmt_base gives itself is enough in every base *)
Lemma lt_pow_succ_size base v : 2 <= base -> v < base ^ N.of_nat (S (N.to_nat (N.size v))).
Proof.
  intros Hb. rewrite Nat2N.inj_succ, N2Nat.id, N.pow_succ_r'.
  apply N.lt_le_trans with (2 ^ N.size v); [apply N.size_gt|].
  apply N.le_trans with (base ^ N.size v); [apply N.pow_le_mono_l; exact Hb|].
  assert (0 < base ^ N.size v) by (apply N.neq_0_lt_0, N.pow_nonzero; lia). nia.
Qed.

Theorem go_hex_eq w r : (0 < w)%nat -> r < 16 ^ N.of_nat w -> go_hex_pad w r = hex_fixed w r.
Proof.
  intros Hw Hr. unfold go_hex_pad, fmt_base. fold (ndig r).
  rewrite fmt_hex_fixed by (apply lt_pow_succ_size; discriminate).
  apply ndig_le in Hr; [|exact Hw].
  replace w with ((w - ndig r) + ndig r)%nat at 2 by lia.
  rewrite hex_fixed_pad; [reflexivity|]. apply ndig_le; [unfold ndig|]; lia.
Qed.

(* the octal and the hex arm: up to [mx] digits accepted by [p], read in [base] *)
Definition pe_num (p : byte -> bool) (mx : nat) (base : N) (t : list byte) : esc_res :=
  let n := count_pref p mx t in
  match parse_uint base (firstn n t) with
  | Some v => if v <? 256 then EscOk [n2b v] (skipn n t) else EscErr SSyntax
  | None => EscErr SSyntax
  end.

(* the \u (k = 4) and \U (k = 8) arm *)
Definition pe_uni (k : nat) (t1 : list byte) : esc_res :=
  if Nat.ltb (length t1) k then EscErr SEof
  else match parse_uint 16 (firstn k t1) with
       | None => EscErr SSyntax
       | Some v =>
         if max_rune <? v then EscErr SSyntax
         else
           let t2 := skipn k t1 in
           if is_surrogate v then
             if Nat.ltb (length t2) 6 then EscErr SEof
             else match t2 with
                  | b0 :: b1 :: t3 =>
                    match parse_uint 16 (firstn 4 t3) with
                    | Some v2 =>
                        let r := decode_utf16 v v2 in
                        if negb (b2n b0 =? 92) || negb (b2n b1 =? 117) || (r =? rune_error)
                        then EscErr SSyntax
                        else EscOk (encode_rune r) (skipn 4 t3)
                    | None => EscErr SSyntax
                    end
                  | _ => EscErr SEof
                  end
           else EscOk (encode_rune v) t2
       end.

Lemma pe_x_eq t : parse_escape x78 t = pe_num is_hexd 2 16 t. Proof. reflexivity. Qed.
Lemma pe_u_eq t : parse_escape x75 t = pe_uni 4 t. Proof. reflexivity. Qed.
Lemma pe_U_eq t : parse_escape x55 t = pe_uni 8 t. Proof. reflexivity. Qed.

(* every result of parse_escape is a one-byte escape or comes from one of the
   three numeric arms *)
Lemma parse_escape_cases (P : esc_res -> Prop) c t1 :
  (forall b, P (EscOk [b] t1)) -> P (pe_num is_octd 3 8 (c :: t1)) -> P (pe_num is_hexd 2 16 t1) ->
  (forall k, P (pe_uni k t1)) -> P (EscErr SSyntax) -> P (parse_escape c t1).
Proof.
  intros H1 Ho Hx Hu He. unfold parse_escape. cbv zeta.
  repeat (match goal with |- P (if ?b then _ else _) => destruct b end;
          [first [apply H1 | exact Ho | exact Hx | apply Hu]|]).
  exact He.
Qed.

(* what the totality proof needs of an escape: it does not lengthen the input
   and does not fail for lack of fuel *)
Definition esc_shape (t1 : list byte) (r : esc_res) : Prop :=
  match r with EscOk _ rest => (length rest <= length t1)%nat | EscErr e => e <> SFuel end.

Lemma pe_num_shape p mx base t :
  match pe_num p mx base t with
  | EscOk _ rest => (length rest < length t)%nat
  | EscErr e => e <> SFuel
  end.
Proof.
  unfold pe_num. cbv zeta. set (n := count_pref p mx t).
  destruct (firstn n t) as [|b l] eqn:E; [discriminate|].
  destruct (parse_uint base (b :: l)); [|discriminate]. destruct (_ <? 256); [|discriminate].
  rewrite skipn_length. destruct n; [discriminate E|]. destruct t; [discriminate E|]. cbn [length]. lia.
Qed.

Lemma pe_uni_shape k t1 : esc_shape t1 (pe_uni k t1).
Proof.
  unfold pe_uni. destruct (Nat.ltb _ _); [discriminate|].
  destruct (parse_uint _ _); [|discriminate]. destruct (_ <? _); [discriminate|]. cbv zeta.
  destruct (is_surrogate _); [|cbn [esc_shape]; rewrite skipn_length; lia].
  destruct (Nat.ltb _ _); [discriminate|].
  destruct (skipn k t1) as [|b0 [|b1 t3]] eqn:E; try discriminate.
  destruct (parse_uint _ _); [|discriminate]. destruct (_ || _); [discriminate|].
  apply (f_equal (@length byte)) in E. rewrite skipn_length in E.
  cbn [esc_shape length] in *. rewrite skipn_length. lia.
Qed.

Lemma parse_escape_shape c t1 : esc_shape t1 (parse_escape c t1).
Proof.
  apply parse_escape_cases; try discriminate.
  - intros b. exact (Nat.le_refl (length t1)).
  - pose proof (pe_num_shape is_octd 3 8 (c :: t1)) as H.
    destruct (pe_num _ _ _ _); cbn [esc_shape length] in *; [lia|exact H].
  - pose proof (pe_num_shape is_hexd 2 16 t1) as H.
    destruct (pe_num _ _ _ _); cbn [esc_shape] in *; [lia|exact H].
  - intros k. apply pe_uni_shape.
Qed.

Lemma pe_hex_fixed v t : v < 256 -> pe_num is_hexd 2 16 (hex_fixed 2 v ++ t) = EscOk [n2b v] t.
Proof.
  intros Hv. unfold pe_num. cbv zeta.
  assert (Hc : count_pref is_hexd 2 (hex_fixed 2 v ++ t) = 2%nat).
  { cbn [hex_fixed app count_pref].
    rewrite !is_hexd_hexdig by (apply N.mod_lt; discriminate). reflexivity. }
  rewrite Hc, firstn_app_exact, skipn_app_exact by apply hex_fixed_length.
  rewrite parse_uint_hex_fixed by (try lia; exact Hv).
  replace (v <? 256) with true by lia. reflexivity.
Qed.

Lemma pe_uni_hex_fixed k v t : (0 < k)%nat -> v < 16 ^ N.of_nat k -> v <= max_rune -> is_surrogate v = false ->
  pe_uni k (hex_fixed k v ++ t) = EscOk (encode_rune v) t.
Proof.
  intros Hk Hv Hm Hs. unfold pe_uni.
  replace (Nat.ltb (length (hex_fixed k v ++ t)) k) with false
    by (rewrite app_length, hex_fixed_length; symmetry; apply Nat.ltb_ge; lia).
  rewrite firstn_app_exact, skipn_app_exact by apply hex_fixed_length.
  rewrite parse_uint_hex_fixed by assumption.
  replace (max_rune <? v) with false by lia.
  cbv zeta. rewrite Hs. reflexivity.
Qed.

Lemma parse_loop_S f q inp : inp <> [] ->
  parse_loop (S f) q inp =
  match dec_step_of q inp with
  | DErr e => SErr e
  | DClose rest => SOk ([], rest)
  | DOut out rest => sprepend out (parse_loop f q rest)
  | DRaw n => sprepend (firstn n inp) (parse_loop f q (skipn n inp))
  end.
Proof. destruct inp; [congruence|reflexivity]. Qed.

Lemma parse_loop_run_S f q inp : inp <> [] ->
  parse_loop_run (S f) q inp =
  match dec_step_of q inp with
  | DErr e => SErr e
  | DClose rest => SOk ([], rest)
  | DOut out rest => sprepend out (parse_loop_run f q rest)
  | DRaw n => let i := index_need_escape (skipn n inp) in
              sprepend (firstn (n + i) inp) (parse_loop_run f q (skipn (n + i) inp))
  end.
Proof. destruct inp; [congruence|reflexivity]. Qed.

Lemma dec_step_bslash q c t1 : b2n q <> 92 ->
  dec_step_of q (x5c :: c :: t1) =
  match parse_escape c t1 with EscOk out rest => DOut out rest | EscErr e => DErr e end.
Proof.
  intros Hq. unfold dec_step_of.
  change (decode_rune (x5c :: c :: t1)) with (92, 1%nat).
  change (rune_invalid (92, 1%nat)) with false. cbn [fst snd].
  change ((92 =? 0) || (92 =? 10)) with false.
  replace (92 =? b2n q) with false by lia. reflexivity.
Qed.

Lemma dec_step_close q t : dec_step_of q (q :: t) = 
  if rune_invalid (decode_rune (q :: t)) then DErr SSyntax
  else if (fst (decode_rune (q :: t)) =? 0) || (fst (decode_rune (q :: t)) =? 10) then DErr SSyntax
  else if fst (decode_rune (q :: t)) =? b2n q then DClose t else
   (if fst (decode_rune (q :: t)) =? 92 then
    match q :: t with
    | _ :: c :: t1 =>
        match parse_escape c t1 with
        | EscOk out rest => DOut out rest
        | EscErr e => DErr e
        end
    | _ => DErr SEof
    end
  else DRaw (snd (decode_rune (q :: t)))).
Proof. reflexivity. Qed.

Lemma sprepend_sprepend a b r : sprepend a (sprepend b r) = sprepend (a ++ b) r.
Proof. destruct r as [[o rest]|e]; cbn [sprepend]; [now rewrite app_assoc|reflexivity]. Qed.

(* a backslash escape inside a literal whose quote is not the backslash *)
Lemma parse_bslash f q c t out rest : b2n q <> 92 -> parse_escape c t = EscOk out rest ->
  parse_loop (S f) q (x5c :: c :: t) = sprepend out (parse_loop f q rest).
Proof.
  intros Hq E. rewrite parse_loop_S by discriminate. rewrite dec_step_bslash, E by exact Hq. reflexivity.
Qed.

Lemma dquote_not_bslash : b2n x22 <> 92.
Proof. discriminate. Qed.

Lemma printable_dec b : (32 <=? b2n b) && (b2n b <=? 126) = true -> printable b.
Proof. unfold printable. lia. Qed.

(* the two escaping arms of the encoder, read back *)
Lemma esc_simple_parse f r t : r < 256 ->
  parse_loop (S f) x22 (x5c :: esc_simple r ++ t) = sprepend [n2b r] (parse_loop f x22 t).
Proof.
  intros Hr. unfold esc_simple.
  destruct (N.eqb_spec r 34) as [->|_]; [exact (parse_bslash f x22 x22 t _ _ dquote_not_bslash eq_refl)|].
  destruct (N.eqb_spec r 92) as [->|_]; [exact (parse_bslash f x22 x5c t _ _ dquote_not_bslash eq_refl)|].
  destruct (N.eqb_spec r 10) as [->|_]; [exact (parse_bslash f x22 x6e t _ _ dquote_not_bslash eq_refl)|].
  destruct (N.eqb_spec r 13) as [->|_]; [exact (parse_bslash f x22 x72 t _ _ dquote_not_bslash eq_refl)|].
  destruct (N.eqb_spec r 9) as [->|_]; [exact (parse_bslash f x22 x74 t _ _ dquote_not_bslash eq_refl)|].
  rewrite go_hex_eq by lia. cbn [app].
  apply parse_bslash; [exact dquote_not_bslash|]. rewrite pe_x_eq. now apply pe_hex_fixed.
Qed.

Lemma esc_simple_printable r : r < 256 -> Forall printable (x5c :: esc_simple r).
Proof.
  intros Hr. constructor; [now apply printable_dec|]. unfold esc_simple.
  repeat (match goal with |- Forall _ (if ?b then _ else _) => destruct b end;
          [constructor; [now apply printable_dec|constructor]|]).
  rewrite go_hex_eq by lia.
  constructor; [now apply printable_dec|apply hex_fixed_printable].
Qed.

Lemma esc_unicode_fixed r : r <= max_rune ->
  esc_unicode r = if r <=? 65535 then x75 :: hex_fixed 4 r else x55 :: hex_fixed 8 r.
Proof.
  unfold max_rune, esc_unicode. intros Hr. destruct (r <=? 65535) eqn:E; rewrite go_hex_eq; try reflexivity; lia.
Qed.

Lemma esc_unicode_parse f r t : r <= max_rune -> is_surrogate r = false ->
  parse_loop (S f) x22 (x5c :: esc_unicode r ++ t) = sprepend (encode_rune r) (parse_loop f x22 t).
Proof.
  intros Hr Hs. rewrite esc_unicode_fixed by exact Hr. unfold max_rune in Hr.
  destruct (r <=? 65535) eqn:E; cbn [app]; (apply parse_bslash; [exact dquote_not_bslash|]).
  - rewrite pe_u_eq. apply pe_uni_hex_fixed; try assumption; lia.
  - rewrite pe_U_eq. apply pe_uni_hex_fixed; try assumption; lia.
Qed.

Lemma esc_unicode_printable r : r <= max_rune -> Forall printable (x5c :: esc_unicode r).
Proof.
  intros Hr. rewrite esc_unicode_fixed by exact Hr. constructor; [now apply printable_dec|].
  destruct (r <=? 65535); (constructor; [now apply printable_dec|apply hex_fixed_printable]).
Qed.

Definition enc_chunk (ascii : bool) (bs : list byte) : list byte * nat :=
  match enc_step_of ascii bs with
  | EEsc o n => (o, n)
  | ERaw n => (firstn n bs, n)
  end.

Lemma enc_chunk_eq ascii bs :
  enc_chunk ascii bs = match enc_step_of ascii bs with EEsc o n => (o, n) | ERaw n => (firstn n bs, n) end.
Proof. reflexivity. Qed.

Lemma enc_loop_S f ascii bs : bs <> [] ->
  enc_loop (S f) ascii bs =
  fst (enc_chunk ascii bs) ++ enc_loop f ascii (skipn (snd (enc_chunk ascii bs)) bs).
Proof.
  intros H. destruct bs; [congruence|]. unfold enc_chunk. cbn [enc_loop].
  destruct (enc_step_of ascii (b :: bs)); reflexivity.
Qed.

Lemma enc_chunk_pos ascii bs : bs <> [] -> (1 <= snd (enc_chunk ascii bs))%nat.
Proof.
  intros H. unfold enc_chunk, enc_step_of. cbv zeta. destruct bs as [|b0 t0]; [congruence|].
  destruct (_ || _); [|destruct (_ && _)]; apply decode_rune_nonempty_pos.
Qed.

(* the heart: whatever one encoder iteration writes, one parser iteration
   reads back as exactly the bytes that iteration consumed *)
Lemma chunk_parse ascii b0 t0 :
  let bs := b0 :: t0 in
  let ch := fst (enc_chunk ascii bs) in
  let n := snd (enc_chunk ascii bs) in
  (1 <= length ch)%nat /\
  (ascii = true -> Forall printable ch) /\
  forall f t, parse_loop (S f) x22 (ch ++ t) = sprepend (firstn n bs) (parse_loop f x22 t).
Proof.
  cbv zeta. unfold enc_chunk, enc_step_of.
  destruct (decode_rune (b0 :: t0)) as [r0 n] eqn:Hd.
  destruct (rune_invalid (r0, n)) eqn:Hi; cbn [fst snd orb].
  - (* invalid UTF-8: the byte itself goes through the first arm *)
    destruct (decode_rune_invalid _ _ _ _ Hd Hi) as [-> _]. pose proof (b2n_lt b0) as Hlt.
    split; [apply le_n_S, Nat.le_0_l|]. split.
    + intros _. now apply esc_simple_printable.
    + intros f t. cbn [app firstn]. rewrite esc_simple_parse, n2b_b2n by exact Hlt. reflexivity.
  - pose proof (decode_rune_ok (b0 :: t0) r0 n ltac:(discriminate) Hd Hi) as [Hlen Hav Hmax Hsur Henc Hasc Hhead Hpre].
    destruct (Hhead b0 t0 eq_refl) as [Hh1 _].
    destruct ((r0 <? 32) || (r0 =? 34) || (r0 =? 92) || (r0 =? 127)) eqn:EA; cbn [fst snd].
    + (* control character, quote or backslash: one byte *)
      assert (Hr : r0 < 128) by (clear - EA; lia). assert (n = 1%nat) by (apply Hasc; exact Hr). subst n.
      split; [apply le_n_S, Nat.le_0_l|]. split.
      * intros _. apply esc_simple_printable. clear - Hr. lia.
      * intros f t. cbn [app firstn]. rewrite esc_simple_parse by (clear - Hr; lia).
        rewrite (Hh1 Hr), n2b_b2n. reflexivity.
    + destruct ((128 <=? r0) && (ascii || (r0 <=? 159))) eqn:EB; cbn [fst snd].
      * (* \u / \U *)
        split; [apply le_n_S, Nat.le_0_l|]. split.
        -- intros _. now apply esc_unicode_printable.
        -- intros f t. cbn [app]. rewrite esc_unicode_parse by assumption.
           rewrite (encode_decode_rune (b0 :: t0) r0 n) by (discriminate || assumption). reflexivity.
      * (* copied as is *)
        assert (Hl : length (firstn n (b0 :: t0)) = n) by (apply firstn_length_le; exact Hav).
        split; [rewrite Hl; apply Hlen|]. split.
        { intros ->. assert (Hr : r0 < 128) by (clear - EB; lia). assert (n = 1%nat) by (apply Hasc; exact Hr). subst n.
          cbn [firstn]. constructor; [|constructor]. unfold printable. rewrite <- (Hh1 Hr). clear - EA Hr. lia. }
        intros f t. rewrite parse_loop_S.
        2:{ destruct n; [destruct Hlen as [Hlen _]; inversion Hlen|]. cbn [firstn app]. discriminate. }
        unfold dec_step_of. rewrite Hpre. rewrite Hi. cbn [fst snd].
        replace ((r0 =? 0) || (r0 =? 10)) with false by (clear - EA; lia).
        change (b2n x22) with 34.
        replace (r0 =? 34) with false by (clear - EA; lia). replace (r0 =? 92) with false by (clear - EA; lia).
        rewrite firstn_app_exact, skipn_app_exact by exact Hl. reflexivity.
Qed.


Lemma enc_loop_nil f ascii : enc_loop f ascii [] = [].
Proof. destruct f; reflexivity. Qed.

Lemma parse_close fp tail : (0 < fp)%nat -> parse_loop fp x22 (x22 :: tail) = SOk ([], tail).
Proof. intros H. destruct fp; [lia|reflexivity]. Qed.

Lemma enc_parse_loop : forall fe ascii bs, (length bs <= fe)%nat ->
  forall fp tail, (length (enc_loop fe ascii bs) < fp)%nat ->
  parse_loop fp x22 (enc_loop fe ascii bs ++ x22 :: tail) = SOk (bs, tail).
Proof.
  induction fe as [|fe IH]; intros ascii bs Hl fp tail Hf.
  - destruct bs; [|cbn in Hl; lia]. cbn [enc_loop app]. apply parse_close. lia.
  - destruct bs as [|b0 t0]; [cbn [enc_loop app]; apply parse_close; lia|].
    rewrite enc_loop_S in * by discriminate.
    destruct (chunk_parse ascii b0 t0) as (Hc & _ & Hp).
    pose proof (enc_chunk_pos ascii (b0 :: t0) ltac:(discriminate)) as Hn.
    set (ch := fst (enc_chunk ascii (b0 :: t0))) in *.
    set (n := snd (enc_chunk ascii (b0 :: t0))) in *.
    rewrite app_length in Hf.
    destruct fp as [|fp]; [lia|].
    rewrite <- app_assoc, Hp, IH.
    + cbn [sprepend]. now rewrite firstn_skipn.
    + rewrite skipn_length. cbn [length] in *. lia.
    + lia.
Qed.

Theorem string_roundtrip_simple ascii bs tail :
  parse_string_simple (append_string_simple ascii bs ++ tail) = SOk (bs, tail).
Proof.
  unfold append_string_simple, parse_string_simple. cbn [app].
  rewrite <- app_assoc. cbn [app].
  apply enc_parse_loop; [lia|]. rewrite app_length. cbn [length]. lia.
Qed.

Lemma enc_loop_printable : forall fe bs, Forall printable (enc_loop fe true bs).
Proof.
  induction fe as [|fe IH]; intros bs; [destruct bs; constructor|].
  destruct bs as [|b0 t0]; [constructor|].
  rewrite enc_loop_S by discriminate.
  destruct (chunk_parse true b0 t0) as (_ & Hp & _).
  apply Forall_app; split; [now apply Hp|apply IH].
Qed.

Lemma plain_bounds b : need_escape b = false ->
  32 <= b2n b < 127 /\ b2n b <> 34 /\ b2n b <> 39 /\ b2n b <> 92.
Proof. unfold need_escape. cbv zeta. lia. Qed.

Lemma enc_step_plain ascii b r : need_escape b = false -> enc_step_of ascii (b :: r) = ERaw 1.
Proof.
  intros H. apply plain_bounds in H. unfold enc_step_of.
  rewrite decode_rune_ascii by lia. unfold rune_invalid, rune_error. cbn [fst snd].
  replace (b2n b =? 65533) with false by lia. cbn [andb orb].
  replace (b2n b <? 32) with false by lia. replace (b2n b =? 34) with false by lia.
  replace (b2n b =? 92) with false by lia. replace (b2n b =? 127) with false by lia.
  replace (128 <=? b2n b) with false by lia. reflexivity.
Qed.

Lemma enc_loop_fuel : forall f f' ascii bs, (length bs <= f)%nat -> (length bs <= f')%nat ->
  enc_loop f ascii bs = enc_loop f' ascii bs.
Proof.
  induction f as [|f IH]; intros f' ascii bs H1 H2.
  - destruct bs; [now rewrite !enc_loop_nil|cbn in H1; lia].
  - destruct bs as [|b0 t0]; [now rewrite !enc_loop_nil|].
    destruct f' as [|f']; [cbn in H2; lia|].
    rewrite !enc_loop_S by discriminate. f_equal.
    pose proof (enc_chunk_pos ascii (b0 :: t0) ltac:(discriminate)).
    apply IH; rewrite skipn_length; cbn [length] in *; lia.
Qed.

Lemma enc_loop_plain_run ascii : forall l f, (length l <= f)%nat ->
  enc_loop f ascii l =
  firstn (index_need_escape l) l ++ enc_loop f ascii (skipn (index_need_escape l) l).
Proof.
  induction l as [|b r IH]; intros f Hf; [reflexivity|].
  cbn [index_need_escape]. destruct (need_escape b) eqn:E; [reflexivity|].
  destruct f as [|f]; [cbn in Hf; lia|].
  cbn [firstn skipn app].
  rewrite enc_loop_S by discriminate. unfold enc_chunk. rewrite enc_step_plain by assumption.
  cbn [fst snd firstn skipn app]. f_equal.
  cbn [length] in Hf. rewrite IH by lia. f_equal.
  apply enc_loop_fuel; rewrite skipn_length; lia.
Qed.

Lemma enc_loop_run_S f ascii bs : bs <> [] ->
  enc_loop_run (S f) ascii bs =
  match enc_step_of ascii bs with
  | EEsc out n => out ++ enc_loop_run f ascii (skipn n bs)
  | ERaw n => let i := index_need_escape (skipn n bs) in
              firstn (n + i) bs ++ enc_loop_run f ascii (skipn (n + i) bs)
  end.
Proof. destruct bs; [congruence|reflexivity]. Qed.

Lemma enc_loop_run_eq : forall f ascii bs, (length bs <= f)%nat ->
  enc_loop_run f ascii bs = enc_loop f ascii bs.
Proof.
  induction f as [|f IH]; intros ascii bs Hf.
  - destruct bs; [reflexivity|cbn in Hf; lia].
  - destruct bs as [|b0 t0]; [reflexivity|].
    rewrite enc_loop_run_S, enc_loop_S by discriminate.
    pose proof (enc_chunk_pos ascii (b0 :: t0) ltac:(discriminate)) as Hn. rewrite enc_chunk_eq in Hn |- *.
    destruct (enc_step_of ascii (b0 :: t0)) as [out n|n]; cbn [fst snd] in *.
    + f_equal. apply IH. rewrite skipn_length. cbn [length] in *. lia.
    + cbv zeta. rewrite IH by (rewrite skipn_length; cbn [length] in *; lia).
      rewrite firstn_add, skipn_add, <- app_assoc. f_equal.
      symmetry. apply enc_loop_plain_run. rewrite skipn_length. cbn [length] in *. lia.
Qed.

Theorem append_string_eq ascii bs : append_string ascii bs = append_string_simple ascii bs.
Proof.
  unfold append_string, append_string_simple. cbv zeta. f_equal.
  rewrite app_assoc. f_equal.
  rewrite enc_loop_run_eq by (rewrite skipn_length; lia).
  symmetry. apply enc_loop_plain_run. lia.
Qed.

Lemma dec_step_plain q b r : is_quote q = true -> need_escape b = false -> dec_step_of q (b :: r) = DRaw 1.
Proof.
  intros Hq H. apply plain_bounds in H. unfold is_quote in Hq. unfold dec_step_of.
  rewrite decode_rune_ascii by lia. unfold rune_invalid, rune_error. cbn [fst snd].
  replace (b2n b =? 65533) with false by lia. cbn [andb].
  replace ((b2n b =? 0) || (b2n b =? 10)) with false by lia.
  replace (b2n b =? b2n q) with false by lia. replace (b2n b =? 92) with false by lia. reflexivity.
Qed.

Lemma sprepend_ok p r res : sprepend p r = SOk res ->
  exists o, r = SOk (o, snd res) /\ fst res = p ++ o.
Proof.
  destruct r as [[o rest]|e]; cbn [sprepend]; [|discriminate].
  intros [= <-]. exists o. split; reflexivity.
Qed.

(* a successful rune-at-a-time parse, cut after the leading run of plain bytes *)
Lemma parse_loop_plain_inv q : is_quote q = true -> forall l f res,
  parse_loop f q l = SOk res ->
  exists o, fst res = firstn (index_need_escape l) l ++ o /\
            parse_loop (f - index_need_escape l) q (skipn (index_need_escape l) l) = SOk (o, snd res).
Proof.
  intros Hq. induction l as [|b r IH]; intros f res H.
  - exists (fst res). cbn [index_need_escape firstn skipn app]. rewrite Nat.sub_0_r. split; [reflexivity|].
    rewrite H. now destruct res.
  - cbn [index_need_escape]. destruct (need_escape b) eqn:E.
    + exists (fst res). cbn [firstn skipn app]. rewrite Nat.sub_0_r. split; [reflexivity|].
      rewrite H. now destruct res.
    + destruct f as [|f]; [discriminate|].
      rewrite parse_loop_S in H by discriminate. rewrite dec_step_plain in H by assumption.
      cbn [firstn skipn] in H. apply sprepend_ok in H. destruct H as (o & Hr & Ho).
      apply IH in Hr. cbn [fst snd] in Hr. destruct Hr as (o' & Ho' & Hr').
      exists o'. cbn [firstn skipn Nat.sub]. split; [|exact Hr'].
      rewrite Ho, Ho'. reflexivity.
Qed.

Lemma parse_loop_run_of_simple q : is_quote q = true -> forall f f0 inp res f',
  (f0 <= f)%nat -> (f0 <= f')%nat ->
  parse_loop f0 q inp = SOk res -> parse_loop_run f' q inp = SOk res.
Proof.
  intros Hq. induction f as [|f IH]; intros f0 inp res f' H0 H1 H.
  - assert (f0 = 0%nat) by lia. subst. destruct inp; discriminate.
  - destruct inp as [|b0 t0]; [destruct f0; discriminate|].
    destruct f0 as [|f0]; [discriminate|]. destruct f' as [|f']; [lia|].
    rewrite parse_loop_S in H by discriminate. rewrite parse_loop_run_S by discriminate.
    destruct (dec_step_of q (b0 :: t0)) as [e|rest|out rest|n]; [discriminate|exact H| |].
    + apply sprepend_ok in H. destruct H as (o & Hr & Ho).
      rewrite (IH f0 rest (o, snd res) f') by (lia || assumption).
      cbn [sprepend]. rewrite <- Ho. now destruct res.
    + cbv zeta. apply sprepend_ok in H. destruct H as (o & Hr & Ho).
      apply (parse_loop_plain_inv q Hq) in Hr. cbn [fst snd] in Hr. destruct Hr as (o' & Ho' & Hr').
      set (i := index_need_escape (skipn n (b0 :: t0))) in *.
      rewrite skipn_add.
      rewrite (IH (f0 - i)%nat _ (o', snd res) f') by (lia || assumption).
      cbn [sprepend]. rewrite firstn_add, <- app_assoc, <- Ho', <- Ho. now destruct res.
Qed.

Theorem parse_string_of_simple inp res :
  (exists q t, inp = q :: t /\ is_quote q = true) ->
  parse_string_simple inp = SOk res -> parse_string inp = SOk res.
Proof.
  intros (q & t & -> & Hq) H. unfold parse_string_simple in H. unfold parse_string. cbv zeta.
  apply (parse_loop_plain_inv q Hq) in H. destruct H as (o & Ho & Hr).
  rewrite (parse_loop_run_of_simple q Hq (length t) _ _ _ (length t) (Nat.le_sub_l _ _) (Nat.le_sub_l _ _) Hr).
  cbn [sprepend]. rewrite <- Ho. now destruct res.
Qed.

Theorem text_string_roundtrip ascii bs tail :
  parse_string (append_string ascii bs ++ tail) = SOk (bs, tail).
Proof.
  rewrite append_string_eq. apply parse_string_of_simple.
  - unfold append_string_simple. cbn [app]. eexists _, _. split; [reflexivity|reflexivity].
  - apply string_roundtrip_simple.
Qed.

Theorem text_unmarshal_string_roundtrip ascii bs :
  unmarshal_string (append_string ascii bs) = SOk bs.
Proof.
  unfold unmarshal_string. rewrite <- (app_nil_r (append_string ascii bs)).
  now rewrite text_string_roundtrip.
Qed.

Theorem emit_ascii_printable bs : Forall (fun b => 32 <= b2n b <= 126) (append_string true bs).
Proof.
  rewrite append_string_eq. unfold append_string_simple.
  constructor; [vm_compute; split; discriminate|].
  apply Forall_app; split; [apply enc_loop_printable|].
  constructor; [vm_compute; split; discriminate|constructor].
Qed.

Definition no_quote_head (s : list byte) : Prop :=
  match s with [] => True | b :: _ => is_quote b = false end.

Lemma parse_string_value_stop f s : no_quote_head s -> parse_string_value f s = SOk ([], s).
Proof. destruct s as [|b r]; destruct f; cbn [parse_string_value no_quote_head]; try reflexivity; intros ->; reflexivity. Qed.

Lemma parse_string_value_quote f t :
  parse_string_value (S f) (x22 :: t) =
  match parse_string (x22 :: t) with
  | SErr e => SErr e
  | SOk (o, rest) => sprepend o (parse_string_value f (consume_ws false rest))
  end.
Proof. reflexivity. Qed.

(* a literal written by appendString, followed by anything that (after
   whitespace and comments) does not start another literal, is read back as one
   string token with exactly the original bytes *)
Theorem text_string_value_roundtrip ascii bs rest f :
  no_quote_head (consume_ws false rest) ->
  parse_string_value (S f) (append_string ascii bs ++ rest) = SOk (bs, consume_ws false rest).
Proof.
  intros H.
  assert (Hq : exists t, append_string ascii bs ++ rest = x22 :: t) by (unfold append_string; cbn [app]; eauto).
  destruct Hq as (t & Et). rewrite Et, parse_string_value_quote, <- Et.
  rewrite text_string_roundtrip, parse_string_value_stop by exact H.
  cbn [sprepend]. now rewrite app_nil_r.
Qed.

(* adjacent literals are concatenated *)
Theorem text_string_value_concat a1 bs1 a2 bs2 ws rest f :
  consume_ws false (ws ++ append_string a2 bs2 ++ rest) = append_string a2 bs2 ++ rest ->
  no_quote_head (consume_ws false rest) ->
  parse_string_value (S (S f)) (append_string a1 bs1 ++ ws ++ append_string a2 bs2 ++ rest)
  = SOk (bs1 ++ bs2, consume_ws false rest).
Proof.
  intros Hws H.
  assert (Hq : exists t, append_string a1 bs1 ++ ws ++ append_string a2 bs2 ++ rest = x22 :: t)
    by (unfold append_string at 1; cbn [app]; eauto).
  destruct Hq as (t & Et). rewrite Et, parse_string_value_quote, <- Et.
  rewrite text_string_roundtrip, Hws.
  rewrite (text_string_value_roundtrip a2 bs2 rest f H). reflexivity.
Qed.

(* every step either stops without blaming the fuel or consumes input *)
Lemma dec_step_shape q b0 t0 :
  match dec_step_of q (b0 :: t0) with
  | DErr e => e <> SFuel
  | DClose _ => True
  | DOut _ rest => (length rest < length (b0 :: t0))%nat
  | DRaw n => (1 <= n)%nat
  end.
Proof.
  unfold dec_step_of. cbv zeta.
  destruct (rune_invalid _); [discriminate|]. destruct (_ || _); [discriminate|].
  destruct (_ =? b2n q); [exact I|]. destruct (_ =? 92); [|apply decode_rune_nonempty_pos].
  destruct t0 as [|c t1]; [discriminate|].
  pose proof (parse_escape_shape c t1) as H.
  destruct (parse_escape c t1); cbn [esc_shape length] in *; [lia|exact H].
Qed.

Lemma sprepend_not_fuel p r : r <> SErr SFuel -> sprepend p r <> SErr SFuel.
Proof. destruct r as [[o rest]|e]; cbn [sprepend]; congruence. Qed.

Lemma parse_loop_run_total q : forall f inp, (length inp <= f)%nat -> parse_loop_run f q inp <> SErr SFuel.
Proof.
  induction f as [|f IH]; intros inp Hl.
  - destruct inp; [discriminate|cbn in Hl; lia].
  - destruct inp as [|b0 t0]; [discriminate|].
    rewrite parse_loop_run_S by discriminate.
    pose proof (dec_step_shape q b0 t0) as Hp.
    destruct (dec_step_of q (b0 :: t0)) as [e|rest|out rest|n].
    + intros [= ->]. now apply Hp.
    + discriminate.
    + apply sprepend_not_fuel, IH. cbn [length] in *. lia.
    + cbv zeta. apply sprepend_not_fuel, IH. rewrite skipn_length. cbn [length] in *. lia.
Qed.

(* parseString / UnmarshalString never run out of fuel: on EVERY input the
   model returns Ok, unexpected-EOF or a syntax error *)
Theorem parse_string_total inp : parse_string inp <> SErr SFuel.
Proof.
  unfold parse_string. destruct inp as [|q t]; [discriminate|]. cbv zeta.
  apply sprepend_not_fuel, parse_loop_run_total. rewrite skipn_length. lia.
Qed.

Theorem unmarshal_string_total inp : unmarshal_string inp <> SErr SFuel.
Proof.
  unfold unmarshal_string. pose proof (parse_string_total inp).
  destruct (parse_string inp) as [[o r]|e]; congruence.
Qed.
