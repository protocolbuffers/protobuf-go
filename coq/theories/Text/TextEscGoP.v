(* go_eq_spec for text/encode.go: the functions indexNeedEscapeInString and
   appendString, as translated to Gallina by srcmodel_textesc on every run
   (Gen/TextEscGo.v), equal the hand model of Text/TextStrModel.v
   (index_need_escape, append_string) for every byte string shorter than 2^63
   (Go's int); in particular they return neither Panic nor Fuel.  Each loop is
   first identified, by conversion ([reflexivity]), with a closed form below,
   so a change to the loops in encode.go breaks these proofs. *)
From Coq Require Import List Arith NArith ZArith Lia Bool.
From Coq Require Import ZifyBool ZifyNat ZifyN.
From PB Require Import Base.PBytes Base.GoInt Base.Utf8Model Base.Utf8P.
From PB Require Export Base.GoIntP.
From PB Require Import Text.TextStrModel Text.TextStrP Text.TextEscGoSup.
From PB Require Import Gen.TextEscGo.
Import ListNotations.
Open Scope Z_scope.

(* byte strings as the translated code sees them *)
Definition zb (b : list byte) : list Z := map byte2z b.

Lemma zb_app a b : zb (a ++ b) = zb a ++ zb b.
Proof. apply map_app. Qed.
Lemma zb_length b : length (zb b) = length b.
Proof. apply map_length. Qed.
Lemma len_zb b : len (zb b) = Z.of_nat (length b).
Proof. apply len_map. Qed.
Lemma z2byte_byte2z b : z2byte (byte2z b) = b.
Proof. unfold z2byte, byte2z. rewrite N2Z.id. apply n2b_b2n. Qed.
Lemma unzb b : map z2byte (zb b) = b.
Proof.
  unfold zb. rewrite map_map. induction b as [|x b IH]; [reflexivity|].
  cbn [map]. now rewrite z2byte_byte2z, IH.
Qed.
Lemma byte2z_range b : 0 <= byte2z b < 256.
Proof. unfold byte2z. pose proof (b2n_lt b). lia. Qed.

Lemma wrap_u8_id x : 0 <= x < 256 -> wrap_u8 x = x.
Proof. exact (wrap_u8_small x). Qed.

Lemma index_zb p b r : index (zb (p ++ b :: r)) (Z.of_nat (length p)) = Val (byte2z b).
Proof. exact (index_map_app _ p b r). Qed.
Lemma slice_lo_zb b n : (n <= length b)%nat -> slice_lo (zb b) (Z.of_nat n) = Val (zb (skipn n b)).
Proof. exact (slice_lo_map _ b n). Qed.
Lemma slice_hi_zb b n : (n <= length b)%nat -> slice_hi (zb b) (Z.of_nat n) = Val (zb (firstn n b)).
Proof. exact (slice_hi_map _ b n). Qed.

(* one iteration, [k] standing for the rest of the loop *)
Definition idx_body (v_s : list Z) (k : Z -> outcome Z) (v_i : Z) : outcome Z :=
  if v_i <? len v_s then
    bind (index v_s v_i) (fun t1 =>
    if (((((t1 <? 32) || (t1 =? 34)) || (t1 =? 39)) || (t1 =? 92)) || (127 <=? t1)) then Val v_i
    else k (wrap_i64 (v_i + 1)))
  else Val (len v_s).

Definition idx_loop (v_s : list Z) :=
  fix loop1 (lfuel : nat) (v_i : Z) {struct lfuel} : outcome Z :=
    match lfuel with
    | O => Fuel
    | S lfuel' => idx_body v_s (loop1 lfuel') v_i
    end.

Lemma idx_shape s : go_indexNeedEscapeInString s = idx_loop s (S (length s)) 0.
Proof. reflexivity. Qed.

Lemma need_escape_z b :
  (((((byte2z b <? 32) || (byte2z b =? 34)) || (byte2z b =? 39)) || (byte2z b =? 92)) || (127 <=? byte2z b))
  = need_escape b.
Proof. unfold need_escape, byte2z. cbv zeta. lia. Qed.

Lemma index_need_escape_le l : (index_need_escape l <= length l)%nat.
Proof. induction l as [|b r IH]; cbn [index_need_escape length]; [lia|]. destruct (need_escape b); lia. Qed.

Lemma idx_loop_S s lfuel i : idx_loop s (S lfuel) i = idx_body s (idx_loop s lfuel) i.
Proof. reflexivity. Qed.

Lemma idx_loop_spec bs : Z.of_nat (length bs) < 2^63 ->
  forall cur pre lfuel, bs = pre ++ cur -> (length cur < lfuel)%nat ->
  idx_loop (zb bs) lfuel (Z.of_nat (length pre)) = Val (Z.of_nat (length pre + index_need_escape cur)).
Proof.
  intros Hbs. change (2^63) with 9223372036854775808 in Hbs.
  induction cur as [|b r IH]; intros pre lfuel Hpre Hf;
    (destruct lfuel as [|lfuel]; [cbn [length] in Hf; lia|]);
    rewrite idx_loop_S; unfold idx_body; rewrite len_zb;
    apply (f_equal (@length byte)) in Hpre as Hl; rewrite app_length in Hl; cbn [length] in Hl.
  - (* at the end of the string *)
    replace (Z.of_nat (length pre) <? Z.of_nat (length bs)) with false by lia.
    cbn [index_need_escape]. f_equal. lia.
  - (* at byte b *)
    replace (Z.of_nat (length pre) <? Z.of_nat (length bs)) with true by lia.
    replace (index (zb bs) (Z.of_nat (length pre))) with (Val (byte2z b)) by (rewrite Hpre; symmetry; apply index_zb).
    cbn [bind]. rewrite need_escape_z. cbn [index_need_escape length] in *.
    destruct (need_escape b).
    + f_equal. lia.
    + rewrite wrap_i64_small by lia.
      replace (Z.of_nat (length pre) + 1) with (Z.of_nat (length (pre ++ [b]))) by (rewrite app_length; cbn [length]; lia).
      rewrite (IH (pre ++ [b]) lfuel); [|now rewrite Hpre, <- app_assoc|lia].
      f_equal. rewrite app_length. cbn [length]. lia.
Qed.

Theorem go_indexNeedEscapeInString_spec bs : Z.of_nat (length bs) < 2^63 ->
  go_indexNeedEscapeInString (zb bs) = Val (Z.of_nat (index_need_escape bs)).
Proof.
  intros H. rewrite idx_shape, zb_length.
  exact (idx_loop_spec bs H bs [] (S (length bs)) eq_refl ltac:(lia)).
Qed.

(* the zero padding  "00"[1+(bits.Len32(uint32(r))-1)/4:] *)
Lemma bits_Len32_size r : bits_Len32 (Z.of_N r) = Z.of_N (N.size r).
Proof.
  unfold bits_Len32. destruct r as [|p]; [reflexivity|].
  replace (Z.of_N (N.pos p) =? 0) with false by lia.
  destruct p; cbn [Z.of_N Z.log2 N.size Pos.size]; lia.
Qed.

Lemma skipn_repeat {A} (a : A) : forall k w, skipn k (repeat a w) = repeat a (w - k).
Proof.
  induction k as [|k IH]; intros w; [now rewrite Nat.sub_0_r|].
  destruct w as [|w]; [reflexivity|]. cbn [repeat skipn]. rewrite IH. reflexivity.
Qed.
Lemma zb_repeat b k : zb (repeat b k) = repeat (byte2z b) k.
Proof. induction k as [|k IH]; [reflexivity|]. cbn [repeat zb map]. f_equal. exact IH. Qed.

Definition pad_idx (r : Z) : Z :=
  wrap_i64 (1 + wrap_i64 (Z.quot (wrap_i64 (bits_Len32 (wrap_u32 r) - 1)) 4)).

Lemma size_le r k : (r < 2 ^ k)%N -> (N.size r <= k)%N.
Proof.
  intros H. destruct (N.eq_dec r 0) as [->|Hn]; [cbn; lia|].
  rewrite N.size_log2 by assumption.
  assert (N.log2 r < k)%N by (apply N.log2_lt_pow2; [lia|exact H]). lia.
Qed.

Lemma pad_idx_eq r : (r < 4294967296)%N ->
  pad_idx (Z.of_N r) = Z.of_nat (1 + N.to_nat ((N.size r - 1) / 4)).
Proof.
  intros H. pose proof (size_le r 32 H) as Hs. unfold pad_idx.
  rewrite wrap_u32_small by lia. rewrite bits_Len32_size.
  rewrite (wrap_i64_small (Z.of_N (N.size r) - 1)) by lia.
  destruct (N.eq_dec (N.size r) 0) as [E|E].
  - rewrite E. reflexivity.
  - rewrite Z.quot_div_nonneg by lia.
    rewrite (wrap_i64_small (_ / 4)) by lia. rewrite wrap_i64_small by lia. lia.
Qed.

Lemma pad_slice w r : (r < 4294967296)%N -> (N.size r <= 4 * N.of_nat w)%N -> (0 < w)%nat ->
  slice_lo (repeat 48 w) (pad_idx (Z.of_N r)) =
  Val (zb (repeat x30 (w - (1 + N.to_nat ((N.size r - 1) / 4))))).
Proof.
  intros H Hs Hw. rewrite pad_idx_eq by assumption.
  set (k := (1 + N.to_nat ((N.size r - 1) / 4))%nat).
  assert (Hk : (k <= w)%nat) by (unfold k; lia).
  unfold slice_lo, len. rewrite repeat_length.
  replace ((Z.of_nat k <? 0) || (Z.of_nat w <? Z.of_nat k)) with false by lia.
  rewrite Nat2Z.id, skipn_repeat, zb_repeat. reflexivity.
Qed.

