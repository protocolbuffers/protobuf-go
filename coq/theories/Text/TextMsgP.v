(* TextMsgP — proof of the prototext round trip (C24) for the tree-level model:
   of_text (to_text v) = strip_unknown v for every valid canonical value v. *)
From Coq Require Import List Arith NArith ZArith Lia Bool Permutation.
From PB Require Import Base.PBytes Base.ListP Wire.WireModel Msg.MsgSchema Msg.MsgValue Msg.MsgUtf8 Msg.MsgEnc Msg.MsgDec Msg.MsgValid Msg.MsgAssocP.
From PB Require Import Json.RtSchema Text.TextMsgModel Text.TextMsgValid Text.TextMsgScalarP.
From PB Require Export Json.RtCommonP.
Import ListNotations.
Open Scope N_scope.

Section Body.
  Variable strict : bool.
  Variable S : schema.
  Variable nm : names.
  Variable lim : nat.
  Variable recv : nat -> value -> bool.
  Variable rect : nat -> value -> tres tfields.
  Variable recd : nat -> tfields -> tres value.
  Hypothesis Hrec : forall tid v, recv tid v = true ->
    exists b, rect tid v = TOk b /\ recd tid b = TOk (strip_unknown v).

  Lemma text_elem_rt fd fn utf8 v :
    tvalid_elem recv fd utf8 v = true ->
    (f_kind fd = KS SkEnum -> enum_ok (nm_enum nm fn) = true) ->
    exists x, text_elem nm rect fd fn utf8 (f_kind fd) v = TOk x /\
              tdec_elem nm recd fd fn utf8 (f_kind fd) x = TOk (strip_unknown v).
  Proof.
    unfold tvalid_elem, text_elem, tdec_elem. intros H He.
    destruct (f_kind fd) as [sk|tid|tid] eqn:Ek; destruct v as [s|fs unk|k0 v0]; try discriminate.
    - destruct (text_scalar_rt (nm_enum nm fn) utf8 sk s H) as (t & Ht & Hd).
      { intros ->. apply He. reflexivity. }
      exists (TScalar t). rewrite Ht. cbn [tbind]. rewrite Hd. cbn [tbind]. split; reflexivity.
    - destruct (Hrec tid _ H) as (b & Hb & Hd). exists (TMsg b). rewrite Hb. cbn [tbind]. split; [reflexivity|exact Hd].
    - destruct (Hrec tid _ H) as (b & Hb & Hd). exists (TMsg b). rewrite Hb. cbn [tbind]. split; [reflexivity|exact Hd].
  Qed.

  Variable fps : list fpair.
  Hypothesis Hlook : forall p, In p fps -> tlookup fps (fn_text (snd p)) = Some p.
  Hypothesis Henum : forall p, In p fps -> f_kind (fst p) = KS SkEnum -> enum_ok (nm_enum nm (snd p)) = true.

  Definition svals (vs : list value) : list value := map strip_unknown vs.

  Definition st_after (st : tstate) (fd : fdesc) (vs : list value) : tstate :=
    match vs with
    | [] => st
    | _ =>
      mkTS (msg_fset (ts_fs st) (f_num fd) (svals vs))
           (if is_sing fd then f_num fd :: ts_seen st else ts_seen st)
           (if is_sing fd then match f_oneof fd with Some i => i :: ts_oneofs st | None => ts_oneofs st end
            else ts_oneofs st)
    end.

  Lemma tdec_fields_app a b : forall st,
    tdec_fields nm recd fps (a ++ b) st = (st' <~ tdec_fields nm recd fps a st ;; tdec_fields nm recd fps b st').
  Proof.
    induction a as [|[name x] a IH]; intros st; [reflexivity|]. cbn [app tdec_fields].
    destruct (tlookup fps name) as [[fd fn]|]; [|reflexivity].
    destruct (tdec_field nm recd fd fn x st); cbn [tbind]; [apply IH|reflexivity].
  Qed.

  (* the decoder state after appending [vs] to the values stored under [k] *)
  Definition st_app (st : tstate) (k : N) (vs : list value) : tstate :=
    match vs with
    | [] => st
    | _ => mkTS (msg_fset (ts_fs st) k (msg_fget (ts_fs st) k ++ vs)) (ts_seen st) (ts_oneofs st)
    end.

  Lemma st_app_cons st k v vs : st_app (st_app st k [v]) k vs = st_app st k (v :: vs).
  Proof.
    destruct vs as [|v2 vs]; [reflexivity|]. unfold st_app. cbn [ts_fs ts_seen ts_oneofs].
    rewrite msg_fget_fset_same, msg_fset_fset_same, <- app_assoc. reflexivity.
  Qed.

  (* repeated fields: one name-value pair per element *)
  Lemma text_list_rt fd fn (Hin : In (fd, fn) fps) (Hcard : f_card fd = CRep \/ f_card fd = CPacked) :
    forall vs st, forallb (tvalid_elem recv fd (f_utf8 fd)) vs = true ->
      exists xs, tmapM (text_elem nm rect fd fn (f_utf8 fd) (f_kind fd)) vs = TOk xs /\
        tdec_fields nm recd fps (map (fun x => (fn_text fn, x)) xs) st = TOk (st_app st (f_num fd) (svals vs)).
  Proof.
    induction vs as [|v vs IH]; intros st Hv; [exists []; split; reflexivity|].
    cbn [forallb] in Hv. apply andb_prop in Hv as [Hv Hvs].
    destruct (text_elem_rt fd fn (f_utf8 fd) v Hv (Henum _ Hin)) as (x & Hx & Hd).
    destruct (IH (st_app st (f_num fd) [strip_unknown v]) Hvs) as (xs & Hxs & Hdec).
    exists (x :: xs). cbn [tmapM]. rewrite Hx. cbn [tbind]. rewrite Hxs. split; [reflexivity|].
    cbn [map tdec_fields]. rewrite (Hlook (fd, fn) Hin : tlookup fps (fn_text fn) = Some (fd, fn)).
    replace (tdec_field nm recd fd fn x st) with (TOk (st_app st (f_num fd) [strip_unknown v]))
      by (unfold tdec_field; destruct Hcard as [-> | ->]; rewrite Hd; reflexivity).
    cbn [tbind]. rewrite Hdec. apply (f_equal TOk), st_app_cons.
  Qed.

  (* map fields: one entry message per entry *)
  Lemma text_entry_rt fd fn kk kutf8 e :
    tvalid_entry recv fd kk kutf8 e = true ->
    (f_kind fd = KS SkEnum -> enum_ok (nm_enum nm fn) = true) ->
    exists k v l, e = VEntry k v /\ text_entry nm rect fd fn kk kutf8 e = TOk (TMsg l) /\
      tdec_entry_fields nm recd fd fn kk kutf8 l None None = TOk (Some k, Some (strip_unknown v)).
  Proof.
    unfold tvalid_entry, text_entry. intros H He.
    destruct e as [|?|k v]; try discriminate.
    apply andb_prop in H as [Hk Hv].
    destruct (text_scalar_rt ed_default kutf8 kk k Hk) as (kt & Hkt & Hkd).
    { intros _. reflexivity. }
    destruct (text_elem_rt fd fn (f_utf8 fd) v Hv He) as (vt & Hvt & Hvd).
    exists k, v, [(t_key, TScalar kt); (t_value, vt)]. rewrite Hkt. cbn [tbind]. rewrite Hvt.
    split; [reflexivity|]. split; [reflexivity|].
    cbn [tdec_entry_fields]. change (bs_eqb t_key t_key) with true. cbn iota.
    rewrite Hkd. cbn [tbind]. change (bs_eqb t_value t_key) with false. change (bs_eqb t_value t_value) with true.
    cbn iota. rewrite Hvd. reflexivity.
  Qed.

  Lemma text_map_rt fd fn kk kutf8 vdef (Hin : In (fd, fn) fps) (Hcard : f_card fd = CMap kk kutf8 vdef) :
    forall vs st, forallb (tvalid_entry recv fd kk kutf8) vs = true -> msg_entries_sorted vs = true ->
      Forall (key_gt_all (msg_fget (ts_fs st) (f_num fd))) vs ->
      exists xs, tmapM (text_entry nm rect fd fn kk kutf8) vs = TOk xs /\
        tdec_fields nm recd fps (map (fun x => (fn_text fn, x)) xs) st = TOk (st_app st (f_num fd) (svals vs)).
  Proof.
    induction vs as [|e vs IH]; intros st Hv Hsorted Hgt; [exists []; split; reflexivity|].
    cbn [forallb] in Hv. apply andb_prop in Hv as [Hv Hvs].
    destruct (text_entry_rt fd fn kk kutf8 e Hv (Henum _ Hin)) as (k & v & l & -> & Hx & Hd).
    inversion Hgt as [|? ? Hk Hgt']; subst. cbn [key_gt_all] in Hk.
    cbn [msg_entries_sorted] in Hsorted. apply andb_prop in Hsorted as [Hafter Hsorted].
    destruct (IH (st_app st (f_num fd) [VEntry k (strip_unknown v)]) Hvs Hsorted) as (xs & Hxs & Hdec).
    { cbn [st_app ts_fs]. rewrite msg_fget_fset_same. exact (key_gt_all_snoc _ _ _ _ Hgt' Hafter). }
    exists (TMsg l :: xs). cbn [tmapM]. rewrite Hx. cbn [tbind]. rewrite Hxs. split; [reflexivity|].
    cbn [map tdec_fields]. rewrite (Hlook (fd, fn) Hin : tlookup fps (fn_text fn) = Some (fd, fn)).
    replace (tdec_field nm recd fd fn (TMsg l) st) with (TOk (st_app st (f_num fd) [VEntry k (strip_unknown v)]))
      by (unfold tdec_field; rewrite Hcard, Hd; cbn [tbind fst snd]; now rewrite (msg_map_put_last _ _ _ Hk)).
    cbn [tbind]. rewrite Hdec. apply (f_equal TOk), st_app_cons.
  Qed.

  (* singular fields (optional, implicit, required): one pair *)
  Lemma tvalid_sing fd vs : is_sing fd = true -> tvalid_field recv fd vs = true ->
    exists v, vs = [v] /\ tvalid_elem recv fd (f_utf8 fd) v = true /\
      match f_card fd, strip_unknown v with CImp, VS s => msg_scalar_is_zero s | _, _ => false end = false.
  Proof.
    unfold is_sing, tvalid_field. intros Hs Hv.
    destruct (f_card fd); try discriminate Hs; destruct vs as [|[s| |] [|? ?]]; try discriminate Hv;
      eexists; (split; [reflexivity|]); try (split; [exact Hv|reflexivity]).
    apply andb_prop in Hv as [Hv Hnz]. split; [exact Hv|apply negb_true_iff, Hnz].
  Qed.

  Lemma text_sing_rt fd fn v st (Hin : In (fd, fn) fps) :
    is_sing fd = true -> tvalid_field recv fd [v] = true ->
    ~ In (f_num fd) (ts_seen st) -> (forall i, f_oneof fd = Some i -> ~ In i (ts_oneofs st)) ->
    exists x, text_elem nm rect fd fn (f_utf8 fd) (f_kind fd) v = TOk x /\
              tdec_field nm recd fd fn x st = TOk (st_after st fd [v]).
  Proof.
    intros Hs Hval Hseen Hone.
    destruct (tvalid_sing fd [v] Hs Hval) as (v' & [= <-] & Hv & Hkeep).
    destruct (text_elem_rt fd fn (f_utf8 fd) v Hv (Henum _ Hin)) as (x & Hx & Hd).
    exists x. split; [exact Hx|].
    pose proof (oneof_mark_fresh (f_oneof fd) (ts_oneofs st) Hone) as Ho.
    unfold tdec_field, st_after. rewrite Hs. unfold is_sing in Hs. revert Hkeep.
    destruct (f_card fd); try discriminate Hs; intros Hkeep;
      rewrite Ho, (existsb_Neqb_false _ _ Hseen), Hd; cbn [tbind]; [|rewrite Hkeep|]; reflexivity.
  Qed.

  (* one field *)
  Lemma text_field_rt fs p st :
    In p fps ->
    (msg_fget fs (fp_num p) <> [] -> tvalid_field recv (fst p) (msg_fget fs (fp_num p)) = true) ->
    msg_fget (ts_fs st) (fp_num p) = [] ->
    ~ In (fp_num p) (ts_seen st) ->
    (forall i, f_oneof (fst p) = Some i -> msg_fget fs (fp_num p) <> [] -> ~ In i (ts_oneofs st)) ->
    exists out, text_field nm rect fs p = TOk out /\
      tdec_fields nm recd fps out st = TOk (st_after st (fst p) (msg_fget fs (fp_num p))).
  Proof.
    destruct p as [fd fn]. unfold fp_num. cbn [fst snd]. intros Hin Hval Hfresh Hseen Hone.
    pose proof (Henum _ Hin) as He. cbn [fst snd] in He.
    unfold text_field. cbn [fst snd].
    destruct (msg_fget fs (f_num fd)) as [|v0 vs0] eqn:Evs.
    { exists []. split; [destruct (f_card fd); reflexivity|reflexivity]. }
    specialize (Hval ltac:(discriminate)).
    destruct (is_sing fd) eqn:Es.
    - destruct (tvalid_sing fd _ Es Hval) as (v & [= -> ->] & _).
      destruct (text_sing_rt fd fn v st Hin Es Hval Hseen) as (x & Hx & Hd).
      { intros i Hi. apply Hone; [exact Hi|discriminate]. }
      exists [(fn_text fn, x)]. split.
      + unfold is_sing in Es. destruct (f_card fd); try discriminate Es; cbn [tmapM]; rewrite Hx; reflexivity.
      + cbn [tdec_fields]. rewrite (Hlook (fd, fn) Hin : tlookup fps (fn_text fn) = Some (fd, fn)), Hd. reflexivity.
    - unfold tvalid_field in Hval. unfold st_after. rewrite Es. unfold is_sing in Es.
      destruct (f_card fd) as [| | | | |kk kutf8 vdef] eqn:Ecard; try discriminate Es; cbv iota in Hval.
      + (* CRep *)
        destruct (text_list_rt fd fn Hin (or_introl Ecard) _ st Hval) as (xs & Hxs & Hdec).
        exists (map (fun x => (fn_text fn, x)) xs). rewrite Hxs. split; [reflexivity|].
        rewrite Hdec. unfold st_app. rewrite Hfresh. reflexivity.
      + (* CPacked *)
        destruct (text_list_rt fd fn Hin (or_intror Ecard) _ st Hval) as (xs & Hxs & Hdec).
        exists (map (fun x => (fn_text fn, x)) xs). rewrite Hxs. split; [reflexivity|].
        rewrite Hdec. unfold st_app. rewrite Hfresh. reflexivity.
      + (* CMap *)
        apply andb_prop in Hval as [Hval Hsorted].
        destruct (text_map_rt fd fn kk kutf8 vdef Hin Ecard _ st Hval Hsorted) as (xs & Hxs & Hdec).
        { rewrite Hfresh. rewrite Forall_forall. intros e He'.
          rewrite forallb_forall in Hval. specialize (Hval e He'). unfold tvalid_entry in Hval.
          destruct e; try discriminate. cbn [key_gt_all]. constructor. }
        exists (map (fun x => (fn_text fn, x)) xs). rewrite Hxs. split; [reflexivity|].
        rewrite Hdec. unfold st_app. rewrite Hfresh. reflexivity.
  Qed.
End Body.

Lemma tvalid_field_nonempty recv fd vs : tvalid_field recv fd vs = true -> vs <> [].
Proof.
  unfold tvalid_field. destruct (f_card fd); destruct vs; try discriminate; intros _; discriminate.
Qed.

Section Message.
  Variable S : schema.
  Variable nm : names.
  Variable recv : nat -> value -> bool.
  Variable rect : nat -> value -> tres tfields.
  Variable recd : nat -> tfields -> tres value.
  Hypothesis Hrec : forall tid v, recv tid v = true ->
    exists b, rect tid v = TOk b /\ recd tid b = TOk (strip_unknown v).
  Variable fps : list fpair.
  Hypothesis Hlook : forall p, In p fps -> tlookup fps (fn_text (snd p)) = Some p.
  Hypothesis Henum : forall p, In p fps -> f_kind (fst p) = KS SkEnum -> enum_ok (nm_enum nm (snd p)) = true.
  Hypothesis Hnd : NoDup (map fp_num fps).
  Variable fs : fields.
  Hypothesis Hchunks : forall k vs, In (k, vs) fs ->
    exists p, In p fps /\ fp_num p = k /\ tvalid_field recv (fst p) vs = true.
  Hypothesis Hone : rt_oneofs_ok fps fs = true.

  Definition Inv := loop_inv fs ts_fs ts_seen ts_oneofs.

  Definition step (st : tstate) (p : fpair) : tstate := st_after st (fst p) (msg_fget fs (fp_num p)).

  Lemma field_valid p : In p fps -> msg_fget fs (fp_num p) <> [] ->
    tvalid_field recv (fst p) (msg_fget fs (fp_num p)) = true.
  Proof. exact (chunk_of_field fps fs (fun p vs => tvalid_field recv (fst p) vs = true) Hnd Hchunks p). Qed.

  Lemma step_inv done st p : Inv done st -> Inv (done ++ [p]) (step st p).
  Proof.
    intros Hinv. apply (loop_inv_after fs ts_fs ts_seen ts_oneofs done st p _ Hinv); unfold step, st_after.
    - destruct (msg_fget fs (fp_num p)); reflexivity.
    - destruct (msg_fget fs (fp_num p)); cbn [ts_seen]; [auto|].
      intros k Hk. destruct (is_sing (fst p)); [destruct Hk as [<-|Hk]|]; auto.
    - destruct (msg_fget fs (fp_num p)); reflexivity.
  Qed.

  Lemma fields_rt : forall order done st,
    NoDup (map fp_num (done ++ order)) -> (forall p, In p (done ++ order) -> In p fps) -> Inv done st ->
    exists outs, tmapM (text_field nm rect fs) order = TOk outs /\
      tdec_fields nm recd fps (concat outs) st = TOk (fold_left step order st).
  Proof.
    induction order as [|p order IH]; intros done st Hnodup Hsub Hinv.
    - exists []. split; reflexivity.
    - destruct (loop_inv_fresh fps fs Hone ts_fs ts_seen ts_oneofs done p order st Hinv Hnodup Hsub) as (Hp & F1 & F2 & F3).
      destruct (text_field_rt nm recv rect recd Hrec fps Hlook Henum fs p st Hp (field_valid p Hp) F1 F2 F3)
        as (out & Hout & Hdec).
      destruct (IH (done ++ [p]) (step st p)) as (outs & Houts & Hdecs).
      + rewrite <- app_assoc. exact Hnodup.
      + intros q Hq. apply Hsub. rewrite <- app_assoc in Hq. exact Hq.
      + apply step_inv, Hinv.
      + exists (out :: outs). cbn [tmapM]. rewrite Hout. cbn [tbind]. rewrite Houts.
        split; [reflexivity|]. cbn [concat fold_left]. rewrite tdec_fields_app, Hdec. exact Hdecs.
  Qed.

  Lemma step_fs st p : ts_fs (step st p) = msg_ins_all (pairs fs [p]) (ts_fs st).
  Proof. unfold step, st_after. cbn [pairs flat_map]. destruct (msg_fget fs (fp_num p)); reflexivity. Qed.
End Message.

Lemma tfind_by_find ext fps name :
  tfind_by ext fps name = find (fun p => Bool.eqb (f_ext (fst p)) ext && bs_eqb (fn_text (snd p)) name) fps.
Proof. induction fps as [|p r IH]; [reflexivity|]. cbn [tfind_by find]. now rewrite IH. Qed.

Lemma tlookup_self fps p :
  NoDup (map (fun p => fn_text (snd p)) fps) -> text_name_ok p = true -> In p fps ->
  tlookup fps (fn_text (snd p)) = Some p.
Proof.
  intros Hnd Hok Hin. unfold text_name_ok in Hok. unfold tlookup.
  assert (Hfind : tfind_by (f_ext (fst p)) fps (fn_text (snd p)) = Some p).
  { rewrite tfind_by_find. now apply (find_named fn_text). }
  destruct (f_ext (fst p)).
  - apply andb_prop in Hok as [Hb Hn]. rewrite Hb.
    destruct (text_type_name (bracket_inner (fn_text (snd p)))) as [full|]; [|discriminate].
    apply bs_eqb_eq in Hn. rewrite Hn. exact Hfind.
  - apply negb_true_iff in Hok. rewrite Hok. exact Hfind.
Qed.

Section Schema.
  Variable S : schema.
  Variable nm : names.
  Hypothesis Hschema : text_schema_ok S nm = true.

  Lemma schema_facts tid : (tid < length S)%nat ->
    let fps := rt_fields S nm tid in
    NoDup (map fp_num fps) /\
    (forall p, In p fps -> 1 <= fp_num p) /\
    (forall p, In p fps -> f_kind (fst p) = KS SkEnum -> enum_ok (nm_enum nm (snd p)) = true) /\
    (forall p, In p fps -> tlookup fps (fn_text (snd p)) = Some p) /\
    mn_full (nm_msg nm tid) <> [] /\
    (mn_wkt (nm_msg nm tid) = 1 -> any_shape_ok fps = true).
  Proof.
    intros Hlt fps. unfold text_schema_ok in Hschema. apply andb_prop in Hschema as [H1 H2].
    destruct (rt_msg_facts S nm tid H1 Hlt) as (Hnd & Hpos & Henum & Hfull).
    rewrite forallb_forall in H2. specialize (H2 tid ltac:(apply in_seq; lia)).
    unfold text_msg_ok in H2. fold fps in H2.
    apply andb_prop in H2 as [H2 Hany]. apply andb_prop in H2 as [Hnames Hnok].
    rewrite forallb_forall in Hnok.
    split; [exact Hnd|]. split; [exact Hpos|]. split; [exact Henum|].
    split. { intros p Hp. apply tlookup_self; [apply bs_nodup_NoDup, Hnames|apply Hnok, Hp|exact Hp]. }
    split; [exact Hfull|]. intros Hw. rewrite Hw in Hany. exact Hany.
  Qed.
End Schema.

Section Regular.
  Variable S : schema.
  Variable nm : names.
  Hypothesis Hschema : text_schema_ok S nm = true.
  Variable recv : nat -> value -> bool.
  Variable rect : nat -> value -> tres tfields.
  Variable recd : nat -> tfields -> tres value.
  Hypothesis Hrec : forall tid v, recv tid v = true ->
    exists b, rect tid v = TOk b /\ recd tid b = TOk (strip_unknown v).

  Lemma chunks_of tid fs :
    forallb (tvalid_chunk recv (rt_fields S nm tid)) fs = true ->
    forall k vs, In (k, vs) fs ->
      exists p, In p (rt_fields S nm tid) /\ fp_num p = k /\ tvalid_field recv (fst p) vs = true.
  Proof. exact (chunks_by_find _ (fun p vs => tvalid_field recv (fst p) vs) fs). Qed.

  Lemma regular_rt tid fs :
    (tid < length S)%nat ->
    msg_keys_sorted 0 fs = true ->
    forallb (tvalid_chunk recv (rt_fields S nm tid)) fs = true ->
    rt_oneofs_ok (rt_fields S nm tid) fs = true ->
    exists out, text_regular S nm rect tid fs = TOk out /\
                tdec_regular S nm recd tid out = TOk (VMsg (map sp fs) []).
  Proof.
    intros Hlt Hs Hc Ho.
    destruct (schema_facts S nm Hschema tid Hlt) as (Hnd & Hpos & Henum & Hlook & _ & _).
    set (fps := rt_fields S nm tid) in *.
    apply msg_keys_sorted_spec in Hs.
    pose proof (chunks_of tid fs Hc) as Hchunks. fold fps in Hchunks.
    pose proof (rt_field_order_perm fps) as Hperm.
    destruct (fields_rt nm recv rect recd Hrec fps Hlook Henum Hnd fs Hchunks Ho (rt_field_order fps) [] (mkTS [] [] []))
      as (outs & Houts & Hdec).
    - cbn [app]. eapply Permutation_NoDup; [apply Permutation_map, Permutation_sym, Hperm|exact Hnd].
    - cbn [app]. intros p Hp. eapply Permutation_in; eassumption.
    - now apply loop_inv_init.
    - exists (concat outs). unfold text_regular. fold fps. rewrite Houts. cbn [tbind]. split; [reflexivity|].
      unfold tdec_regular. fold fps. rewrite Hdec. cbn [tbind].
      rewrite (fold_step_fs fs ts_fs (step fs) (step_fs fs)). cbn [ts_fs].
      rewrite (ins_all_pairs_eq fps); try assumption; [reflexivity|].
      intros k vs Hin. destruct (Hchunks k vs Hin) as (p & Hp & Hk & Hv).
      split; [eapply tvalid_field_nonempty, Hv|]. exists p. split; assumption.
  Qed.
End Regular.

(* what the shape check says, field by field *)
Lemma any_shape_fields fps : any_shape_ok fps = true ->
  exists f1 n1 f2 n2, fps = [(f1, n1); (f2, n2)] /\
    f_num f1 = 1 /\ f_num f2 = 2 /\ f_kind f1 = KS SkString /\ f_card f1 = CImp /\
    f_kind f2 = KS SkBytes /\ f_card f2 = CImp /\ fn_text n1 = t_type_url /\ fn_text n2 = t_value /\
    f_ext f1 = false /\ f_ext f2 = false /\ f_oneof f1 = None /\ f_oneof f2 = None.
Proof.
  unfold any_shape_ok. intros H.
  destruct fps as [|[f1 n1] [|[f2 n2] [|? ?]]]; try discriminate.
  repeat (apply andb_prop in H; let H' := fresh "H" in destruct H as [H H']).
  exists f1, n1, f2, n2. split; [reflexivity|].
  destruct (f_kind f1) as [[]| |]; try discriminate.
  destruct (f_card f1); try discriminate.
  destruct (f_kind f2) as [[]| |]; try discriminate.
  destruct (f_card f2); try discriminate.
  destruct (f_oneof f1); try discriminate. destruct (f_oneof f2); try discriminate.
  repeat match goal with
         | H : (_ =? _) = true |- _ => apply N.eqb_eq in H
         | H : bs_eqb _ _ = true |- _ => apply bs_eqb_eq in H
         | H : negb _ = true |- _ => apply negb_true_iff in H
         end.
  repeat split; first [assumption|reflexivity].
Qed.

Section AnyShape.
  Variable recv : nat -> value -> bool.
  Variable fps : list fpair.
  Hypothesis Hshape : any_shape_ok fps = true.
  Variable fs : fields.
  Hypothesis Hsorted : msg_sorted 0 fs.
  Hypothesis Hchunks : forall k vs, In (k, vs) fs ->
    exists p, In p fps /\ fp_num p = k /\ tvalid_field recv (fst p) vs = true.

  Definition any_entry (e : N * list value) : Prop :=
    (fst e = 1 \/ fst e = 2) /\ exists b, b <> [] /\ snd e = [VS (SBy b)].

  Lemma any_entries e : In e fs -> any_entry e.
  Proof.
    destruct e as [k vs]. intros Hin. destruct (Hchunks _ _ Hin) as (p & Hp & Hk & Hv).
    destruct (any_shape_fields fps Hshape) as (f1 & n1 & f2 & n2 & Efps & N1 & N2 & K1 & C1 & K2 & C2 & _).
    rewrite Efps in Hp.
    unfold any_entry. cbn [fst snd]. unfold fp_num in Hk.
    destruct Hp as [<-|[<-|[]]]; cbn [fst] in *; unfold tvalid_field in Hv.
    - rewrite C1 in Hv. destruct vs as [|[s| |] [|? ?]]; try discriminate.
      apply andb_prop in Hv as [Hv Hnz]. unfold tvalid_elem in Hv. rewrite K1 in Hv.
      unfold rt_scalar_ok in Hv. destruct s as [| | |b]; cbn [sk_ok andb] in Hv; try discriminate.
      split; [left; congruence|]. exists b. split; [|reflexivity]. intros ->. discriminate.
    - rewrite C2 in Hv. destruct vs as [|[s| |] [|? ?]]; try discriminate.
      apply andb_prop in Hv as [Hv Hnz]. unfold tvalid_elem in Hv. rewrite K2 in Hv.
      unfold rt_scalar_ok in Hv. destruct s as [| | |b]; cbn [sk_ok andb] in Hv; try discriminate.
      split; [right; congruence|]. exists b. split; [|reflexivity]. intros ->. discriminate.
  Qed.

  Lemma any_fs_cases :
    fs = [] \/
    (exists b1, b1 <> [] /\ fs = [(1, [VS (SBy b1)])]) \/
    (exists b2, b2 <> [] /\ fs = [(2, [VS (SBy b2)])]) \/
    (exists b1 b2, b1 <> [] /\ b2 <> [] /\ fs = [(1, [VS (SBy b1)]); (2, [VS (SBy b2)])]).
  Proof.
    set (P := fun vs : list value => exists b : list byte, b <> [] /\ vs = [VS (SBy b)]).
    destruct (two_key_fs P P fs Hsorted) as (H1 & H2 & Hfs).
    { intros k vs Hin. destruct (any_entries _ Hin) as (Hk & b & Hb & Hv). cbn [fst snd] in *. subst vs.
      split; [discriminate|]. destruct Hk as [-> | ->]; [left|right]; split; auto; exists b; auto. }
    rewrite Hfs. destruct H1 as [->|(b1 & Hb1 & ->)], H2 as [->|(b2 & Hb2 & ->)]; cbn [app].
    - left. reflexivity.
    - right. right. left. exists b2. auto.
    - right. left. exists b1. auto.
    - right. right. right. exists b1, b2. auto.
  Qed.

  Lemma any_fs_eq :
    map sp fs = fs /\
    fs = (match get_bytes_t fs 1 with [] => [] | u => [(1, [VS (SBy u)])] end)
         ++ (match get_bytes_t fs 2 with [] => [] | b => [(2, [VS (SBy b)])] end).
  Proof.
    destruct any_fs_cases as [->|[(b1 & H1 & ->)|[(b2 & H2 & ->)|(b1 & b2 & H1 & H2 & ->)]]].
    - split; reflexivity.
    - split; [reflexivity|]. unfold get_bytes_t. cbn [msg_fget N.eqb Pos.eqb]. destruct b1; [congruence|reflexivity].
    - split; [reflexivity|]. unfold get_bytes_t. cbn [msg_fget N.eqb Pos.eqb]. destruct b2; [congruence|reflexivity].
    - split; [reflexivity|]. unfold get_bytes_t. cbn [msg_fget N.eqb Pos.eqb].
      destruct b1; [congruence|]. destruct b2; [congruence|]. reflexivity.
  Qed.

  (* the UTF-8 condition of the type_url field, when present *)
  Lemma any_url_utf8 b1 : In (1, [VS (SBy b1)]) fs ->
    forall f1 n1 f2 n2, fps = [(f1, n1); (f2, n2)] -> f_num f1 = 1 -> f_num f2 = 2 -> f_kind f1 = KS SkString ->
    f_card f1 = CImp -> f_utf8 f1 && negb (msg_utf8_valid b1) = false.
  Proof.
    intros Hin f1 n1 f2 n2 -> N1 N2 K1 C1. destruct (Hchunks _ _ Hin) as (p & Hp & Hk & Hv).
    unfold fp_num in Hk. destruct Hp as [<-|[<-|[]]]; cbn [fst] in *; [|congruence].
    unfold tvalid_field in Hv. rewrite C1 in Hv. apply andb_prop in Hv as [Hv _].
    unfold tvalid_elem in Hv. rewrite K1 in Hv. unfold rt_scalar_ok in Hv.
    apply andb_prop in Hv as [Hv _]. apply andb_prop in Hv as [_ Hv].
    cbn [msg_str_valid] in Hv. destruct (f_utf8 f1); cbn [negb orb andb] in *; [rewrite Hv|]; reflexivity.
  Qed.
End AnyShape.

Section AnyMsg.
  Variable S : schema.
  Variable nm : names.
  Variable lim : nat.
  Hypothesis Hschema : text_schema_ok S nm = true.
  Variable recv : nat -> value -> bool.
  Variable rect : nat -> value -> tres tfields.
  Variable recd : nat -> tfields -> tres value.
  Hypothesis Hrec : forall tid v, recv tid v = true ->
    exists b, rect tid v = TOk b /\ recd tid b = TOk (strip_unknown v).

  Definition any_out (b1 b2 : option (list byte)) : tfields :=
    (match b1 with Some u => [(t_type_url, TScalar (TStr u))] | None => [] end)
    ++ (match b2 with Some b => [(t_value, TScalar (TStr b))] | None => [] end).

  Lemma tdec_any_regular (b1 b2 : option (list byte)) :
    tdec_any S nm recd (any_out b1 b2) =
    TOk (VMsg ((match b1 with Some (c :: u) => [(1, [VS (SBy (c :: u))])] | _ => [] end)
               ++ (match b2 with Some (c :: b) => [(2, [VS (SBy (c :: b))])] | _ => [] end)) []).
  Proof. destruct b1 as [[|? ?]|], b2 as [[|? ?]|]; reflexivity. Qed.

  Variable tid : nat.
  Hypothesis Hlt : (tid < length S)%nat.
  Hypothesis Hw : mn_wkt (nm_msg nm tid) = 1.
  Variable fs : fields.
  Hypothesis Hs : msg_keys_sorted 0 fs = true.
  Hypothesis Hc : forallb (tvalid_chunk recv (rt_fields S nm tid)) fs = true.

  Lemma any_fallback :
    exists out, text_regular S nm rect tid fs = TOk out /\ tdec_any S nm recd out = TOk (VMsg fs []).
  Proof.
    destruct (schema_facts S nm Hschema tid Hlt) as (_ & _ & _ & _ & _ & Hshape). specialize (Hshape Hw).
    pose proof (proj1 (msg_keys_sorted_spec 0 fs) Hs) as Hsorted.
    pose proof (chunks_of S nm recv tid fs Hc) as Hchunks.
    destruct (any_shape_fields _ Hshape) as (f1 & n1 & f2 & n2 & Efps & N1 & N2 & K1 & C1 & K2 & C2 & T1 & T2 & X1 & X2 & _).
    unfold text_regular. rewrite Efps. unfold rt_field_order. cbn [filter fst]. rewrite X1, X2.
    cbn [negb filter sort_by_name app tmapM]. unfold text_field. cbn [fst snd]. rewrite C1, C2, N1, N2, K1, K2, T1, T2.
    assert (Hu : forall b1, In (1, [VS (SBy b1)]) fs -> f_utf8 f1 && negb (msg_utf8_valid b1) = false)
      by (intros b1 Hin; eapply any_url_utf8; eassumption).
    destruct (any_fs_cases recv _ Hshape fs Hsorted Hchunks) as [->|[(b1 & H1 & ->)|[(b2 & H2 & ->)|(b1 & b2 & H1 & H2 & ->)]]].
    - exists (any_out None None). split; [reflexivity|]. rewrite tdec_any_regular. reflexivity.
    - exists (any_out (Some b1) None). split.
      + cbn [msg_fget N.eqb Pos.eqb tmapM text_elem text_scalar tbind].
        rewrite (Hu b1 (or_introl eq_refl)). reflexivity.
      + rewrite tdec_any_regular. destruct b1; [congruence|reflexivity].
    - exists (any_out None (Some b2)). split.
      + cbn [msg_fget N.eqb Pos.eqb tmapM text_elem text_scalar tbind]. reflexivity.
      + rewrite tdec_any_regular. destruct b2; [congruence|reflexivity].
    - exists (any_out (Some b1) (Some b2)). split.
      + cbn [msg_fget N.eqb Pos.eqb tmapM text_elem text_scalar tbind].
        rewrite (Hu b1 (or_introl eq_refl)). reflexivity.
      + rewrite tdec_any_regular. destruct b1; [congruence|]. destruct b2; [congruence|reflexivity].
  Qed.

  Lemma any_rt :
    tvalid_any true S nm lim recv rect fs = true ->
    exists out,
      (a <~ text_any S nm lim rect fs ;; match a with Some b => TOk b | None => text_regular S nm rect tid fs end) = TOk out /\
      tdec_any S nm recd out = TOk (VMsg (map sp fs) []).
  Proof.
    intros Hany.
    destruct (schema_facts S nm Hschema tid Hlt) as (_ & _ & _ & _ & _ & Hshape). specialize (Hshape Hw).
    pose proof (proj1 (msg_keys_sorted_spec 0 fs) Hs) as Hsorted.
    pose proof (chunks_of S nm recv tid fs Hc) as Hchunks.
    destruct (any_fs_eq recv _ Hshape fs Hsorted Hchunks) as [Hsp Hfs]. rewrite Hsp.
    unfold tvalid_any in Hany. unfold text_any.
    destruct (resolve_url nm (get_bytes_t fs 1)) as [t|] eqn:Eres; [|cbn [tbind]; apply any_fallback].
    destruct (msg_decode false S lim t (get_bytes_t fs 2)) as [em|e] eqn:Edec; [|cbn [tbind]; apply any_fallback].
    destruct (rect t em) as [b|e] eqn:Erect.
    - (* expanded *)
      apply andb_prop in Hany as [Hany Hurl]. apply andb_prop in Hany as [Hv Henc].
      cbn [negb orb] in Hurl. apply bs_eqb_eq in Henc.
      destruct (Hrec t em Hv) as (b' & Hb' & Hd). rewrite Erect in Hb'. inversion Hb'; subst b'.
      eexists. cbn [tbind]. split; [reflexivity|].
      unfold tdec_any. cbn [tdec_any_fields is_bracket_name as_exp as_seen_t orb].
      change (b2n x5b =? 91) with true. cbn iota.
      unfold bracket_inner. cbn [tl]. rewrite removelast_last.
      destruct (text_type_name (get_bytes_t fs 1)) as [u|]; [|discriminate]. apply bs_eqb_eq in Hurl. subst u.
      rewrite Eres, Hd. cbn [tbind as_url as_val]. rewrite Henc.
      (* the store read back is the url entry followed by the value entry: [fs] itself *)
      apply (f_equal (fun x => TOk (VMsg x []))), eq_sym, Hfs.
    - destruct e; try discriminate. cbn [tbind]. apply any_fallback.
  Qed.
End AnyMsg.

Section Main.
  Variable S : schema.
  Variable nm : names.
  Variable lim : nat.
  Hypothesis Hschema : text_schema_ok S nm = true.

  Theorem text_roundtrip_strict : forall fuel tid v,
    text_valid true S nm lim fuel tid v = true ->
    exists out, to_text_msg S nm lim fuel tid v = TOk out /\
                of_text_msg S nm fuel tid out = TOk (strip_unknown v).
  Proof.
    induction fuel as [|f IH]; intros tid v H; [discriminate|].
    cbn [text_valid] in H. apply andb_prop in H as [Hlt Hb]. apply Nat.ltb_lt in Hlt.
    cbn [to_text_msg of_text_msg].
    unfold tvalid_body in Hb. destruct v as [|fs unk|]; try discriminate.
    apply andb_prop in Hb as [Hb Hany]. apply andb_prop in Hb as [Hb Ho].
    apply andb_prop in Hb as [Hs Hc].
    change (strip_unknown (VMsg fs unk)) with (VMsg (map sp fs) []).
    unfold text_msg_body, of_text_body.
    destruct (mn_wkt (nm_msg nm tid) =? 1) eqn:Ew.
    - apply N.eqb_eq in Ew.
      apply (any_rt S nm lim Hschema (text_valid true S nm lim f) (to_text_msg S nm lim f) (of_text_msg S nm f) IH
                    tid Hlt Ew fs Hs Hc Hany).
    - apply (regular_rt S nm Hschema (text_valid true S nm lim f) (to_text_msg S nm lim f) (of_text_msg S nm f) IH
                        tid fs Hlt Hs Hc Ho).
  Qed.
End Main.

Theorem text_roundtrip_except_FWD1 (o : topts) S nm lim fuel tid v :
  text_schema_ok S nm = true ->
  text_valid true S nm lim fuel tid v = true ->
  exists t, to_text o S nm lim fuel tid v = TOk t /\ of_text S nm fuel tid t = TOk (strip_unknown v).
Proof. intros Hs Hv. exact (text_roundtrip_strict S nm lim Hs fuel tid v Hv). Qed.

(* Marshal of valid content never fails: the only error of the encoder is invalid UTF-8 in a
   validated string, which validity excludes *)
Theorem text_marshal_total (o : topts) S nm lim fuel tid v :
  text_schema_ok S nm = true ->
  text_valid true S nm lim fuel tid v = true ->
  exists t, to_text o S nm lim fuel tid v = TOk t.
Proof. intros Hs Hv. destruct (text_roundtrip_strict S nm lim Hs fuel tid v Hv) as (t & Ht & _). exists t. exact Ht. Qed.

(* by definition: the model's to_text drops its option record (Multiline, Indent, EmitASCII only
   change the byte rendering below the token tree) *)
Theorem text_rendering_options_irrelevant (o o' : topts) S nm lim fuel tid v :
  to_text o S nm lim fuel tid v = to_text o' S nm lim fuel tid v.
Proof. reflexivity. Qed.

Definition f32_finite (b : N) : bool := negb (f32_is_nan b) && negb (f32_is_pinf b) && negb (f32_is_ninf b).
Definition f64_finite (b : N) : bool := negb (f64_is_nan b) && negb (f64_is_pinf b) && negb (f64_is_ninf b).

Section FloatOracle.
  (* strconv.AppendFloat(nil, f, 'g', -1, bitSize) for the finite float with these bits, and
     strconv.ParseFloat(s, bitSize) as a bit pattern (None: syntax error) *)
  Variable fmt32 fmt64 : N -> list byte.
  Variable parse32 parse64 : list byte -> option N.
  Hypothesis Hrt32 : forall b, f32_finite b = true -> parse32 (fmt32 b) = Some b.
  Hypothesis Hrt64 : forall b, f64_finite b = true -> parse64 (fmt64 b) = Some b.
  (* the shortest formatting of a finite float is a number, not one of the spellings nan / inf / infinity *)
  Hypothesis Hlit32 : forall b, f32_finite b = true -> float_lit true (fmt32 b) = None.
  Hypothesis Hlit64 : forall b, f64_finite b = true -> float_lit false (fmt64 b) = None.

  (* text.Encoder.WriteFloat *)
  Definition render_f32 (b : N) : list byte := match text_float32 b with TLit s => s | _ => fmt32 b end.
  Definition render_f64 (b : N) : list byte := match text_float64 b with TLit s => s | _ => fmt64 b end.
  (* text.Token.Float32 / Float64 on the token with that text *)
  Definition read_f32 (s : list byte) : option N :=
    match float_lit true s with Some b => Some b | None => parse32 s end.
  Definition read_f64 (s : list byte) : option N :=
    match float_lit false s with Some b => Some b | None => parse64 s end.

  Theorem float32_text_roundtrip b :
    read_f32 (render_f32 b) = Some (if f32_is_nan b then f32_nan else b).
  Proof.
    unfold render_f32, read_f32, text_float32.
    destruct (f32_is_nan b) eqn:E1; [reflexivity|].
    destruct (f32_is_pinf b) eqn:E2; [unfold f32_is_pinf in E2; apply N.eqb_eq in E2; subst; reflexivity|].
    destruct (f32_is_ninf b) eqn:E3; [unfold f32_is_ninf in E3; apply N.eqb_eq in E3; subst; reflexivity|].
    assert (Hf : f32_finite b = true) by (unfold f32_finite; rewrite E1, E2, E3; reflexivity).
    rewrite (Hlit32 b Hf). apply Hrt32, Hf.
  Qed.

  Theorem float64_text_roundtrip b :
    read_f64 (render_f64 b) = Some (if f64_is_nan b then f64_nan else b).
  Proof.
    unfold render_f64, read_f64, text_float64.
    destruct (f64_is_nan b) eqn:E1; [reflexivity|].
    destruct (f64_is_pinf b) eqn:E2; [unfold f64_is_pinf in E2; apply N.eqb_eq in E2; subst; reflexivity|].
    destruct (f64_is_ninf b) eqn:E3; [unfold f64_is_ninf in E3; apply N.eqb_eq in E3; subst; reflexivity|].
    assert (Hf : f64_finite b = true) by (unfold f64_finite; rewrite E1, E2, E3; reflexivity).
    rewrite (Hlit64 b Hf). apply Hrt64, Hf.
  Qed.
End FloatOracle.
