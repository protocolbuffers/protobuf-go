(* TextMsgScalarP — basic lemmas for the format round-trip proofs (shared by C20 and C24) and the
   scalar layer of the text model: tdec_scalar inverts text_scalar on in-range scalars. *)
From Coq Require Import List Arith NArith ZArith Lia Bool.
From Coq Require Import ZifyBool ZifyNat ZifyN.
From PB Require Import Base.PBytes Base.PBytesP Wire.WireModel Msg.MsgSchema Msg.MsgValue Msg.MsgUtf8 Msg.MsgEnc Msg.MsgDec Msg.MsgValid.
From PB Require Import Json.RtSchema Text.TextMsgModel Text.TextMsgValid.
Import ListNotations.
Open Scope N_scope.

Lemma bs_eqb_refl a : bs_eqb a a = true.
Proof. exact (b2n_list_eqb_refl a). Qed.

Lemma bs_eqb_eq a b : bs_eqb a b = true <-> a = b.
Proof. exact (b2n_list_eqb_eq a b). Qed.

Lemma bs_eqb_neq a b : a <> b -> bs_eqb a b = false.
Proof. intros H. destruct (bs_eqb a b) eqn:E; [|reflexivity]. apply bs_eqb_eq in E. contradiction. Qed.

Lemma enum_by_number_in vs z name : enum_by_number vs z = Some name -> In (name, z) vs.
Proof.
  induction vs as [|[n k] r IH]; cbn [enum_by_number]; [discriminate|].
  destruct (k =? z)%Z eqn:E.
  - intros H. inversion H; subst. apply Z.eqb_eq in E. subst. left. reflexivity.
  - intros H. right. apply IH, H.
Qed.

Lemma enum_by_name_nodup vs name z :
  bs_nodup (map fst vs) = true -> In (name, z) vs -> enum_by_name vs name = Some z.
Proof.
  induction vs as [|[n k] r IH]; intros Hnd Hin; [contradiction|].
  cbn [map fst bs_nodup] in Hnd. apply andb_prop in Hnd as [Hn Hnd].
  cbn [enum_by_name]. destruct Hin as [E|Hin].
  - inversion E; subst. rewrite bs_eqb_refl. reflexivity.
  - destruct (bs_eqb n name) eqn:E.
    + apply bs_eqb_eq in E. subst n. exfalso.
      apply negb_true_iff in Hn. assert (existsb (bs_eqb name) (map fst r) = true); [|congruence].
      apply existsb_exists. exists name. split; [|apply bs_eqb_refl].
      change name with (fst (name, z)). apply in_map, Hin.
    + apply IH; assumption.
Qed.

Lemma enum_ok_roundtrip ed z name :
  enum_ok ed = true -> enum_by_number (e_vals ed) z = Some name ->
  enum_by_name (e_vals ed) name = Some z /\ enum_name_ok name = true.
Proof.
  unfold enum_ok. intros H Hn. apply andb_prop in H as [H1 H2].
  apply enum_by_number_in in Hn. split.
  - apply enum_by_name_nodup; assumption.
  - rewrite forallb_forall in H2. apply (H2 (name, z) Hn).
Qed.

Lemma tin_u32_of_N n : n <? 4294967296 = true -> tin_u32 (Z.of_N n) = true.
Proof. unfold tin_u32. lia. Qed.
Lemma tin_u64_of_N n : n <? 18446744073709551616 = true -> tin_u64 (Z.of_N n) = true.
Proof. unfold tin_u64. lia. Qed.

Lemma tdec_int_rt ok z : ok z = true -> tdec_int ok (TInt z) = TOk z.
Proof. intros H. unfold tdec_int, tok_int, tbind. now rewrite H. Qed.

Lemma tdec_uint_rt ok n : ok (Z.of_N n) = true ->
  (z <~ tdec_int ok (TInt (Z.of_N n)) ;; TOk (SN (Z.to_N z))) = TOk (SN n).
Proof. intros H. rewrite tdec_int_rt by exact H. cbn [tbind]. now rewrite N2Z.id. Qed.

Lemma text_float32_rt b :
  nan_canon32 b = true -> tdec_float32 (text_float32 b) = TOk b.
Proof.
  unfold nan_canon32, text_float32, f32_is_pinf, f32_is_ninf. intros H.
  destruct (f32_is_nan b); [apply N.eqb_eq in H; subst b; reflexivity|].
  destruct (N.eqb_spec b 2139095040) as [->|_]; [reflexivity|].
  destruct (N.eqb_spec b 4286578688) as [->|_]; reflexivity.
Qed.

Lemma text_float64_rt b :
  nan_canon64 b = true -> tdec_float64 (text_float64 b) = TOk b.
Proof.
  unfold nan_canon64, text_float64, f64_is_pinf, f64_is_ninf. intros H.
  destruct (f64_is_nan b); [apply N.eqb_eq in H; subst b; reflexivity|].
  destruct (N.eqb_spec b 9218868437227405312) as [->|_]; [reflexivity|].
  destruct (N.eqb_spec b 18442240474082181120) as [->|_]; reflexivity.
Qed.

Lemma bool_lit_true : bool_lit t_true = Some true. Proof. reflexivity. Qed.
Lemma bool_lit_false : bool_lit t_false = Some false. Proof. reflexivity. Qed.

Lemma text_scalar_rt ed utf8 sk s :
  rt_scalar_ok utf8 sk s = true ->
  (sk = SkEnum -> enum_ok ed = true) ->
  exists t, text_scalar ed utf8 sk s = TOk t /\ tdec_scalar ed utf8 sk t = TOk s.
Proof.
  unfold rt_scalar_ok. intros H He.
  apply andb_prop in H as [H Hnan]. apply andb_prop in H as [Hok Hstr].
  destruct sk, s; cbn [sk_ok] in Hok; try discriminate; cbn [text_scalar tdec_scalar].
  - (* double *) eexists; split; [reflexivity|]. now rewrite (text_float64_rt _ Hnan).
  - (* float *) eexists; split; [reflexivity|]. now rewrite (text_float32_rt _ Hnan).
  - (* int64 *) eexists; split; [reflexivity|]. now rewrite tdec_int_rt.
  - (* uint64 *) eexists; split; [reflexivity|]. apply tdec_uint_rt, tin_u64_of_N, Hok.
  - (* int32 *) eexists; split; [reflexivity|]. now rewrite tdec_int_rt.
  - (* fixed64 *) eexists; split; [reflexivity|]. apply tdec_uint_rt, tin_u64_of_N, Hok.
  - (* fixed32 *) eexists; split; [reflexivity|]. apply tdec_uint_rt, tin_u32_of_N, Hok.
  - (* bool *) eexists; split; [reflexivity|]. destruct b; reflexivity.
  - (* string *) cbn [msg_str_valid] in Hstr.
    destruct (utf8 && negb (msg_utf8_valid bs)) eqn:E.
    + exfalso. destruct utf8; cbn [negb orb andb] in *; [|discriminate]. rewrite Hstr in E. discriminate.
    + eexists; split; [reflexivity|]. cbn [tdec_scalar]. rewrite E. reflexivity.
  - (* bytes *) eexists; split; reflexivity.
  - (* uint32 *) eexists; split; [reflexivity|]. apply tdec_uint_rt, tin_u32_of_N, Hok.
  - (* enum *)
    destruct (enum_by_number (e_vals ed) z) as [name|] eqn:En.
    + destruct (enum_ok_roundtrip ed z name (He eq_refl) En) as [Hname Hnok].
      eexists; split; [reflexivity|]. unfold tbind, tdec_enum, tok_ident.
      unfold enum_name_ok in Hnok. destruct name as [|c name]; [discriminate|].
      apply negb_true_iff in Hnok. rewrite Hnok, Hname. reflexivity.
    + eexists; split; [reflexivity|]. unfold tdec_enum, tok_ident. now rewrite tdec_int_rt.
  - (* sfixed32 *) eexists; split; [reflexivity|]. now rewrite tdec_int_rt.
  - (* sfixed64 *) eexists; split; [reflexivity|]. now rewrite tdec_int_rt.
  - (* sint32 *) eexists; split; [reflexivity|]. now rewrite tdec_int_rt.
  - (* sint64 *) eexists; split; [reflexivity|]. now rewrite tdec_int_rt.
Qed.
