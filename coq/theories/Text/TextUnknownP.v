(* Proofs about Text/TextUnknownModel.v: rendering a well-formed unknown-field
   set never reaches a Panic outcome (C25).

   The byte-level part is stated over an abstract predicate [wf] on field
   sequences with one property, [wf_step]: "a non-empty well-formed field
   sequence starts with a field that the Consume* functions accept, and what
   follows (and the body of a group, as returned by ConsumeGroup) is again
   well formed".  Text/TextUnknownWireP.v instantiates it with the wire
   grammar of Wire/WireGrammar.v.  The Encoder part (prepareNext never slices
   below zero on the token streams marshalUnknown produces) needs no such
   property. *)
From Coq Require Import List Arith NArith ZArith Lia Bool.
From Coq Require Import ZifyBool ZifyNat ZifyN.
From PB Require Import Base.PBytes Wire.WireModel Text.TextStrModel Text.TextFmtModel Text.TextUnknownModel.
Import ListNotations.
Open Scope N_scope.

Inductive wf_toks : list utok -> Prop :=
| wt_nil : wf_toks []
| wt_scalar num t rest : tok_type t = TScalar -> wf_toks rest -> wf_toks (UName num :: t :: rest)
| wt_group num inner rest : wf_toks inner -> wf_toks rest ->
    wf_toks (UName num :: UOpen :: inner ++ UClose :: rest).

Definition push (c : enc_cfg) (s : enc_state) (t : utok) : option enc_state :=
  match prepare_next c s (tok_type t) with
  | None => None
  | Some s' => Some {| es_last := es_last s'; es_indents := es_indents s'; es_out := es_out s' ++ tok_bytes c t |}
  end.

Lemma render_toks_cons c s t r :
  render_toks c s (t :: r) = match push c s t with None => None | Some s' => render_toks c s' r end.
Proof. unfold push. cbn [render_toks]. destruct (prepare_next c s (tok_type t)); reflexivity. Qed.

Lemma render_toks_app c : forall a s b,
  render_toks c s (a ++ b) = match render_toks c s a with None => None | Some s' => render_toks c s' b end.
Proof.
  induction a as [|t a IH]; intros s b; [reflexivity|].
  cbn [app]. rewrite !render_toks_cons. destruct (push c s t); [apply IH|reflexivity].
Qed.

Definition settled (l : etype) : Prop := l = TScalar \/ l = TClose.
Definition indents_after (c : enc_cfg) (s : enc_state) : list byte :=
  match es_last s with TOpen => es_indents s ++ ec_indent c | _ => es_indents s end.

(* single line: prepareNext cannot fail *)
Lemma render_single c : is_nil (ec_indent c) = true -> forall ts s, exists s', render_toks c s ts = Some s'.
Proof.
  intros Hn. induction ts as [|t ts IH]; intros s; [eexists; reflexivity|].
  rewrite render_toks_cons. unfold push, prepare_next. rewrite Hn. apply IH.
Qed.

(* a field name can follow anything but a field name *)
Lemma push_name c : is_nil (ec_indent c) = false -> forall num s, es_last s <> TName ->
  exists s1, push c s (UName num) = Some s1 /\ es_last s1 = TName /\ es_indents s1 = indents_after c s.
Proof.
  intros Hn num s Hs. unfold push, prepare_next, indents_after. rewrite Hn. cbn [tok_type].
  destruct (es_last s); try congruence; eexists; (split; [reflexivity|split; reflexivity]).
Qed.

(* a closing brace takes back the level its opening brace added *)
Lemma push_close c : is_nil (ec_indent c) = false -> forall s l,
  es_last s = TOpen \/ settled (es_last s) -> indents_after c s = l ++ ec_indent c ->
  exists s', push c s UClose = Some s' /\ es_last s' = TClose /\ es_indents s' = l.
Proof.
  intros Hn s l Hl Hi. unfold push, prepare_next, indents_after in *. rewrite Hn. cbn [tok_type].
  destruct Hl as [Hl|Hl].
  - rewrite Hl in *. apply app_inv_tail in Hi. eexists. split; [reflexivity|split; [reflexivity|exact Hi]].
  - assert (He : es_indents s = l ++ ec_indent c) by (destruct Hl as [Hl|Hl]; rewrite Hl in Hi; exact Hi).
    rewrite He, app_length, Nat.add_sub, firstn_app, Nat.sub_diag, firstn_all, firstn_O, app_nil_r.
    replace (Nat.ltb _ _) with false by (symmetry; apply Nat.ltb_ge; lia).
    destruct Hl as [-> | ->]; eexists; (split; [reflexivity|split; reflexivity]).
Qed.

(* multi line: a well-formed stream leaves the level (the indentation of the
   next field name) where it was *)
Lemma render_multi c : is_nil (ec_indent c) = false -> forall ts, wf_toks ts ->
  forall s, es_last s <> TName ->
  exists s', render_toks c s ts = Some s' /\
             (es_last s' = es_last s \/ settled (es_last s')) /\
             indents_after c s' = indents_after c s.
Proof.
  intros Hn ts H. induction H as [|num t rest Ht Hrest IHrest|num inner rest Hinner IHinner Hrest IHrest]; intros s Hs.
  - exists s. auto.
  - (* Name Scalar rest *)
    rewrite render_toks_cons. destruct (push_name c Hn num s Hs) as (s1 & -> & L1 & I1).
    rewrite render_toks_cons.
    assert (exists s2, push c s1 t = Some s2 /\ es_last s2 = TScalar /\ es_indents s2 = es_indents s1) as (s2 & -> & L2 & I2).
    { unfold push, prepare_next. rewrite Hn, L1, Ht. eexists. split; [reflexivity|split; reflexivity]. }
    destruct (IHrest s2 ltac:(congruence)) as (s' & Hr & Hl & Hi).
    exists s'. split; [exact Hr|]. split.
    + right. destruct Hl as [Hl|Hl]; [left; congruence|exact Hl].
    + rewrite Hi. unfold indents_after at 1. rewrite L2. congruence.
  - (* Name Open inner Close rest *)
    rewrite render_toks_cons. destruct (push_name c Hn num s Hs) as (s1 & -> & L1 & I1).
    rewrite render_toks_cons.
    assert (exists s2, push c s1 UOpen = Some s2 /\ es_last s2 = TOpen /\ es_indents s2 = es_indents s1) as (s2 & -> & L2 & I2).
    { unfold push, prepare_next. rewrite Hn, L1. cbn [tok_type]. eexists. split; [reflexivity|split; reflexivity]. }
    rewrite render_toks_app.
    destruct (IHinner s2 ltac:(congruence)) as (s3 & -> & Hl3 & Hi3).
    rewrite render_toks_cons.
    destruct (push_close c Hn s3 (es_indents s1)) as (s4 & -> & L4 & I4).
    { rewrite L2 in Hl3. exact Hl3. }
    { rewrite Hi3. unfold indents_after. now rewrite L2, I2. }
    destruct (IHrest s4 ltac:(congruence)) as (s' & Hr & Hl & Hi).
    exists s'. split; [exact Hr|]. split.
    + right. destruct Hl as [Hl|Hl]; [right; congruence|exact Hl].
    + rewrite Hi. unfold indents_after at 1. rewrite L4. congruence.
Qed.

Theorem render_toks_total c ts : wf_toks ts ->
  exists s', render_toks c {| es_last := TZero; es_indents := []; es_out := [] |} ts = Some s'.
Proof.
  intros H. destruct (is_nil (ec_indent c)) eqn:E.
  - apply render_single. exact E.
  - destruct (render_multi c E ts H {| es_last := TZero; es_indents := []; es_out := [] |}) as (s' & Hr & _);
      [cbn; discriminate|]. eauto.
Qed.

Section Scanner.
  (* [wf d bs]: bs is a well-formed field sequence with at most d group levels *)
  Variable wf : nat -> list byte -> Prop.

  Definition field_step (d : nat) (bs : list byte) : Prop :=
    exists num typ b1, dec_tag bs = Ok (num, typ, b1) /\
      ((typ = 0 /\ exists v b2, dec_varint b1 = Ok (v, b2) /\ wf d b2 /\ (length b2 < length bs)%nat) \/
       (typ = 5 /\ exists v b2, dec_fixed32 b1 = Ok (v, b2) /\ wf d b2 /\ (length b2 < length bs)%nat) \/
       (typ = 1 /\ exists v b2, dec_fixed64 b1 = Ok (v, b2) /\ wf d b2 /\ (length b2 < length bs)%nat) \/
       (typ = 2 /\ exists v b2, dec_bytes b1 = Ok (v, b2) /\ wf d b2 /\ (length b2 < length bs)%nat) \/
       (typ = 3 /\ exists body n d', d = S d' /\ consume_group num b1 = Ok (Some body, n) /\
                   wf d' body /\ wf d (skipn (N.to_nat n) b1) /\
                   (length body < length bs)%nat /\ (length (skipn (N.to_nat n) b1) < length bs)%nat)).

  Hypothesis wf_step : forall d bs, wf d bs -> bs <> [] -> field_step d bs.

  Lemma mu_app_ok a r ts : r = MuOk ts -> mu_app a r = MuOk (a ++ ts).
  Proof. intros ->. reflexivity. Qed.

  Lemma marshal_unknown_toks_ok : forall fuel d bs, wf d bs -> (length bs < fuel)%nat ->
    exists ts, marshal_unknown_toks fuel bs = MuOk ts /\ wf_toks ts.
  Proof.
    induction fuel as [|fuel IH]; intros d bs Hwf Hlen; [lia|].
    destruct bs as [|b0 bs0]; [exists []; split; [reflexivity|constructor]|].
    destruct (wf_step d _ Hwf ltac:(discriminate)) as (num & typ & b1 & Htag & Hcase).
    cbn [marshal_unknown_toks]. rewrite Htag.
    assert (Hscalar : forall t b2, tok_type t = TScalar -> wf d b2 -> (length b2 < length (b0 :: bs0))%nat ->
              exists ts, mu_app [UName num; t] (marshal_unknown_toks fuel b2) = MuOk ts /\ wf_toks ts).
    { intros t b2 Ht Hw Hl. destruct (IH d b2 Hw ltac:(lia)) as (ts & Hts & Hwt).
      eexists. split; [apply mu_app_ok; exact Hts|]. cbn [app]. now constructor. }
    destruct Hcase as [(-> & v & b2 & Hv & Hw & Hl) | [(-> & v & b2 & Hv & Hw & Hl) | [(-> & v & b2 & Hv & Hw & Hl) |
                       [(-> & v & b2 & Hv & Hw & Hl) | (-> & body & n & d' & -> & Hg & Hwb & Hwr & Hlb & Hlr)]]]].
    - rewrite Hv. now apply Hscalar.
    - rewrite Hv. now apply Hscalar.
    - rewrite Hv. now apply Hscalar.
    - rewrite Hv. now apply Hscalar.
    - rewrite Hg. destruct (IH d' body Hwb ltac:(lia)) as (ti & Hti & Hwi). rewrite Hti.
      destruct (IH (S d') _ Hwr ltac:(lia)) as (ts & Hts & Hwt).
      eexists. split; [apply mu_app_ok; exact Hts|].
      cbn [app]. rewrite <- app_assoc. cbn [app]. now constructor.
  Qed.

  Theorem marshal_unknown_total c d bs : wf d bs -> exists out, marshal_unknown c bs = Some out.
  Proof.
    intros Hwf. unfold marshal_unknown.
    destruct (marshal_unknown_toks_ok (S (length bs)) d bs Hwf ltac:(lia)) as (ts & -> & Hwt).
    destruct (render_toks_total c ts Hwt) as (s' & ->). eauto.
  Qed.
End Scanner.
