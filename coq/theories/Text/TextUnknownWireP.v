(* Discharges the wire-grammar hypothesis of Text/TextUnknownP.v with the
   scanner theorems of Wire/ScanP.v (C02): rendering the unknown fields of
   any byte string that the wire parser accepts never panics. *)
From Coq Require Import List Arith NArith ZArith Lia Bool.
From Coq Require Import ZifyBool ZifyNat ZifyN.
From PB Require Import Base.PBytes Base.PBytesP Wire.WireModel Wire.WireGrammar Wire.VarintP Wire.ScanP
  Text.TextStrModel Text.TextUnknownModel Text.TextUnknownP.
Import ListNotations.
Open Scope N_scope.

(* well formed with at most d <= 10001 group levels (Go: depth 10000) *)
Definition wf_unknown (d : nat) (bs : list byte) : Prop :=
  (d <= N.to_nat 10001)%nat /\ wf_fields d bs.

Lemma wf_unknown_step d bs : wf_unknown d bs -> bs <> [] -> field_step wf_unknown d bs.
Proof.
  intros [Hd H] Hne. unfold wf_fields in H.
  inversion H as [|tag num typ val rest Htag Hn4 Hv Hrest Heq]; subst; [congruence|].
  pose proof (is_tag_len _ _ _ Htag) as Hlt.
  assert (Hrw : wf_unknown d rest) by (split; assumption).
  assert (Hlr : (length rest < length (tag ++ val ++ rest))%nat) by (rewrite !app_length; lia).
  exists num, typ, (val ++ rest). split; [now apply dec_tag_complete|].
  rewrite wf_value_eq in Hv.
  assert (Ht : typ < 8) by (destruct Htag as (_ & _ & Ht & _); exact Ht).
  assert (Hc : typ = 0 \/ typ = 1 \/ typ = 2 \/ typ = 3 \/ typ = 4 \/ typ = 5 \/ typ = 6 \/ typ = 7) by lia.
  destruct Hc as [->|[->|[->|[->|[->|[->|[->| ->]]]]]]]; cbv iota in Hv; try contradiction; try congruence.
  - (* varint *)
    left. split; [reflexivity|]. exists (varint_val val), rest.
    split; [now apply dec_varint_complete|]. split; assumption.
  - (* fixed64 *)
    right; right; left. split; [reflexivity|]. exists (dec_le val), rest.
    split; [|split; assumption]. unfold dec_fixed64, dec_fixed. rewrite <- Hv, take_app. reflexivity.
  - (* bytes *)
    right; right; right; left. split; [reflexivity|].
    destruct Hv as (p & payload & -> & Hs & Hvv). exists payload, rest.
    split; [|split; assumption]. rewrite <- app_assoc. now apply dec_bytes_complete.
  - (* group *)
    right; right; right; right. split; [reflexivity|].
    destruct d as [|d']; [contradiction|]. destruct Hv as (body & etag & -> & Hseq & Het).
    pose proof (is_tag_len _ _ _ Het) as Hle.
    exists body, (N.of_nat (length body + length etag)), d'. split; [reflexivity|].
    assert (Hd' : (d' <= N.to_nat 10000)%nat) by lia.
    split; [rewrite <- app_assoc; now apply (consume_group_complete_le d')|].
    split; [split; [lia|exact Hseq]|].
    rewrite Nat2N.id, <- app_length, skipn_app_len.
    split; [exact Hrw|]. rewrite !app_length in *. lia.
  - (* fixed32 *)
    right; left. split; [reflexivity|]. exists (dec_le val), rest.
    split; [|split; assumption]. unfold dec_fixed32, dec_fixed. rewrite <- Hv, take_app. reflexivity.
Qed.

(* the wire parser only accepts members of the grammar *)
Lemma parse_fields_wf dep : forall g bs acc fs,
  parse_fields g dep bs acc = Ok fs -> wf_fields dep bs.
Proof.
  induction g as [|x g IH]; intros bs acc fs H; [discriminate|].
  cbn [parse_fields] in H. destruct bs as [|b0 bs0]; [constructor|].
  destruct (dec_tag (b0 :: bs0)) as [[[n t] r]|e] eqn:Et; [|discriminate].
  destruct (parse_val dep n t r) as [[v r']|e] eqn:Ev; [|discriminate].
  apply dec_tag_sound in Et. destruct Et as (p & Hp & Htag).
  pose proof Ev as Ev'. apply parse_val_sound in Ev. destruct Ev as (val & -> & Hval).
  rewrite Hp. unfold wf_fields. apply wf_seq_cons with (num := n) (typ := t); try assumption.
  - intros ->. rewrite parse_val_eq in Ev'. discriminate.
  - eapply IH. exact H.
Qed.

Theorem marshal_unknown_total_wf c d bs : (d <= N.to_nat 10001)%nat -> wf_fields d bs ->
  exists out, marshal_unknown c bs = Some out.
Proof.
  intros Hd H. apply (marshal_unknown_total wf_unknown wf_unknown_step c d bs). split; assumption.
Qed.

(* for every option setting and every byte string that the wire parser
   accepts as a field sequence (the unknown-field grammar of C02): no Panic *)
Theorem marshal_unknown_total_parsed c bs fs :
  parse_fields (x00 :: bs) default_dep bs [] = Ok fs -> exists out, marshal_unknown c bs = Some out.
Proof.
  intros H. apply parse_fields_wf in H.
  apply (marshal_unknown_total_wf c default_dep bs); [unfold default_dep; lia|exact H].
Qed.
