(* Proofs about Text/TextFmtModel.v: FormatUint/FormatInt then ParseUint/ParseInt
   is the identity (bases 2..16). *)
From Coq Require Import List Arith NArith ZArith Lia Bool.
From Coq Require Import ZifyBool ZifyNat ZifyN.
From PB Require Import Base.PBytes Text.TextStrModel Text.TextStrP Text.TextFmtModel.
Import ListNotations.
Open Scope N_scope.

Definition is_dig (b : byte) : Prop := exists d, d < 16 /\ b = hexdig d.

Lemma is_dig_range b : is_dig b -> 48 <= b2n b <= 57 \/ 97 <= b2n b <= 102.
Proof. intros (d & Hd & ->). unfold hexdig. destruct (d <? 10) eqn:E; rewrite b2n_n2b by lia; lia. Qed.

Lemma is_dig_not_sign b : is_dig b -> b2n b <> 45 /\ b2n b <> 43 /\ printable b.
Proof. intros H. apply is_dig_range in H. unfold printable. lia. Qed.

Lemma fmt_base_fuel_spec base : 2 <= base <= 16 -> forall fuel v,
  v < base ^ N.of_nat (S fuel) ->
  digits_val base 0 (fmt_base_fuel fuel base v) = Some v /\
  Forall is_dig (fmt_base_fuel fuel base v) /\ fmt_base_fuel fuel base v <> [].
Proof.
  intros Hb. induction fuel as [|fuel IH]; intros v Hv.
  - change (N.of_nat 1) with 1 in Hv. rewrite N.pow_1_r in Hv.
    cbn [fmt_base_fuel digits_val]. rewrite N.mod_small by lia.
    rewrite hexval_hexdig by lia. replace (v <? base) with true by lia.
    split; [f_equal; lia|]. split; [|discriminate]. constructor; [|constructor]. exists v. split; [lia|reflexivity].
  - cbn [fmt_base_fuel]. destruct (v <? base) eqn:E.
    + cbn [digits_val]. rewrite hexval_hexdig by lia. rewrite E.
      split; [f_equal; lia|]. split; [|discriminate]. constructor; [|constructor]. exists v. split; [lia|reflexivity].
    + assert (Hq : v / base < base ^ N.of_nat (S fuel)).
      { rewrite (Nat2N.inj_succ (S fuel)), N.pow_succ_r' in Hv. apply N.div_lt_upper_bound; lia. }
      destruct (IH _ Hq) as (H1 & H2 & H3).
      assert (Hm : v mod base < base) by (apply N.mod_lt; lia).
      split; [|split].
      * rewrite digits_val_app, H1. cbn [digits_val]. rewrite hexval_hexdig by lia.
        replace (v mod base <? base) with true by lia. f_equal.
        pose proof (N.div_mod v base ltac:(lia)). lia.
      * apply Forall_app; split; [assumption|]. constructor; [|constructor].
        exists (v mod base). split; [lia|reflexivity].
      * intros H. apply app_eq_nil in H. destruct H; discriminate.
Qed.

Lemma fmt_base_spec base v : 2 <= base <= 16 ->
  parse_uint base (fmt_base base v) = Some v /\ Forall is_dig (fmt_base base v) /\ fmt_base base v <> [].
Proof.
  intros Hb. unfold fmt_base.
  assert (Hv : v < base ^ N.of_nat (S (N.to_nat (N.size v)))) by (apply lt_pow_succ_size; lia).
  destruct (fmt_base_fuel_spec base Hb _ _ Hv) as (H1 & H2 & H3).
  split; [|split; assumption]. unfold parse_uint.
  destruct (fmt_base_fuel (N.to_nat (N.size v)) base v) eqn:E; [congruence|exact H1].
Qed.

Theorem parse_fmt_dec bits v : v < 2 ^ bits -> parse_uint10 bits (fmt_dec v) = Some v.
Proof.
  intros Hv. unfold parse_uint10, fmt_dec.
  destruct (fmt_base_spec 10 v ltac:(lia)) as (-> & _ & _).
  replace (v <? 2 ^ bits) with true by lia. reflexivity.
Qed.

Theorem parse_fmt_int bits z : 0 < bits ->
  (- 2 ^ Z.of_N (bits - 1) <= z < 2 ^ Z.of_N (bits - 1))%Z -> parse_int10 bits (fmt_int z) = Some z.
Proof.
  intros Hb Hz. unfold fmt_int, parse_int10.
  assert (Hp : 2 ^ bits = 2 * 2 ^ (bits - 1)).
  { rewrite <- N.pow_succ_r'. f_equal. lia. }
  assert (Hzn : (2 ^ Z.of_N (bits - 1))%Z = Z.of_N (2 ^ (bits - 1))) by (rewrite N2Z.inj_pow; reflexivity).
  destruct (z <? 0)%Z eqn:E.
  - change (b2n x2d) with 45. cbn [N.eqb Pos.eqb].
    rewrite parse_fmt_dec by lia.
    replace (Z.to_N (- z) <=? 2 ^ (bits - 1)) with true by lia. f_equal. lia.
  - destruct (fmt_base_spec 10 (Z.to_N z) ltac:(lia)) as (_ & Hd & Hne).
    unfold fmt_dec in *. destruct (fmt_base 10 (Z.to_N z)) as [|c r] eqn:Ef; [congruence|].
    inversion Hd as [|? ? Hc _]; subst. destruct (is_dig_not_sign c Hc) as (H45 & H43 & _).
    replace (b2n c =? 45) with false by lia. replace (b2n c =? 43) with false by lia.
    rewrite <- Ef. change (fmt_base 10 (Z.to_N z)) with (fmt_dec (Z.to_N z)).
    rewrite parse_fmt_dec by lia.
    replace (Z.to_N z <? 2 ^ (bits - 1)) with true by lia. f_equal. lia.
Qed.

Lemma fmt_dec_printable v : Forall printable (fmt_dec v).
Proof.
  destruct (fmt_base_spec 10 v ltac:(lia)) as (_ & Hd & _). unfold fmt_dec.
  eapply Forall_impl; [|exact Hd]. intros b Hb. now apply is_dig_not_sign.
Qed.
