(* go_eq_spec for text/encode.go appendString, on top of Text/TextEscGoP.v
   (indexNeedEscapeInString, slices, the zero padding): the translated loop equals
   enc_loop_run, the translated function equals append_string. *)
From Coq Require Import List Arith NArith ZArith Lia Bool.
From Coq Require Import ZifyBool ZifyNat ZifyN.
From PB Require Import Base.PBytes Base.GoInt Base.Utf8Model Base.Utf8P.
From PB Require Import Text.TextStrModel Text.TextStrP Text.TextEscGoSup.
From PB Require Import Gen.TextEscGo Text.TextEscGoP.
Import ListNotations.
Open Scope Z_scope.

(* the first escaping arm (after the backslash is decided): inner switch *)
Definition esc1 (k : list Z -> list Z -> outcome (list Z)) (v_out v_in : list Z) (v_r v_n : Z) : outcome (list Z) :=
  let v_out := v_out ++ [92] in
  if (v_r =? 34) || (v_r =? 92) then
    bind (slice_lo v_in v_n) (fun t => k (v_out ++ [wrap_u8 v_r]) t)
  else if v_r =? 10 then bind (slice_lo v_in v_n) (fun t => k (v_out ++ [110]) t)
  else if v_r =? 13 then bind (slice_lo v_in v_n) (fun t => k (v_out ++ [114]) t)
  else if v_r =? 9 then bind (slice_lo v_in v_n) (fun t => k (v_out ++ [116]) t)
  else
    bind (slice_lo [48; 48] (pad_idx v_r)) (fun t9 =>
    bind (slice_lo v_in v_n) (fun t => k (strconv_AppendUint ((v_out ++ [120]) ++ t9) (wrap_u64 v_r) 16) t)).

(* the \u / \U arm *)
Definition esc2 (k : list Z -> list Z -> outcome (list Z)) (v_out v_in : list Z) (v_r v_n : Z) : outcome (list Z) :=
  let v_out := v_out ++ [92] in
  if v_r <=? 65535 then
    bind (slice_lo [48; 48; 48; 48] (pad_idx v_r)) (fun t17 =>
    bind (slice_lo v_in v_n) (fun t => k (strconv_AppendUint ((v_out ++ [117]) ++ t17) (wrap_u64 v_r) 16) t))
  else
    bind (slice_lo [48; 48; 48; 48; 48; 48; 48; 48] (pad_idx v_r)) (fun t19 =>
    bind (slice_lo v_in v_n) (fun t => k (strconv_AppendUint ((v_out ++ [85]) ++ t19) (wrap_u64 v_r) 16) t)).

(* the default arm: copy the rune and the run of plain bytes after it *)
Definition esc3 (k : list Z -> list Z -> outcome (list Z)) (v_out v_in : list Z) (v_n : Z) : outcome (list Z) :=
  bind (slice_lo v_in v_n) (fun t21 =>
  bind (go_indexNeedEscapeInString t21) (fun i =>
  bind (slice_lo v_in (wrap_i64 (v_n + i))) (fun t23 =>
  bind (slice_hi v_in (wrap_i64 (v_n + i))) (fun t24 => k (v_out ++ t24) t23)))).

(* one iteration of the loop, [k] standing for the rest of the loop *)
Definition esc_body (ascii : bool) (k : list Z -> list Z -> outcome (list Z)) (v_out v_in : list Z) : outcome (list Z) :=
  if 0 <? len v_in then
    let '(v_r, v_n) := utf8_DecodeRuneInString v_in in
    if (v_r =? 65533) && (v_n =? 1) then
      bind (index v_in 0) (fun t4 => esc1 k v_out v_in (wrap_i32 t4) v_n)
    else if (((v_r <? 32) || (v_r =? 34)) || (v_r =? 92)) || (v_r =? 127) then
      esc1 k v_out v_in v_r v_n
    else if (128 <=? v_r) && (ascii || (v_r <=? 159)) then
      esc2 k v_out v_in v_r v_n
    else esc3 k v_out v_in v_n
  else Val (v_out ++ [34]).

Definition esc_loop (ascii : bool) :=
  fix loop1 (lfuel : nat) (v_out v_in : list Z) {struct lfuel} : outcome (list Z) :=
    match lfuel with
    | O => Fuel
    | S lfuel' => esc_body ascii (loop1 lfuel') v_out v_in
    end.

Lemma appendString_shape out inp ascii :
  go_appendString out inp ascii =
  bind (go_indexNeedEscapeInString inp) (fun i =>
  bind (slice_lo inp i) (fun t2 =>
  bind (slice_hi inp i) (fun t3 =>
  esc_loop ascii (S (length ((out ++ [34]) ++ t3) + length t2)) ((out ++ [34]) ++ t3) t2))).
Proof.
  (* Where two different constants meet, the kernel opens the right-hand one
     first.  With the generated function as the left-hand term, esc_body and
     esc1..esc3 are opened against the already inlined generated text.
     [reflexivity] builds eq_refl of the right-hand side and so compares the
     other way round: [bind] in the generated text is opened against a folded
     esc1 and its stuck argument evaluated, a hundred times the cost. *)
  exact (eq_refl (go_appendString out inp ascii)).
Qed.

Lemma esc_loop_S ascii lfuel v_out v_in :
  esc_loop ascii (S lfuel) v_out v_in = esc_body ascii (esc_loop ascii lfuel) v_out v_in.
Proof. reflexivity. Qed.

Lemma strconv_hex out r : (r < 4294967296)%N ->
  strconv_AppendUint out (wrap_u64 (Z.of_N r)) 16 = out ++ zb (fmt_base 16 r).
Proof.
  intros H. unfold strconv_AppendUint. rewrite wrap_u64_small by lia. rewrite N2Z.id. reflexivity.
Qed.

Lemma enc_loop_run_fuel f f' ascii bs : (length bs <= f)%nat -> (length bs <= f')%nat ->
  enc_loop_run f ascii bs = enc_loop_run f' ascii bs.
Proof. intros H1 H2. rewrite !enc_loop_run_eq by assumption. now apply enc_loop_fuel. Qed.

Ltac fin := rewrite ?zb_app, <- ?app_assoc; reflexivity.

Lemma zn_eqb r z : 0 <= z -> (Z.of_N r =? z) = (r =? Z.to_N z)%N.
Proof. intros H. destruct (N.eqb_spec r (Z.to_N z)); lia. Qed.

Lemma esc1_spec k out bs r n : (r < 256)%N -> (n <= length bs)%nat ->
  esc1 k out (zb bs) (Z.of_N r) (Z.of_nat n) = k (out ++ zb (x5c :: esc_simple r)) (zb (skipn n bs)).
Proof.
  intros Hr Hn. unfold esc1, esc_simple. cbv zeta. rewrite slice_lo_zb by assumption. cbn [bind].
  rewrite !zn_eqb by discriminate. cbn [Z.to_N].
  destruct (N.eqb_spec r 34) as [->|_]; [fin|]. destruct (N.eqb_spec r 92) as [->|_]; [fin|]. cbn [orb].
  destruct (r =? 10)%N; [fin|]. destruct (r =? 13)%N; [fin|]. destruct (r =? 9)%N; [fin|].
  change [48; 48] with (repeat 48 2).
  rewrite (pad_slice 2 r) by (try lia; apply (size_le r 8); lia).
  cbn [bind]. rewrite strconv_hex by lia. unfold go_hex_pad.
  change (zb (x5c :: x78 :: ?L)) with (92 :: 120 :: zb L). fin.
Qed.

Lemma esc2_spec k out bs r n : (128 <= r <= max_rune)%N -> (n <= length bs)%nat ->
  esc2 k out (zb bs) (Z.of_N r) (Z.of_nat n) = k (out ++ zb (x5c :: esc_unicode r)) (zb (skipn n bs)).
Proof.
  unfold max_rune. intros Hr Hn. unfold esc2, esc_unicode. cbv zeta.
  rewrite slice_lo_zb by assumption. cbn [bind].
  destruct (r <=? 65535)%N eqn:E.
  - replace (Z.of_N r <=? 65535) with true by lia.
    change [48; 48; 48; 48] with (repeat 48 4).
    rewrite (pad_slice 4 r) by (try lia; apply (size_le r 16); lia).
    cbn [bind]. rewrite strconv_hex by lia. unfold go_hex_pad.
    change (zb (x5c :: x75 :: ?L)) with (92 :: 117 :: zb L). fin.
  - replace (Z.of_N r <=? 65535) with false by lia.
    change [48; 48; 48; 48; 48; 48; 48; 48] with (repeat 48 8).
    rewrite (pad_slice 8 r) by (try lia; apply (size_le r 32); lia).
    cbn [bind]. rewrite strconv_hex by lia. unfold go_hex_pad.
    change (zb (x5c :: x55 :: ?L)) with (92 :: 85 :: zb L). fin.
Qed.

Lemma esc3_spec k out bs n : Z.of_nat (length bs) < 2^63 -> (n <= length bs)%nat ->
  esc3 k out (zb bs) (Z.of_nat n) =
  k (out ++ zb (firstn (n + index_need_escape (skipn n bs)) bs)) (zb (skipn (n + index_need_escape (skipn n bs)) bs)).
Proof.
  intros Hbs Hn. set (i := index_need_escape (skipn n bs)). change (2^63) with 9223372036854775808 in Hbs.
  pose proof (index_need_escape_le (skipn n bs)) as Hi. fold i in Hi. rewrite skipn_length in Hi.
  unfold esc3. rewrite slice_lo_zb by assumption. cbn [bind].
  rewrite go_indexNeedEscapeInString_spec
    by (rewrite skipn_length; change (2^63) with 9223372036854775808; lia).
  cbn [bind]. fold i. rewrite wrap_i64_small by lia. rewrite <- Nat2Z.inj_add.
  rewrite slice_lo_zb by lia. cbn [bind]. rewrite slice_hi_zb by lia. reflexivity.
Qed.

Lemma esc_loop_spec ascii : forall lfuel out bs, (length bs < lfuel)%nat -> Z.of_nat (length bs) < 2^63 ->
  esc_loop ascii lfuel out (zb bs) = Val (out ++ zb (enc_loop_run (length bs) ascii bs) ++ [34]).
Proof.
  induction lfuel as [|lfuel IH]; intros out bs Hf Hbs; [lia|].
  rewrite esc_loop_S. unfold esc_body. rewrite len_zb. destruct bs as [|b0 t].
  { reflexivity. }
  replace (0 <? Z.of_nat (length (b0 :: t))) with true by (cbn [length]; lia).
  unfold utf8_DecodeRuneInString. rewrite unzb.
  pose proof (decode_rune_nonempty_pos b0 t) as Hn1.
  pose proof (decode_rune_le_length (b0 :: t)) as Hn2.
  change (length (b0 :: t)) with (S (length t)). rewrite enc_loop_run_S by discriminate.
  unfold enc_step_of. cbv zeta.
  destruct (decode_rune (b0 :: t)) as [r n] eqn:E. cbn [fst snd] in *. cbv beta iota.
  replace ((Z.of_N r =? 65533) && (Z.of_nat n =? 1)) with (rune_invalid (r, n))
    by (unfold rune_invalid, rune_error; cbn [fst snd]; lia).
  assert (Hrefuel : forall m, (1 <= m <= S (length t))%nat ->
            enc_loop_run (length t) ascii (skipn m (b0 :: t)) =
            enc_loop_run (length (skipn m (b0 :: t))) ascii (skipn m (b0 :: t))).
  { intros m Hm. apply enc_loop_run_fuel; rewrite skipn_length; cbn [length]; lia. }
  assert (HIH : forall o m, (1 <= m <= S (length t))%nat ->
            esc_loop ascii lfuel o (zb (skipn m (b0 :: t))) =
            Val (o ++ zb (enc_loop_run (length t) ascii (skipn m (b0 :: t))) ++ [34])).
  { intros o m Hm. rewrite Hrefuel by assumption. apply IH.
    - rewrite skipn_length. cbn [length] in *. lia.
    - rewrite skipn_length. cbn [length] in *. lia. }
  assert (Hm : (1 <= n <= S (length t))%nat) by (split; [exact Hn1|exact Hn2]).
  assert (Hn : (n <= length (b0 :: t))%nat) by exact Hn2.
  destruct (rune_invalid (r, n)) eqn:Bad.
  - (* invalid UTF-8: the byte itself, \xNN-escaped or short-escaped *)
    cbn [orb].
    replace (index (zb (b0 :: t)) 0) with (Val (byte2z b0)) by (symmetry; exact (index_zb [] b0 t)).
    cbn [bind]. pose proof (b2n_lt b0) as Hb.
    rewrite wrap_i32_small by (unfold byte2z; clear - Hb; lia). unfold byte2z.
    rewrite esc1_spec, HIH by assumption. f_equal. fin.
  - destruct (decode_rune_ok (b0 :: t) r n ltac:(discriminate) E Bad) as [_ _ Hmax _ _ _ _ _].
    cbn [orb].
    replace ((((Z.of_N r <? 32) || (Z.of_N r =? 34)) || (Z.of_N r =? 92)) || (Z.of_N r =? 127))
      with ((r <? 32) || (r =? 34) || (r =? 92) || (r =? 127))%N by (clear; lia).
    replace ((128 <=? Z.of_N r) && (ascii || (Z.of_N r <=? 159)))
      with ((128 <=? r) && (ascii || (r <=? 159)))%N by (clear; destruct ascii; lia).
    destruct ((r <? 32) || (r =? 34) || (r =? 92) || (r =? 127))%N eqn:C1.
    + assert (r < 256)%N by (clear - C1; lia).
      rewrite esc1_spec, HIH by assumption. f_equal. fin.
    + destruct ((128 <=? r) && (ascii || (r <=? 159)))%N eqn:C2.
      * assert (128 <= r <= max_rune)%N by (clear - C2 Hmax; lia).
        rewrite esc2_spec, HIH by assumption. f_equal. fin.
      * pose proof (index_need_escape_le (skipn n (b0 :: t))) as Hi. rewrite skipn_length in Hi. cbn [length] in Hi.
        rewrite esc3_spec by assumption.
        rewrite HIH by (clear - Hm Hi; lia). f_equal. fin.
Qed.

Theorem go_appendString_spec out bs ascii : Z.of_nat (length bs) < 2^63 ->
  go_appendString out (zb bs) ascii = Val (out ++ zb (append_string ascii bs)).
Proof.
  intros Hbs. rewrite appendString_shape, go_indexNeedEscapeInString_spec by assumption. cbn [bind].
  pose proof (index_need_escape_le bs) as Hi.
  rewrite slice_lo_zb, slice_hi_zb by assumption. cbn [bind].
  rewrite esc_loop_spec.
  - unfold append_string. cbv zeta.
    rewrite (enc_loop_run_fuel (length bs) (length (skipn (index_need_escape bs) bs)))
      by (rewrite ?skipn_length; lia).
    f_equal. change (zb (x22 :: ?L)) with (34 :: zb L). rewrite !zb_app, <- !app_assoc. reflexivity.
  - rewrite zb_length. lia.
  - rewrite skipn_length. change (2^63) with 9223372036854775808 in *. lia.
Qed.

Theorem go_appendString_roundtrip ascii bs tail : Z.of_nat (length bs) < 2^63 ->
  exists o, go_appendString [] (zb bs) ascii = Val o /\
            parse_string (map z2byte o ++ tail) = SOk (bs, tail).
Proof.
  intros H. eexists. split; [apply (go_appendString_spec [] bs ascii H)|].
  cbn [app]. rewrite unzb. apply text_string_roundtrip.
Qed.

Theorem go_appendString_ascii_printable bs : Z.of_nat (length bs) < 2^63 ->
  exists o, go_appendString [] (zb bs) true = Val o /\ Forall (fun z => 32 <= z <= 126) o.
Proof.
  intros H. eexists. split; [apply (go_appendString_spec [] bs true H)|].
  cbn [app]. unfold zb. apply Forall_map.
  eapply Forall_impl; [|apply emit_ascii_printable].
  intros b Hb. unfold byte2z. cbv beta in Hb. lia.
Qed.

(* appending to a non-empty buffer only prefixes it (the Encoder calls
   appendString(e.out, ...)) *)
Theorem go_appendString_prefix out bs ascii : Z.of_nat (length bs) < 2^63 ->
  exists o, go_appendString [] (zb bs) ascii = Val o /\ go_appendString out (zb bs) ascii = Val (out ++ o).
Proof.
  intros H. eexists. split; [apply (go_appendString_spec [] bs ascii H)|].
  rewrite go_appendString_spec by assumption. reflexivity.
Qed.
