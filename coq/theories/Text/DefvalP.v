(* Proofs about Text/DefvalModel.v (C39): Unmarshal (Marshal v) = v. *)
From Coq Require Import List Arith NArith ZArith Lia Bool.
From Coq Require Import ZifyBool ZifyNat ZifyN.
From PB Require Import Base.PBytes Base.PBytesP Base.Utf8Model Base.Utf8P Text.TextStrModel Text.TextStrP
  Text.TextFmtModel Text.TextFmtP Text.DefvalModel.
Import ListNotations.
Open Scope N_scope.

Lemma bytes_eqb_spec a : forall b, bytes_eqb a b = true <-> a = b.
Proof.
  unfold bytes_eqb. induction a as [|x a IH]; intros [|y b]; cbn [length combine forallb Nat.eqb fst snd];
    try (split; [discriminate|congruence]); [split; reflexivity|].
  specialize (IH b). rewrite andb_true_iff in *. rewrite andb_true_iff.
  split.
  - intros (Hl & Hx & Hf). f_equal; [apply b2n_inj; lia|]. apply IH. split; assumption.
  - intros [= -> ->]. destruct IH as [_ IH]. destruct (IH eq_refl). repeat split; try assumption. lia.
Qed.

Lemma bytes_eqb_refl a : bytes_eqb a a = true.
Proof. now apply bytes_eqb_spec. Qed.

Lemma bytes_eqb_neq a b : a <> b -> bytes_eqb a b = false.
Proof. intros H. destruct (bytes_eqb a b) eqn:E; [|reflexivity]. apply bytes_eqb_spec in E. congruence. Qed.

Theorem defval_bool_roundtrip o f b :
  exists s, dv_marshal o (DBool b) None KBool f = Some s /\
            dv_unmarshal o s KBool [] f = Some (DBool b, None).
Proof. destruct f, b; eexists; split; reflexivity. Qed.

Theorem defval_string_roundtrip o f s evs :
  dv_marshal o (DString s) None KString f = Some s /\
  dv_unmarshal o s KString evs f = Some (DString s, None).
Proof. split; reflexivity. Qed.

Theorem defval_int32_roundtrip o f z : (- 2 ^ 31 <= z < 2 ^ 31)%Z ->
  exists s, dv_marshal o (DInt32 z) None KInt32 f = Some s /\
            dv_unmarshal o s KInt32 [] f = Some (DInt32 z, None).
Proof.
  intros H. eexists. split; [reflexivity|]. cbn [dv_unmarshal].
  rewrite parse_fmt_int; [reflexivity|lia|exact H].
Qed.

Theorem defval_int64_roundtrip o f z : (- 2 ^ 63 <= z < 2 ^ 63)%Z ->
  exists s, dv_marshal o (DInt64 z) None KInt64 f = Some s /\
            dv_unmarshal o s KInt64 [] f = Some (DInt64 z, None).
Proof.
  intros H. eexists. split; [reflexivity|]. cbn [dv_unmarshal].
  rewrite parse_fmt_int; [reflexivity|lia|exact H].
Qed.

Theorem defval_uint32_roundtrip o f n : n < 2 ^ 32 ->
  exists s, dv_marshal o (DUint32 n) None KUint32 f = Some s /\
            dv_unmarshal o s KUint32 [] f = Some (DUint32 n, None).
Proof.
  intros H. eexists. split; [reflexivity|]. cbn [dv_unmarshal]. now rewrite parse_fmt_dec.
Qed.

Theorem defval_uint64_roundtrip o f n : n < 2 ^ 64 ->
  exists s, dv_marshal o (DUint64 n) None KUint64 f = Some s /\
            dv_unmarshal o s KUint64 [] f = Some (DUint64 n, None).
Proof.
  intros H. eexists. split; [reflexivity|]. cbn [dv_unmarshal]. now rewrite parse_fmt_dec.
Qed.

Lemma by_name_in evs : NoDup (map fst evs) -> forall e, In e evs -> by_name evs (fst e) = Some e.
Proof.
  induction evs as [|x evs IH]; intros Hnd e Hin; [destruct Hin|].
  cbn [by_name]. inversion Hnd as [|? ? Hx Hnd']; subst.
  destruct Hin as [->|Hin]; [now rewrite bytes_eqb_refl|].
  rewrite bytes_eqb_neq; [now apply IH|].
  intros Heq. apply Hx. rewrite Heq. now apply in_map.
Qed.

Lemma by_number_in evs : forall e, In e evs -> exists e', by_number evs (snd e) = Some e' /\ snd e' = snd e /\ In e' evs.
Proof.
  induction evs as [|x evs IH]; intros e Hin; [destruct Hin|].
  cbn [by_number]. destruct (Z.eqb (snd x) (snd e)) eqn:E.
  - exists x. split; [reflexivity|]. split; [lia|now left].
  - destruct Hin as [->|Hin]; [lia|]. destruct (IH e Hin) as (e' & H1 & H2 & H3).
    exists e'. split; [assumption|]. split; [assumption|now right].
Qed.

(* Descriptor format: the value is named, so the very same enum value
   descriptor comes back; GoTag format: the number is written, and the first
   declared value with that number comes back. *)
Theorem defval_enum_roundtrip_descriptor o evs e :
  NoDup (map fst evs) -> In e evs ->
  exists s, dv_marshal o (DEnum (snd e)) (Some e) KEnum FDescriptor = Some s /\
            dv_unmarshal o s KEnum evs FDescriptor = Some (DEnum (snd e), Some e).
Proof.
  intros Hnd Hin. eexists. split; [reflexivity|]. cbn [dv_unmarshal]. now rewrite by_name_in.
Qed.

Theorem defval_enum_roundtrip_gotag o evs e ev :
  In e evs -> (- 2 ^ 31 <= snd e < 2 ^ 31)%Z ->
  exists s e', dv_marshal o (DEnum (snd e)) ev KEnum FGoTag = Some s /\
               dv_unmarshal o s KEnum evs FGoTag = Some (DEnum (snd e), Some e') /\
               by_number evs (snd e) = Some e' /\ In e' evs.
Proof.
  intros Hin Hr. destruct (by_number_in evs e Hin) as (e' & H1 & H2 & H3).
  exists (fmt_int (snd e)), e'. split; [reflexivity|]. cbn [dv_unmarshal].
  rewrite parse_fmt_int by (lia || exact Hr). rewrite H1, H2. repeat split; assumption.
Qed.

Lemma lt8_cases d : d < 8 -> d = 0 \/ d = 1 \/ d = 2 \/ d = 3 \/ d = 4 \/ d = 5 \/ d = 6 \/ d = 7.
Proof. lia. Qed.

Lemma pe_oct_eq d t1 : d < 8 -> parse_escape (hexdig d) t1 = pe_num is_octd 3 8 (hexdig d :: t1).
Proof. intros H. apply lt8_cases in H. repeat (destruct H as [->|H]); try subst d; reflexivity. Qed.

Lemma is_octd_hexdig d : d < 8 -> is_octd (hexdig d) = true.
Proof. intros H. apply lt8_cases in H. repeat (destruct H as [->|H]); try subst d; reflexivity. Qed.

Lemma pe_oct3 d2 d1 d0 t : d2 < 8 -> d1 < 8 -> d0 < 8 -> (d2 * 8 + d1) * 8 + d0 < 256 ->
  pe_num is_octd 3 8 (hexdig d2 :: hexdig d1 :: hexdig d0 :: t) = EscOk [n2b ((d2 * 8 + d1) * 8 + d0)] t.
Proof.
  intros H2 H1 H0 Hv. unfold pe_num. cbv zeta.
  cbn [count_pref]. rewrite !is_octd_hexdig by assumption. cbn [firstn skipn].
  unfold parse_uint. cbn [digits_val]. rewrite !hexval_hexdig by lia.
  apply N.ltb_lt in H2, H1, H0, Hv. rewrite H2, H1, H0. cbn [N.mul N.add]. rewrite Hv. reflexivity.
Qed.

Lemma oct_digits c a x y z : c < 256 -> c = 8 * a + z -> z < 8 -> a = 8 * x + y -> y < 8 ->
  x < 8 /\ (x * 8 + y) * 8 + z = c.
Proof. lia. Qed.

Lemma cescape_parse b f t :
  parse_loop (S f) x22 (cescape_byte b ++ t) = sprepend [b] (parse_loop f x22 t).
Proof.
  unfold cescape_byte. cbv zeta.
  remember (b2n b) as c eqn:Ec.
  assert (Hlt : c < 256) by (subst c; apply b2n_lt).
  assert (Hb : b = n2b c) by (subst c; symmetry; apply n2b_b2n). clear Ec. subst b.
  destruct (N.eqb_spec c 10) as [->|N10]; [exact (parse_bslash f x22 x6e t _ _ dquote_not_bslash eq_refl)|].
  destruct (N.eqb_spec c 13) as [->|N13]; [exact (parse_bslash f x22 x72 t _ _ dquote_not_bslash eq_refl)|].
  destruct (N.eqb_spec c 9) as [->|N9]; [exact (parse_bslash f x22 x74 t _ _ dquote_not_bslash eq_refl)|].
  destruct (N.eqb_spec c 34) as [->|N34]; [exact (parse_bslash f x22 x22 t _ _ dquote_not_bslash eq_refl)|].
  destruct (N.eqb_spec c 39) as [->|N39]; [exact (parse_bslash f x22 x27 t _ _ dquote_not_bslash eq_refl)|].
  destruct (N.eqb_spec c 92) as [->|N92]; [exact (parse_bslash f x22 x5c t _ _ dquote_not_bslash eq_refl)|].
  destruct ((32 <=? c) && (c <=? 126)) eqn:EP; cbn [app].
  - rewrite parse_loop_S by discriminate.
    rewrite dec_step_plain; [reflexivity|reflexivity|].
    unfold need_escape. cbv zeta. rewrite b2n_n2b by exact Hlt. lia.
  - apply parse_bslash; [exact dquote_not_bslash|].
    replace (c / 64) with (c / 8 / 8) by (now rewrite N.div_div by discriminate).
    assert (H8 : 8 <> 0) by discriminate.
    destruct (oct_digits c (c / 8) (c / 8 / 8) ((c / 8) mod 8) (c mod 8) Hlt (N.div_mod c 8 H8)
                (N.mod_lt c 8 H8) (N.div_mod (c / 8) 8 H8) (N.mod_lt (c / 8) 8 H8)) as [Hx Hc].
    rewrite pe_oct_eq, pe_oct3, Hc; auto using N.mod_lt. now rewrite Hc.
Qed.

Lemma cescape_parse_all : forall bs fp tail, (length bs < fp)%nat ->
  parse_loop fp x22 (marshal_bytes bs ++ x22 :: tail) = SOk (bs, tail).
Proof.
  unfold marshal_bytes. induction bs as [|b bs IH]; intros fp tail Hf.
  - cbn [flat_map app]. apply parse_close. lia.
  - cbn [flat_map]. rewrite <- app_assoc. destruct fp as [|fp]; [lia|].
    rewrite cescape_parse, IH by (cbn [length] in Hf; lia). reflexivity.
Qed.

Lemma cescape_nonempty b : (1 <= length (cescape_byte b))%nat.
Proof.
  unfold cescape_byte. cbv zeta.
  repeat match goal with |- context [if ?c then _ else _] => destruct c end; cbn [length]; lia.
Qed.

Lemma marshal_bytes_length bs : (length bs <= length (marshal_bytes bs))%nat.
Proof.
  unfold marshal_bytes. induction bs as [|b bs IH]; [reflexivity|].
  cbn [flat_map length]. rewrite app_length. pose proof (cescape_nonempty b). lia.
Qed.

Theorem unmarshal_marshal_bytes bs : unmarshal_bytes (marshal_bytes bs) = Some bs.
Proof.
  unfold unmarshal_bytes, unmarshal_string.
  rewrite (parse_string_of_simple _ (bs, [])).
  - reflexivity.
  - eexists _, _. split; reflexivity.
  - unfold parse_string_simple. apply cescape_parse_all.
    rewrite app_length. pose proof (marshal_bytes_length bs). cbn [length]. lia.
Qed.

Theorem defval_bytes_roundtrip o f bs :
  exists s, dv_marshal o (DBytes bs) None KBytes f = Some s /\
            dv_unmarshal o s KBytes [] f = Some (DBytes bs, None).
Proof.
  eexists. split; [reflexivity|]. cbn [dv_unmarshal]. now rewrite unmarshal_marshal_bytes.
Qed.

(* marshalBytes output is printable ASCII *)
Lemma cescape_printable b : Forall printable (cescape_byte b).
Proof.
  unfold cescape_byte. cbv zeta. pose proof (b2n_lt b) as Hlt.
  do 6 (match goal with |- Forall _ (if ?c then _ else _) => destruct c end;
        [constructor; [now apply printable_dec|constructor; [now apply printable_dec|constructor]]|]).
  destruct (_ && _) eqn:EP.
  - constructor; [now apply printable_dec|constructor].
  - assert (Hm : forall x, x mod 8 < 16) by (intros x; eapply N.lt_trans; [apply N.mod_lt; discriminate|reflexivity]).
    assert (b2n b / 64 < 16) by (apply N.div_lt_upper_bound; [discriminate|lia]).
    constructor; [now apply printable_dec|]. repeat constructor; now apply hexdig_printable.
Qed.

Theorem marshal_bytes_printable bs : Forall printable (marshal_bytes bs).
Proof.
  unfold marshal_bytes. induction bs as [|b bs IH]; [constructor|].
  cbn [flat_map]. apply Forall_app; split; [apply cescape_printable|assumption].
Qed.

Definition f32_same (a b : N) : Prop := a = b \/ (f32_is_nan a = true /\ f32_is_nan b = true).
Definition f64_same (a b : N) : Prop := a = b \/ (f64_is_nan a = true /\ f64_is_nan b = true).

Section FloatOracle.
  Variable o : float_oracle.
  Definition finite32 b := b < 2 ^ 32 /\ f32_exp b <> 255.
  Definition finite64 b := b < 2 ^ 64 /\ f64_exp b <> 2047.
  (* shortest formatting followed by parsing at the same bit size is the identity *)
  Hypothesis H_parse32_fmt32 : forall b, finite32 b -> fo_parse32 o (fo_fmt32 o b) = FOk b.
  Hypothesis H_parse64_fmt64 : forall b, finite64 b -> fo_parse64 o (fo_fmt64 o b) = FOk b.
  (* the 64-bit parse of a float32 rendering succeeds (used only for its error) *)
  Hypothesis H_parse64_fmt32 : forall b, finite32 b -> exists v, fo_parse64 o (fo_fmt32 o b) = FOk v.
  (* finite values are not rendered as one of the special spellings *)
  Hypothesis H_fmt32_not_special : forall b, finite32 b ->
    fo_fmt32 o b <> s_inf /\ fo_fmt32 o b <> s_ninf /\ fo_fmt32 o b <> s_nan.
  Hypothesis H_fmt64_not_special : forall b, finite64 b ->
    fo_fmt64 o b <> s_inf /\ fo_fmt64 o b <> s_ninf /\ fo_fmt64 o b <> s_nan.

  Lemma f32_classify b : b < 2 ^ 32 ->
    finite32 b \/ (f32_is_inf b = true /\ (b = f32_pinf \/ b = f32_ninf)) \/ f32_is_nan b = true.
  Proof.
    intros Hb. unfold finite32, f32_is_inf, f32_is_nan, f32_exp, f32_man, f32_pinf, f32_ninf.
    change (2 ^ 32) with 4294967296 in *.
    destruct ((b / 8388608) mod 256 =? 255) eqn:E; [|left; lia].
    right. destruct (b mod 8388608 =? 0) eqn:M; [left|right; reflexivity].
    split; [reflexivity|]. lia.
  Qed.

  Lemma f64_classify b : b < 2 ^ 64 ->
    finite64 b \/ (f64_is_inf b = true /\ (b = f64_pinf \/ b = f64_ninf)) \/ f64_is_nan b = true.
  Proof.
    intros Hb. unfold finite64, f64_is_inf, f64_is_nan, f64_exp, f64_man, f64_pinf, f64_ninf.
    change (2 ^ 64) with 18446744073709551616 in *.
    destruct ((b / 4503599627370496) mod 2048 =? 2047) eqn:E; [|left; lia].
    right. destruct (b mod 4503599627370496 =? 0) eqn:M; [left|right; reflexivity].
    split; [reflexivity|]. lia.
  Qed.

  Theorem float32_roundtrip b : b < 2 ^ 32 ->
    exists b', unmarshal_float32 o (marshal_float32 o b) = Some b' /\ f32_same b b'.
  Proof.
    intros Hb. destruct (f32_classify b Hb) as [Hf | [[Hi [-> | ->]] | Hn]].
    - destruct Hf as [Hb' Hf]. unfold marshal_float32.
      replace (f32_is_inf b) with false by (unfold f32_is_inf; lia).
      replace (f32_is_nan b) with false by (unfold f32_is_nan; lia). cbn [andb].
      destruct (H_fmt32_not_special b (conj Hb' Hf)) as (N1 & N2 & N3).
      unfold unmarshal_float32. rewrite !bytes_eqb_neq by assumption.
      destruct (H_parse64_fmt32 b (conj Hb' Hf)) as (v & ->).
      rewrite H_parse32_fmt32 by (split; assumption). exists b. split; [reflexivity|now left].
    - exists f32_pinf. split; [reflexivity|now left].
    - exists f32_ninf. split; [reflexivity|now left].
    - exists f32_nan. unfold marshal_float32.
      replace (f32_is_inf b) with false by (unfold f32_is_inf, f32_is_nan in *; lia). cbn [andb].
      rewrite Hn. split; [reflexivity|]. right. split; [assumption|reflexivity].
  Qed.

  Theorem float64_roundtrip b : b < 2 ^ 64 ->
    exists b', unmarshal_float64 o (marshal_float64 o b) = Some b' /\ f64_same b b'.
  Proof.
    intros Hb. destruct (f64_classify b Hb) as [Hf | [[Hi [-> | ->]] | Hn]].
    - destruct Hf as [Hb' Hf]. unfold marshal_float64.
      replace (f64_is_inf b) with false by (unfold f64_is_inf; lia).
      replace (f64_is_nan b) with false by (unfold f64_is_nan; lia). cbn [andb].
      destruct (H_fmt64_not_special b (conj Hb' Hf)) as (N1 & N2 & N3).
      unfold unmarshal_float64. rewrite !bytes_eqb_neq by assumption.
      rewrite H_parse64_fmt64 by (split; assumption). exists b. split; [reflexivity|now left].
    - exists f64_pinf. split; [reflexivity|now left].
    - exists f64_ninf. split; [reflexivity|now left].
    - exists f64_nan. unfold marshal_float64.
      replace (f64_is_inf b) with false by (unfold f64_is_inf, f64_is_nan in *; lia). cbn [andb].
      rewrite Hn. split; [reflexivity|]. right. split; [assumption|reflexivity].
  Qed.

  Theorem defval_float_roundtrip f :
    (forall b, b < 2 ^ 32 ->
       exists s b', dv_marshal o (DFloat32 b) None KFloat f = Some s /\
                    dv_unmarshal o s KFloat [] f = Some (DFloat32 b', None) /\ f32_same b b') /\
    (forall b, b < 2 ^ 64 ->
       exists s b', dv_marshal o (DFloat64 b) None KDouble f = Some s /\
                    dv_unmarshal o s KDouble [] f = Some (DFloat64 b', None) /\ f64_same b b').
  Proof.
    split; intros b Hb.
    - destruct (float32_roundtrip b Hb) as (b' & H1 & H2).
      eexists _, b'. split; [reflexivity|]. cbn [dv_unmarshal]. rewrite H1. split; [reflexivity|assumption].
    - destruct (float64_roundtrip b Hb) as (b' & H1 & H2).
      eexists _, b'. split; [reflexivity|]. cbn [dv_unmarshal]. rewrite H1. split; [reflexivity|assumption].
  Qed.
End FloatOracle.

(* the special spellings do not depend on strconv at all *)
Theorem defval_float_specials o :
  marshal_float32 o f32_pinf = s_inf /\ marshal_float32 o f32_ninf = s_ninf /\
  (forall b, f32_is_nan b = true -> marshal_float32 o b = s_nan) /\
  unmarshal_float32 o s_inf = Some f32_pinf /\ unmarshal_float32 o s_ninf = Some f32_ninf /\
  unmarshal_float32 o s_nan = Some f32_nan /\
  marshal_float64 o f64_pinf = s_inf /\ marshal_float64 o f64_ninf = s_ninf /\
  (forall b, f64_is_nan b = true -> marshal_float64 o b = s_nan) /\
  unmarshal_float64 o s_inf = Some f64_pinf /\ unmarshal_float64 o s_ninf = Some f64_ninf /\
  unmarshal_float64 o s_nan = Some f64_nan.
Proof.
  repeat split; try reflexivity.
  - intros b Hn. unfold marshal_float32. rewrite Hn.
    replace (f32_is_inf b) with false by (unfold f32_is_inf, f32_is_nan in *; lia). reflexivity.
  - intros b Hn. unfold marshal_float64. rewrite Hn.
    replace (f64_is_inf b) with false by (unfold f64_is_inf, f64_is_nan in *; lia). reflexivity.
Qed.

(* The float hypotheses are jointly satisfiable
   (non-vacuity of [defval_float_roundtrip]): a toy "strconv" that prints the
   bit pattern in decimal and parses it back satisfies all five hypotheses. *)
Definition toy_oracle : float_oracle :=
  {| fo_fmt32 := fmt_dec; fo_fmt64 := fmt_dec;
     fo_parse32 := fun s => match parse_uint10 32 s with Some v => FOk v | None => FSyntax end;
     fo_parse64 := fun s => match parse_uint10 64 s with Some v => FOk v | None => FSyntax end |}.

Lemma is_dig_cases b : is_dig b -> b2n b <> 105 /\ b2n b <> 110 /\ b2n b <> 45.
Proof. intros H. apply is_dig_range in H. lia. Qed.

Lemma fmt_dec_not_special v : fmt_dec v <> s_inf /\ fmt_dec v <> s_ninf /\ fmt_dec v <> s_nan.
Proof.
  destruct (fmt_base_spec 10 v ltac:(lia)) as (_ & Hd & _). unfold fmt_dec.
  repeat split; intros E; rewrite E in Hd; inversion Hd as [|? ? Hc _]; subst;
    destruct (is_dig_cases _ Hc) as (H1 & H2 & H3); vm_compute in H1, H2, H3; congruence.
Qed.

Theorem toy_oracle_ok :
  (forall b, finite32 b -> fo_parse32 toy_oracle (fo_fmt32 toy_oracle b) = FOk b) /\
  (forall b, finite64 b -> fo_parse64 toy_oracle (fo_fmt64 toy_oracle b) = FOk b) /\
  (forall b, finite32 b -> exists v, fo_parse64 toy_oracle (fo_fmt32 toy_oracle b) = FOk v) /\
  (forall b, finite32 b -> fo_fmt32 toy_oracle b <> s_inf /\ fo_fmt32 toy_oracle b <> s_ninf /\ fo_fmt32 toy_oracle b <> s_nan) /\
  (forall b, finite64 b -> fo_fmt64 toy_oracle b <> s_inf /\ fo_fmt64 toy_oracle b <> s_ninf /\ fo_fmt64 toy_oracle b <> s_nan).
Proof.
  cbn [toy_oracle fo_fmt32 fo_fmt64 fo_parse32 fo_parse64].
  split; [|split; [|split; [|split]]].
  - intros b [Hb _]. now rewrite parse_fmt_dec.
  - intros b [Hb _]. now rewrite parse_fmt_dec.
  - intros b [Hb _]. exists b. rewrite parse_fmt_dec; [reflexivity|].
    eapply N.lt_le_trans; [exact Hb|]. apply N.pow_le_mono_r; lia.
  - intros b _. apply fmt_dec_not_special.
  - intros b _. apply fmt_dec_not_special.
Qed.
