(* go_eq_spec for ConsumeVarint: the hand-unrolled ten-level decoder of wire.go,
   as translated by srcmodel (Gen/WireGo.v), equals [dec_varint] of
   Wire/WireModel.v on every byte string: same value, same byte count, same
   error code, and no Panic (every index is guarded by the preceding length
   test).  Levels 1..9 are read as a recursion over the shift amounts ([go_cv],
   identified with the Go code by conversion); the accumulated value is kept
   abstract ([a < 2^shift]) so each level is a constant-size arithmetic step. *)
From Coq Require Import List Arith NArith ZArith Lia Bool.
From Coq Require Import ZifyBool ZifyNat ZifyN.
From PB Require Import Base.PBytes Base.GoInt Wire.WireModel.
From PB Require Import Gen.WireGo.
From PB Require Import Wire.WireGoBaseP.
Import ListNotations.
Open Scope Z_scope.

(* the arithmetic of one level of the unrolled Go code: returning, continuing, and
   the bound on the value accumulated so far *)
Lemma pow2_N_Z k : Z.of_N (2 ^ k) = 2 ^ Z.of_N k.
Proof. now rewrite N2Z.inj_pow. Qed.

Lemma cv_ret a x k kz :
  kz = Z.of_N k -> (a < 2^k)%N -> (x < 256)%N -> (k <= 56)%N ->
  wrap_u64 (Z.of_N a + wrap_u64 (Z.shiftl (Z.of_N x) kz)) = Z.of_N (a + x * 2^k).
Proof.
  intros -> Ha Hx Hk. rewrite Z.shiftl_mul_pow2 by lia. rewrite <- pow2_N_Z.
  assert (HP : (2^k <= 2^56)%N) by (apply N.pow_le_mono_r; lia).
  change (2^56)%N with 72057594037927936%N in HP.
  remember (2^k)%N as P. assert (x * P <= 255 * P)%N by (apply N.mul_le_mono_r; lia).
  rewrite <- N2Z.inj_mul. remember (x * P)%N as m.
  rewrite (wrap_u64_small (Z.of_N m)) by lia. rewrite wrap_u64_small by lia. lia.
Qed.

Lemma cv_ret_last a x :
  (a < 2^63)%N -> (x < 2)%N ->
  wrap_u64 (Z.of_N a + wrap_u64 (Z.shiftl (Z.of_N x) 63)) = Z.of_N (a + x * 2^63).
Proof.
  intros Ha Hx. rewrite Z.shiftl_mul_pow2 by lia. change (2^63) with 9223372036854775808.
  change (2^63)%N with 9223372036854775808%N in *.
  rewrite (wrap_u64_small (Z.of_N x * 9223372036854775808)) by lia. rewrite wrap_u64_small by lia. lia.
Qed.

Lemma cv_cont a x k C :
  C = Z.of_N (128 * 2^k) -> (a < 2^k)%N -> (128 <= x < 256)%N -> (k <= 56)%N ->
  wrap_u64 (Z.of_N (a + x * 2^k) - C) = Z.of_N (a + (x - 128) * 2^k).
Proof.
  intros -> Ha Hx Hk.
  assert (HP : (2^k <= 2^56)%N) by (apply N.pow_le_mono_r; lia).
  change (2^56)%N with 72057594037927936%N in HP.
  remember (2^k)%N as P.
  assert (E : (a + x * P = a + (x - 128) * P + 128 * P)%N).
  { replace x with ((x - 128) + 128)%N at 1 by lia. rewrite N.mul_add_distr_r. lia. }
  assert ((x - 128) * P <= 127 * P)%N by (apply N.mul_le_mono_r; lia).
  rewrite E. remember ((x - 128) * P)%N as m. rewrite wrap_u64_small by lia. lia.
Qed.

Lemma cv_bound a x k : (a < 2^k)%N -> (x < 256)%N -> (a + (x - 128) * 2^k < 2^(k + 7))%N.
Proof.
  intros Ha Hx. rewrite N.pow_add_r. change (2^7)%N with 128%N. remember (2^k)%N as P.
  assert ((x - 128) * P <= 127 * P)%N by (apply N.mul_le_mono_r; lia).
  remember ((x - 128) * P)%N as m. lia.
Qed.

(* levels 1..9 of the unrolled decoder, over the (shift, 128 * 2^shift) still to
   come: [i] is the index of the next byte, [v] the value accumulated so far *)
Fixpoint go_cv (b : list Z) (v i : Z) (ks : list (Z * Z)) : outcome (Z * Z) :=
  if len b <=? i then Val (0, -1) else
  bind (index b i) (fun t =>
  let y := wrap_u64 t in
  match ks with
  | [] => let v := wrap_u64 (v + wrap_u64 (Z.shiftl y 63)) in
          if y <? 2 then Val (v, i + 1) else Val (0, -3)
  | (k, C) :: ks' =>
      let v := wrap_u64 (v + wrap_u64 (Z.shiftl y k)) in
      if y <? 128 then Val (v, i + 1) else go_cv b (wrap_u64 (v - C)) (i + 1) ks'
  end).

Fixpoint levels (n : nat) (s : N) : list (Z * Z) :=
  match n with O => [] | S n' => (Z.of_N s, Z.of_N (128 * 2^s)) :: levels n' (s + 7)%N end.

Lemma go_ConsumeVarint_shape b :
  go_ConsumeVarint b =
  if len b <=? 0 then Val (0, -1) else
  bind (index b 0) (fun t =>
  if wrap_u64 t <? 128 then Val (wrap_u64 t, 1) else go_cv b (wrap_u64 (wrap_u64 t - 128)) 1 (levels 8 7)).
Proof. reflexivity. Qed.

(* one level of [go_cv] at the position after [pre]: the input is exhausted, or
   the length test passes and the index yields the next byte *)
Lemma go_cv_nil pre v ks : go_cv (zbytes (pre ++ [])) v (len (zbytes pre)) ks = Val (0, -1).
Proof. rewrite app_nil_r. destruct ks as [|[k C] ks]; cbn [go_cv]; now rewrite Z.leb_refl. Qed.

Lemma go_cv_cons pre b r v ks :
  go_cv (zbytes (pre ++ b :: r)) v (len (zbytes pre)) ks =
  let y := Z.of_N (b2n b) in
  match ks with
  | [] => if y <? 2 then Val (wrap_u64 (v + wrap_u64 (Z.shiftl y 63)), len (zbytes pre) + 1) else Val (0, -3)
  | (k, C) :: ks' =>
      if y <? 128 then Val (wrap_u64 (v + wrap_u64 (Z.shiftl y k)), len (zbytes pre) + 1)
      else go_cv (zbytes (pre ++ b :: r)) (wrap_u64 (wrap_u64 (v + wrap_u64 (Z.shiftl y k)) - C)) (len (zbytes pre) + 1) ks'
  end.
Proof.
  pose proof (b2n_lt b) as Hb.
  assert (Hlen : (len (zbytes (pre ++ b :: r)) <=? len (zbytes pre)) = false)
    by (rewrite !len_zbytes, app_length; cbn [length]; lia).
  destruct ks as [|[k C] ks]; cbn [go_cv]; rewrite Hlen, index_app_len; cbn [bind]; cbv zeta;
    rewrite (wrap_u64_small (Z.of_N (b2n b))) by lia; reflexivity.
Qed.

Lemma go_cv_spec : forall n pre r a s,
  (s + 7 * N.of_nat n = 63)%N -> (a < 2^s)%N ->
  go_cv (zbytes (pre ++ r)) (Z.of_N a) (len (zbytes pre)) (levels n s)
  = Val (zres_vn (dec_varint_aux (S n) s a r) (pre ++ r)).
Proof.
  assert (Hlen : forall pre b r, Z.of_nat (length (pre ++ b :: r) - length r) = len (zbytes pre) + 1)
    by (intros; rewrite len_zbytes, app_length; cbn [length]; lia).
  induction n as [|n IH]; intros pre r a s Hs Ha; destruct r as [|b r]; cbn [levels].
  - apply go_cv_nil.
  - (* the tenth byte *)
    rewrite go_cv_cons. cbv zeta. cbn [dec_varint_aux]. pose proof (b2n_lt b) as Hb.
    replace s with 63%N in * by lia. destruct (b2n b <? 2)%N eqn:E.
    + replace (Z.of_N (b2n b) <? 2) with true by lia.
      rewrite (cv_ret_last a (b2n b) Ha) by lia. cbn [zres_vn]. now rewrite Hlen.
    + replace (Z.of_N (b2n b) <? 2) with false by lia. reflexivity.
  - apply go_cv_nil.
  - (* a byte with more levels to come *)
    rewrite go_cv_cons. cbv zeta. cbn [dec_varint_aux]. pose proof (b2n_lt b) as Hb.
    assert (Hs56 : (s <= 56)%N) by lia.
    rewrite (cv_ret a (b2n b) s _ eq_refl Ha Hb Hs56). destruct (b2n b <? 128)%N eqn:E.
    + replace (Z.of_N (b2n b) <? 128) with true by lia. cbn [zres_vn]. now rewrite Hlen.
    + replace (Z.of_N (b2n b) <? 128) with false by lia.
      rewrite (cv_cont a (b2n b) s _ eq_refl Ha) by lia.
      replace (pre ++ b :: r) with ((pre ++ [b]) ++ r) by (now rewrite <- app_assoc).
      replace (len (zbytes pre) + 1) with (len (zbytes (pre ++ [b])))
        by (rewrite !len_zbytes, app_length; cbn [length]; lia).
      apply IH; [lia|apply cv_bound; assumption].
Qed.

Theorem go_ConsumeVarint_spec bs : go_ConsumeVarint (zbytes bs) = Val (zres_vn (dec_varint bs) bs).
Proof.
  rewrite go_ConsumeVarint_shape. destruct bs as [|b r]; [reflexivity|].
  replace (len (zbytes (b :: r)) <=? 0) with false by (rewrite len_zbytes; cbn [length]; lia).
  replace (index (zbytes (b :: r)) 0) with (Val (Z.of_N (b2n b))) by (symmetry; apply (index_app_len [] b r)).
  cbn [bind]. pose proof (b2n_lt b) as Hb.
  rewrite (wrap_u64_small (Z.of_N (b2n b))) by lia.
  unfold dec_varint. cbn [dec_varint_aux]. change (2^0)%N with 1%N. rewrite !N.mul_1_r, !N.add_0_l.
  destruct (b2n b <? 128)%N eqn:E.
  - replace (Z.of_N (b2n b) <? 128) with true by lia. cbn [zres_vn length]. do 2 f_equal. lia.
  - replace (Z.of_N (b2n b) <? 128) with false by lia.
    replace (wrap_u64 (Z.of_N (b2n b) - 128)) with (Z.of_N (b2n b - 128)) by (rewrite wrap_u64_small; lia).
    apply (go_cv_spec 8 [b] r); [reflexivity|change (2^7)%N with 128%N; lia].
Qed.
