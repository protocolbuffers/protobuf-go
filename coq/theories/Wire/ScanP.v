(* Proofs about the field scanner of Wire/WireModel.v (ConsumeTag, ConsumeBytes,
   consumeFieldValueD, ConsumeField, ConsumeGroup) against the grammar of
   Wire/WireGrammar.v. *)
From Coq Require Import List Arith NArith ZArith Lia Bool.
From Coq Require Import ZifyBool ZifyNat ZifyN.
From PB Require Import Base.PBytes Base.PBytesP Wire.WireModel Wire.WireGrammar Wire.VarintP.
Import ListNotations.
Open Scope N_scope.

(* sixteen cases: the wire types that are values come out in the order 0, 5, 3, 2, 1,
   with those that are not (4, 6, 7 and everything from 8 up) between them.  A proof
   discharges the latter first; its bullets are then 0, 5, 3, 2, 1 *)
Ltac destruct_typ typ := destruct typ as [|[[[?|?|]|[?|?|]|]|[[?|?|]|[?|?|]|]|]].

Lemma parse_val_eq dep num typ bs :
  parse_val dep num typ bs =
  match typ with
  | 0 => match dec_varint bs with Ok (v, r) => Ok (WVarint v, r) | Err e => Err e end
  | 5 => match take 4 bs with Some (b, r) => Ok (WFixed32 b, r) | None => Err Truncated end
  | 1 => match take 8 bs with Some (b, r) => Ok (WFixed64 b, r) | None => Err Truncated end
  | 2 => match dec_bytes bs with Ok (b, r) => Ok (WLen b, r) | Err e => Err e end
  | 3 => match dep with
         | O => Err RecursionDepth
         | S d => group_loop (parse_val d) num (x00 :: bs) bs []
         end
  | 4 => Err EndGroup
  | _ => Err Reserved
  end.
Proof. destruct dep; reflexivity. Qed.

Lemma wf_value_eq dep num typ val :
  wf_value dep num typ val =
  match typ with
  | 0 => varint_bytes val
  | 1 => length val = 8%nat
  | 5 => length val = 4%nat
  | 2 => exists p payload, val = p ++ payload /\ varint_bytes p /\
                           varint_val p = N.of_nat (length payload)
  | 3 => match dep with
         | O => False
         | S d => exists body etag, val = body ++ etag /\
                                    wf_seq (wf_value d) body /\ is_tag etag num 4
         end
  | _ => False
  end.
Proof. destruct dep; reflexivity. Qed.

(* a scanner built by sequencing runs out of fuel only if one of its parts does *)
Lemma bind_not_fuel {A B} (R : result A) (k : A -> result B) :
  R <> Err OutOfFuel -> (forall a, R = Ok a -> k a <> Err OutOfFuel) ->
  match R with Ok a => k a | Err e => Err e end <> Err OutOfFuel.
Proof. destruct R as [a|e]; intros HR Hk; [apply Hk; reflexivity|]. intros [= ->]. now apply HR. Qed.

Lemma decode_tag_some x num typ :
  decode_tag x = Some (num, typ) <-> x = num * 8 + typ /\ typ < 8 /\ num <= 2147483647.
Proof.
  unfold decode_tag. split.
  - destruct (2147483647 <? x / 8) eqn:E; [discriminate|]. intros [= <- <-]. lia.
  - intros (-> & Ht & Hn). replace ((num * 8 + typ) / 8) with num by lia.
    replace ((num * 8 + typ) mod 8) with typ by lia.
    replace (2147483647 <? num) with false by lia. reflexivity.
Qed.

Lemma dec_tag_sound bs num typ r :
  dec_tag bs = Ok (num, typ, r) -> exists p, bs = p ++ r /\ is_tag p num typ.
Proof.
  unfold dec_tag. destruct (dec_varint bs) as [[x r0]|e] eqn:E; [|discriminate].
  destruct (decode_tag x) as [[n t]|] eqn:D; [|discriminate].
  destruct (n <? 1) eqn:E1; [discriminate|]. intros [= -> -> ->].
  apply decode_tag_some in D. destruct D as (-> & Ht & Hn).
  apply dec_varint_sound in E. destruct E as (p & -> & Hs & Hv). exists p. split; [reflexivity|].
  unfold is_tag, num_ok. repeat split; auto; lia.
Qed.

Lemma dec_tag_complete p num typ r : is_tag p num typ -> dec_tag (p ++ r) = Ok (num, typ, r).
Proof.
  intros (Hs & Hv & Ht & Hlo & Hhi). unfold dec_tag. rewrite dec_varint_complete by exact Hs. rewrite Hv.
  rewrite (proj2 (decode_tag_some _ num typ)) by auto.
  replace (num <? 1) with false by lia. reflexivity.
Qed.

Theorem dec_tag_iff bs num typ r :
  dec_tag bs = Ok (num, typ, r) <-> exists p, bs = p ++ r /\ is_tag p num typ.
Proof. split; [apply dec_tag_sound|]. intros (p & -> & H). now apply dec_tag_complete. Qed.

Lemma is_tag_len p num typ : is_tag p num typ -> (1 <= length p <= 10)%nat.
Proof. intros (Hs & _). now apply varint_shape_len. Qed.

Lemma dec_tag_len bs n t r : dec_tag bs = Ok (n, t, r) -> (length r < length bs)%nat.
Proof.
  intros H. apply dec_tag_sound in H. destruct H as (p & -> & Hp). apply is_tag_len in Hp.
  rewrite app_length. lia.
Qed.

Lemma dec_tag_num_pos bs num typ r : dec_tag bs = Ok (num, typ, r) -> 1 <= num.
Proof. intros H. apply dec_tag_sound in H. destruct H as (p & _ & _ & _ & _ & Hn & _). exact Hn. Qed.

(* error classification of ConsumeTag *)
Lemma dec_tag_err bs e : dec_tag bs = Err e -> e = Truncated \/ e = Overflow \/ e = FieldNumber.
Proof.
  unfold dec_tag. destruct (dec_varint bs) as [[x r]|e'] eqn:E.
  - destruct (decode_tag x) as [[n t]|]; [destruct (n <? 1)|]; intros [= <-]; auto.
  - intros [= <-]. apply dec_varint_err in E. tauto.
Qed.

Lemma dec_tag_not_fuel bs : dec_tag bs <> Err OutOfFuel.
Proof. intros H. apply dec_tag_err in H. destruct H as [H|[H|H]]; discriminate. Qed.

Lemma dec_bytes_sound bs v r :
  dec_bytes bs = Ok (v, r) ->
  exists p, bs = p ++ v ++ r /\ varint_bytes p /\ varint_val p = N.of_nat (length v).
Proof.
  unfold dec_bytes. destruct (dec_varint bs) as [[n r0]|e] eqn:E; [|discriminate].
  destruct (N.of_nat (length r0) <? n) eqn:E1; [discriminate|].
  destruct (take (N.to_nat n) r0) as [[a b]|] eqn:E2; [|discriminate].
  intros H; inversion H; subst. apply take_some in E2. destruct E2 as [-> Hl].
  apply dec_varint_sound in E. destruct E as (p & -> & Hs & Hv). exists p. repeat split; auto. lia.
Qed.

Lemma dec_bytes_complete p v r :
  varint_bytes p -> varint_val p = N.of_nat (length v) -> dec_bytes (p ++ v ++ r) = Ok (v, r).
Proof.
  intros Hs Hv. unfold dec_bytes. rewrite dec_varint_complete by exact Hs. rewrite Hv.
  rewrite app_length. replace (N.of_nat (length v + length r) <? N.of_nat (length v)) with false by lia.
  rewrite Nnat.Nat2N.id, take_app. reflexivity.
Qed.

Lemma dec_bytes_len bs v r : dec_bytes bs = Ok (v, r) -> (length v + length r < length bs)%nat.
Proof.
  intros H. apply dec_bytes_sound in H. destruct H as (p & -> & Hs & _). apply varint_shape_len in Hs.
  rewrite !app_length. lia.
Qed.

Lemma dec_bytes_err bs e : dec_bytes bs = Err e -> e = Truncated \/ e = Overflow.
Proof.
  unfold dec_bytes. destruct (dec_varint bs) as [[n r]|e'] eqn:E.
  - destruct (N.of_nat (length r) <? n); [|destruct (take (N.to_nat n) r) as [[a b]|]]; intros [= <-]; auto.
  - intros [= <-]. apply dec_varint_err in E. exact E.
Qed.

Lemma dec_bytes_not_fuel bs : dec_bytes bs <> Err OutOfFuel.
Proof. intros H. apply dec_bytes_err in H. destruct H; discriminate. Qed.

Lemma take_ext n bs a r ext : take n bs = Some (a, r) -> take n (bs ++ ext) = Some (a, r ++ ext).
Proof.
  intros H. apply take_some in H. destruct H as [-> <-]. rewrite <- app_assoc. apply take_app.
Qed.

Lemma take_none n bs : take n bs = None -> (length bs < n)%nat.
Proof. unfold take. destruct (Nat.leb n (length bs)) eqn:E; [discriminate|]. intros _. apply Nat.leb_gt. exact E. Qed.

Lemma take_short n bs : (length bs < n)%nat -> take n bs = None.
Proof. intros H. unfold take. replace (Nat.leb n (length bs)) with false; [reflexivity|]. symmetry. apply Nat.leb_gt. exact H. Qed.

(* the group loop, for an arbitrary value scanner [pv] *)
Section Loop.
  Variable pv : pv_t.
  Variable P : N -> N -> list byte -> Prop.
  Variable num : N.

  Hypothesis pv_sound : forall n t bs v r, pv n t bs = Ok (v, r) -> exists val, bs = val ++ r /\ P n t val.

  Lemma group_loop_sound : forall g bs acc v r,
    group_loop pv num g bs acc = Ok (v, r) ->
    exists body etag, bs = body ++ etag ++ r /\ wf_seq P body /\ is_tag etag num 4.
  Proof.
    induction g as [|x g IH]; intros bs acc v r H; [discriminate|].
    cbn [group_loop] in H. destruct (dec_tag bs) as [[[n2 t2] r0]|e] eqn:E; [|discriminate].
    apply dec_tag_sound in E. destruct E as (tag & -> & Htag).
    destruct (t2 =? 4) eqn:E4.
    - apply N.eqb_eq in E4. subst t2. destruct (n2 =? num) eqn:En; [|discriminate].
      apply N.eqb_eq in En. subst n2. inversion H; subst.
      exists [], tag. split; [reflexivity|]. split; [constructor|exact Htag].
    - destruct (pv n2 t2 r0) as [[v' r']|e] eqn:Ep; [|discriminate].
      apply pv_sound in Ep. destruct Ep as (val & -> & HP).
      apply IH in H. destruct H as (body & etag & -> & Hseq & Het).
      exists (tag ++ val ++ body), etag. split; [now rewrite <- !app_assoc|]. split; [|exact Het].
      apply N.eqb_neq in E4. apply wf_seq_cons with (num := n2) (typ := t2); auto.
  Qed.

End Loop.

Section LoopComplete.
  Variable pv : pv_t.
  Variable P : N -> N -> list byte -> Prop.
  Variable num : N.
  Hypothesis pv_complete : forall n t val, P n t val -> forall rest, exists v, pv n t (val ++ rest) = Ok (v, rest).

  Lemma group_loop_complete : forall body, wf_seq P body ->
    forall etag rest g acc, is_tag etag num 4 ->
    (length (body ++ etag ++ rest) < length g)%nat ->
    exists v, group_loop pv num g (body ++ etag ++ rest) acc = Ok (v, rest).
  Proof.
    induction 1 as [|tag n t val rest0 Htag Hne HP Hseq IH]; intros etag rest g acc Het Hlen.
    - destruct g as [|x g]; [cbn in Hlen; lia|]. cbn [group_loop app].
      rewrite (dec_tag_complete _ _ _ _ Het). cbn. rewrite N.eqb_refl. eauto.
    - destruct g as [|x g]; [cbn in Hlen; lia|]. cbn [group_loop].
      rewrite <- !app_assoc. rewrite (dec_tag_complete _ _ _ _ Htag).
      replace (t =? 4) with false by (symmetry; apply N.eqb_neq; exact Hne).
      destruct (pv_complete _ _ _ HP (rest0 ++ etag ++ rest)) as [v Hv]. rewrite Hv.
      apply IH; [exact Het|]. apply is_tag_len in Htag.
      rewrite <- !app_assoc in Hlen. rewrite !app_length in *. cbn [length] in Hlen. lia.
  Qed.
End LoopComplete.

Section LoopFuel.
  Variable pv : pv_t.
  Variable num : N.
  Hypothesis pv_len : forall n t bs v r, pv n t bs = Ok (v, r) -> (length r <= length bs)%nat.

  Hypothesis pv_not_fuel : forall n t bs, pv n t bs <> Err OutOfFuel.

  Lemma group_loop_not_fuel : forall g bs acc,
    (length bs < length g)%nat -> group_loop pv num g bs acc <> Err OutOfFuel.
  Proof.
    induction g as [|x g IH]; intros bs acc Hlen; [cbn in Hlen; lia|].
    cbn [group_loop]. apply bind_not_fuel; [apply dec_tag_not_fuel|]. intros [[n2 t2] r0] E.
    apply dec_tag_len in E. destruct (t2 =? 4); [destruct (n2 =? num); discriminate|].
    apply bind_not_fuel; [apply pv_not_fuel|]. intros [v' r'] Ep.
    apply pv_len in Ep. apply IH. cbn [length] in Hlen. lia.
  Qed.

  Lemma group_loop_len : forall g bs acc v r,
    group_loop pv num g bs acc = Ok (v, r) -> (length r < length bs)%nat.
  Proof.
    induction g as [|x g IH]; intros bs acc v r H; [discriminate|].
    cbn [group_loop] in H. destruct (dec_tag bs) as [[[n2 t2] r0]|e] eqn:E; [|discriminate].
    apply dec_tag_len in E. destruct (t2 =? 4).
    - destruct (n2 =? num); [|discriminate]. inversion H; subst. exact E.
    - destruct (pv n2 t2 r0) as [[v' r']|e] eqn:Ep; [|discriminate].
      apply pv_len in Ep. apply IH in H. lia.
  Qed.
End LoopFuel.

(* soundness: whatever the scanner accepts is in the grammar *)
Lemma parse_val_scalar_sound dep num typ bs v r :
  typ <> 3 -> parse_val dep num typ bs = Ok (v, r) ->
  exists val, bs = val ++ r /\ wf_value dep num typ val.
Proof.
  intros Ht H. rewrite parse_val_eq in H.
  destruct_typ typ; cbv iota in H; try discriminate; try (exfalso; apply Ht; reflexivity).
  - (* 0 *) destruct (dec_varint bs) as [[x r0]|e] eqn:E; [|discriminate]. inversion H; subst.
    apply dec_varint_sound in E. destruct E as (p & -> & Hs & _). exists p. split; [reflexivity|].
    rewrite wf_value_eq. exact Hs.
  - (* 5 *) destruct (take 4 bs) as [[a b]|] eqn:E; [|discriminate]. inversion H; subst.
    apply take_some in E. destruct E as [-> Hl]. exists a. split; [reflexivity|].
    rewrite wf_value_eq. exact Hl.
  - (* 2 *) destruct (dec_bytes bs) as [[a b]|e] eqn:E; [|discriminate]. inversion H; subst.
    apply dec_bytes_sound in E. destruct E as (p & -> & Hs & Hv). exists (p ++ a).
    split; [now rewrite <- app_assoc|]. rewrite wf_value_eq. exists p, a. auto.
  - (* 1 *) destruct (take 8 bs) as [[a b]|] eqn:E; [|discriminate]. inversion H; subst.
    apply take_some in E. destruct E as [-> Hl]. exists a. split; [reflexivity|].
    rewrite wf_value_eq. exact Hl.
Qed.

Theorem parse_val_sound : forall dep num typ bs v r,
  parse_val dep num typ bs = Ok (v, r) -> exists val, bs = val ++ r /\ wf_value dep num typ val.
Proof.
  induction dep as [|d IH]; intros num typ bs v r H;
    (destruct (N.eq_dec typ 3) as [->|Hn]; [|eapply parse_val_scalar_sound; eauto]).
  - discriminate.
  - rewrite parse_val_eq in H. cbv iota in H.
    apply (group_loop_sound _ (wf_value d) num IH) in H.
    destruct H as (body & etag & -> & Hseq & Het). exists (body ++ etag).
    split; [now rewrite <- app_assoc|]. rewrite wf_value_eq. exists body, etag. auto.
Qed.

(* completeness: every value of the grammar is accepted, and exactly it is consumed *)
Lemma parse_val_scalar_complete dep num typ val rest :
  typ <> 3 -> wf_value dep num typ val -> exists v, parse_val dep num typ (val ++ rest) = Ok (v, rest).
Proof.
  intros Ht H. rewrite wf_value_eq in H. rewrite parse_val_eq.
  destruct_typ typ; cbv iota in H |- *; try contradiction; try (exfalso; apply Ht; reflexivity).
  - (* 0 *) rewrite dec_varint_complete by exact H. eauto.
  - (* 5 *) rewrite <- H. rewrite take_app. eauto.
  - (* 2 *) destruct H as (p & a & -> & Hs & Hv). rewrite <- app_assoc. rewrite dec_bytes_complete by assumption. eauto.
  - (* 1 *) rewrite <- H. rewrite take_app. eauto.
Qed.

Theorem parse_val_complete : forall dep num typ val rest,
  wf_value dep num typ val -> exists v, parse_val dep num typ (val ++ rest) = Ok (v, rest).
Proof.
  induction dep as [|d IH]; intros num typ val rest H;
    (destruct (N.eq_dec typ 3) as [->|Hn]; [|eapply parse_val_scalar_complete; eauto]).
  - contradiction.
  - rewrite wf_value_eq in H. cbv iota in H. destruct H as (body & etag & -> & Hseq & Het).
    rewrite parse_val_eq. cbv iota. rewrite <- app_assoc.
    apply (group_loop_complete (parse_val d) (wf_value d) num
             (fun n t v0 Hv0 rest0 => IH n t v0 rest0 Hv0)); auto; cbn [length]; lia.
Qed.

(* never overreads, never runs out of fuel *)
Lemma parse_val_len dep num typ bs v r : parse_val dep num typ bs = Ok (v, r) -> (length r <= length bs)%nat.
Proof. intros H. apply parse_val_sound in H. destruct H as (val & -> & _). rewrite app_length. lia. Qed.

Theorem parse_val_suffix dep num typ bs v r : parse_val dep num typ bs = Ok (v, r) -> exists p, bs = p ++ r.
Proof. intros H. apply parse_val_sound in H. destruct H as (val & -> & _). eauto. Qed.

Lemma parse_val_scalar_not_fuel dep num typ bs : typ <> 3 -> parse_val dep num typ bs <> Err OutOfFuel.
Proof.
  intros Ht. rewrite parse_val_eq. destruct_typ typ; cbv iota; try discriminate.
  - (* 0 *) apply bind_not_fuel; [apply dec_varint_not_fuel|]. intros [v r] _. discriminate.
  - (* 5 *) destruct (take 4 bs) as [[a r]|]; discriminate.
  - (* 3 *) contradiction.
  - (* 2 *) apply bind_not_fuel; [apply dec_bytes_not_fuel|]. intros [v r] _. discriminate.
  - (* 1 *) destruct (take 8 bs) as [[a r]|]; discriminate.
Qed.

Theorem parse_val_not_fuel : forall dep num typ bs, parse_val dep num typ bs <> Err OutOfFuel.
Proof.
  induction dep as [|d IH]; intros num typ bs;
    (destruct (N.eq_dec typ 3) as [->|Hn]; [|apply parse_val_scalar_not_fuel; exact Hn]).
  - discriminate.
  - rewrite parse_val_eq. cbv iota.
    apply group_loop_not_fuel; [apply parse_val_len|exact IH|cbn [length]; lia].
Qed.

Theorem group_loop_total dep num bs acc :
  group_loop (parse_val dep) num (x00 :: bs) bs acc <> Err OutOfFuel.
Proof. apply group_loop_not_fuel; [apply parse_val_len|apply parse_val_not_fuel|cbn [length]; lia]. Qed.

(* ConsumeFieldValue / ConsumeField: accept exactly the grammar *)
Theorem consume_field_value_iff num typ bs n :
  consume_field_value num typ bs = Ok n <->
  exists val rest, bs = val ++ rest /\ wf_value default_dep num typ val /\ n = N.of_nat (length val).
Proof.
  unfold consume_field_value. split.
  - destruct (parse_val default_dep num typ bs) as [[v r]|e] eqn:E; [|discriminate].
    intros H; inversion H; subst. apply parse_val_sound in E. destruct E as (val & -> & Hv).
    exists val, r. repeat split; auto. rewrite app_length. f_equal. lia.
  - intros (val & rest & -> & Hv & ->). destruct (parse_val_complete _ _ _ _ rest Hv) as [v E].
    rewrite E. f_equal. rewrite app_length. lia.
Qed.

Theorem consume_field_iff bs num typ n :
  consume_field bs = Ok (num, typ, n) <-> wf_field default_dep bs num typ n.
Proof.
  unfold consume_field, wf_field. split.
  - destruct (dec_tag bs) as [[[n2 t2] r]|e] eqn:E; [|discriminate].
    destruct (parse_val default_dep n2 t2 r) as [[v r']|e] eqn:Ep; [|discriminate].
    intros H; inversion H; subst. apply dec_tag_sound in E. destruct E as (tag & -> & Htag).
    apply parse_val_sound in Ep. destruct Ep as (val & -> & Hval).
    exists tag, val, r'. split; [reflexivity|]. split; [exact Htag|]. split; [exact Hval|].
    rewrite !app_length. f_equal. lia.
  - intros (tag & val & rest & -> & Htag & Hval & ->). rewrite (dec_tag_complete _ _ _ _ Htag).
    destruct (parse_val_complete _ _ _ _ rest Hval) as [v Hv]. rewrite Hv. f_equal. f_equal.
    rewrite !app_length. lia.
Qed.

Theorem consume_field_no_overread bs num typ n :
  consume_field bs = Ok (num, typ, n) ->
  n <= N.of_nat (length bs) /\ exists used rest, bs = used ++ rest /\ n = N.of_nat (length used).
Proof.
  intros H. apply consume_field_iff in H. destruct H as (tag & val & rest & -> & _ & _ & ->).
  split; [rewrite !app_length; lia|]. exists (tag ++ val), rest. rewrite <- app_assoc, app_length. auto.
Qed.

Theorem consume_field_value_no_overread num typ bs n :
  consume_field_value num typ bs = Ok n -> n <= N.of_nat (length bs).
Proof.
  intros H. apply consume_field_value_iff in H. destruct H as (val & rest & -> & _ & ->).
  rewrite app_length. lia.
Qed.

Theorem consume_field_total bs : consume_field bs <> Err OutOfFuel.
Proof.
  unfold consume_field. apply bind_not_fuel; [apply dec_tag_not_fuel|]. intros [[n t] r] _.
  apply bind_not_fuel; [apply parse_val_not_fuel|]. intros [v r'] _. discriminate.
Qed.

Theorem consume_field_value_total num typ bs : consume_field_value num typ bs <> Err OutOfFuel.
Proof.
  unfold consume_field_value. apply bind_not_fuel; [apply parse_val_not_fuel|]. intros [v r] _. discriminate.
Qed.

(* every error is one of the six Go error codes *)
Theorem consume_field_err_code bs e : consume_field bs = Err e -> (-6 <= werr_code e <= -1)%Z.
Proof. intros H. pose proof (consume_field_total bs). destruct e; cbn; try lia. congruence. Qed.

(* ConsumeGroup: stripping the (possibly padded) end tag never underflows *)
Lemma varint_val_app a b : varint_val (a ++ b) = varint_val a + 128 ^ N.of_nat (length a) * varint_val b.
Proof.
  induction a as [|x a IH]; [cbn [app varint_val length]; change (128 ^ N.of_nat 0) with 1; lia|].
  cbn [app varint_val length]. rewrite IH, Nnat.Nat2N.inj_succ, N.pow_succ_r'. lia.
Qed.

Lemma canonical_split p :
  varint_val p <> 0 ->
  exists c z, p = c ++ z /\ canonical c /\ Forall (fun b => b2n b mod 128 = 0) z /\ varint_val c = varint_val p.
Proof.
  induction p as [|x p IH] using rev_ind; [cbn; congruence|].
  intros H. destruct (N.eq_dec (b2n x mod 128) 0) as [Hz|Hnz].
  - rewrite varint_val_app in H |- *. cbn [varint_val] in H |- *. rewrite Hz in H |- *.
    replace (varint_val p + 128 ^ N.of_nat (length p) * (0 + 128 * 0)) with (varint_val p) in H |- * by lia.
    destruct (IH H) as (c & z & -> & Hc & Hzs & Hv). exists c, (z ++ [x]).
    split; [now rewrite app_assoc|]. split; [exact Hc|]. split; [|exact Hv].
    apply Forall_app. split; [exact Hzs|]. constructor; [exact Hz|constructor].
  - exists (p ++ [x]), []. split; [now rewrite app_nil_r|]. split; [exists p, x; auto|]. split; [constructor|reflexivity].
Qed.

Lemma strip_zero7_length l : (length (strip_zero7 l) <= length l)%nat.
Proof.
  induction l as [|y l IH]; [apply Nat.le_refl|]. cbn [strip_zero7].
  destruct (b2n y mod 128 =? 0); cbn [length]; lia.
Qed.

Lemma strip_zero7_zeros z rest :
  Forall (fun b => b2n b mod 128 = 0) z -> strip_zero7 (rev z ++ rest) = strip_zero7 rest.
Proof.
  revert rest. induction z as [|b z IH]; intros rest H; [reflexivity|].
  inversion H; subst. cbn [rev]. rewrite <- app_assoc. cbn [app]. rewrite IH by assumption.
  cbn [strip_zero7]. replace (b2n b mod 128 =? 0) with true by lia. reflexivity.
Qed.

Lemma strip_zero7_canonical c rest : canonical c -> strip_zero7 (rev c ++ rest) = rev c ++ rest.
Proof.
  intros (i & l & -> & Hl). rewrite rev_app_distr. cbn [rev app strip_zero7].
  replace (b2n l mod 128 =? 0) with false by lia. reflexivity.
Qed.

Lemma size_shift3 num t : 1 <= num -> t < 8 -> N.size (num * 8 + t) = N.size num + 3.
Proof.
  intros Hn Ht. rewrite !N.size_log2 by lia.
  destruct (N.log2_spec num ltac:(lia)) as [Hlo Hhi].
  assert (N.log2 (num * 8 + t) = N.log2 num + 3); [|lia].
  apply N.log2_unique; [lia|].
  rewrite N.pow_succ_r' in Hhi.
  replace (N.succ (N.log2 num + 3)) with (N.log2 num + 4) by lia.
  rewrite !N.pow_add_r. change (2^3) with 8. change (2^4) with 16.
  remember (2 ^ N.log2 num) as P. lia.
Qed.

Lemma size_tag_eq num t : 1 <= num -> t < 8 -> size_varint (num * 8 + t) = size_tag num.
Proof.
  intros Hn Ht. unfold size_tag, encode_tag, size_varint.
  rewrite (size_shift3 num t Hn Ht). rewrite (size_shift3 num (0 mod 8) Hn) by (cbn; lia). reflexivity.
Qed.

Lemma default_dep_S : default_dep = S (N.to_nat 10000).
Proof. unfold default_dep. change 10001 with (N.succ 10000). apply Nnat.N2Nat.inj_succ. Qed.

Lemma consume_group_parts num body etag r v :
  parse_val default_dep num 3 (body ++ etag ++ r) = Ok (v, r) -> is_tag etag num 4 ->
  consume_group num (body ++ etag ++ r) = Ok (Some body, N.of_nat (length body + length etag)).
Proof.
  intros Hp Het. unfold consume_group. rewrite Hp.
  assert (Hn : (length (body ++ etag ++ r) - length r = length (body ++ etag))%nat)
    by (rewrite !app_length; lia).
  rewrite Hn. rewrite app_assoc, firstn_app_len.
  destruct Het as (Hs & Hv & Ht & Hlo & Hhi).
  destruct (canonical_split etag ltac:(lia)) as (c & z & -> & Hc & Hz & Hcv).
  pose proof (varint_shape_len _ _ Hs) as Hlen. rewrite app_length in Hlen.
  assert (Hk : N.of_nat (length c) = size_tag num).
  { rewrite <- (canonical_size c Hc) by lia. rewrite Hcv, Hv. apply size_tag_eq; lia. }
  rewrite !rev_app_distr, <- !app_assoc. rewrite strip_zero7_zeros by exact Hz.
  rewrite strip_zero7_canonical by exact Hc.
  rewrite rev_app_distr, !rev_involutive.
  rewrite app_length. replace (Nat.ltb (length body + length c) (N.to_nat (size_tag num))) with false
    by (symmetry; apply Nat.ltb_ge; lia).
  replace (length body + length c - N.to_nat (size_tag num))%nat with (length body) by lia.
  rewrite firstn_app_len.
  f_equal. f_equal. rewrite !app_length. lia.
Qed.

Theorem consume_group_ok num bs v r :
  parse_val default_dep num 3 bs = Ok (v, r) ->
  exists body etag, bs = body ++ etag ++ r /\ wf_fields (N.to_nat 10000) body /\ is_tag etag num 4 /\
                    consume_group num bs = Ok (Some body, N.of_nat (length body + length etag)).
Proof.
  intros H. pose proof H as Hs. apply parse_val_sound in Hs. destruct Hs as (val & -> & Hv).
  rewrite default_dep_S, wf_value_eq in Hv. cbv iota in Hv. destruct Hv as (body & etag & -> & Hseq & Het).
  exists body, etag. rewrite <- app_assoc in *. split; [reflexivity|]. split; [exact Hseq|]. split; [exact Het|].
  eapply consume_group_parts; eauto.
Qed.

(* the modelled slice panic b[:len(b)-SizeTag(num)] is unreachable *)
Theorem consume_group_no_panic num bs n : consume_group num bs <> Ok (None, n).
Proof.
  destruct (parse_val default_dep num 3 bs) as [[v r]|e] eqn:E.
  - destruct (consume_group_ok _ _ _ _ E) as (body & etag & _ & _ & _ & H). rewrite H. discriminate.
  - unfold consume_group. rewrite E. discriminate.
Qed.

Theorem consume_group_iff num bs body n :
  consume_group num bs = Ok (Some body, n) ->
  exists etag rest, bs = body ++ etag ++ rest /\ wf_fields (N.to_nat 10000) body /\ is_tag etag num 4 /\
                    n = N.of_nat (length body + length etag).
Proof.
  intros H. destruct (parse_val default_dep num 3 bs) as [[v r]|e] eqn:E.
  - destruct (consume_group_ok _ _ _ _ E) as (body' & etag & -> & Hseq & Het & H'). rewrite H' in H.
    inversion H; subst. exists etag, r. auto.
  - unfold consume_group in H. rewrite E in H. discriminate.
Qed.

Theorem consume_group_complete num body etag rest :
  wf_fields (N.to_nat 10000) body -> is_tag etag num 4 ->
  consume_group num (body ++ etag ++ rest) = Ok (Some body, N.of_nat (length body + length etag)).
Proof.
  intros Hseq Het.
  assert (Hv : wf_value default_dep num 3 (body ++ etag)).
  { rewrite default_dep_S, wf_value_eq. cbv iota. exists body, etag. auto. }
  destruct (parse_val_complete _ _ _ _ rest Hv) as [v E]. rewrite <- app_assoc in E.
  eapply consume_group_parts; eauto.
Qed.

Theorem consume_group_total num bs : consume_group num bs <> Err OutOfFuel.
Proof.
  unfold consume_group. apply bind_not_fuel; [apply parse_val_not_fuel|]. intros [v r] _.
  cbv zeta. destruct (Nat.ltb _ _); discriminate.
Qed.

(* the grammar is monotone in the depth allowance *)
Lemma wf_seq_impl (P Q : N -> N -> list byte -> Prop) bs :
  (forall n t v, P n t v -> Q n t v) -> wf_seq P bs -> wf_seq Q bs.
Proof.
  intros HPQ H. induction H as [|tag n t val rest Htag Hne HP Hseq IH]; [constructor|].
  apply wf_seq_cons with (num := n) (typ := t); auto.
Qed.

Lemma wf_value_mono : forall d d' num typ val,
  (d <= d')%nat -> wf_value d num typ val -> wf_value d' num typ val.
Proof.
  induction d as [|d IH]; intros d' num typ val Hle H; rewrite wf_value_eq in H; rewrite wf_value_eq;
    destruct_typ typ; cbv iota in H |- *; try exact H; try contradiction.
  destruct d' as [|d']; [lia|]. destruct H as (body & etag & -> & Hseq & Het).
  exists body, etag. split; [reflexivity|]. split; [|exact Het].
  eapply wf_seq_impl; [|exact Hseq]. intros n t v Hv. apply (IH d'); [lia|exact Hv].
Qed.

Lemma wf_fields_mono d d' bs : (d <= d')%nat -> wf_fields d bs -> wf_fields d' bs.
Proof.
  intros Hle H. unfold wf_fields in *. eapply wf_seq_impl; [|exact H].
  intros n t v Hv. eapply wf_value_mono; eauto.
Qed.

(* a group body accepted at any smaller depth is accepted by ConsumeGroup *)
Corollary consume_group_complete_le d num body etag rest :
  (d <= N.to_nat 10000)%nat -> wf_fields d body -> is_tag etag num 4 ->
  consume_group num (body ++ etag ++ rest) = Ok (Some body, N.of_nat (length body + length etag)).
Proof. intros Hle H Het. apply consume_group_complete; [eapply wf_fields_mono; eauto|exact Het]. Qed.

(* The verdict is decided by the bytes read: appending bytes to the input
   changes nothing unless the verdict was Truncated.                    *)
Definition ext_rel {A : Type} (R R' : result (A * list byte)) (ext : list byte) : Prop :=
  match R with
  | Ok (v, r) => R' = Ok (v, r ++ ext)
  | Err Truncated => True
  | Err e => R' = Err e
  end.

Lemma ext_rel_bind {A B} (R R' : result (A * list byte)) (k k' : A -> list byte -> result (B * list byte)) ext :
  ext_rel R R' ext ->
  (forall v r, R = Ok (v, r) -> ext_rel (k v r) (k' v (r ++ ext)) ext) ->
  ext_rel (match R with Ok (v, r) => k v r | Err e => Err e end)
          (match R' with Ok (v, r) => k' v r | Err e => Err e end) ext.
Proof.
  intros H Hk. destruct R as [[v r]|e]; unfold ext_rel in H.
  - rewrite H. apply Hk. reflexivity.
  - destruct e; try exact I; rewrite H; reflexivity.
Qed.

Lemma ext_rel_Ok {A} (R R' : result (A * list byte)) ext v r :
  ext_rel R R' ext -> R = Ok (v, r) -> R' = Ok (v, r ++ ext).
Proof. intros H ->. exact H. Qed.

Lemma dec_varint_ext_rel bs ext : ext_rel (dec_varint bs) (dec_varint (bs ++ ext)) ext.
Proof. exact (dec_varint_ext bs ext). Qed.

Lemma dec_tag_ext bs ext : ext_rel (dec_tag bs) (dec_tag (bs ++ ext)) ext.
Proof.
  unfold dec_tag. apply ext_rel_bind; [apply dec_varint_ext_rel|]. intros x r _.
  destruct (decode_tag x) as [[n t]|]; [destruct (n <? 1)|]; reflexivity.
Qed.

Lemma take_ext_rel {A} (f : list byte -> A) k bs ext :
  ext_rel (match take k bs with Some (b, r) => Ok (f b, r) | None => Err Truncated end)
          (match take k (bs ++ ext) with Some (b, r) => Ok (f b, r) | None => Err Truncated end) ext.
Proof. destruct (take k bs) as [[a r]|] eqn:Et; [rewrite (take_ext _ _ _ _ ext Et); reflexivity|exact I]. Qed.

Lemma dec_bytes_ext bs ext : ext_rel (dec_bytes bs) (dec_bytes (bs ++ ext)) ext.
Proof.
  unfold dec_bytes. apply ext_rel_bind; [apply dec_varint_ext_rel|]. intros n r _.
  destruct (N.of_nat (length r) <? n) eqn:E; [exact I|].
  rewrite app_length. replace (N.of_nat (length r + length ext) <? n) with false by lia.
  apply (take_ext_rel (fun v => v)).
Qed.

Section LoopExt.
  Variable pv : pv_t.
  Variable num : N.
  Variable ext : list byte.
  Hypothesis pv_ext : forall n t bs, ext_rel (pv n t bs) (pv n t (bs ++ ext)) ext.
  Hypothesis pv_len : forall n t bs v r, pv n t bs = Ok (v, r) -> (length r <= length bs)%nat.

  Lemma group_loop_ext : forall g bs acc g',
    (length bs < length g)%nat -> (length (bs ++ ext) < length g')%nat ->
    ext_rel (group_loop pv num g bs acc) (group_loop pv num g' (bs ++ ext) acc) ext.
  Proof.
    induction g as [|x g IH]; intros bs acc g' Hg Hg'; [cbn in Hg; lia|].
    destruct g' as [|x' g']; [cbn in Hg'; lia|]. cbn [group_loop].
    apply ext_rel_bind; [apply dec_tag_ext|]. intros [n2 t2] r0 E. apply dec_tag_len in E.
    destruct (t2 =? 4); [destruct (n2 =? num); reflexivity|].
    apply ext_rel_bind; [apply pv_ext|]. intros v' r' Ep. apply pv_len in Ep.
    cbn [length] in Hg, Hg'. rewrite app_length in *. apply IH; rewrite ?app_length; lia.
  Qed.
End LoopExt.

Lemma parse_val_scalar_ext dep num typ bs ext :
  typ <> 3 -> ext_rel (parse_val dep num typ bs) (parse_val dep num typ (bs ++ ext)) ext.
Proof.
  intros Ht. rewrite !parse_val_eq. destruct_typ typ; cbv iota; try reflexivity.
  - (* 0 *) apply ext_rel_bind; [apply dec_varint_ext_rel|]. reflexivity.
  - (* 5 *) apply take_ext_rel.
  - (* 3 *) contradiction.
  - (* 2 *) apply ext_rel_bind; [apply dec_bytes_ext|]. reflexivity.
  - (* 1 *) apply take_ext_rel.
Qed.

Theorem parse_val_ext : forall dep num typ bs ext,
  ext_rel (parse_val dep num typ bs) (parse_val dep num typ (bs ++ ext)) ext.
Proof.
  induction dep as [|d IH]; intros num typ bs ext;
    (destruct (N.eq_dec typ 3) as [->|Hn]; [|apply parse_val_scalar_ext; exact Hn]).
  - reflexivity.
  - rewrite !parse_val_eq. cbv iota.
    apply group_loop_ext; [intros; apply IH|apply parse_val_len|cbn [length]; lia|cbn [length]; lia].
Qed.

Lemma dec_tag_ext_ok bs ext n t r : dec_tag bs = Ok (n, t, r) -> dec_tag (bs ++ ext) = Ok (n, t, r ++ ext).
Proof. apply ext_rel_Ok, dec_tag_ext. Qed.

Lemma dec_bytes_ext_ok bs ext v r : dec_bytes bs = Ok (v, r) -> dec_bytes (bs ++ ext) = Ok (v, r ++ ext).
Proof. apply ext_rel_Ok, dec_bytes_ext. Qed.

Lemma parse_val_ext_ok dep num typ bs ext v r :
  parse_val dep num typ bs = Ok (v, r) -> parse_val dep num typ (bs ++ ext) = Ok (v, r ++ ext).
Proof. apply ext_rel_Ok, parse_val_ext. Qed.

Theorem consume_field_ext bs ext :
  match consume_field bs with
  | Ok res => consume_field (bs ++ ext) = Ok res
  | Err Truncated => True
  | Err e => consume_field (bs ++ ext) = Err e
  end.
Proof.
  unfold consume_field. pose proof (dec_tag_ext bs ext) as Ht.
  destruct (dec_tag bs) as [[[n t] r]|e] eqn:E; unfold ext_rel in Ht.
  - rewrite Ht. pose proof (parse_val_ext default_dep n t r ext) as Hp.
    apply dec_tag_len in E.
    destruct (parse_val default_dep n t r) as [[v r']|e'] eqn:Ep; unfold ext_rel in Hp.
    + rewrite Hp. apply parse_val_len in Ep. f_equal. f_equal. rewrite !app_length. lia.
    + destruct e'; try exact I; rewrite Hp; reflexivity.
  - destruct e; try exact I; rewrite Ht; reflexivity.
Qed.

(* every proper prefix of a well-formed field is reported as Truncated:
   nothing else can go wrong before the end of a well-formed field *)
Theorem consume_field_prefix_truncated q ext num typ n :
  wf_field default_dep (q ++ ext) num typ n -> N.of_nat (length q) < n ->
  consume_field q = Err Truncated.
Proof.
  intros Hwf Hlt. apply consume_field_iff in Hwf. pose proof (consume_field_ext q ext) as He.
  destruct (consume_field q) as [[[n' t'] m]|e] eqn:E.
  - rewrite Hwf in He. inversion He; subst. apply consume_field_no_overread in E. lia.
  - destruct e; trivial; rewrite Hwf in He; discriminate.
Qed.
