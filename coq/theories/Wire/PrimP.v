(* Proofs about the remaining wire primitives of Wire/WireModel.v: fixed32/64,
   zig-zag, bool, tags, length-prefixed bytes, groups, and the wire-tree
   render/parse round trip. *)
From Coq Require Import List Arith NArith ZArith Lia Bool.
From Coq Require Import ZifyBool ZifyNat ZifyN.
From PB Require Import Base.PBytes Wire.WireModel Wire.WireGrammar Wire.VarintP Wire.ScanP.
Import ListNotations.
Open Scope N_scope.

Lemma enc_le_length k v : length (enc_le k v) = k.
Proof. revert v. induction k as [|k IH]; intros v; cbn [enc_le length]; [reflexivity|]. now rewrite IH. Qed.

Lemma dec_enc_le : forall k v, v < 256 ^ N.of_nat k -> dec_le (enc_le k v) = v.
Proof.
  induction k as [|k IH]; intros v Hv.
  - cbn in *. lia.
  - cbn [enc_le dec_le]. rewrite Nnat.Nat2N.inj_succ, N.pow_succ_r' in Hv.
    rewrite b2n_n2b by (pose proof (N.mod_lt v 256); lia).
    rewrite IH by (apply N.div_lt_upper_bound; lia).
    pose proof (N.div_mod v 256). lia.
Qed.

Lemma enc_dec_le : forall b, enc_le (length b) (dec_le b) = b.
Proof.
  induction b as [|x b IH]; [reflexivity|]. cbn [length enc_le dec_le].
  pose proof (b2n_lt x).
  replace ((b2n x + 256 * dec_le b) mod 256) with (b2n x) by lia.
  replace ((b2n x + 256 * dec_le b) / 256) with (dec_le b) by lia.
  now rewrite n2b_b2n, IH.
Qed.

Lemma dec_le_lt b : dec_le b < 256 ^ N.of_nat (length b).
Proof.
  induction b as [|x b IH]; [cbn; lia|]. cbn [dec_le length].
  rewrite Nnat.Nat2N.inj_succ, N.pow_succ_r'. pose proof (b2n_lt x). lia.
Qed.

Lemma fixed_roundtrip k v rest :
  v < 256 ^ N.of_nat k -> dec_fixed k (enc_le k v ++ rest) = Ok (v, rest) /\ length (enc_le k v) = k.
Proof.
  intros Hv. split; [|apply enc_le_length]. unfold dec_fixed.
  rewrite <- (enc_le_length k v) at 1. rewrite take_app. now rewrite dec_enc_le.
Qed.

Theorem fixed32_roundtrip v rest :
  v < 2^32 -> dec_fixed32 (enc_fixed32 v ++ rest) = Ok (v, rest) /\ length (enc_fixed32 v) = 4%nat.
Proof. exact (fixed_roundtrip 4 v rest). Qed.

Theorem fixed64_roundtrip v rest :
  v < 2^64 -> dec_fixed64 (enc_fixed64 v ++ rest) = Ok (v, rest) /\ length (enc_fixed64 v) = 8%nat.
Proof. exact (fixed_roundtrip 8 v rest). Qed.

(* and the other direction: every 4 / 8 bytes are the encoding of the decoded value *)
Theorem fixed_decode_encode k bs v r :
  dec_fixed k bs = Ok (v, r) -> bs = enc_le k v ++ r /\ v < 256 ^ N.of_nat k.
Proof.
  unfold dec_fixed. destruct (take k bs) as [[a b]|] eqn:E; [|discriminate].
  intros H; inversion H; subst. apply take_some in E. destruct E as [-> <-].
  split; [now rewrite enc_dec_le|apply dec_le_lt].
Qed.

Theorem zz_dec_enc x : zz_dec (zz_enc x) = x.
Proof.
  unfold zz_enc, zz_dec. destruct (x <? 0)%Z eqn:E.
  - replace (N.even (Z.to_N (-2 * x - 1))) with false.
    + lia.
    + symmetry. apply Bool.not_true_iff_false. intros H. apply N.even_spec in H. destruct H as [m Hm]. lia.
  - replace (N.even (Z.to_N (2 * x))) with true.
    + lia.
    + symmetry. apply N.even_spec. exists (Z.to_N x). lia.
Qed.

Theorem zz_enc_dec n : zz_enc (zz_dec n) = n.
Proof.
  unfold zz_enc, zz_dec. destruct (N.even n) eqn:E.
  - apply N.even_spec in E. destruct E as [m ->]. replace (Z.of_N (2 * m / 2) <? 0)%Z with false by lia. lia.
  - assert (Ho : N.odd n = true) by (rewrite <- N.negb_even, E; reflexivity).
    apply N.odd_spec in Ho. destruct Ho as [m ->].
    replace (- Z.of_N ((2 * m + 1) / 2) - 1 <? 0)%Z with true by lia. lia.
Qed.

Theorem zz_enc_range x : (- 2^63 <= x < 2^63)%Z -> zz_enc x < 2^64.
Proof. intros H. unfold zz_enc. change (2^63)%Z with 9223372036854775808%Z in H. change (2^64) with 18446744073709551616. destruct (x <? 0)%Z eqn:E; lia. Qed.

Theorem zz_dec_range n : n < 2^64 -> (- 2^63 <= zz_dec n < 2^63)%Z.
Proof. intros H. unfold zz_dec. change (2^63)%Z with 9223372036854775808%Z. change (2^64) with 18446744073709551616 in H. destruct (N.even n); lia. Qed.

Theorem zz_enc_injective x y : zz_enc x = zz_enc y -> x = y.
Proof. intros H. rewrite <- (zz_dec_enc x), <- (zz_dec_enc y). now rewrite H. Qed.

Theorem zz_dec_injective m n : zz_dec m = zz_dec n -> m = n.
Proof. intros H. rewrite <- (zz_enc_dec m), <- (zz_enc_dec n). now rewrite H. Qed.

Theorem bool_roundtrip b : dec_bool (enc_bool b) = b.
Proof. destruct b; reflexivity. Qed.

Theorem bool_enc_dec n : n < 2 -> enc_bool (dec_bool n) = n.
Proof. intros H. unfold enc_bool, dec_bool. destruct (n =? 0) eqn:E; cbn; lia. Qed.

Theorem dec_bool_spec n : dec_bool n = true <-> n <> 0.
Proof. unfold dec_bool. destruct (n =? 0) eqn:E; cbn; split; intros; try lia; congruence. Qed.

Theorem tag_decode_encode num typ :
  num <= 2147483647 -> typ < 8 -> decode_tag (encode_tag num typ) = Some (num, typ).
Proof.
  intros Hn Ht. unfold encode_tag. rewrite (N.mod_small typ 8) by lia. apply decode_tag_some. auto.
Qed.

Theorem tag_encode_injective n1 t1 n2 t2 :
  t1 < 8 -> t2 < 8 -> encode_tag n1 t1 = encode_tag n2 t2 -> n1 = n2 /\ t1 = t2.
Proof. unfold encode_tag. intros H1 H2. rewrite !N.mod_small by lia. lia. Qed.

Theorem tag_encode_decode x num typ : decode_tag x = Some (num, typ) -> encode_tag num typ = x /\ typ < 8 /\ num <= 2147483647.
Proof.
  intros H. apply decode_tag_some in H. destruct H as (-> & Ht & Hn).
  unfold encode_tag. rewrite N.mod_small by lia. auto.
Qed.

Lemma encode_tag_lt num typ : num <= 2147483647 -> encode_tag num typ < 2^64.
Proof. intros H. unfold encode_tag. change (2^64) with 18446744073709551616. lia. Qed.

Lemma enc_tag_is_tag num typ : num_ok num -> typ < 8 -> is_tag (enc_tag num typ) num typ.
Proof.
  intros [Hlo Hhi] Ht. destruct (enc_varint_shape _ (encode_tag_lt num typ Hhi)) as [Hs Hval].
  unfold enc_tag, encode_tag in *. rewrite (N.mod_small typ 8) in * by lia.
  unfold is_tag, num_ok. auto.
Qed.

Theorem tag_roundtrip num typ rest :
  num_ok num -> typ < 8 ->
  dec_tag (enc_tag num typ ++ rest) = Ok (num, typ, rest) /\
  N.of_nat (length (enc_tag num typ)) = size_tag num.
Proof.
  intros Hn Ht. split; [apply dec_tag_complete, enc_tag_is_tag; assumption|].
  destruct Hn as [Hlo Hhi]. unfold enc_tag. rewrite enc_varint_length by (apply encode_tag_lt, Hhi).
  unfold encode_tag. rewrite (N.mod_small typ 8) by lia. apply size_tag_eq; lia.
Qed.

Lemma size_tag_range num : num <= 2147483647 -> 1 <= size_tag num <= 10.
Proof. intros H. apply size_varint_range, encode_tag_lt, H. Qed.

Lemma dec_tag_enc num typ rest :
  num_ok num -> typ < 8 -> dec_tag (enc_tag num typ ++ rest) = Ok (num, typ, rest).
Proof. intros Hn Ht. apply tag_roundtrip; assumption. Qed.

Lemma enc_tag_nonempty num typ : (1 <= length (enc_tag num typ))%nat.
Proof.
  unfold enc_tag. pose proof (enc_varint_nonempty (encode_tag num typ)).
  destruct (enc_varint (encode_tag num typ)); [congruence|cbn [length]; lia].
Qed.

Theorem bytes_roundtrip v rest :
  N.of_nat (length v) < 2^64 ->
  dec_bytes (enc_bytes v ++ rest) = Ok (v, rest) /\
  N.of_nat (length (enc_bytes v)) = size_bytes (N.of_nat (length v)).
Proof.
  intros Hv. destruct (enc_varint_shape _ Hv) as [Hs Hval]. unfold enc_bytes. split.
  - rewrite <- app_assoc. apply dec_bytes_complete; assumption.
  - rewrite app_length, Nnat.Nat2N.inj_add, enc_varint_length by exact Hv. reflexivity.
Qed.

Theorem group_roundtrip num body rest :
  num_ok num -> wf_fields (N.to_nat 10000) body ->
  consume_group num (append_group num body ++ rest)
    = Ok (Some body, size_group num (N.of_nat (length body))) /\
  N.of_nat (length (append_group num body)) = size_group num (N.of_nat (length body)).
Proof.
  intros Hn Hb. pose proof (enc_tag_is_tag num 4 Hn ltac:(lia)) as Het.
  destruct (tag_roundtrip num 4 [] Hn ltac:(lia)) as [_ Hlen].
  unfold append_group, size_group. split.
  - rewrite <- app_assoc. rewrite (consume_group_complete _ _ _ rest Hb Het).
    f_equal. f_equal. rewrite Nnat.Nat2N.inj_add, Hlen. reflexivity.
  - rewrite app_length, Nnat.Nat2N.inj_add, Hlen. reflexivity.
Qed.

(* every error code is negative, which is how the Go callers test for an error *)
Lemma werr_code_neg e : (werr_code e < 0)%Z.
Proof. destruct e; cbn; lia. Qed.
Lemma werr_code_ltb e : (werr_code e <? 0)%Z = true.
Proof. apply Z.ltb_lt, werr_code_neg. Qed.

(* wire trees: parse (render v) = v *)
Section Ind.
  Variable P : wval -> Prop.
  Hypothesis H1 : forall v, P (WVarint v).
  Hypothesis H2 : forall b, P (WFixed32 b).
  Hypothesis H3 : forall b, P (WFixed64 b).
  Hypothesis H4 : forall b, P (WLen b).
  Hypothesis H5 : forall fs, Forall (fun p => P (snd p)) fs -> P (WGroup fs).
  Fixpoint wval_ind' (v : wval) : P v :=
    match v with
    | WVarint x => H1 x | WFixed32 b => H2 b | WFixed64 b => H3 b | WLen b => H4 b
    | WGroup fs => H5 fs ((fix go (l : list (N * wval)) : Forall (fun p => P (snd p)) l :=
                             match l with
                             | [] => Forall_nil _
                             | p :: r => Forall_cons p (wval_ind' (snd p)) (go r)
                             end) fs)
    end.
End Ind.

Lemma render_group_eq num fs : render_val num (WGroup fs) = render_fields fs ++ enc_tag num 4.
Proof. reflexivity. Qed.

Lemma wtype_lt8 v : wtype_of v < 8. Proof. destruct v; cbn; lia. Qed.
Lemma wtype_ne4 v : (wtype_of v =? 4) = false. Proof. destruct v; reflexivity. Qed.

Lemma wf_val_group fs : wf_val (WGroup fs) <-> Forall (fun p => num_ok (fst p) /\ wf_val (snd p)) fs.
Proof.
  induction fs as [|p r IH]; [split; constructor|].
  change (wf_val (WGroup (p :: r))) with (num_ok (fst p) /\ wf_val (snd p) /\ wf_val (WGroup r)).
  rewrite IH, Forall_cons_iff. tauto.
Qed.

Lemma wdepth_group fs f : (wdepth (WGroup fs) <= S f)%nat <-> Forall (fun p => (wdepth (snd p) <= f)%nat) fs.
Proof.
  induction fs as [|p r IH]; [split; [constructor|cbn; lia]|].
  rewrite Forall_cons_iff, <- IH.
  change (wdepth (WGroup (p :: r))) with (S (Nat.max (wdepth (snd p)) (pred (wdepth (WGroup r))))).
  lia.
Qed.

(* every field costs at least its tag byte, so one unit of fuel per input byte suffices *)
Lemma render_fields_length l : (length l <= length (render_fields l))%nat.
Proof.
  induction l as [|[n x] r IH]; [cbn; lia|].
  cbn [render_fields flat_map length]. unfold render_field at 1. cbn [fst snd].
  rewrite !app_length. pose proof (enc_tag_nonempty n (wtype_of x)). unfold render_fields in IH. lia.
Qed.

Lemma group_loop_render f num rest : num_ok num -> forall (l : list wfield) acc g,
  Forall (fun p => num_ok (fst p) /\ forall rest,
            parse_val f (fst p) (wtype_of (snd p)) (render_val (fst p) (snd p) ++ rest) = Ok (snd p, rest)) l ->
  (length l < length g)%nat ->
  group_loop (parse_val f) num g ((render_fields l ++ enc_tag num 4) ++ rest) acc
  = Ok (WGroup (rev acc ++ l), rest).
Proof.
  intros Hnum. induction l as [|[n x] r IHr]; intros acc g HF Hg;
    (destruct g; [cbn in Hg; lia|]); cbn [group_loop].
  - cbn [render_fields flat_map app]. rewrite dec_tag_enc by (auto; lia).
    cbn. rewrite N.eqb_refl. now rewrite app_nil_r.
  - inversion HF as [|? ? [Hn Hp] HF']; subst. cbn [fst snd] in Hn, Hp.
    cbn [render_fields flat_map]. unfold render_field at 1. cbn [fst snd].
    rewrite <- !app_assoc. rewrite dec_tag_enc by (auto using wtype_lt8).
    rewrite wtype_ne4, Hp. change (flat_map render_field r) with (render_fields r).
    rewrite (app_assoc (render_fields r)).
    rewrite IHr by (auto; cbn in Hg; lia). cbn [rev]. rewrite <- app_assoc. reflexivity.
Qed.

Theorem parse_render : forall v num rest dep,
  wf_val v -> num_ok num -> (wdepth v <= dep)%nat ->
  parse_val dep num (wtype_of v) (render_val num v ++ rest) = Ok (v, rest).
Proof.
  induction v using wval_ind'; intros num rest dep Hwf Hnum Hdep;
    rewrite parse_val_eq; cbn [wtype_of]; cbv iota.
  - cbn [render_val]. cbn in Hwf. now rewrite varint_roundtrip.
  - cbn [render_val]. cbn in Hwf. rewrite <- Hwf. now rewrite take_app.
  - cbn [render_val]. cbn in Hwf. rewrite <- Hwf. now rewrite take_app.
  - cbn [render_val]. cbn in Hwf. destruct (bytes_roundtrip b rest Hwf) as [Hb _]. unfold enc_bytes in Hb. now rewrite Hb.
  - destruct dep as [|f]; [cbn in Hdep; lia|]. rewrite render_group_eq.
    apply wf_val_group in Hwf. apply wdepth_group in Hdep. rewrite Forall_forall in H, Hwf, Hdep.
    apply (group_loop_render f num rest Hnum fs []).
    + apply Forall_forall. intros p Hin. destruct (Hwf p Hin) as [Hn Hv].
      split; [exact Hn|]. intros rest'. apply H; auto.
    + pose proof (render_fields_length fs). cbn [length]. rewrite !app_length. lia.
Qed.
