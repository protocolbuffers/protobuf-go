(* go_eq_spec (the name DESIGN.md gives to the family of theorems go_*_spec): the
   Go functions of encoding/protowire/wire.go, as translated to
   Gallina by srcmodel on every run (Gen/WireGo.v), equal the specification
   functions of Wire/WireModel.v on their domains.  If wire.go changes, WireGo.v
   changes, and these proofs either still go through or break.
   (AppendVarint: Wire/WireGoAppendP.v, ConsumeVarint: Wire/WireGoConsumeP.v.) *)
From Coq Require Import List Arith NArith ZArith Lia Bool.
From Coq Require Import ZifyBool ZifyNat ZifyN.
From PB Require Import Base.PBytes Base.PBytesP Base.GoInt Wire.WireModel Wire.WireGrammar Wire.VarintP Wire.ScanP Wire.PrimP.
From PB Require Import Gen.WireGo.
From PB Require Export Wire.WireGoBaseP Wire.WireGoAppendP Wire.WireGoConsumeP.
Import ListNotations.
Import String.StringSyntax.
Local Open Scope string_scope.
Open Scope Z_scope.

Lemma z_log2_of_N v : Z.log2 (Z.of_N v) = Z.of_N (N.log2 v).
Proof. destruct v as [|[p|p|]]; reflexivity. Qed.

Theorem go_SizeVarint_spec v : (v < 2^64)%N -> go_SizeVarint (Z.of_N v) = Z.of_N (size_varint v).
Proof.
  intros Hv. change (2^64)%N with 18446744073709551616%N in Hv.
  unfold go_SizeVarint. cbv zeta.
  set (w := Z.lor (Z.of_N v) 1).
  assert (Hw1 : 1 <= w).
  { subst w. pose proof (Z.lor_nonneg (Z.of_N v) 1) as Hn.
    destruct (Z.eq_dec (Z.lor (Z.of_N v) 1) 0) as [E|E]; [apply Z.lor_eq_0_iff in E; lia|].
    assert (0 <= Z.lor (Z.of_N v) 1) by (apply Hn; lia). lia. }
  assert (Hlog : Z.log2 w = Z.of_N (N.log2 v)).
  { subst w. rewrite Z.log2_lor by lia. change (Z.log2 1) with 0.
    rewrite z_log2_of_N. lia. }
  assert (Hl63 : (N.log2 v <= 63)%N).
  { destruct (N.eq_dec v 0) as [->|Hnz]; [cbn; lia|].
    assert (N.log2 v < 64)%N by (apply N.log2_lt_pow2; [lia|change (2^64)%N with 18446744073709551616%N; lia]). lia. }
  unfold bits_LeadingZeros64. replace (w =? 0) with false by lia. rewrite Hlog.
  set (L := Z.of_N (N.log2 v)). assert (HL : 0 <= L <= 63) by (subst L; lia).
  rewrite (wrap_u32_small (63 - L)) by lia.
  pose proof (lxor_ones_sub (63 - L) 6 ltac:(lia)) as HX. change (2^6) with 64 in HX.
  change (64 - 1) with 63 in HX. rewrite HX by lia. clear HX.
  replace (63 - (63 - L)) with L by lia.
  rewrite (wrap_u32_small L) by lia. rewrite (wrap_u32_small (L * 9)) by lia.
  rewrite (wrap_u32_small (L * 9 + 73)) by lia. rewrite Z.quot_div_nonneg by lia.
  assert (Hq : 0 <= (L * 9 + 73) / 64 < 64) by lia.
  rewrite wrap_u32_small by lia. rewrite wrap_i64_small by lia.
  unfold size_varint. destruct (N.eq_dec v 0) as [->|Hnz].
  - subst L. cbn. reflexivity.
  - rewrite N.size_log2 by exact Hnz. rewrite N2Z.inj_div, N2Z.inj_add, N2Z.inj_mul, N2Z.inj_succ. fold L.
    change (Z.of_N 9) with 9. change (Z.of_N 64) with 64.
    replace (9 * Z.succ L + 64) with (L * 9 + 73) by lia. reflexivity.
Qed.

Theorem go_constants :
  c_VarintType = 0 /\ c_Fixed64Type = 1 /\ c_BytesType = 2 /\ c_StartGroupType = 3 /\
  c_EndGroupType = 4 /\ c_Fixed32Type = 5 /\
  c_errCodeTruncated = werr_code Truncated /\ c_errCodeFieldNumber = werr_code FieldNumber /\
  c_errCodeOverflow = werr_code Overflow /\ c_errCodeReserved = werr_code Reserved /\
  c_errCodeEndGroup = werr_code EndGroup /\ c_errCodeRecursionDepth = werr_code RecursionDepth /\
  c_MinValidNumber = 1 /\ c_MaxValidNumber = 2^29 - 1 /\
  Z.to_nat (c_DefaultRecursionLimit + 1) = default_dep.
Proof. repeat split; reflexivity. Qed.

Fixpoint shifts8 (n : nat) (k : Z) : list Z :=
  match n with O => [] | S n' => k :: shifts8 n' (k + 8) end.

Lemma enc_le_shifts : forall n k v,
  0 <= k ->
  zbytes (enc_le n (v / 2 ^ Z.to_N k)%N) = map (fun s => wrap_u8 (Z.shiftr (Z.of_N v) s)) (shifts8 n k).
Proof.
  induction n as [|n IH]; intros k v Hk; [reflexivity|].
  cbn [enc_le shifts8 map]. rewrite zbytes_cons. f_equal.
  - rewrite zb_byte by (apply N.mod_lt; discriminate).
    unfold wrap_u8. rewrite Z.shiftr_div_pow2 by exact Hk.
    rewrite N2Z.inj_mod, N2Z.inj_div, N2Z.inj_pow, Z2N.id by lia. reflexivity.
  - rewrite <- IH by lia. f_equal. f_equal.
    rewrite N.div_div by (try apply N.pow_nonzero; discriminate).
    f_equal. rewrite Z2N.inj_add by lia. rewrite N.pow_add_r. reflexivity.
Qed.

Theorem go_AppendFixed32_spec b v :
  go_AppendFixed32 (zbytes b) (Z.of_N v) = zbytes (b ++ enc_fixed32 v).
Proof.
  rewrite zbytes_app. unfold enc_fixed32. rewrite <- (N.div_1_r v) at 2.
  change 1%N with (2 ^ Z.to_N 0)%N. rewrite enc_le_shifts by lia. reflexivity.
Qed.

Theorem go_AppendFixed64_spec b v :
  go_AppendFixed64 (zbytes b) (Z.of_N v) = zbytes (b ++ enc_fixed64 v).
Proof.
  rewrite zbytes_app. unfold enc_fixed64. rewrite <- (N.div_1_r v) at 2.
  change 1%N with (2 ^ Z.to_N 0)%N. rewrite enc_le_shifts by lia. reflexivity.
Qed.

(* one more byte or-ed in above the k bits accumulated so far *)
Lemma lor_byte a y k :
  0 <= k -> 0 <= a < 2^k -> 0 <= y < 256 ->
  Z.lor a (Z.shiftl y k) = a + y * 2^k /\ 0 <= a + y * 2^k < 2^(k + 8).
Proof.
  intros Hk Ha Hy. split; [apply lor_shiftl_add; assumption|].
  rewrite Z.pow_add_r by lia. change (2^8) with 256. remember (2^k) as P. nia.
Qed.

Lemma shiftl_byte_small y k : 0 <= k -> 0 <= y < 256 -> 0 <= Z.shiftl y k < 2^(k + 8).
Proof.
  intros Hk Hy. rewrite Z.shiftl_mul_pow2 by exact Hk. rewrite Z.pow_add_r by lia.
  change (2^8) with 256. assert (0 < 2^k) by (apply Z.pow_pos_nonneg; lia). nia.
Qed.

(* the little-endian decoders: bytes or-ed in from the low end, each wrapped to
   the width [w] of the result type *)
Fixpoint lor_le (W : Z -> Z) (acc k : Z) (ts : list Z) : Z :=
  match ts with
  | [] => acc
  | t :: ts' => lor_le W (Z.lor acc (W (Z.shiftl (W t) k))) (k + 8) ts'
  end.

Lemma lor_le_spec (W : Z -> Z) w : (forall x, 0 <= x < 2^w -> W x = x) ->
  forall bs k acc, 0 <= k -> k + 8 * Z.of_nat (length bs) <= w -> 0 <= acc < 2^k ->
  lor_le W acc k (zbytes bs) = acc + Z.of_N (dec_le bs) * 2^k.
Proof.
  intros HW. induction bs as [|b r IH]; intros k acc Hk Hw Ha; [cbn; lia|].
  cbn [length] in Hw. rewrite zbytes_cons. cbn [lor_le dec_le].
  pose proof (b2n_lt b) as Hb. rewrite N2Z.inj_add, N2Z.inj_mul. change (Z.of_N 256) with 256.
  set (y := Z.of_N (b2n b)). assert (Hy : 0 <= y < 256) by (subst y; lia).
  assert (Hp : 2^(k + 8) <= 2^w) by (apply Z.pow_le_mono_r; lia).
  assert (H8 : 2^8 <= 2^(k + 8)) by (apply Z.pow_le_mono_r; lia). change (2^8) with 256 in H8.
  pose proof (shiftl_byte_small y k Hk Hy) as Hs.
  rewrite (HW y), (HW (Z.shiftl y k)) by lia.
  destruct (lor_byte acc y k Hk Ha Hy) as [E B]. rewrite E, IH by lia.
  rewrite Z.pow_add_r by lia. change (2^8) with 256. ring.
Qed.

Theorem go_ConsumeFixed32_spec bs : go_ConsumeFixed32 (zbytes bs) = Val (zres_vn (dec_fixed32 bs) bs).
Proof.
  unfold go_ConsumeFixed32. cbv zeta.
  destruct bs as [|b0 [|b1 [|b2 [|b3 r]]]]; try reflexivity.
  rewrite !zbytes_cons.
  match goal with |- context [len ?L <? 4] =>
    replace (len L <? 4) with false by (rewrite !len_cons; pose proof (len_nonneg (zbytes r)); lia) end.
  index_at 0. index_at 1. index_at 2. index_at 3.
  (* in this direction the conversion unfolds [lor_le] first; the other way round it
     starts on [Z.lor] and [wrap_u32] and is slow *)
  replace (Z.lor _ _) with (lor_le wrap_u32 0 0 (zbytes [b0; b1; b2; b3])) by reflexivity.
  rewrite (lor_le_spec wrap_u32 32 wrap_u32_small) by (cbn [length]; lia).
  unfold dec_fixed32, dec_fixed. cbn [take length Nat.leb firstn skipn zres_vn].
  f_equal. f_equal; [|cbn [length]]; lia.
Qed.

Theorem go_ConsumeFixed64_spec bs : go_ConsumeFixed64 (zbytes bs) = Val (zres_vn (dec_fixed64 bs) bs).
Proof.
  unfold go_ConsumeFixed64. cbv zeta.
  destruct bs as [|b0 [|b1 [|b2 [|b3 [|b4 [|b5 [|b6 [|b7 r]]]]]]]]; try reflexivity.
  rewrite !zbytes_cons.
  match goal with |- context [len ?L <? 8] =>
    replace (len L <? 8) with false by (rewrite !len_cons; pose proof (len_nonneg (zbytes r)); lia) end.
  index_at 0. index_at 1. index_at 2. index_at 3. index_at 4. index_at 5. index_at 6. index_at 7.
  replace (Z.lor _ _) with (lor_le wrap_u64 0 0 (zbytes [b0; b1; b2; b3; b4; b5; b6; b7])) by reflexivity.
  rewrite (lor_le_spec wrap_u64 64 wrap_u64_small) by (cbn [length]; lia).
  unfold dec_fixed64, dec_fixed. cbn [take length Nat.leb firstn skipn zres_vn].
  f_equal. f_equal; [|cbn [length]]; lia.
Qed.

Theorem go_Fixed_spec :
  (forall b v, (v < 2^32)%N -> go_AppendFixed32 (zbytes b) (Z.of_N v) = zbytes (b ++ enc_fixed32 v)) /\
  (forall b v, (v < 2^64)%N -> go_AppendFixed64 (zbytes b) (Z.of_N v) = zbytes (b ++ enc_fixed64 v)) /\
  (forall bs, go_ConsumeFixed32 (zbytes bs) = Val (zres_vn (dec_fixed32 bs) bs)) /\
  (forall bs, go_ConsumeFixed64 (zbytes bs) = Val (zres_vn (dec_fixed64 bs) bs)) /\
  go_SizeFixed32 = 4 /\ go_SizeFixed64 = 8.
Proof.
  split; [intros; apply go_AppendFixed32_spec|]. split; [intros; apply go_AppendFixed64_spec|].
  split; [exact go_ConsumeFixed32_spec|]. split; [exact go_ConsumeFixed64_spec|]. split; reflexivity.
Qed.

Theorem go_EncodeZigZag_spec x :
  - 2^63 <= x < 2^63 -> go_EncodeZigZag x = Z.of_N (zz_enc x).
Proof.
  change (2^63) with 9223372036854775808. intros Hx.
  unfold go_EncodeZigZag, zz_enc. rewrite Z.shiftl_mul_pow2, Z.shiftr_div_pow2 by lia.
  change (2^1) with 2. change (2^63) with 9223372036854775808.
  destruct (x <? 0) eqn:E.
  - replace (x / 9223372036854775808) with (-1) by lia.
    change (wrap_u64 (-1)) with (2^64 - 1).
    assert (Hu : wrap_u64 (wrap_i64 (x * 2)) = x * 2 + 18446744073709551616) by (unfold wrap_u64, wrap_i64; lia).
    rewrite Hu. rewrite lxor_ones_sub by (change (2^64) with 18446744073709551616; lia).
    change (2^64) with 18446744073709551616. rewrite wrap_u64_small by lia. lia.
  - replace (x / 9223372036854775808) with 0 by lia. change (wrap_u64 0) with 0. rewrite Z.lxor_0_r.
    assert (Hu : wrap_u64 (wrap_i64 (x * 2)) = x * 2) by (unfold wrap_u64, wrap_i64; lia).
    rewrite Hu. rewrite wrap_u64_small by lia. lia.
Qed.

Theorem go_DecodeZigZag_spec n : (n < 2^64)%N -> go_DecodeZigZag (Z.of_N n) = zz_dec n.
Proof.
  change (2^64)%N with 18446744073709551616%N. intros Hn.
  unfold go_DecodeZigZag, zz_dec. set (x := Z.of_N n).
  rewrite Z.shiftr_div_pow2 by lia. change (2^1) with 2.
  rewrite (wrap_i64_small (x / 2)) by (subst x; lia).
  rewrite Z.shiftl_mul_pow2 by lia. rewrite Z.shiftr_div_pow2 by lia. change (2^63) with 9223372036854775808.
  replace (Z.of_N (n / 2)) with (x / 2) by (subst x; rewrite N2Z.inj_div; reflexivity).
  destruct (N.even n) eqn:E.
  - apply N.even_spec in E. destruct E as [m Hm].
    assert (Hs : wrap_i64 (wrap_i64 x * 9223372036854775808) = 0) by (unfold wrap_i64; subst x; lia).
    rewrite Hs. change (0 / 9223372036854775808) with 0. rewrite Z.lxor_0_r.
    apply wrap_i64_small. subst x. lia.
  - assert (Ho : N.odd n = true) by (rewrite <- N.negb_even, E; reflexivity).
    apply N.odd_spec in Ho. destruct Ho as [m Hm].
    assert (Hs : wrap_i64 (wrap_i64 x * 9223372036854775808) = - 9223372036854775808) by (unfold wrap_i64; subst x; lia).
    rewrite Hs. change (- 9223372036854775808 / 9223372036854775808) with (-1).
    rewrite Z.lxor_m1_r. unfold Z.lnot. rewrite wrap_i64_small by (subst x; lia). lia.
Qed.

Theorem go_ZigZag_spec :
  (forall x, (- 2^63 <= x < 2^63)%Z -> go_EncodeZigZag x = Z.of_N (zz_enc x)) /\
  (forall n, (n < 2^64)%N -> go_DecodeZigZag (Z.of_N n) = zz_dec n).
Proof. split; [exact go_EncodeZigZag_spec|exact go_DecodeZigZag_spec]. Qed.

Theorem go_Bool_spec :
  (forall b, go_EncodeBool b = Z.of_N (enc_bool b)) /\
  (forall n, go_DecodeBool (Z.of_N n) = dec_bool n).
Proof.
  split; [intros []; reflexivity|]. intros n. unfold go_DecodeBool, dec_bool. f_equal. lia.
Qed.

Theorem go_EncodeTag_spec num typ :
  (num <= 2147483647)%N -> (typ < 8)%N ->
  go_EncodeTag (Z.of_N num) (Z.of_N typ) = Z.of_N (encode_tag num typ).
Proof.
  intros Hn Ht. unfold go_EncodeTag, encode_tag. rewrite (N.mod_small typ 8) by lia.
  change 7 with (Z.ones 3). rewrite Z.land_ones by lia. change (2^3) with 8.
  rewrite (Z.mod_small (Z.of_N typ) 8) by lia.
  rewrite (wrap_u64_small (Z.of_N num)), (wrap_u64_small (Z.of_N typ)) by lia.
  rewrite Z.shiftl_mul_pow2 by lia. change (2^3) with 8. rewrite wrap_u64_small by lia.
  rewrite Z.lor_comm. replace (Z.of_N num * 8) with (Z.shiftl (Z.of_N num) 3) by (rewrite Z.shiftl_mul_pow2 by lia; reflexivity).
  rewrite lor_shiftl_add by (change (2^3) with 8; lia). change (2^3) with 8. lia.
Qed.

Theorem go_DecodeTag_spec x :
  (x < 2^64)%N ->
  go_DecodeTag (Z.of_N x) = match decode_tag x with
                            | Some (num, typ) => (Z.of_N num, Z.of_N typ)
                            | None => (-1, 0)
                            end.
Proof.
  change (2^64)%N with 18446744073709551616%N. intros Hx. unfold go_DecodeTag, decode_tag.
  rewrite Z.shiftr_div_pow2 by lia. change (2^3) with 8.
  change 7 with (Z.ones 3). rewrite Z.land_ones by lia. change (2^3) with 8.
  destruct (2147483647 <? x / 8)%N eqn:E.
  - replace (2147483647 <? Z.of_N x / 8) with true by lia. reflexivity.
  - replace (2147483647 <? Z.of_N x / 8) with false by lia.
    rewrite wrap_i32_small, wrap_i8_small by lia. f_equal; lia.
Qed.

Theorem go_AppendTag_spec b num typ :
  (num <= 2147483647)%N -> (typ < 8)%N ->
  go_AppendTag (zbytes b) (Z.of_N num) (Z.of_N typ) = zbytes (b ++ enc_tag num typ).
Proof.
  intros Hn Ht. unfold go_AppendTag, enc_tag. rewrite go_EncodeTag_spec by assumption.
  apply go_AppendVarint_spec, encode_tag_lt, Hn.
Qed.

Theorem go_SizeTag_spec num : (num <= 2147483647)%N -> go_SizeTag (Z.of_N num) = Z.of_N (size_tag num).
Proof.
  intros Hn. unfold go_SizeTag, size_tag. change (go_EncodeTag (Z.of_N num) 0) with (go_EncodeTag (Z.of_N num) (Z.of_N 0)).
  rewrite (go_EncodeTag_spec num 0) by lia.
  apply go_SizeVarint_spec, encode_tag_lt, Hn.
Qed.

Definition zres_tag (R : result (N * N * list byte)) (bs : list byte) : Z * Z * Z :=
  match R with
  | Ok (num, typ, r) => (Z.of_N num, Z.of_N typ, Z.of_nat (length bs - length r))
  | Err e => (0, 0, werr_code e)
  end.


Theorem go_ConsumeTag_spec bs : go_ConsumeTag (zbytes bs) = Val (zres_tag (dec_tag bs) bs).
Proof.
  unfold go_ConsumeTag. rewrite go_ConsumeVarint_spec. cbn [bind]. unfold dec_tag.
  destruct (dec_varint bs) as [[x r]|e] eqn:E; cbn [zres_vn].
  - replace (Z.of_nat (length bs - length r) <? 0) with false by lia.
    rewrite go_DecodeTag_spec by (eapply dec_varint_bound; eauto).
    destruct (decode_tag x) as [[num typ]|].
    + destruct (num <? 1)%N eqn:En.
      * replace (Z.of_N num <? 1) with true by lia. reflexivity.
      * replace (Z.of_N num <? 1) with false by lia. reflexivity.
    + reflexivity.
  - rewrite werr_code_ltb. reflexivity.
Qed.

Theorem go_Tag_spec :
  (forall num typ, (num <= 2147483647)%N -> (typ < 8)%N ->
     go_EncodeTag (Z.of_N num) (Z.of_N typ) = Z.of_N (encode_tag num typ)) /\
  (forall x, (x < 2^64)%N ->
     go_DecodeTag (Z.of_N x) = match decode_tag x with
                               | Some (num, typ) => (Z.of_N num, Z.of_N typ)
                               | None => (-1, 0)%Z
                               end) /\
  (forall b num typ, (num <= 2147483647)%N -> (typ < 8)%N ->
     go_AppendTag (zbytes b) (Z.of_N num) (Z.of_N typ) = zbytes (b ++ enc_tag num typ)) /\
  (forall num, (num <= 2147483647)%N -> go_SizeTag (Z.of_N num) = Z.of_N (size_tag num)).
Proof.
  split; [exact go_EncodeTag_spec|]. split; [exact go_DecodeTag_spec|].
  split; [exact go_AppendTag_spec|exact go_SizeTag_spec].
Qed.

Theorem go_AppendBytes_spec b v :
  (N.of_nat (length v) < 2^64)%N -> go_AppendBytes (zbytes b) (zbytes v) = zbytes (b ++ enc_bytes v).
Proof.
  intros Hv. unfold go_AppendBytes, enc_bytes. rewrite len_zbytes.
  change (2^64)%N with 18446744073709551616%N in Hv.
  rewrite wrap_u64_small by lia. replace (Z.of_nat (length v)) with (Z.of_N (N.of_nat (length v))) by lia.
  rewrite go_AppendVarint_spec by (change (2^64)%N with 18446744073709551616%N; lia).
  rewrite app_assoc, (zbytes_app (b ++ _) v). reflexivity.
Qed.

Theorem go_AppendString_spec b v : go_AppendString b v = go_AppendBytes b v.
Proof. reflexivity. Qed.

(* n < 2^62 leaves room for SizeVarint(n) + n, at most n + 10, inside int *)
Theorem go_SizeBytes_spec n : (n < 2^62)%N -> go_SizeBytes (Z.of_N n) = Z.of_N (size_bytes n).
Proof.
  change (2^62)%N with 4611686018427387904%N. intros Hn. unfold go_SizeBytes, size_bytes.
  rewrite wrap_u64_small by lia.
  assert (Hv : (n < 2^64)%N) by (change (2^64)%N with 18446744073709551616%N; lia).
  rewrite go_SizeVarint_spec by exact Hv. pose proof (size_varint_range n Hv).
  rewrite wrap_i64_small by lia. lia.
Qed.

Theorem go_AppendGroup_spec b num v :
  (num <= 2147483647)%N ->
  go_AppendGroup (zbytes b) (Z.of_N num) (zbytes v) = zbytes (b ++ append_group num v).
Proof.
  intros Hn. unfold go_AppendGroup, append_group. rewrite <- zbytes_app.
  change 4 with (Z.of_N 4). change (go_AppendVarint (zbytes (b ++ v)) (go_EncodeTag (Z.of_N num) (Z.of_N 4)))
    with (go_AppendTag (zbytes (b ++ v)) (Z.of_N num) (Z.of_N 4)).
  rewrite go_AppendTag_spec by lia. now rewrite app_assoc.
Qed.

Theorem go_SizeGroup_spec num n :
  (num <= 2147483647)%N -> (n < 2^62)%N -> go_SizeGroup (Z.of_N num) (Z.of_N n) = Z.of_N (size_group num n).
Proof.
  change (2^62)%N with 4611686018427387904%N. intros Hnum Hn. unfold go_SizeGroup, size_group.
  rewrite go_SizeTag_spec by exact Hnum. pose proof (size_tag_range num Hnum).
  rewrite wrap_i64_small by lia. lia.
Qed.

Definition zres_bytes (R : result (list byte * list byte)) (bs : list byte) : list Z * Z :=
  match R with
  | Ok (v, r) => (zbytes v, Z.of_nat (length bs - length r))
  | Err e => ([], werr_code e)
  end.

Lemma zbytes_firstn n b : firstn n (zbytes b) = zbytes (firstn n b).
Proof. apply firstn_map. Qed.

Lemma slice_lo_zbytes p r : slice_lo (zbytes (p ++ r)) (Z.of_nat (length p)) = Val (zbytes r).
Proof. apply slice_lo_map_app. Qed.

(* Go slices are shorter than 2^63 bytes *)
Theorem go_ConsumeBytes_spec bs :
  Z.of_nat (length bs) < 2^63 -> go_ConsumeBytes (zbytes bs) = Val (zres_bytes (dec_bytes bs) bs).
Proof.
  change (2^63) with 9223372036854775808. intros Hlen.
  unfold go_ConsumeBytes. cbv zeta. rewrite go_ConsumeVarint_spec. cbn [bind]. unfold dec_bytes.
  destruct (dec_varint bs) as [[m r]|e] eqn:E; cbn [zres_vn].
  - pose proof (dec_varint_bound _ _ _ E) as Hm. change (2^64)%N with 18446744073709551616%N in Hm.
    apply dec_varint_suffix in E. destruct E as (p & -> & Hp).
    rewrite app_length in Hlen.
    replace (length (p ++ r) - length r)%nat with (length p) by (rewrite app_length; lia).
    replace (Z.of_nat (length p) <? 0) with false by lia.
    rewrite slice_lo_zbytes. cbn [bind]. rewrite len_zbytes. rewrite wrap_u64_small by lia.
    destruct (N.of_nat (length r) <? m)%N eqn:Et.
    + replace (Z.of_nat (length r) <? Z.of_N m) with true by lia. reflexivity.
    + replace (Z.of_nat (length r) <? Z.of_N m) with false by lia.
      unfold slice_hi. rewrite len_zbytes.
      replace ((Z.of_N m <? 0) || (Z.of_nat (length r) <? Z.of_N m)) with false by lia.
      cbn [bind]. rewrite <- Z_N_nat, N2Z.id. unfold take.
      replace (Nat.leb (N.to_nat m) (length r)) with true by (symmetry; apply Nat.leb_le; lia).
      cbn [zres_bytes]. rewrite zbytes_firstn. f_equal. f_equal.
      rewrite (wrap_i64_small (Z.of_N m)) by lia. rewrite wrap_i64_small by lia.
      rewrite app_length, skipn_length. lia.
  - rewrite werr_code_ltb. reflexivity.
Qed.

Theorem go_ConsumeString_spec bs :
  Z.of_nat (length bs) < 2^63 -> go_ConsumeString (zbytes bs) = Val (zres_bytes (dec_bytes bs) bs).
Proof.
  intros Hlen. unfold go_ConsumeString. cbv zeta. rewrite go_ConsumeBytes_spec by exact Hlen. cbn [bind].
  destruct (zres_bytes (dec_bytes bs) bs). reflexivity.
Qed.

Theorem go_Bytes_spec :
  (forall b v, (N.of_nat (length v) < 2^64)%N ->
     go_AppendBytes (zbytes b) (zbytes v) = zbytes (b ++ enc_bytes v) /\
     go_AppendString (zbytes b) (zbytes v) = zbytes (b ++ enc_bytes v)) /\
  (forall n, (n < 2^62)%N -> go_SizeBytes (Z.of_N n) = Z.of_N (size_bytes n)) /\
  (forall bs, Z.of_nat (length bs) < 2^63 ->
     go_ConsumeBytes (zbytes bs) = Val (zres_bytes (dec_bytes bs) bs) /\
     go_ConsumeString (zbytes bs) = Val (zres_bytes (dec_bytes bs) bs)) /\
  (forall b num v, (num <= 2147483647)%N ->
     go_AppendGroup (zbytes b) (Z.of_N num) (zbytes v) = zbytes (b ++ append_group num v)) /\
  (forall num n, (num <= 2147483647)%N -> (n < 2^62)%N ->
     go_SizeGroup (Z.of_N num) (Z.of_N n) = Z.of_N (size_group num n)).
Proof.
  split; [intros b v Hv; split; [|rewrite go_AppendString_spec]; apply go_AppendBytes_spec; exact Hv|].
  split; [exact go_SizeBytes_spec|].
  split; [intros bs H; split; [apply go_ConsumeBytes_spec|apply go_ConsumeString_spec]; exact H|].
  split; [exact go_AppendGroup_spec|exact go_SizeGroup_spec].
Qed.

(* ParseError: the code -> error value table *)
Definition perr_go (p : perr) : go_error :=
  match p with
  | PNil => GoNil
  | PUnexpectedEOF => GoErr "io.ErrUnexpectedEOF"
  | PFieldNumber => GoErr "errFieldNumber"
  | POverflow => GoErr "errOverflow"
  | PReserved => GoErr "errReserved"
  | PEndGroup => GoErr "errEndGroup"
  | PParse => GoErr "errParse"
  end.

Theorem go_ParseError_spec n : go_ParseError n = perr_go (parse_error n).
Proof.
  unfold go_ParseError, parse_error.
  destruct (0 <=? n); [reflexivity|].
  destruct (n =? -1); [reflexivity|]. destruct (n =? -2); [reflexivity|].
  destruct (n =? -3); [reflexivity|]. destruct (n =? -4); [reflexivity|].
  destruct (n =? -5); reflexivity.
Qed.

(* the mapping of the scanner's error codes: nil exactly for n >= 0; the five
   documented codes go to five distinct errors; RecursionDepth (and any other
   negative code) to the generic errParse *)
Theorem parse_error_mapping :
  (forall n, parse_error n = PNil <-> 0 <= n) /\
  parse_error (werr_code Truncated) = PUnexpectedEOF /\
  parse_error (werr_code FieldNumber) = PFieldNumber /\
  parse_error (werr_code Overflow) = POverflow /\
  parse_error (werr_code Reserved) = PReserved /\
  parse_error (werr_code EndGroup) = PEndGroup /\
  parse_error (werr_code RecursionDepth) = PParse /\
  (forall e, parse_error (werr_code e) <> PNil).
Proof.
  split.
  { intros n. unfold parse_error. destruct (0 <=? n) eqn:E; [split; [lia|reflexivity]|].
    split; [|lia]. destruct (n =? -1); [discriminate|]. destruct (n =? -2); [discriminate|].
    destruct (n =? -3); [discriminate|]. destruct (n =? -4); [discriminate|].
    destruct (n =? -5); discriminate. }
  repeat split; try reflexivity. intros e; destruct e; discriminate.
Qed.
