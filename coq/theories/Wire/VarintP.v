(* Proofs about the varint codec of Wire/WireModel.v *)
From Coq Require Import List Arith NArith ZArith Lia Bool.
From Coq Require Import ZifyBool ZifyNat ZifyN.
From PB Require Import Base.PBytes Wire.WireModel Wire.WireGrammar.
Import ListNotations.
Open Scope N_scope.

(* one byte of a varint, uniformly in the number k of bytes that may still
   follow it: a byte below [vlast k] ends the varint (the tenth byte carries a
   single bit), and k bytes hold the values below [vcap k]; [vcap 10] is 2^64 *)
Definition vlast (k : nat) : N := match k with O => 2 | S _ => 128 end.
Definition vcap (k : nat) : N := match k with O => 0 | S k' => 2 * 128 ^ N.of_nat k' end.

Lemma vlast_le k : vlast k <= 128.
Proof. destruct k; cbn; lia. Qed.

Lemma varint_shape_S k b r :
  varint_shape (S k) (b :: r) <-> (b2n b < vlast k /\ r = []) \/ (128 <= b2n b /\ varint_shape k r).
Proof. destruct k; cbn [varint_shape vlast]; [destruct r|]; tauto. Qed.

Lemma varint_shape_vlast k p : varint_shape k p -> vlast k = 128.
Proof. destruct k; [destruct p; contradiction|reflexivity]. Qed.

Lemma dec_varint_aux_S k s a b r :
  dec_varint_aux (S k) s a (b :: r) =
  if b2n b <? vlast k then Ok (a + b2n b * 2^s, r)
  else dec_varint_aux k (s + 7) (a + (b2n b - 128) * 2^s) r.
Proof. destruct k; reflexivity. Qed.

Lemma vcap_SS k : vcap (S (S k)) = 128 * vcap (S k).
Proof. cbn [vcap]. rewrite Nnat.Nat2N.inj_succ, N.pow_succ_r'. lia. Qed.

Lemma vlast_cap k : vlast k <= vcap (S k).
Proof.
  destruct k; [cbn; lia|]. cbn [vlast]. rewrite vcap_SS.
  assert (0 < vcap (S k)) by (cbn [vcap]; apply N.mul_pos_pos; [lia|apply N.neq_0_lt_0, N.pow_nonzero; discriminate]).
  lia.
Qed.

Lemma vcap_mul k : 128 * vcap k <= vcap (S k).
Proof. destruct k; [cbn; lia|]. rewrite vcap_SS. lia. Qed.

Lemma vcap_small k v : v < vcap (S k) -> v < 128 -> v < vlast k.
Proof. destruct k; [cbn; lia|cbn [vlast]; lia]. Qed.

Lemma vcap_div k v : v < vcap (S k) -> 128 <= v -> v / 128 < vcap k.
Proof. destruct k; [cbn; lia|]. rewrite vcap_SS. intros Hv _. apply N.div_lt_upper_bound; lia. Qed.

(* the decoder accepts exactly the varint grammar *)
Lemma varint_shape_nonempty k p : varint_shape k p -> p <> [].
Proof. destruct k, p; cbn; intros H; try contradiction; discriminate. Qed.

Lemma varint_shape_len k p : varint_shape k p -> (1 <= length p <= k)%nat.
Proof.
  revert p. induction k as [|k IH]; intros p H; [destruct p; contradiction|].
  destruct p as [|b r]; [contradiction|]. apply varint_shape_S in H.
  destruct H as [[_ ->]|[_ H]]; [cbn; lia|]. apply IH in H. cbn [length]. lia.
Qed.

Lemma varint_shape_mono k p : varint_shape k p -> varint_shape (S k) p.
Proof.
  revert p. induction k as [|k IH]; intros p H; [destruct p; contradiction|].
  destruct p as [|b r]; [contradiction|]. apply varint_shape_S in H. apply varint_shape_S.
  destruct H as [[Hb ->]|[Hb H]]; [left|right; auto].
  pose proof (vlast_le k). split; [cbn [vlast]; lia|reflexivity].
Qed.

Lemma varint_val_lt p : varint_val p < 128 ^ N.of_nat (length p).
Proof.
  induction p as [|b r IH]; [cbn; lia|].
  cbn [varint_val length]. rewrite Nnat.Nat2N.inj_succ, N.pow_succ_r'. lia.
Qed.

Lemma dec_aux_sound : forall k shift acc bs v r,
  dec_varint_aux k shift acc bs = Ok (v, r) ->
  exists p, bs = p ++ r /\ varint_shape k p /\ v = acc + varint_val p * 2^shift.
Proof.
  induction k as [|k IH]; intros shift acc bs v r H; [discriminate|].
  destruct bs as [|b t]; [discriminate|]. rewrite dec_varint_aux_S in H.
  pose proof (b2n_lt b) as Hb. pose proof (vlast_le k) as Hk.
  destruct (b2n b <? vlast k) eqn:E.
  - injection H as <- <-. exists [b]. split; [reflexivity|].
    split; [apply varint_shape_S; left; split; [lia|reflexivity]|].
    cbn [varint_val]. rewrite N.mod_small by lia. lia.
  - apply IH in H. destruct H as (p & -> & Hs & ->). rewrite (varint_shape_vlast _ _ Hs) in E.
    exists (b :: p). split; [reflexivity|].
    split; [apply varint_shape_S; right; split; [lia|exact Hs]|].
    cbn [varint_val]. rewrite N.pow_add_r. change (2^7) with 128.
    replace (b2n b mod 128) with (b2n b - 128) by lia.
    remember (b2n b - 128) as y. remember (2^shift) as s. lia.
Qed.

Lemma dec_aux_complete : forall k p shift acc r,
  varint_shape k p ->
  dec_varint_aux k shift acc (p ++ r) = Ok (acc + varint_val p * 2^shift, r).
Proof.
  induction k as [|k IH]; intros p shift acc r H; [destruct p; contradiction|].
  destruct p as [|b t]; [contradiction|]. apply varint_shape_S in H.
  pose proof (b2n_lt b) as Hb. pose proof (vlast_le k) as Hk.
  cbn [app]. rewrite dec_varint_aux_S. cbn [varint_val].
  destruct H as [[H1 ->]|[H1 H2]].
  - replace (b2n b <? vlast k) with true by lia. cbn [app varint_val].
    rewrite N.mod_small by lia. f_equal. f_equal. lia.
  - replace (b2n b <? vlast k) with false by lia.
    rewrite IH by exact H2. f_equal. f_equal.
    rewrite N.pow_add_r. change (2^7) with 128.
    replace (b2n b mod 128) with (b2n b - 128) by lia.
    remember (b2n b - 128) as y. remember (2^shift) as s. lia.
Qed.

Theorem dec_varint_sound bs v r :
  dec_varint bs = Ok (v, r) -> exists p, bs = p ++ r /\ varint_bytes p /\ varint_val p = v.
Proof.
  unfold dec_varint. intros H. apply dec_aux_sound in H. destruct H as (p & -> & Hs & ->).
  exists p. split; [reflexivity|]. split; [exact Hs|]. change (2^0) with 1. lia.
Qed.

Theorem dec_varint_complete p r :
  varint_bytes p -> dec_varint (p ++ r) = Ok (varint_val p, r).
Proof.
  intros H. unfold dec_varint. rewrite dec_aux_complete by exact H.
  f_equal. f_equal. change (2^0) with 1. lia.
Qed.

Theorem dec_varint_iff bs v r :
  dec_varint bs = Ok (v, r) <-> exists p, bs = p ++ r /\ varint_bytes p /\ varint_val p = v.
Proof.
  split; [apply dec_varint_sound|]. intros (p & -> & H & <-). now apply dec_varint_complete.
Qed.

(* decoded values fit in 64 bits *)
Lemma varint_shape_val_bound : forall k p, varint_shape k p -> varint_val p < vcap k.
Proof.
  induction k as [|k IH]; intros p H; [destruct p; contradiction|].
  destruct p as [|b t]; [contradiction|]. apply varint_shape_S in H. cbn [varint_val].
  pose proof (vlast_le k). pose proof (vlast_cap k). pose proof (vcap_mul k).
  destruct H as [[Hb ->]|[Hb Hs]].
  - cbn [varint_val]. rewrite N.mod_small by lia. lia.
  - apply IH in Hs. lia.
Qed.

Lemma varint_bytes_val_bound p : varint_bytes p -> varint_val p < 2^64.
Proof. exact (varint_shape_val_bound 10 p). Qed.

Lemma dec_varint_bound bs v r : dec_varint bs = Ok (v, r) -> v < 2^64.
Proof. intros H. apply dec_varint_sound in H. destruct H as (p & _ & H & <-). now apply varint_bytes_val_bound. Qed.

(* the declarative reading of [varint_bytes] *)
Lemma varint_shape_decl : forall k p,
  varint_shape k p <->
  exists init last, p = init ++ [last] /\ Forall (fun b => 128 <= b2n b) init /\
                    (length init < k)%nat /\
                    b2n last < (if Nat.eqb (S (length init)) k then 2 else 128).
Proof.
  induction k as [|k IH]; intros p.
  - split; [destruct p; contradiction|]. intros (i & l & _ & _ & H & _). lia.
  - destruct p as [|b t].
    + split; [contradiction|]. intros (i & l & H & _). destruct i; discriminate.
    + rewrite varint_shape_S, IH. split.
      * intros [[H1 ->]|[H1 (i & l & -> & HF & Hlen & Hl)]].
        -- exists [], b. destruct k; cbn in *; repeat split; auto; lia.
        -- exists (b :: i), l. cbn [app length]. repeat split; auto; lia.
      * intros (i & l & H & HF & Hlen & Hl). destruct i as [|b' i']; injection H as <- ->.
        -- left. destruct k; cbn in *; auto.
        -- right. inversion HF; subst. split; [assumption|].
           exists i', l. cbn [length] in *. repeat split; auto; lia.
Qed.

Theorem varint_bytes_decl p :
  varint_bytes p <->
  exists init last, p = init ++ [last] /\ Forall (fun b => 128 <= b2n b) init /\
                    (length init <= 9)%nat /\
                    b2n last < (if Nat.eqb (length init) 9 then 2 else 128).
Proof.
  unfold varint_bytes. rewrite varint_shape_decl. split; intros (i & l & H1 & H2 & H3 & H4); exists i, l;
    repeat split; auto; try lia.
Qed.

(* decoding consumes at least one byte and never more than the input *)
Lemma dec_varint_suffix bs v r : dec_varint bs = Ok (v, r) -> exists p, bs = p ++ r /\ (1 <= length p <= 10)%nat.
Proof.
  intros H. apply dec_varint_sound in H. destruct H as (p & -> & Hs & _).
  exists p. split; [reflexivity|]. now apply varint_shape_len.
Qed.

Lemma dec_varint_len bs v r : dec_varint bs = Ok (v, r) -> (length r < length bs)%nat.
Proof. intros H. apply dec_varint_suffix in H. destruct H as (p & -> & Hp). rewrite app_length. lia. Qed.

(* the only errors are a short input and a tenth byte above 1 *)
Lemma dec_aux_err : forall k s a bs e, dec_varint_aux k s a bs = Err e -> e = Truncated \/ e = Overflow.
Proof.
  induction k as [|k IH]; intros s a bs e; [intros [= <-]; auto|].
  destruct bs as [|b t]; [intros [= <-]; auto|]. rewrite dec_varint_aux_S.
  destruct (b2n b <? vlast k); [discriminate|apply IH].
Qed.

Lemma dec_varint_err bs e : dec_varint bs = Err e -> e = Truncated \/ e = Overflow.
Proof. apply dec_aux_err. Qed.

Lemma dec_varint_not_fuel bs : dec_varint bs <> Err OutOfFuel.
Proof. intros H. apply dec_varint_err in H. destruct H; discriminate. Qed.

(* the result on an extended input: anything but Truncated is already decided *)
Lemma dec_aux_ext : forall k shift acc bs ext,
  match dec_varint_aux k shift acc bs with
  | Ok (v, r) => dec_varint_aux k shift acc (bs ++ ext) = Ok (v, r ++ ext)
  | Err Truncated => True
  | Err e => dec_varint_aux k shift acc (bs ++ ext) = Err e
  end.
Proof.
  induction k as [|k IH]; intros shift acc bs ext; [reflexivity|].
  destruct bs as [|b t]; [exact I|]. cbn [app]. rewrite !dec_varint_aux_S.
  destruct (b2n b <? vlast k); [reflexivity|apply IH].
Qed.

Lemma dec_varint_ext bs ext :
  match dec_varint bs with
  | Ok (v, r) => dec_varint (bs ++ ext) = Ok (v, r ++ ext)
  | Err Truncated => True
  | Err e => dec_varint (bs ++ ext) = Err e
  end.
Proof. apply dec_aux_ext. Qed.

(* a proper prefix of a varint is reported as Truncated *)
Lemma dec_aux_prefix : forall k p shift acc q1 q2,
  varint_shape k p -> p = q1 ++ q2 -> q2 <> [] -> dec_varint_aux k shift acc q1 = Err Truncated.
Proof.
  induction k as [|k IH]; intros p shift acc q1 q2 Hs E Hq2; [destruct p; contradiction|].
  destruct p as [|b t]; [contradiction|]. destruct q1 as [|b1 q1']; [reflexivity|].
  injection E as <- ->. rewrite dec_varint_aux_S. apply varint_shape_S in Hs.
  destruct Hs as [[_ Hn]|[Hb Hs]].
  - apply app_eq_nil in Hn. tauto.
  - pose proof (vlast_le k). replace (b2n b <? vlast k) with false by lia. eapply IH; eauto.
Qed.

(* shape, value and length of the encoder's output *)

(* canonical digit strings: non-empty, top digit non-zero *)
Definition canonical (p : list byte) : Prop := exists i l, p = i ++ [l] /\ b2n l mod 128 <> 0.

Lemma enc_fuel_shape : forall k v, v < vcap k ->
  varint_shape k (enc_varint_fuel k v) /\ varint_val (enc_varint_fuel k v) = v /\
  (0 < v -> canonical (enc_varint_fuel k v)).
Proof.
  induction k as [|k IH]; intros v Hv; [cbn in Hv; lia|].
  cbn [enc_varint_fuel]. destruct (v <? 128) eqn:Hlt; rewrite varint_shape_S.
  - pose proof (vcap_small k v Hv ltac:(lia)).
    cbn [varint_val]. rewrite b2n_n2b, N.mod_small by lia.
    split; [left; split; [assumption|reflexivity]|]. split; [lia|]. intros Hp.
    exists [], (n2b v). rewrite b2n_n2b, N.mod_small by lia. split; [reflexivity|lia].
  - destruct (IH (v / 128) (vcap_div k v Hv ltac:(lia))) as (Hs & Hval & Hc).
    cbn [varint_val]. rewrite b2n_n2b, Hval by lia.
    split; [right; split; [lia|exact Hs]|]. split; [lia|]. intros _.
    destruct Hc as (i & l & E & Hl); [lia|].
    exists (n2b (v mod 128 + 128) :: i), l. rewrite E. split; [reflexivity|exact Hl].
Qed.

Lemma enc_varint_shape v : v < 2^64 -> varint_bytes (enc_varint v) /\ varint_val (enc_varint v) = v.
Proof. intros H. destruct (enc_fuel_shape 10 v H) as (Hs & Hv & _). auto. Qed.

Lemma enc_varint_nonempty v : enc_varint v <> [].
Proof. unfold enc_varint. cbn [enc_varint_fuel]. destruct (v <? 128); discriminate. Qed.

Theorem varint_roundtrip v rest : v < 2^64 -> dec_varint (enc_varint v ++ rest) = Ok (v, rest).
Proof.
  intros Hv. destruct (enc_varint_shape v Hv) as [Hs Hval].
  rewrite dec_varint_complete by exact Hs. now rewrite Hval.
Qed.

Lemma canonical_lower p : canonical p -> 128 ^ (N.of_nat (length p) - 1) <= varint_val p.
Proof.
  intros (i & l & -> & Hl). induction i as [|b i IH].
  - cbn. lia.
  - cbn [app varint_val length]. rewrite app_length in *. cbn [length] in *.
    replace (N.of_nat (S (length i + 1)) - 1) with (N.succ (N.of_nat (length i + 1) - 1)) by lia.
    rewrite N.pow_succ_r'. lia.
Qed.

(* the closed form of SizeVarint counts base-128 digits *)
Lemma size_varint_digits v k :
  0 < v -> (1 <= k <= 10) -> 128^(k-1) <= v < 128^k -> size_varint v = k.
Proof.
  intros Hv Hk [Hlo Hhi]. unfold size_varint.
  rewrite N.size_log2 by lia.
  assert (H7 : forall n, 128^n = 2^(7*n)) by (intros n; rewrite N.pow_mul_r; reflexivity).
  rewrite H7 in Hlo, Hhi.
  apply N.log2_le_pow2 in Hlo; [|exact Hv].
  apply N.log2_lt_pow2 in Hhi; [|exact Hv].
  lia.
Qed.

Lemma size_varint_upper v k : (1 <= k <= 10) -> v < 128^k -> size_varint v <= k.
Proof.
  intros Hk Hhi. unfold size_varint. destruct (N.eq_dec v 0) as [->|Hv].
  - cbn. lia.
  - rewrite N.size_log2 by lia.
    assert (H7 : 128^k = 2^(7*k)) by (rewrite N.pow_mul_r; reflexivity).
    rewrite H7 in Hhi. apply N.log2_lt_pow2 in Hhi; lia.
Qed.

Lemma canonical_size p : canonical p -> (length p <= 10)%nat -> size_varint (varint_val p) = N.of_nat (length p).
Proof.
  intros Hc Hlen. pose proof (canonical_lower p Hc) as Hlo. pose proof (varint_val_lt p) as Hhi.
  assert (1 <= length p)%nat by (destruct Hc as (i & l & -> & _); rewrite app_length; cbn; lia).
  assert (0 < 128 ^ (N.of_nat (length p) - 1)) by (apply N.neq_0_lt_0, N.pow_nonzero; discriminate).
  apply size_varint_digits; lia.
Qed.

Theorem enc_varint_length v : v < 2^64 -> N.of_nat (length (enc_varint v)) = size_varint v.
Proof.
  intros Hv. destruct (N.eq_dec v 0) as [->|Hnz]; [reflexivity|].
  destruct (enc_fuel_shape 10 v Hv) as (Hs & Hval & Hc). fold (enc_varint v) in *.
  pose proof (varint_shape_len _ _ Hs).
  rewrite <- Hval at 2. symmetry. apply canonical_size; [apply Hc|]; lia.
Qed.

Lemma size_varint_range v : v < 2^64 -> 1 <= size_varint v <= 10.
Proof.
  intros Hv. rewrite <- enc_varint_length by exact Hv.
  destruct (enc_varint_shape v Hv) as [Hs _]. apply varint_shape_len in Hs. lia.
Qed.

(* minimality: every byte string that decodes to v is at least as long as enc_varint v *)
Theorem varint_minimal bs v r :
  dec_varint bs = Ok (v, r) -> (length (enc_varint v) <= length bs - length r)%nat.
Proof.
  intros H. pose proof (dec_varint_bound _ _ _ H) as Hb.
  apply dec_varint_sound in H. destruct H as (p & -> & Hs & <-).
  rewrite app_length. replace (length p + length r - length r)%nat with (length p) by lia.
  pose proof (varint_shape_len _ _ Hs).
  pose proof (enc_varint_length (varint_val p) Hb).
  pose proof (size_varint_upper (varint_val p) (N.of_nat (length p)) ltac:(lia) (varint_val_lt p)). lia.
Qed.

(* length = max 1 (ceil (bitlen / 7)) *)
Theorem enc_varint_length_bits v :
  v < 2^64 -> N.of_nat (length (enc_varint v)) = N.max 1 ((N.size v + 6) / 7).
Proof.
  intros Hv. rewrite enc_varint_length by exact Hv. unfold size_varint.
  assert (N.size v <= 64).
  { destruct (N.eq_dec v 0) as [->|Hnz]; [cbn; lia|]. rewrite N.size_log2 by lia.
    apply N.log2_lt_pow2 in Hv; lia. }
  lia.
Qed.
