(* Support for go_eq_spec (Wire/WireGoP.v): representation of byte strings and
   results as the translated code sees them, bit-twiddling lemmas over Z. *)
From Coq Require Import List Arith NArith ZArith Lia Bool.
From Coq Require Import ZifyBool ZifyNat ZifyN.
From PB Require Import Base.PBytes Base.GoInt Wire.WireModel.
From PB Require Export Base.GoIntP.
From PB Require Import Gen.WireGo.
Import ListNotations.
Open Scope Z_scope.

(* byte strings as the translated code sees them *)
Definition zbytes (b : list byte) : list Z := map (fun x => Z.of_N (b2n x)) b.
(* a (value, n) result pair of a Consume* function: n is the number of bytes
   consumed or the negative error code *)
Definition zres_vn (R : result (N * list byte)) (bs : list byte) : Z * Z :=
  match R with
  | Ok (v, r) => (Z.of_N v, Z.of_nat (length bs - length r))
  | Err e => (0, werr_code e)
  end.

Lemma zbytes_app a b : zbytes (a ++ b) = zbytes a ++ zbytes b.
Proof. apply map_app. Qed.
Lemma zbytes_length b : length (zbytes b) = length b.
Proof. apply map_length. Qed.
Lemma len_zbytes b : len (zbytes b) = Z.of_nat (length b).
Proof. apply len_map. Qed.
Lemma zbytes_cons b r : zbytes (b :: r) = Z.of_N (b2n b) :: zbytes r.
Proof. reflexivity. Qed.

(* [index_at i] resolves the checked access [index L i], for a literal [i], on a
   list [L] whose first cells are written out *)
Ltac index_at i :=
  match goal with
  | |- context [index ?L i] =>
      rewrite (index_nth L i)
        by (rewrite !len_cons; match goal with |- context [len ?t] => pose proof (len_nonneg t) end; lia);
      let n := eval compute in (Z.to_nat i) in change (Z.to_nat i) with n; cbn [nth bind]
  end.

(* the byte after a prefix *)
Lemma index_app_len pre b r :
  index (zbytes (pre ++ b :: r)) (len (zbytes pre)) = Val (Z.of_N (b2n b)).
Proof. rewrite len_zbytes. exact (index_map_app _ pre b r). Qed.

Lemma zb_byte x : (x < 256)%N -> Z.of_N (b2n (n2b x)) = Z.of_N x.
Proof. intros H. now rewrite b2n_n2b. Qed.

Lemma z_cont_byte v k :
  0 <= v -> 0 <= k -> wrap_u8 (Z.lor (Z.land (Z.shiftr v k) 127) 128) = (v / 2^k) mod 128 + 128.
Proof.
  intros Hv Hk. unfold wrap_u8. rewrite Z.shiftr_div_pow2 by exact Hk.
  assert (Hl : Z.land (Z.land (v / 2^k) 127) 128 = 0).
  { rewrite <- Z.land_assoc. change (Z.land 127 128) with 0. apply Z.land_0_r. }
  rewrite (lor_disjoint _ _ Hl). change 127 with (Z.ones 7). rewrite Z.land_ones by lia.
  change (2^7) with 128. pose proof (Z.mod_pos_bound (v / 2^k) 128 ltac:(lia)).
  apply Z.mod_small. lia.
Qed.

Lemma z_last_byte v k : 0 <= k -> 0 <= v < 2^(k + 7) -> wrap_u8 (Z.shiftr v k) = v / 2^k.
Proof.
  intros Hk Hv. unfold wrap_u8. rewrite Z.shiftr_div_pow2 by exact Hk. apply Z.mod_small.
  rewrite Z.pow_add_r in Hv by lia. change (2^7) with 128 in Hv.
  assert (0 < 2^k) by (apply Z.pow_pos_nonneg; lia).
  split; [apply Z.div_pos; lia|]. apply Z.div_lt_upper_bound; lia.
Qed.

Lemma div_lt_test z k : 0 <= z -> 0 <= k -> (z / 2^k <? 128) = (z <? 2^(k + 7)).
Proof.
  intros Hz Hk. rewrite Z.pow_add_r by lia. change (2^7) with 128.
  assert (0 < 2^k) by (apply Z.pow_pos_nonneg; lia).
  destruct (z <? 2^k * 128) eqn:E.
  - apply Z.ltb_lt. apply Z.div_lt_upper_bound; lia.
  - apply Z.ltb_ge. apply Z.div_le_lower_bound; lia.
Qed.

Lemma land_ones_shiftl a b k : 0 <= k -> 0 <= a < 2^k -> Z.land a (Z.shiftl b k) = 0.
Proof.
  intros Hk Ha. rewrite <- (Z.mod_small a (2^k)) by exact Ha. rewrite <- Z.land_ones by exact Hk.
  rewrite <- Z.land_assoc. rewrite (Z.land_comm (Z.ones k)). rewrite Z.land_ones by exact Hk.
  rewrite Z.shiftl_mul_pow2 by exact Hk. rewrite Z.mod_mul by (apply Z.pow_nonzero; lia). apply Z.land_0_r.
Qed.

Lemma lor_shiftl_add a b k : 0 <= k -> 0 <= a < 2^k -> Z.lor a (Z.shiftl b k) = a + b * 2^k.
Proof.
  intros Hk Ha. rewrite lor_disjoint by (apply land_ones_shiftl; assumption).
  now rewrite Z.shiftl_mul_pow2 by exact Hk.
Qed.

(* x xor (2^n - 1) = 2^n - 1 - x on [0, 2^n) *)
Lemma lxor_ones_sub x n : 0 < n -> 0 <= x < 2^n -> Z.lxor x (2^n - 1) = 2^n - 1 - x.
Proof.
  intros Hn Hx.
  replace (2^n - 1 - x) with ((Z.lnot x) mod 2^n).
  2:{ symmetry. apply Z.mod_unique with (q := -1); [left; lia|]. unfold Z.lnot. lia. }
  rewrite <- Z.land_ones by lia. replace (2^n - 1) with (Z.ones n) by (rewrite Z.ones_equiv; lia).
  apply Z.bits_inj'. intros m Hm. rewrite Z.lxor_spec, Z.land_spec, Z.lnot_spec by lia.
  destruct (Z.lt_ge_cases m n).
  - rewrite Z.ones_spec_low by lia. destruct (Z.testbit x m); reflexivity.
  - rewrite Z.ones_spec_high by lia. rewrite andb_false_r, xorb_false_r.
    destruct (Z.eq_dec x 0) as [->|Hnz]; [apply Z.bits_0|].
    apply Z.bits_above_log2; [lia|]. assert (Z.log2 x < n) by (apply Z.log2_lt_pow2; lia). lia.
Qed.

Lemma wrap_u8_small x : 0 <= x < 256 -> wrap_u8 x = x.
Proof. exact (GoIntP.wrap_u8_small x). Qed.
