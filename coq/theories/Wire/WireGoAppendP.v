(* go_eq_spec for AppendVarint: the ten-way switch of wire.go, as translated by
   srcmodel (Gen/WireGo.v), emits exactly [enc_varint v] for every v < 2^64. *)
From Coq Require Import List Arith NArith ZArith Lia Bool.
From Coq Require Import ZifyBool ZifyNat ZifyN.
From PB Require Import Base.PBytes Base.GoInt Wire.WireModel.
From PB Require Import Gen.WireGo.
From PB Require Import Wire.WireGoBaseP.
Import ListNotations.
Open Scope Z_scope.

(* the unrolled switch, as a recursion over the shift amounts *)
Fixpoint zenc_l (shifts : list Z) (z : Z) : list Z :=
  match shifts with
  | [] => []
  | k :: ks => if z / 2^k <? 128 then [z / 2^k] else ((z / 2^k) mod 128 + 128) :: zenc_l ks z
  end.
Fixpoint shifts7 (n : nat) (k : Z) : list Z :=
  match n with O => [] | S n' => k :: shifts7 n' (k + 7) end.

(* shifting by seven more bits is dividing the argument by 128 first *)
Lemma zenc_l_shift : forall n k z,
  0 <= k -> zenc_l (shifts7 n (k + 7)) z = zenc_l (shifts7 n k) (z / 128).
Proof.
  induction n as [|n IH]; intros k z Hk; [reflexivity|]. cbn [shifts7 zenc_l].
  assert (Hd : z / 2^(k + 7) = z / 128 / 2^k).
  { rewrite Z.pow_add_r, Z.mul_comm by lia. symmetry. apply Z.div_div; [lia|]. apply Z.pow_pos_nonneg; lia. }
  rewrite Hd, IH by lia. reflexivity.
Qed.

Lemma zenc_l_spec : forall n v, zenc_l (shifts7 n 0) (Z.of_N v) = zbytes (enc_varint_fuel n v).
Proof.
  induction n as [|n IH]; intros v; [reflexivity|].
  cbn [shifts7 zenc_l enc_varint_fuel]. change (2^0) with 1. rewrite Z.div_1_r.
  rewrite (zenc_l_shift n 0) by lia. replace (Z.of_N v / 128) with (Z.of_N (v / 128)) by lia. rewrite IH.
  destruct (v <? 128)%N eqn:E.
  - replace (Z.of_N v <? 128) with true by lia. cbn [zbytes map]. now rewrite zb_byte by lia.
  - replace (Z.of_N v <? 128) with false by lia. cbn [zbytes map]. rewrite zb_byte by lia.
    f_equal. lia.
Qed.

Lemma enc_varint_zenc v :
  zbytes (enc_varint v) = zenc_l [0; 7; 14; 21; 28; 35; 42; 49; 56; 63] (Z.of_N v).
Proof. symmetry. exact (zenc_l_spec 10 v). Qed.

(* the ten-way switch of the Go code, read as a recursion over the shift amounts:
   [pre] holds the continuation bytes of the branches already passed *)
Fixpoint go_switch (b pre : list Z) (ks : list Z) (z : Z) : list Z :=
  match ks with
  | [] => b ++ pre ++ [1]
  | k :: ks' =>
      if z <? 2^(k + 7) then b ++ pre ++ [wrap_u8 (Z.shiftr z k)]
      else go_switch b (pre ++ [wrap_u8 (Z.lor (Z.land (Z.shiftr z k) 127) 128)]) ks' z
  end.

Lemma go_AppendVarint_shape b z :
  go_AppendVarint b z = go_switch b [] [0; 7; 14; 21; 28; 35; 42; 49; 56] z.
Proof. reflexivity. Qed.

(* [last] stands for the byte emitted when every test has failed *)
Lemma go_switch_spec : forall ks b pre z last,
  0 <= z -> Forall (Z.le 0) ks ->
  (Forall (fun k => 2^(k + 7) <= z) ks -> zenc_l last z = [1]) ->
  go_switch b pre ks z = b ++ pre ++ zenc_l (ks ++ last) z.
Proof.
  induction ks as [|k ks IH]; intros b pre z last Hz Hks Hlast.
  - cbn [go_switch app]. now rewrite Hlast by constructor.
  - inversion Hks as [|? ? Hk Hks']; subst. cbn [go_switch app zenc_l].
    rewrite div_lt_test by assumption. destruct (z <? 2^(k + 7)) eqn:E.
    + rewrite z_last_byte by lia. reflexivity.
    + rewrite (IH b _ z last Hz Hks') by (intros HF; apply Hlast; constructor; [lia|exact HF]).
      rewrite z_cont_byte by assumption. now rewrite <- !app_assoc.
Qed.

Theorem go_AppendVarint_spec b v :
  (v < 2^64)%N -> go_AppendVarint (zbytes b) (Z.of_N v) = zbytes (b ++ enc_varint v).
Proof.
  intros Hv. rewrite go_AppendVarint_shape, zbytes_app, enc_varint_zenc.
  change (2^64)%N with 18446744073709551616%N in Hv.
  apply (go_switch_spec [0; 7; 14; 21; 28; 35; 42; 49; 56] _ [] _ [63]); [lia|repeat constructor; lia|].
  (* ten bytes: the last one is the literal 1 *)
  intros HF. rewrite Forall_forall in HF. specialize (HF 56 ltac:(cbn [In]; tauto)).
  change (2^(56 + 7)) with 9223372036854775808 in HF. cbn [zenc_l].
  replace (Z.of_N v / 2^63) with 1 by (change (2^63) with 9223372036854775808; lia). reflexivity.
Qed.
