(* go_eq_spec for the functions of wire.go that contain loops / recursion
   (consumeFieldValueD, ConsumeFieldValue, ConsumeField, ConsumeGroup), as
   translated by srcmodel: a `for` loop is a fuel-indexed local fixpoint, the
   recursion of consumeFieldValueD is structural on a fuel derived from depth.
   Each translated function equals the hand model of Wire/WireModel.v on all
   inputs; in particular it returns neither Panic nor Fuel.  The two loops are
   first identified (by conversion, [reflexivity]) with the closed forms
   [cfv_loop] / [strip_loop] below, so a change to the loops in wire.go breaks
   these proofs. *)
From Coq Require Import List Arith NArith ZArith Lia Bool.
From Coq Require Import ZifyBool ZifyNat ZifyN.
From PB Require Import Base.PBytes Base.PBytesP Base.GoInt Wire.WireModel Wire.WireGrammar Wire.VarintP Wire.ScanP Wire.PrimP.
From PB Require Import Gen.WireGo.
From PB Require Import Wire.WireGoP.
Import ListNotations.
Open Scope Z_scope.

(* the length result of a scanner call *)
Definition zres_n {A : Type} (R : result (A * list byte)) (bs : list byte) : Z :=
  match R with
  | Ok (_, r) => Z.of_nat (length bs - length r)
  | Err e => werr_code e
  end.

Lemma slice_lo_consumed cur p r :
  cur = p ++ r -> slice_lo (zbytes cur) (Z.of_nat (length cur - length r)) = Val (zbytes r).
Proof.
  intros ->. replace (length (p ++ r) - length r)%nat with (length p) by (rewrite app_length; lia).
  apply slice_lo_zbytes.
Qed.

(* the group loop of consumeFieldValueD *)
Definition cfv_loop (rec : Z -> Z -> list Z -> Z -> outcome Z) (v_num v_n0 v_depth : Z) :=
  fix loop1 (lfuel : nat) (v_b : list Z) {struct lfuel} : outcome Z :=
    match lfuel with
    | O => Fuel
    | S lfuel' =>
      bind (go_ConsumeTag v_b) (fun '(v_num2, v_typ2, v_n1) =>
      if v_n1 <? 0 then Val v_n1
      else
        bind (slice_lo v_b v_n1) (fun t1 =>
        if v_typ2 =? 4 then
          (if negb (v_num =? v_num2) then Val (-5) else Val (wrap_i64 (v_n0 - len t1)))
        else
          bind (rec v_num2 v_typ2 t1 (wrap_i64 (v_depth - 1))) (fun t2 =>
          if t2 <? 0 then Val t2
          else bind (slice_lo t1 t2) (fun t3 => loop1 lfuel' t3))))
    end.

Lemma rec_group_shape r num b depth :
  go_consumeFieldValueD_rec (S r) num 3 b depth =
  if depth <? 0 then Val (-6)
  else cfv_loop (go_consumeFieldValueD_rec r) num (len b) depth (S (length b)) b.
Proof. reflexivity. Qed.

Lemma cfv_loop_S rec num n0 depth lfuel b :
  cfv_loop rec num n0 depth (S lfuel) b =
  bind (go_ConsumeTag b) (fun '(v_num2, v_typ2, v_n1) =>
  if v_n1 <? 0 then Val v_n1
  else
    bind (slice_lo b v_n1) (fun t1 =>
    if v_typ2 =? 4 then
      (if negb (num =? v_num2) then Val (-5) else Val (wrap_i64 (n0 - len t1)))
    else
      bind (rec v_num2 v_typ2 t1 (wrap_i64 (depth - 1))) (fun t2 =>
      if t2 <? 0 then Val t2
      else bind (slice_lo t1 t2) (fun t3 => cfv_loop rec num n0 depth lfuel t3)))).
Proof. reflexivity. Qed.

Section Loop.
  Variable d : nat.
  Variable num : N.
  Variable bs : list byte.
  Hypothesis Hd : Z.of_nat d < 2^62.
  Hypothesis Hbs : Z.of_nat (length bs) < 2^63.
  Hypothesis IH : forall n t b, Z.of_nat (length b) < 2^63 ->
    go_consumeFieldValueD_rec (S d) (Z.of_N n) (Z.of_N t) (zbytes b) (Z.of_nat d - 1)
    = Val (zres_n (parse_val d n t b) b).

  Lemma cfv_loop_spec : forall lfuel g cur acc pre,
    length g = lfuel -> (length cur < lfuel)%nat -> bs = pre ++ cur ->
    cfv_loop (go_consumeFieldValueD_rec (S d)) (Z.of_N num) (len (zbytes bs)) (Z.of_nat (S d) - 1) lfuel (zbytes cur)
    = Val (match group_loop (parse_val d) num g cur acc with
           | Ok (_, r) => Z.of_nat (length bs - length r)
           | Err e => werr_code e
           end).
  Proof.
    change (2^62) with 4611686018427387904 in Hd. change (2^63) with 9223372036854775808 in *.
    induction lfuel as [|lfuel IHl]; intros g cur acc pre Hg Hcur Hpre; [lia|].
    destruct g as [|x g]; [discriminate|]. cbn [length] in Hg.
    rewrite cfv_loop_S. cbn [group_loop]. rewrite go_ConsumeTag_spec. cbn [bind].
    destruct (dec_tag cur) as [[[n2 t2] r0]|e] eqn:E; cbn [zres_tag].
    2:{ rewrite werr_code_ltb. reflexivity. }
    pose proof (dec_tag_len _ _ _ _ E) as Hl0.
    apply dec_tag_sound in E. destruct E as (p & Ecur & _).
    replace (Z.of_nat (length cur - length r0) <? 0) with false by lia.
    rewrite (slice_lo_consumed cur p r0 Ecur). cbn [bind].
    assert (Hlen_r0 : (length r0 <= length bs)%nat) by (subst bs cur; rewrite !app_length; lia).
    destruct (t2 =? 4)%N eqn:E4.
    - replace (Z.of_N t2 =? 4) with true by lia.
      destruct (n2 =? num)%N eqn:En.
      + replace (Z.of_N num =? Z.of_N n2) with true by lia. cbn [negb].
        rewrite !len_zbytes. rewrite wrap_i64_small by lia. f_equal. lia.
      + replace (Z.of_N num =? Z.of_N n2) with false by lia. reflexivity.
    - replace (Z.of_N t2 =? 4) with false by lia.
      replace (wrap_i64 (Z.of_nat (S d) - 1 - 1)) with (Z.of_nat d - 1) by (rewrite wrap_i64_small; lia).
      rewrite IH by lia. cbn [bind].
      destruct (parse_val d n2 t2 r0) as [[v r']|e] eqn:Ep; cbn [zres_n].
      + pose proof (parse_val_len _ _ _ _ _ _ Ep) as Hl1.
        apply parse_val_suffix in Ep. destruct Ep as (p' & Er0).
        replace (Z.of_nat (length r0 - length r') <? 0) with false by lia.
        rewrite (slice_lo_consumed r0 p' r' Er0). cbn [bind].
        apply IHl with (pre := pre ++ p ++ p'); [lia|lia|].
        subst bs cur r0. now rewrite <- !app_assoc.
      + rewrite werr_code_ltb. reflexivity.
  Qed.
End Loop.

(* consumeFieldValueD on a wire type other than StartGroup: one call of the
   Consume function of that type, independent of the depth *)
Lemma go_consumeFieldValueD_rec_scalar dep num typ bs :
  typ <> 3%N -> Z.of_nat (length bs) < 2^63 ->
  go_consumeFieldValueD_rec (S dep) (Z.of_N num) (Z.of_N typ) (zbytes bs) (Z.of_nat dep - 1)
  = Val (zres_n (parse_val dep num typ bs) bs).
Proof.
  intros Ht Hlen. rewrite parse_val_eq. destruct_typ typ; cbv iota;
    (* types 4, 6, 7: both sides are the error code *)
    lazymatch goal with |- _ = Val (zres_n (Err _) _) => reflexivity | _ => idtac end.
  - (* 0 *) change (go_consumeFieldValueD_rec _ _ _ _ _) with (bind (go_ConsumeVarint (zbytes bs)) (fun '(_, n) => Val n)).
    rewrite go_ConsumeVarint_spec. destruct (dec_varint bs) as [[v r]|e]; reflexivity.
  - (* 5 *) change (go_consumeFieldValueD_rec _ _ _ _ _) with (bind (go_ConsumeFixed32 (zbytes bs)) (fun '(_, n) => Val n)).
    rewrite go_ConsumeFixed32_spec. unfold dec_fixed32, dec_fixed. destruct (take 4 bs) as [[a r]|]; reflexivity.
  - (* 3 *) contradiction.
  - (* 2 *) change (go_consumeFieldValueD_rec _ _ _ _ _) with (bind (go_ConsumeBytes (zbytes bs)) (fun '(_, n) => Val n)).
    rewrite go_ConsumeBytes_spec by assumption. destruct (dec_bytes bs) as [[v r]|e]; reflexivity.
  - (* 1 *) change (go_consumeFieldValueD_rec _ _ _ _ _) with (bind (go_ConsumeFixed64 (zbytes bs)) (fun '(_, n) => Val n)).
    rewrite go_ConsumeFixed64_spec. unfold dec_fixed64, dec_fixed. destruct (take 8 bs) as [[a r]|]; reflexivity.
Qed.

(* consumeFieldValueD: the recursion.  The bound on the depth is not tight: the
   proof needs only that depth - 1 and depth + 1 stay inside int64 (the callers
   pass DefaultRecursionLimit = 10000) *)
Theorem go_consumeFieldValueD_rec_spec : forall dep num typ bs,
  Z.of_nat dep < 2^62 -> Z.of_nat (length bs) < 2^63 ->
  go_consumeFieldValueD_rec (S dep) (Z.of_N num) (Z.of_N typ) (zbytes bs) (Z.of_nat dep - 1)
  = Val (zres_n (parse_val dep num typ bs) bs).
Proof.
  induction dep as [|d IHd]; intros num typ bs Hdep Hlen;
    (destruct (N.eq_dec typ 3) as [->|Hn]; [|apply go_consumeFieldValueD_rec_scalar; assumption]).
  - (* a group at depth 0: errCodeRecursionDepth *) reflexivity.
  - rewrite parse_val_eq. cbv iota. change (Z.of_N 3) with 3. rewrite rec_group_shape.
    replace (Z.of_nat (S d) - 1 <? 0) with false by lia.
    rewrite zbytes_length.
    change (2^62) with 4611686018427387904 in Hdep.
    apply (cfv_loop_spec d num bs ltac:(change (2^62) with 4611686018427387904; lia) Hlen
             (fun n t b Hb => IHd n t b ltac:(change (2^62) with 4611686018427387904; lia) Hb)
             (S (length bs)) (x00 :: bs) bs [] []); [reflexivity|lia|reflexivity].
Qed.

Theorem go_consumeFieldValueD_spec num typ bs depth :
  -1 <= depth < 2^62 - 1 -> Z.of_nat (length bs) < 2^63 ->
  go_consumeFieldValueD (Z.of_N num) (Z.of_N typ) (zbytes bs) depth
  = Val (zres_n (parse_val (Z.to_nat (depth + 1)) num typ bs) bs).
Proof.
  intros Hd Hlen. unfold go_consumeFieldValueD.
  replace depth with (Z.of_nat (Z.to_nat (depth + 1)) - 1) at 2 by lia.
  apply go_consumeFieldValueD_rec_spec; [|exact Hlen]. lia.
Qed.

(* the scanner's length results as Go sees them *)
Definition zres_len (R : result N) : Z :=
  match R with Ok n => Z.of_N n | Err e => werr_code e end.

Lemma default_dep_Z : Z.to_nat (10000 + 1) = default_dep.
Proof. unfold default_dep. change (10000 + 1) with (Z.of_N 10001). rewrite <- Z_N_nat, N2Z.id. reflexivity. Qed.

Theorem go_ConsumeFieldValue_spec num typ bs :
  Z.of_nat (length bs) < 2^63 ->
  go_ConsumeFieldValue (Z.of_N num) (Z.of_N typ) (zbytes bs) = Val (zres_len (consume_field_value num typ bs)).
Proof.
  intros Hlen. unfold go_ConsumeFieldValue. cbv zeta.
  rewrite go_consumeFieldValueD_spec by (change (2^62) with 4611686018427387904; lia).
  cbn [bind]. rewrite default_dep_Z. unfold consume_field_value.
  destruct (parse_val default_dep num typ bs) as [[v r]|e]; cbn [zres_n zres_len]; f_equal. lia.
Qed.

Definition zres_field (R : result (N * N * N)) : Z * Z * Z :=
  match R with
  | Ok (num, typ, n) => (Z.of_N num, Z.of_N typ, Z.of_N n)
  | Err e => (0, 0, werr_code e)
  end.

Theorem go_ConsumeField_spec bs :
  Z.of_nat (length bs) < 2^63 -> go_ConsumeField (zbytes bs) = Val (zres_field (consume_field bs)).
Proof.
  change (2^63) with 9223372036854775808. intros Hlen. unfold go_ConsumeField, consume_field.
  rewrite go_ConsumeTag_spec. cbn [bind].
  destruct (dec_tag bs) as [[[num typ] r]|e] eqn:E; cbn [zres_tag].
  2:{ rewrite werr_code_ltb. reflexivity. }
  pose proof (dec_tag_len _ _ _ _ E) as Hl.
  apply dec_tag_sound in E. destruct E as (p & Ebs & _).
  replace (Z.of_nat (length bs - length r) <? 0) with false by lia.
  rewrite (slice_lo_consumed bs p r Ebs). cbn [bind].
  rewrite go_ConsumeFieldValue_spec by (change (2^63) with 9223372036854775808; lia).
  cbn [bind]. unfold consume_field_value.
  destruct (parse_val default_dep num typ r) as [[v r']|e] eqn:Ep; cbn [zres_len zres_field].
  - apply parse_val_len in Ep. replace (Z.of_N (N.of_nat (length r - length r')) <? 0) with false by lia.
    rewrite wrap_i64_small by lia. f_equal. f_equal. lia.
  - rewrite werr_code_ltb. reflexivity.
Qed.

(* ConsumeGroup: the loop that strips a padded end tag *)
Definition strip_loop (v_num v_n : Z) :=
  fix loop1 (lfuel : nat) (v_b : list Z) {struct lfuel} : outcome (list Z * Z) :=
    match lfuel with
    | O => Fuel
    | S lfuel' =>
      bind (if 0 <? len v_b
            then bind (index v_b (wrap_i64 (len v_b - 1))) (fun t3 => Val (Z.land t3 127 =? 0))
            else Val false) (fun t4 =>
      if t4 then bind (slice_hi v_b (wrap_i64 (len v_b - 1))) (fun t5 => loop1 lfuel' t5)
      else bind (slice_hi v_b (wrap_i64 (len v_b - go_SizeTag v_num))) (fun t6 => Val (t6, v_n)))
    end.

Lemma ConsumeGroup_shape num b :
  go_ConsumeGroup num b =
  bind (go_ConsumeFieldValue num 3 b) (fun n =>
  if n <? 0 then Val ([], n)
  else bind (slice_hi b n) (fun t => strip_loop num n (S (length t)) t)).
Proof. reflexivity. Qed.

Lemma strip_loop_S num n lfuel b :
  strip_loop num n (S lfuel) b =
  bind (if 0 <? len b
        then bind (index b (wrap_i64 (len b - 1))) (fun t3 => Val (Z.land t3 127 =? 0))
        else Val false) (fun t4 =>
  if t4 then bind (slice_hi b (wrap_i64 (len b - 1))) (fun t5 => strip_loop num n lfuel t5)
  else bind (slice_hi b (wrap_i64 (len b - go_SizeTag num))) (fun t6 => Val (t6, n))).
Proof. reflexivity. Qed.

Lemma index_last b x : Z.of_nat (length b) < 2^63 ->
  index (zbytes (b ++ [x])) (wrap_i64 (len (zbytes (b ++ [x])) - 1)) = Val (Z.of_N (b2n x)).
Proof.
  change (2^63) with 9223372036854775808. intros H. rewrite len_zbytes, app_length. cbn [length].
  rewrite wrap_i64_small by lia. replace (Z.of_nat (length b + 1) - 1) with (Z.of_nat (length b)) by lia.
  exact (index_map_app _ b x []).
Qed.

Lemma slice_hi_zbytes b k : 0 <= k <= Z.of_nat (length b) -> slice_hi (zbytes b) k = Val (zbytes (firstn (Z.to_nat k) b)).
Proof. intros H. rewrite <- (Z2Nat.id k) at 1 by lia. apply slice_hi_map. lia. Qed.

(* what remains to be done after the loop, on the stripped slice *)
Definition strip_rest (num : N) (n : Z) (b1 : list byte) : outcome (list Z * Z) :=
  bind (slice_hi (zbytes b1) (wrap_i64 (len (zbytes b1) - go_SizeTag (Z.of_N num)))) (fun t6 => Val (t6, n)).

Lemma strip_loop_spec num n : forall lfuel b,
  Z.of_nat (length b) < 2^63 -> (length b < lfuel)%nat ->
  strip_loop (Z.of_N num) n lfuel (zbytes b) = strip_rest num n (rev (strip_zero7 (rev b))).
Proof.
  change (2^63) with 9223372036854775808.
  induction lfuel as [|lfuel IH]; intros b Hb Hl; [lia|].
  rewrite strip_loop_S. destruct b as [|x0 b0] using rev_ind.
  - cbn [zbytes map rev strip_zero7]. change (len (@nil Z)) with 0. cbn [bind]. reflexivity.
  - clear IHb0. rewrite app_length in *. cbn [length] in *.
    replace (0 <? len (zbytes (b0 ++ [x0]))) with true by (rewrite len_zbytes, app_length; cbn [length]; lia).
    rewrite index_last by (change (2^63) with 9223372036854775808; lia). cbn [bind].
    rewrite rev_app_distr. cbn [rev app strip_zero7].
    change 127 with (Z.ones 7). rewrite Z.land_ones by lia. change (2^7) with 128.
    replace (Z.of_N (b2n x0) mod 128 =? 0) with (b2n x0 mod 128 =? 0)%N by (rewrite <- (N2Z.inj_mod _ 128); lia).
    destruct (b2n x0 mod 128 =? 0)%N.
    + rewrite len_zbytes, app_length. cbn [length]. rewrite wrap_i64_small by lia.
      rewrite slice_hi_zbytes by (rewrite app_length; cbn [length]; lia).
      replace (Z.to_nat (Z.of_nat (length b0 + 1) - 1)) with (length b0) by lia.
      rewrite firstn_app_len. cbn [bind].
      apply IH; lia.
    + cbn [rev]. rewrite rev_involutive. reflexivity.
Qed.

Definition zres_group (R : result (option (list byte) * N)) : outcome (list Z * Z) :=
  match R with
  | Ok (Some v, n) => Val (zbytes v, Z.of_N n)
  | Ok (None, _) => Panic
  | Err e => Val ([], werr_code e)
  end.

Theorem go_ConsumeGroup_eq num bs :
  (num <= 2147483647)%N -> Z.of_nat (length bs) < 2^63 ->
  go_ConsumeGroup (Z.of_N num) (zbytes bs) = zres_group (consume_group num bs).
Proof.
  intros Hnum Hlen. rewrite ConsumeGroup_shape. change 3 with (Z.of_N 3).
  rewrite go_ConsumeFieldValue_spec by exact Hlen. cbn [bind].
  unfold consume_field_value, consume_group.
  change (2^63) with 9223372036854775808 in Hlen.
  destruct (parse_val default_dep num 3 bs) as [[v r]|e] eqn:Ep; cbn [zres_len].
  2:{ rewrite werr_code_ltb. reflexivity. }
  pose proof (parse_val_len _ _ _ _ _ _ Ep) as Hl.
  replace (Z.of_N (N.of_nat (length bs - length r)) <? 0) with false by lia.
  rewrite slice_hi_zbytes by lia. cbn [bind].
  replace (Z.to_nat (Z.of_N (N.of_nat (length bs - length r)))) with (length bs - length r)%nat by lia.
  set (b := firstn (length bs - length r) bs).
  assert (Hb : (length b <= length bs)%nat) by (subst b; rewrite firstn_length; lia).
  rewrite zbytes_length.
  rewrite strip_loop_spec by (change (2^63) with 9223372036854775808; lia).
  unfold strip_rest. set (b1 := rev (strip_zero7 (rev b))).
  assert (Hb1 : (length b1 <= length b)%nat)
    by (subst b1; rewrite rev_length, <- (rev_length b); apply strip_zero7_length).
  rewrite go_SizeTag_spec by exact Hnum. rewrite len_zbytes.
  pose proof (size_tag_range num Hnum) as Hk.
  rewrite wrap_i64_small by lia.
  destruct (Nat.ltb (length b1) (N.to_nat (size_tag num))) eqn:Elt.
  - apply Nat.ltb_lt in Elt. rewrite slice_hi_neg by lia. reflexivity.
  - apply Nat.ltb_ge in Elt. rewrite slice_hi_zbytes by lia. cbn [bind zres_group].
    replace (Z.to_nat (Z.of_nat (length b1) - Z.of_N (size_tag num))) with (length b1 - N.to_nat (size_tag num))%nat by lia.
    reflexivity.
Qed.

(* ConsumeGroup never panics and never runs out of fuel *)
Theorem go_ConsumeGroup_spec num bs :
  (num <= 2147483647)%N -> Z.of_nat (length bs) < 2^63 ->
  exists res, go_ConsumeGroup (Z.of_N num) (zbytes bs) = Val res /\
    res = match consume_group num bs with
          | Ok (Some v, n) => (zbytes v, Z.of_N n)
          | Ok (None, _) => ([], 0)
          | Err e => ([], werr_code e)
          end.
Proof.
  intros Hnum Hlen. rewrite go_ConsumeGroup_eq by assumption.
  pose proof (consume_group_no_panic num bs) as Hnp.
  destruct (consume_group num bs) as [[[v|] n]|e]; cbn [zres_group]; eauto.
  exfalso. apply (Hnp n). reflexivity.
Qed.

(* the group round trip through the translated code: ConsumeGroup(AppendGroup(body) ++ rest) *)
Theorem go_group_roundtrip num body rest :
  num_ok num -> wf_fields (N.to_nat 10000) body ->
  Z.of_nat (length (append_group num body ++ rest)) < 2^63 ->
  go_ConsumeGroup (Z.of_N num) (go_AppendGroup [] (Z.of_N num) (zbytes body) ++ zbytes rest)
  = Val (zbytes body, Z.of_N (size_group num (N.of_nat (length body)))).
Proof.
  intros Hnum Hbody Hlen. pose proof Hnum as [Hlo Hhi].
  change (@nil Z) with (zbytes []). rewrite go_AppendGroup_spec by lia. cbn [app].
  rewrite <- zbytes_app. rewrite go_ConsumeGroup_eq by (try lia; exact Hlen).
  destruct (group_roundtrip num body rest Hnum Hbody) as [E _]. rewrite E. reflexivity.
Qed.

Theorem go_Scanner_spec :
  (forall num typ bs depth, -1 <= depth < 2^62 - 1 -> Z.of_nat (length bs) < 2^63 ->
     go_consumeFieldValueD (Z.of_N num) (Z.of_N typ) (zbytes bs) depth
     = Val (zres_n (parse_val (Z.to_nat (depth + 1)) num typ bs) bs)) /\
  (forall num typ bs, Z.of_nat (length bs) < 2^63 ->
     go_ConsumeFieldValue (Z.of_N num) (Z.of_N typ) (zbytes bs) = Val (zres_len (consume_field_value num typ bs))) /\
  (forall bs, Z.of_nat (length bs) < 2^63 ->
     go_ConsumeField (zbytes bs) = Val (zres_field (consume_field bs))) /\
  (forall num bs, (num <= 2147483647)%N -> Z.of_nat (length bs) < 2^63 ->
     go_ConsumeGroup (Z.of_N num) (zbytes bs) = zres_group (consume_group num bs) /\
     exists res, go_ConsumeGroup (Z.of_N num) (zbytes bs) = Val res).
Proof.
  split; [exact go_consumeFieldValueD_spec|]. split; [exact go_ConsumeFieldValue_spec|].
  split; [exact go_ConsumeField_spec|]. intros num bs Hn Hl. split; [apply go_ConsumeGroup_eq; assumption|].
  destruct (go_ConsumeGroup_spec num bs Hn Hl) as (res & E & _). eauto.
Qed.
