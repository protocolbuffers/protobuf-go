(* C31 — Typed nil messages behave as empty read-only messages.
   Statements about the model Msg/NilModel.v ([None] = typed nil pointer,
   [Some empty_msg] = a valid empty message of the same schema); each closed by
   [exact] of a lemma of Msg/NilP.v.  The weight of this property is the
   exhaustive enumeration (every linked generated type x every read-only entry
   point) performed by the harness family "nil" against this model. *)
From Coq Require Import List NArith Bool.
From PB Require Import Base.PBytes Msg.NilModel Msg.NilP.
Import ListNotations.
Open Scope N_scope.

Theorem C31_nil_invalid : is_valid nil_state = false /\ is_valid empty_state = true.
Proof. exact nil_invalid. Qed.
Print Assumptions C31_nil_invalid.

Theorem C31_nil_reads_as_empty_has : forall f, has nil_state f = has empty_state f.
Proof. exact has_nil. Qed.
Print Assumptions C31_nil_reads_as_empty_has.

Theorem C31_nil_reads_as_empty_get : forall f, get nil_state f = get empty_state f.
Proof. exact get_nil. Qed.
Print Assumptions C31_nil_reads_as_empty_get.

Theorem C31_nil_get_is_zero_value : forall f, get nil_state f = zero_value f.
Proof. exact get_nil_zero. Qed.
Print Assumptions C31_nil_get_is_zero_value.

Theorem C31_nil_reads_as_empty_range : range nil_state = range empty_state /\ range nil_state = [].
Proof. exact range_nil. Qed.
Print Assumptions C31_nil_reads_as_empty_range.

Theorem C31_nil_reads_as_empty_which_oneof :
  forall sch o, which_oneof sch nil_state o = which_oneof sch empty_state o.
Proof. exact which_oneof_nil. Qed.
Print Assumptions C31_nil_reads_as_empty_which_oneof.

Theorem C31_nil_reads_as_empty_unknown : get_unknown nil_state = get_unknown empty_state.
Proof. exact unknown_nil. Qed.
Print Assumptions C31_nil_reads_as_empty_unknown.

(* also for schemas with required fields: both report the first required field *)
Theorem C31_nil_reads_as_empty_check_init :
  forall sch, check_init sch nil_state = check_init sch empty_state.
Proof. exact check_init_nil. Qed.
Print Assumptions C31_nil_reads_as_empty_check_init.

Theorem C31_nil_reads_as_empty_size : forall enc, size enc nil_state = size enc empty_state.
Proof. exact size_nil. Qed.
Print Assumptions C31_nil_reads_as_empty_size.

(* same bytes or same error; they differ in the nil-ness of an empty result buffer
   ([C31_marshal_nil_buffer_iff_invalid]): *)
Theorem C31_nil_reads_as_empty_marshal :
  forall enc allow_partial sch,
  mres_bytes (marshal enc allow_partial sch nil_state) = mres_bytes (marshal enc allow_partial sch empty_state).
Proof. exact marshal_nil. Qed.
Print Assumptions C31_nil_reads_as_empty_marshal.

Theorem C31_marshal_nil_buffer_iff_invalid :
  forall enc allow_partial sch s nb,
  marshal enc allow_partial sch s = MBuf nb [] -> nb = negb (is_valid s).
Proof. exact marshal_nilbuf_iff_invalid. Qed.
Print Assumptions C31_marshal_nil_buffer_iff_invalid.
Example C31_marshal_nil_buffer_nonvacuous :
  marshal (fun _ _ => []) true [] nil_state = MBuf true [].
Proof. reflexivity. Qed.

Theorem C31_nil_reads_as_empty_marshal_append :
  forall enc p sch,
  marshal_append enc p sch nil_state = marshal_append enc p sch empty_state
  /\ marshal_append enc p sch nil_state = Some p.
Proof. exact marshal_append_nil. Qed.
Print Assumptions C31_nil_reads_as_empty_marshal_append.

(* protojson / prototext Marshal and Format *)
Theorem C31_nil_reads_as_empty_format :
  forall render, format render nil_state = format render empty_state.
Proof. exact format_nil. Qed.
Print Assumptions C31_nil_reads_as_empty_format.

(* the Format functions are debugging helpers: the code prints "<nil>" for an
   invalid message, a documented difference like IsValid, Equal, Clone and the Marshal buffer *)
Theorem C31_nil_debug_format_marker :
  forall render, debug_format render nil_state = nil_marker.
Proof. exact debug_format_nil. Qed.
Print Assumptions C31_nil_debug_format_marker.

Theorem C31_nil_not_equal_empty :
  forall eqm m,
  equal eqm nil_state nil_state = true /\
  equal eqm nil_state (Some m) = false /\ equal eqm (Some m) nil_state = false.
Proof. exact equal_nil. Qed.
Print Assumptions C31_nil_not_equal_empty.

Theorem C31_clone_nil_is_nil : clone nil_state = nil_state /\ is_valid (clone nil_state) = false.
Proof. exact clone_nil. Qed.
Print Assumptions C31_clone_nil_is_nil.

Theorem C31_merge_nil_source_noop :
  forall dst, merge dst nil_state = dst /\ merge dst empty_state = dst.
Proof. exact merge_nil. Qed.
Print Assumptions C31_merge_nil_source_noop.
