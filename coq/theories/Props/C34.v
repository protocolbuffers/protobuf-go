(* C34 -- Descriptor protos and file descriptors convert losslessly.
   Statements only; each closed by [exact] of a lemma proved in Desc/ConvertP.v or
   Desc/ConvertRtP.v (the round trip through [to_proto]).
   Model: Desc/ConvertModel.v ([new_file] = protodesc.NewFile without validation,
   [to_proto] = protodesc.ToFileDescriptorProto). *)
From Coq Require Import List NArith ZArith Bool.
From PB Require Import Base.PBytes Desc.ConvertModel Desc.ConvertP Desc.ConvertRtP.
Import ListNotations.
Open Scope N_scope.

(* A relative type name resolves to the candidate of the innermost enclosing scope under
   which anything visible is declared (the file's own declarations, or imported ones);
   every scope tried before it has nothing visible under that name. *)
Theorem C34_name_resolution_innermost_first :
  forall tbl env scope ref s k me loc,
    pn_is_full ref = false ->
    find_descriptor tbl env scope ref = LFound s k me loc ->
    exists pre sc post,
      scope_chain (length scope) scope = pre ++ sc :: post /\
      s = fn_append sc ref /\
      visible tbl env s = true /\
      forallb (fun c => negb (visible tbl env (fn_append c ref))) pre = true /\
      (loc = true <-> find_decl tbl s <> None).
Proof. exact resolution_innermost_first. Qed.
Print Assumptions C34_name_resolution_innermost_first.

(* a leading dot switches scoping off *)
Theorem C34_name_resolution_absolute :
  forall tbl env scope ref s k me loc,
    pn_is_full ref = true ->
    find_descriptor tbl env scope ref = LFound s k me loc ->
    s = pn_strip ref /\ visible tbl env s = true.
Proof. exact resolution_absolute. Qed.
Print Assumptions C34_name_resolution_absolute.

(* "not found" / "not imported" are only reported when no scope level has a visible candidate *)
Theorem C34_name_resolution_complete :
  forall tbl env scope ref,
    pn_is_full ref = false -> pn_valid ref = true ->
    (find_descriptor tbl env scope ref = LNotFound \/ find_descriptor tbl env scope ref = LNotImported) ->
    forallb (fun c => negb (visible tbl env (fn_append c ref))) (scope_chain (length scope) scope) = true.
Proof. exact resolution_complete. Qed.
Print Assumptions C34_name_resolution_complete.

(* the scopes tried end at the global scope *)
Theorem C34_scope_chain_ends_global :
  forall fuel scope, (length scope <= fuel)%nat -> last (scope_chain fuel scope) [c_dot] = [].
Proof. exact scope_chain_last. Qed.
Print Assumptions C34_scope_chain_ends_global.

(* makeBase: Name() and Parent() of a child's full name give back the name and the parent *)
Theorem C34_fullname_name :
  forall p n, ident_ok n = true -> fn_name (fn_append p n) = n.
Proof. exact fn_name_append. Qed.
Print Assumptions C34_fullname_name.

Theorem C34_fullname_parent :
  forall p n, ident_ok n = true -> fn_parent (fn_append p n) = p.
Proof. exact fn_parent_append. Qed.
Print Assumptions C34_fullname_parent.

(* ToFileDescriptorProto (NewFile p) is the explicit normal form of p, for every p that
   NewFile accepts (names made absolute, unset type filled in, syntax "proto2"/empty package
   dropped, defaults canonical, ...: see [normalize] in Desc/ConvertModel.v).
   _partial: options and features beyond the six modelled ones are opaque; services by name
   only; no source info; validation (C35) is not part of [new_file]. *)
Theorem C34_to_proto_new_file_partial :
  forall canon env p d, new_file canon env p = Ok d -> to_proto d = normalize canon env p.
Proof. exact to_proto_new_file. Qed.
Print Assumptions C34_to_proto_new_file_partial.

(* NewFile (ToFileDescriptorProto d) = d for every d that NewFile builds from a well-formed
   proto: the whole resolved descriptor is reproduced, hence every accessor computed from it.
   [wf34] (decidable): types are set; an editions file does not use TYPE_GROUP / LABEL_REQUIRED;
   proto3_optional only in proto3; an extension's json_name is the camel-cased name -- all
   guaranteed by protoc and (except the editions spellings, FK4) enforced by desc_validate.go.
   Hypotheses: default canonicalisation is idempotent (C39); the resolver only knows valid full
   names (C33).  _partial as above (opaque options, services by name, no validation stage). *)
Theorem C34_new_file_to_proto_partial :
  forall canon env p d,
    (forall k s, canon k (canon k s) = canon k s) ->
    Forall valr env ->
    wf34 p = true ->
    new_file canon env p = Ok d -> new_file canon env (to_proto d) = Ok d.
Proof. exact new_file_to_proto. Qed.
Print Assumptions C34_new_file_to_proto_partial.

(* ... and NewFile accepts the normal form and builds the same descriptor from it *)
Theorem C34_new_file_normalize_partial :
  forall canon env p d,
    (forall k s, canon k (canon k s) = canon k s) ->
    Forall valr env ->
    wf34 p = true ->
    new_file canon env p = Ok d -> new_file canon env (normalize canon env p) = Ok d.
Proof. exact new_file_normalize. Qed.
Print Assumptions C34_new_file_normalize_partial.

(* [wf34] is needed: the faithful model refutes the unconditional statement (finding FK4) *)
Theorem C34_new_file_to_proto_refuted_without_wf :
  exists p d, new_file idc [] p = Ok d /\ first_field_card (Ok d) = Some 2 /\
              first_field_card (new_file idc [] (to_proto d)) = Some 1.
Proof. exact new_file_to_proto_needs_wf. Qed.
Print Assumptions C34_new_file_to_proto_refuted_without_wf.

(* ---- non-vacuity *)
Definition ex_b (s : list byte) : bytes := s.
Definition ex_tbl : list Decl :=
  [ mkDecl ["a";".";"M"]%byte ["M"]%byte K_MSG false;
    mkDecl ["a";".";"M";".";"M"]%byte ["M"]%byte K_MSG false ].

Example C34_ex_innermost :
  find_descriptor ex_tbl [] ["a";".";"M"]%byte ["M"]%byte = LFound ["a";".";"M";".";"M"]%byte K_MSG false true
  /\ pn_is_full ["M"]%byte = false.
Proof. vm_compute. split; reflexivity. Qed.

Example C34_ex_absolute :
  find_descriptor ex_tbl [] ["a";".";"M"]%byte [".";"a";".";"M"]%byte = LFound ["a";".";"M"]%byte K_MSG false true
  /\ pn_is_full [".";"a";".";"M"]%byte = true.
Proof. vm_compute. split; reflexivity. Qed.

Example C34_ex_complete :
  find_descriptor ex_tbl [] ["a";".";"M"]%byte ["N"]%byte = LNotFound /\ pn_valid ["N"]%byte = true.
Proof. vm_compute. split; reflexivity. Qed.

Example C34_ex_chain : (length ["a";".";"M"]%byte <= 3)%nat.
Proof. cbn. repeat constructor. Qed.

Example C34_ex_ident : ident_ok ["M";"1";"_"]%byte = true.
Proof. reflexivity. Qed.

Example C34_ex_new_file_accepts : is_ok (new_file idc [] ex_file) = true.
Proof. exact ex_file_accepted. Qed.

Example C34_ex_normal_form :
  match normalize idc [] ex_file with
  | mkFileP _ _ _ _ _ _ [mkMsgP _ (f :: _) _ _ _ _ _ _ _ _ _] _ _ _ _ => f_type_name f = Some ex_abs_name
  | _ => False
  end.
Proof. exact ex_file_normal_form. Qed.

Example C34_ex_wf34 : wf34 ex_file = true /\ Forall valr [] /\ (forall k s, idc k (idc k s) = idc k s).
Proof. split; [exact ex_file_wf34|split; [constructor|exact idc_idem]]. Qed.
