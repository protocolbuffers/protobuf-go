(* C07 — Merge equals concatenated decoding.
   Statements only; each closed by [exact] of a lemma proved in Msg/MergeP.v.

   Model: Msg/MergeModel.v ([msg_merge]: scalars overwrite when populated in the source, lists
   append, maps upsert whole entries, a oneof member replaces the other members and merges with the
   same member, singular sub-messages merge recursively, unknown bytes append) and the merging
   decoder of Msg/MsgDec.v ([msg_decode_into] = UnmarshalOptions{Merge:true}).

   [msg_valid] is the canonical-value predicate of C03 (Msg/MsgValid.v).  It has no restriction
   on the table-driven path; on the reflection path ([slow] = true) it demands that group-typed
   values pass the wire scanner ([msg_group_scans], finding FB3 of C03).  The suffix _partial of
   the theorems that assume it stands for this FB3 exclusion built into [msg_valid] for
   [slow] = true only; for [slow] = false they are the full statements.  Note that
   the DESTINATION of a merge is arbitrary in C07_unmarshal_merge_option_partial: only the source
   must be a canonical value.

   The clause "Unmarshal(x || y) = Merge(Unmarshal x, Unmarshal y) for all decodable x, y" of the
   property text is refuted by the faithful model (C07_concat_eq_merge_refuted_FA6: an explicit
   zero of an implicit-presence field in y clears the field on the wire, Merge cannot); it holds
   in the form "decode (x || y) = decode y into (decode x)" for EVERY pair of byte strings that
   decode (C07_decode_app: no validity hypothesis, both decoder paths, any schema), and as
   "Unmarshal(x || Marshal(b)) = Merge(Unmarshal(x), b)" for every decodable x and canonical b
   (C07_concat_eq_merge: the exclusion of FA6 in the form "y is an encoder output"; the weaker
   exclusion "y merely has no zero-valued implicit-presence occurrence" is not proved). *)
From Coq Require Import List NArith ZArith.
From PB Require Import Base.PBytes Wire.WireModel.
From PB Require Import Msg.MsgSchema Msg.MsgValue Msg.MsgEnc Msg.MsgDec Msg.MsgValid Msg.MsgExample Msg.MergeModel Msg.MergeP.
Import ListNotations.
Open Scope N_scope.

Theorem C07_merge_eq_decode_concat_partial :
  forall (slow : bool) (S : schema) (limit tid : nat) (a b : value),
    msg_valid slow S limit tid a = true -> msg_valid slow S limit tid b = true ->
    exists m, msg_merge S limit tid a b = Some m /\
              msg_decode slow S limit tid (msg_encode S tid a ++ msg_encode S tid b) = DOk m.
Proof. exact msg_merge_eq_decode_concat. Qed.
Print Assumptions C07_merge_eq_decode_concat_partial.

(* UnmarshalOptions{Merge:true}: decoding Marshal(b) into an arbitrary message a gives Merge(a, b) *)
Theorem C07_unmarshal_merge_option_partial :
  forall (slow : bool) (S : schema) (limit tid : nat) (b : value) (afs : fields) (au : list byte),
    msg_valid slow S limit tid b = true ->
    exists m, msg_merge S limit tid (VMsg afs au) b = Some m /\
              msg_decode_into slow S limit tid (msg_encode S tid b) (VMsg afs au) = DOk m.
Proof. exact msg_decode_into_merge. Qed.
Print Assumptions C07_unmarshal_merge_option_partial.

(* Clone(m) = Merge(empty, m) = m *)
Theorem C07_merge_empty_l_partial :
  forall (slow : bool) (S : schema) (limit tid : nat) (m : value),
    msg_valid slow S limit tid m = true -> msg_clone S limit tid m = Some m.
Proof. exact msg_merge_empty_l. Qed.
Print Assumptions C07_merge_empty_l_partial.

Theorem C07_merge_empty_r :
  forall (S : schema) (d tid : nat) (fs : fields) (u : list byte),
    msg_merge S (Datatypes.S d) tid (VMsg fs u) msg_empty = Some (VMsg fs u).
Proof. exact msg_merge_empty_r. Qed.
Print Assumptions C07_merge_empty_r.

(* decode (Marshal a || y): after the encoding of a the tag loop continues with y and the accumulator a *)
Theorem C07_decode_app_partial :
  forall (slow : bool) (S : schema) (limit tid : nat) (a : value) (y : list byte),
    msg_valid slow S limit tid a = true ->
    exists g, (length y < length g)%nat /\
      msg_decode_msg slow S limit tid 0 (x00 :: msg_encode S tid a ++ y) (msg_encode S tid a ++ y) ([], []) =
      msg_decode_msg slow S limit tid 0 g y (msg_macc_of a).
Proof. exact msg_decode_app_encoded. Qed.
Print Assumptions C07_decode_app_partial.

(* decode (x || y) = decode y into (decode x), for all byte strings x, y that decode *)
Theorem C07_decode_app :
  forall (slow : bool) (S : schema) (limit tid : nat) (x y : list byte) (vx v : value),
    msg_decode slow S limit tid x = DOk vx ->
    msg_decode_into slow S limit tid y vx = DOk v ->
    msg_decode slow S limit tid (x ++ y) = DOk v.
Proof. exact msg_decode_app. Qed.
Print Assumptions C07_decode_app.

(* Unmarshal(x || Marshal(b)) = Merge(Unmarshal(x), b): x ANY decodable byte string *)
Theorem C07_concat_eq_merge :
  forall (slow : bool) (S : schema) (limit tid : nat) (x : list byte) (vx b : value),
    msg_decode slow S limit tid x = DOk vx ->
    msg_valid slow S limit tid b = true ->
    exists m, msg_merge S limit tid vx b = Some m /\
              msg_decode slow S limit tid (x ++ msg_encode S tid b) = DOk m.
Proof. exact msg_concat_eq_merge. Qed.
Print Assumptions C07_concat_eq_merge.

Theorem C07_concat_eq_merge_refuted_FA6 :
  exists S x y vx vy vxy m,
    msg_decode false S 100 0 x = DOk vx /\ msg_decode false S 100 0 y = DOk vy /\
    msg_decode false S 100 0 (x ++ y) = DOk vxy /\ msg_merge S 100 0 vx vy = Some m /\ m <> vxy.
Proof. exact msg_concat_eq_merge_refuted_FA6. Qed.
Print Assumptions C07_concat_eq_merge_refuted_FA6.

(* non-vacuity: the example message of C03 (scalars, lists, maps, nested recursive sub-message, group
   list, oneof member, extension, unknown fields) is valid, and merging it with itself computes *)
Example C07_example_valid : msg_valid false ex_schema 3 0 ex_msg = true.
Proof. vm_compute. reflexivity. Qed.
(* non-vacuity of C07_decode_app / C07_concat_eq_merge: a non-canonical x (the FA6 bytes) *)
Example C07_example_decode_app :
  exists vx, msg_decode false ex_fa6 100 0 [n2b 8; n2b 3; n2b 8; n2b 0] = DOk vx /\
             msg_decode_into false ex_fa6 100 0 [n2b 8; n2b 5] vx = DOk (VMsg [(1, [VS (SZ 5)])] []).
Proof. eexists. split; vm_compute; reflexivity. Qed.
Example C07_example_merge :
  exists m, msg_merge ex_schema 3 0 ex_msg ex_msg = Some m /\ m <> ex_msg /\
            msg_decode false ex_schema 3 0 (msg_encode ex_schema 0 ex_msg ++ msg_encode ex_schema 0 ex_msg) = DOk m.
Proof. eexists. split; [vm_compute; reflexivity|]. split; [discriminate|vm_compute; reflexivity]. Qed.
