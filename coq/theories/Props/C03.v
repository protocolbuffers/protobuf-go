(* C03 — Binary Marshal/Unmarshal round-trips every message.
   Statements only; each closed by [exact] of a lemma proved in Msg/MsgRoundP.v
   (the FB3 witness in Msg/MsgFb3P.v).

   Model: Msg/MsgSchema.v (schema tables), Msg/MsgValue.v (canonical values, scalar codec),
   Msg/MsgEnc.v (deterministic encoder in order.LegacyFieldOrder), Msg/MsgDec.v (the merging
   decoder: [slow = false] the table-driven path of internal/impl, [slow = true] the reflection
   path of package proto), Msg/MsgValid.v (the decidable predicate [msg_valid]).

   Full statement (DESIGN.md section 7, C03):
     forall slow S limit tid v, valid slow S limit tid v = true ->
       decode slow S limit tid (encode S tid v) = Ok v
   i.e. identity of canonical values (stronger than proto.Equal), for every schema table S
   (recursive types allowed), both decoder paths, every recursion limit that the value fits in.

   Proved: exactly this statement.  [msg_valid] (see the comment in Msg/MsgValid.v) is the
   canonical-value predicate -- typed, in range, fields sorted by number, map entries sorted by
   key, no empty list/map, no implicit-presence zero, at most one member per oneof, depth within
   the limit (map entries cost one level, as in the code), unknown bytes a sequence of
   well-formed fields that the message type does not decode (unknown number, or known number
   with a rejected wire type; minimal tags on the table-driven path), all lengths below 2^64.
   It covers proto2/proto3/editions shapes (explicit, implicit, required presence), all 16 scalar
   kinds, packed and expanded lists, maps with scalar or message values, oneofs, groups, nested
   and recursive messages, extensions (ordinary fields of the schema table), unknown fields
   (also inside groups), and both decoder paths.

   Finding FB3 (reflection path only): there [msg_valid] additionally demands that every
   group-typed value passes the wire scanner ([msg_group_scans]), because that path reads a known
   group with protowire.ConsumeGroup -- whose nesting budget of 10000 is shared with unknown
   groups nested inside -- before decoding it.  The condition is necessary:
   [C03_reflection_groups_refuted] exhibits a message that is canonical for the table-driven
   path (and round-trips there) whose encoding the reflection path rejects; the same input is
   replayed on dynamicpb by the harness corpus (finding FB3 in KNOWN_FINDINGS.txt).  So for
   [slow = true] the theorem is the "_except_FB3" form, with [msg_group_scans] as the narrowest
   exclusion predicate; for [slow = false] it is the full statement
   ([C03_roundtrip_table_driven]).

   Not in this model: non-deterministic map order (the harness checks it on the
   implementation), lazy decoding (C17), MessageSet (C47). *)
From Coq Require Import List NArith ZArith.
From PB Require Import Base.PBytes Wire.WireModel.
From PB Require Import Msg.MsgSchema Msg.MsgValue Msg.MsgEnc Msg.MsgDec Msg.MsgValid Msg.MsgRoundP Msg.MsgFb3P Msg.MsgExample.
Import ListNotations.
Open Scope N_scope.

Theorem C03_roundtrip :
  forall (slow : bool) (S : schema) (limit : nat) (tid : nat) (v : value),
    msg_valid slow S limit tid v = true ->
    msg_decode slow S limit tid (msg_encode S tid v) = DOk v.
Proof. exact msg_roundtrip. Qed.
Print Assumptions C03_roundtrip.

(* the table-driven path of generated messages: no condition beyond canonicity *)
Theorem C03_roundtrip_table_driven :
  forall (S : schema) (limit : nat) (tid : nat) (v : value),
    msg_valid false S limit tid v = true ->
    msg_decode false S limit tid (msg_encode S tid v) = DOk v.
Proof. exact (msg_roundtrip false). Qed.
Print Assumptions C03_roundtrip_table_driven.

(* FB3: canonical for the table-driven path, rejected by the reflection path *)
Theorem C03_reflection_groups_refuted :
  exists (S : schema) (v : value),
    msg_valid false S 2 0 v = true /\
    msg_decode false S 2 0 (msg_encode S 0 v) = DOk v /\
    msg_decode true S 2 0 (msg_encode S 0 v) = DErr DParse.
Proof. exact msg_fb3_witness. Qed.
Print Assumptions C03_reflection_groups_refuted.

(* Marshal is injective on canonical values: equal bytes, equal messages *)
Theorem C03_encode_injective :
  forall (slow : bool) (S : schema) (limit : nat) (tid : nat) (v1 v2 : value),
    msg_valid slow S limit tid v1 = true -> msg_valid slow S limit tid v2 = true ->
    msg_encode S tid v1 = msg_encode S tid v2 -> v1 = v2.
Proof. exact msg_encode_injective. Qed.
Print Assumptions C03_encode_injective.

(* non-vacuity: a message using scalars of many kinds, packed and expanded lists, two maps,
   a nested recursive sub-message, a group list, a oneof member, an extension and unknown
   fields is valid at depth 3 (not at depth 2), and its round trip computes *)
Example C03_example_valid :
  msg_valid false ex_schema 3 0 ex_msg = true /\ msg_valid false ex_schema 2 0 ex_msg = false.
Proof. vm_compute. split; reflexivity. Qed.
Example C03_example_roundtrip :
  msg_decode false ex_schema 3 0 (msg_encode ex_schema 0 ex_msg) = DOk ex_msg.
Proof. vm_compute. reflexivity. Qed.
(* the depth bound is sharp: one level less and the decoder reports the recursion limit *)
Example C03_example_depth :
  msg_decode false ex_schema 2 0 (msg_encode ex_schema 0 ex_msg) = DErr DDepth.
Proof. vm_compute. reflexivity. Qed.

(* ---------- Tier T: the generated scalar coders (internal/impl/codec_gen.go) ----------
   Gen/CodecGenTable.v is regenerated from codec_gen.go on every run (srcmodel_codecgen): one row per
   size*/append*/consume* function, holding the source text that fills the holes of the function's
   template.  Msg/CodecGenP.v gives that text its meaning ([enc_sem], [dec_sem], [zero_sem]).

   C03_go_codecgen_classified: every one of the functions matches its template as a whole (nothing
   Unclassified, packed branches repeat the same expressions, varints are read by the standard inlined
   fast path, the pointer accessor is the kind's), every coder variable binds size/marshal/unmarshal
   functions of one kind and of matching variants, and all 16 kinds are present in all three roles.

   C03_go_codecgen_conversions_match_model: for every append* function what is handed to
   protowire.Append* is [sk_enc] of the function's kind on the kind's whole domain (and the NoZero
   variants skip exactly [msg_scalar_is_zero]); for every consume* function the wire type tested is
   [sk_wt] of the kind and the value stored is [sk_dec] of the kind, for every wire value. *)
Require Import PB.Gen.CodecGenTable PB.Msg.CodecGenP.

Theorem C03_go_codecgen_classified :
  (forall r, In r funcs -> row_classified r = true) /\ funcs <> [] /\
  (forall e, In e coders -> check_coder e = true) /\ check_coverage = true.
Proof. exact codecgen_classified. Qed.
Print Assumptions C03_go_codecgen_classified.

Theorem C03_go_codecgen_conversions_match_model :
  forall r, In r funcs ->
    (r_role r = role_append ->
       exists sk wf c, row_kind r = Some sk /\ row_enc r = Some (wf, c) /\
         (forall s, sk_ok sk s = true -> enc_sem wf c s = Some (sk_enc sk s)) /\
         (r_variant r = variant_nozero -> exists zc, zero_meaning (r_zero r) = Some zc /\
            forall s, sk_ok sk s = true -> zero_sem sk zc s = Some (msg_scalar_is_zero s))) /\
    (r_role r = role_consume ->
       exists sk wf c, row_kind r = Some sk /\ row_dec r = Some (wf, c) /\
         wt_of (r_wt r) = Some (sk_wt sk) /\ wfn_wt wf = sk_wt sk /\
         (forall w, dec_sem wf c w = sk_dec sk w)).
Proof. exact codecgen_conversions_match_model. Qed.
Print Assumptions C03_go_codecgen_conversions_match_model.

(* non-vacuity: appendSint32 and consumeSint32 are rows of the table, of the roles the theorem speaks about,
   and the model functions they are tied to are the zigzag ones *)
Example C03_example_codecgen_rows :
  (exists r, row_named fn_appendSint32 r /\ r_role r = role_append /\ row_kind r = Some SkSint32 /\
             row_enc r = Some (WfVarint, EcZigZag)) /\
  (exists r, row_named fn_consumeSint32 r /\ r_role r = role_consume /\ row_kind r = Some SkSint32 /\
             row_dec r = Some (WfVarint, DcZigZag32)).
Proof.
  split.
  - destruct (find_row fn_appendSint32) as [r|] eqn:E; [|vm_compute in E; discriminate E].
    exists r. split; [apply find_row_named; exact E|]. vm_compute in E. inversion E. vm_compute. repeat split.
  - destruct (find_row fn_consumeSint32) as [r|] eqn:E; [|vm_compute in E; discriminate E].
    exists r. split; [apply find_row_named; exact E|]. vm_compute in E. inversion E. vm_compute. repeat split.
Qed.
Example C03_example_codecgen_sem :
  enc_sem WfVarint EcZigZag (SZ (-1)) = Some (WVarint 1) /\ dec_sem WfVarint DcZigZag32 (WVarint 1) = Some (SZ (-1)).
Proof. vm_compute. split; reflexivity. Qed.
