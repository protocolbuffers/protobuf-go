(* C17 — Lazy decoding is observationally equivalent to eager decoding.
   Statements only; closed by [exact] of lemmas proved in Msg/LazyP.v, Msg/LazyValueP.v and
   Msg/DecDepthMonoP.v, or by computation on a witness.

   Model: Msg/LazyModel.v (unmarshalPointerLazy with skipField/validate, the lazy index with
   lastNum / out-of-order sort, lookupField, lazyUnmarshal/unmarshalField on first access,
   AppendField/SizeField re-emitting retained bytes, CheckInitialized skipping still-lazy
   fields) on top of the eager decoder Msg/MsgDec.v and the validator Msg/ValidateMsgModel.v.
   It is executed against the implementation on every run (family lazy: verdict, strict verdict,
   Marshal of the untouched message, canonical dump after reading every field).

   The property as stated -- for every input and every later read/write history all
   observations coincide with eager decoding -- is REFUTED as the code stands:
     lazy_marshal_refuted   F1: a wrong-wire-type occurrence of a lazy field is kept in the
                            unknown fields and inside the lazy index range: Marshal of the
                            untouched message emits it twice
     lazy_strict_refuted    FWB2: Unmarshal without AllowPartial accepts a message whose lazy
                            sub-message lacks a required field (CheckInitialized skips
                            still-lazy fields "checked on unmarshal"; Unmarshal relies on it)
   Proved for all inputs:
     lazy_verdict_refines_eager   (for schemas without the FL1 field shape) eager succeeds ->
                            lazy succeeds; lazy succeeds -> eager succeeds or fails with the
                            recursion-depth error (the FWB4 quirk inside a lazy field)
     lazy_access_total_index      after a successful Unmarshal, lookupField finds a range for
                            every field whose presence bit was set while its pointer is nil
                            (the index is sorted whenever the early exit of lookupField needs
                            it) -- so lazyUnmarshal's "can't find field data" panic is
                            unreachable; forcing itself is total in the model by construction
                            (the Go code drops unmarshalField's error: finding FWB6)
   _partial / not proved: equality of the canonical value after forcing with the eagerly
   decoded value for inputs outside the F1 class; it is
   checked by execution only (C lines of family lazy, and the lazy-vs-eager access scripts on
   the implementation), except for two proved pieces: lazy_value_eq_eager_nolazy_partial (types
   without lazy fields) and eager_depth_monotone (see below).  One level of laziness is modelled (see Msg/LazyModel.v). *)
From Coq Require Import List NArith ZArith Bool.
From PB Require Import Base.PBytes Wire.WireModel.
From PB Require Import Msg.MsgSchema Msg.MsgValue Msg.MsgEnc Msg.MsgDec.
From PB Require Import Msg.ValidateMsgModel Msg.ValidateMsgP Msg.LazyModel Msg.LazyP.
From PB Require Import Msg.LazyValueP Msg.DecDepthMonoP.
Import ListNotations.
Open Scope N_scope.

Theorem C17_lazy_verdict_refines_eager :
  forall (S : schema) (limit tid : nat) (bs : list byte),
    vp_fl1_free S ->
    ((exists v, msg_decode false S limit tid bs = DOk v) -> exists m, lz_unmarshal S limit tid bs = DOk m) /\
    ((exists m, lz_unmarshal S limit tid bs = DOk m) ->
     (exists v, msg_decode false S limit tid bs = DOk v) \/ msg_decode false S limit tid bs = DErr DDepth).
Proof. exact lzp_verdict_refines. Qed.
Print Assumptions C17_lazy_verdict_refines_eager.

Theorem C17_lazy_access_total_index :
  forall (S : schema) (limit tid : nat) (bs : list byte) (m : lmsg),
    lz_unmarshal S limit tid bs = DOk m ->
    forall n, In n (l_lazy m) -> lz_lookup (l_index m) n <> [].
Proof. exact lzp_lookup_total. Qed.
Print Assumptions C17_lazy_access_total_index.

(* Towards [lazy_refines_eager_except_F1] (value after forcing = eagerly decoded value), _partial.
   Two of its pieces are proved:
   (a) on every field that is not a lazy one the tag loop of lazy Unmarshal is the eager tag loop
       (same accumulator, same error; index and presence bookkeeping never touch decoded fields),
       so for a message type WITHOUT lazy fields lazy Unmarshal gives exactly the eager verdict
       and the eager value;
   (b) the eager decoder is monotone in the recursion limit (forcing decodes with
       DefaultRecursionLimit what Unmarshal validated with the depth that was left).
   Missing: locality of one decoder step (a field changes only its own entry of the field list),
   index correctness (the ranges lookupField returns are exactly the occurrences of the field, in
   input order, also after the out-of-order sort), and the assembly of the forced values. *)
Theorem C17_lazy_value_eq_eager_nolazy_partial :
  forall (S : schema) (limit tid : nat) (bs : list byte) (md : mdesc),
    nth_error S tid = Some md -> lzv_nolazy md ->
    lz_value_of S limit tid bs = match msg_decode false S limit tid bs with DOk v => Some v | DErr _ => None end /\
    lz_verdict S limit tid bs = match msg_decode false S limit tid bs with DOk _ => 0 | DErr e => derr_code e end.
Proof. exact lzv_value_nolazy. Qed.
Print Assumptions C17_lazy_value_eq_eager_nolazy_partial.

Theorem C17_eager_depth_monotone :
  forall (slow : bool) (S : schema) (limit limit' tid : nat) (bs : list byte) (v : value),
    (limit <= limit')%nat ->
    msg_decode slow S limit tid bs = DOk v -> msg_decode slow S limit' tid bs = DOk v.
Proof. exact ddm_decode_mono. Qed.
Print Assumptions C17_eager_depth_monotone.

(* ---------- refutations (findings) ---------- *)
(* a Node-like type: lazy field 99 of its own type, int32 field 1 *)
Definition C17_node : schema :=
  [[mkF 99 (KMsg 0) COpt None false false true; mkF 1 (KS SkInt32) COpt None false false false]].
(* F1: [99:LEN {08 05}] [99:VARINT 7] *)
Definition C17_f1 : list byte := [x9a; x06; x02; x08; x05; x98; x06; x07].

Theorem C17_lazy_marshal_refuted :
  exists (S : schema) (limit tid : nat) (bs : list byte) (v : value),
    msg_decode false S limit tid bs = DOk v /\
    lz_value_of S limit tid bs = Some v /\
    lz_raw_of S limit tid bs <> msg_encode S tid v /\
    length (lz_raw_of S limit tid bs) = 11%nat /\ length (msg_encode S tid v) = 8%nat /\
    msg_decode false S limit tid (lz_raw_of S limit tid bs) <> DOk v.
Proof.
  exists C17_node, 5%nat, 0%nat, C17_f1, (VMsg [(99, [VMsg [(1, [VS (SZ 5)])] []])] [x98; x06; x07]).
  vm_compute. repeat split; try reflexivity; discriminate.
Qed.
Print Assumptions C17_lazy_marshal_refuted.

(* FWB2: lazy field 1 of a type with a required field; input [1:LEN {}] *)
Definition C17_reqlazy : schema :=
  [[mkF 1 (KMsg 1) COpt None false false true]; [mkF 1 (KS SkInt32) CReq None false false false]].
Theorem C17_lazy_strict_refuted :
  exists (S : schema) (limit tid : nat) (bs : list byte),
    lz_strict S limit tid bs = 0 /\ vm_dec_class false S limit tid bs = 6.
Proof. exists C17_reqlazy, 5%nat, 0%nat, [x0a; x00]. vm_compute. split; reflexivity. Qed.
Print Assumptions C17_lazy_strict_refuted.

(* ---------- non-vacuity ---------- *)
Example C17_example_hyp : vp_fl1_free C17_node.
Proof. apply vp_fl1_freeb_spec. vm_compute. reflexivity. Qed.
(* out-of-order, non-contiguous occurrences of the lazy field with an unknown field in between:
   [1:5] [99:{1:5}] [2:varint 1] [99:{99:{1:7}}] [1:6] -- the index is sorted, the two ranges are
   merged on access, and value and deterministic bytes agree with eager decoding *)
Definition C17_ooo : list byte :=
  [x08; x05; x9a; x06; x02; x08; x05; x10; x01; x9a; x06; x05; x9a; x06; x02; x08; x07; x08; x06].
Example C17_example_ooo :
  exists m v, lz_unmarshal C17_node 5 0 C17_ooo = DOk m /\
    length (l_index m) = 2%nat /\ l_lazy m = [99] /\ length (lz_lookup (l_index m) 99) = 2%nat /\
    msg_decode false C17_node 5 0 C17_ooo = DOk v /\ lz_value_of C17_node 5 0 C17_ooo = Some v.
Proof. eexists. eexists. vm_compute. repeat split; reflexivity. Qed.
(* invalid content two levels inside the lazy field is rejected at Unmarshal time *)
Example C17_example_invalid :
  lz_verdict C17_node 5 0 [x9a; x06; x04; x9a; x06; x01; x00] = 1 /\
  msg_decode false C17_node 5 0 [x9a; x06; x04; x9a; x06; x01; x00] = DErr DParse.
Proof. vm_compute. split; reflexivity. Qed.
(* the no-lazy hypothesis holds of type 1 of C17_reqlazy (and not of type 0), and both sides of
   the conclusion are the decoded value there *)
Example C17_example_nolazy :
  lzv_nolazy (nth 1 C17_reqlazy []) /\ lzv_nolazyb (nth 0 C17_reqlazy []) = false /\
  lz_value_of C17_reqlazy 5 1 [x08; x05] = Some (VMsg [(1, [VS (SZ 5)])] []) /\
  msg_decode false C17_reqlazy 5 1 [x08; x05] = DOk (VMsg [(1, [VS (SZ 5)])] []).
Proof. split; [apply lzv_nolazyb_spec; vm_compute; reflexivity|]. vm_compute. repeat split; reflexivity. Qed.
(* depth monotonicity is not vacuous: the F1 input decodes at limit 2 and at limit 5 *)
Example C17_example_depth :
  exists v, msg_decode false C17_node 2 0 C17_f1 = DOk v /\ msg_decode false C17_node 5 0 C17_f1 = DOk v /\
            msg_decode false C17_node 1 0 C17_f1 = DErr DDepth.
Proof. eexists. vm_compute. repeat split; reflexivity. Qed.
