(* C42 — Go identifiers derived from schemas are valid and unique.
   Statements only.  The general ones are closed by [exact] of a lemma proved in
   CodeGen/NamesP.v, NamesUtf8P.v, UniqueP.v or StrsGoP.v (the translated source of
   internal/strs); refutations and examples exhibit a witness and compute.
   [f], [fo] abbreviate field specifications in the witnesses. *)
From Coq Require Import List NArith ZArith Bool Lia.
From PB Require Import Base.PBytes CodeGen.NamesModel CodeGen.NamesP CodeGen.NamesUtf8P CodeGen.UniqueModel CodeGen.UniqueP CodeGen.OpaqueModel.
From PB Require Import Base.GoInt Gen.StrsGo CodeGen.StrsGoBase CodeGen.StrsTrimModel CodeGen.StrsGoP.
Import ListNotations.
Open Scope N_scope.

Definition s (l : list byte) : list byte := l.

(* for every protobuf identifier [A-Za-z_][A-Za-z0-9_]* the result is non-empty,
   starts with an upper-case ASCII letter and consists of [A-Za-z0-9_] *)
Theorem C42_camel_exported_identifier :
  forall s, proto_ident s = true ->
  exists c r, go_camel_case s = c :: r /\ is_upper c = true /\
              forallb is_letter_digit_b (c :: r) = true.
Proof. exact camel_exported_identifier. Qed.
Print Assumptions C42_camel_exported_identifier.
Example C42_camel_nonvacuous :
  proto_ident [ "_"; "f"; "o"; "o"; "_"; "b"; "1" ]%byte = true /\
  go_camel_case [ "_"; "f"; "o"; "o"; "_"; "b"; "1" ]%byte = [ "X"; "F"; "o"; "o"; "B"; "1" ]%byte.
Proof. split; reflexivity. Qed.

(* ---------- GoSanitized ----------
   for every string (as the rune sequence that ranging over it yields) and every
   classification of runes by unicode.IsLetter / unicode.IsDigit in which U+FFFD
   is not a letter: the result is a Go identifier (go/token.IsIdentifier relative
   to the same classification), in particular not a keyword *)
Theorem C42_sanitized_valid_nonkeyword :
  forall (u_letter u_digit : N -> bool), u_letter rune_error = false ->
  forall rs, go_identifier u_letter u_digit (go_sanitized_runes u_letter u_digit rs) = true.
Proof. exact sanitized_valid_nonkeyword. Qed.
Print Assumptions C42_sanitized_valid_nonkeyword.
(* the same on strings: for every byte string s (valid UTF-8 or not), ranging over
   GoSanitized(s) yields a Go identifier *)
Theorem C42_sanitized_valid_nonkeyword_bytes :
  forall (u_letter u_digit : N -> bool), u_letter rune_error = false ->
  forall s, go_identifier u_letter u_digit (decode_runes (go_sanitized u_letter u_digit s)) = true.
Proof. exact sanitized_valid_nonkeyword_bytes. Qed.
Print Assumptions C42_sanitized_valid_nonkeyword_bytes.
Example C42_sanitized_nonvacuous :
  tbl_letter [] rune_error = false /\
  go_sanitized_tbl [] [ "g"; "o" ]%byte = [ "_"; "g"; "o" ]%byte /\
  go_sanitized_tbl [] [ "1"; "-"; "a" ]%byte = [ "_"; "1"; "_"; "a" ]%byte /\
  go_sanitized_tbl [] [] = [ "_" ]%byte.
Proof. repeat split; reflexivity. Qed.

(* ---------- JSONCamelCase / JSONSnakeCase ----------
   the exact condition under which the conversion is reversible: no upper-case
   letter, and every '_' is followed by a lower-case letter *)
Theorem C42_snake_camel_inverse :
  forall s, json_snake_case (json_camel_case s) = s <-> snake_ok s = true.
Proof. exact snake_camel_inverse. Qed.
Print Assumptions C42_snake_camel_inverse.
(* and that is what protojson's marshalFieldMask checks, on top of FullName.IsValid *)
Theorem C42_snake_camel_inverse_when_accepted :
  forall s out, fieldmask_path s = (0, out) -> out = json_camel_case s /\ json_snake_case out = s.
Proof. exact fieldmask_accepted_roundtrip. Qed.
Print Assumptions C42_snake_camel_inverse_when_accepted.
Theorem C42_fieldmask_accepts_iff :
  forall s, fst (fieldmask_path s) = 0 <-> fullname_valid s = true /\ snake_ok s = true.
Proof. exact fieldmask_accepts_iff. Qed.
Print Assumptions C42_fieldmask_accepts_iff.
Example C42_fieldmask_nonvacuous :
  fieldmask_path [ "a"; "_"; "b"; "."; "c" ]%byte = (0, [ "a"; "B"; "."; "c" ]%byte) /\
  fst (fieldmask_path [ "a"; "_"; "1" ]%byte) = 2 /\ fst (fieldmask_path [ "a"; "B" ]%byte) = 2 /\
  fst (fieldmask_path [ "a"; "." ]%byte) = 1.
Proof. repeat split; reflexivity. Qed.

Definition f (n : name) : fieldspec := mkfield n None.
Definition fo (n : name) (i : N) : fieldspec := mkfield n (Some i).

(* "all field, getter and oneof names of a message are pairwise distinct":
   refuted (finding F12).  message M { optional int32 get_y = 1; oneof y { int32 a = 2; } }
   gives the struct field GetY and the oneof getter GetY(). *)
Theorem C42_names_pairwise_distinct_refuted :
  exists fs onames, ~ NoDup (full_names (message_hist fs onames)).
Proof.
  exists [ f [ "g"; "e"; "t"; "_"; "y" ]%byte; fo [ "a" ]%byte 0 ], [ [ "y" ]%byte ].
  intros H. apply nodupb_nodup in H. vm_compute in H. discriminate.
Qed.
Print Assumptions C42_names_pairwise_distinct_refuted.

(* the erasure usedNames["Get"+name] = false can even give two *fields* the same
   Go name: fields get_get_v, getGetV with oneofs get_v, Get_get_v, v, getV in between *)
Theorem C42_field_names_distinct_refuted :
  exists fs onames, ~ NoDup (fst (message_names fs onames)).
Proof.
  exists [ f [ "g"; "e"; "t"; "_"; "g"; "e"; "t"; "_"; "v" ]%byte;
           fo [ "a" ]%byte 0; fo [ "b" ]%byte 1; fo [ "c" ]%byte 2; fo [ "d" ]%byte 3;
           f [ "g"; "e"; "t"; "G"; "e"; "t"; "V" ]%byte ],
         [ [ "g"; "e"; "t"; "_"; "v" ]%byte; [ "G"; "e"; "t"; "_"; "g"; "e"; "t"; "_"; "v" ]%byte;
           [ "v" ]%byte; [ "g"; "e"; "t"; "V" ]%byte ].
  intros H. apply nodupb_nodup in H. vm_compute in H. discriminate.
Qed.
Print Assumptions C42_field_names_distinct_refuted.

(* What holds instead, for every sequence of makeNameUnique calls (every message):
   the results, their Get-forms and the reserved method names are pairwise
   distinct exactly when no oneof's getter name "Get"+GoName is itself the Go
   name of a field or oneof. *)
Theorem C42_names_distinct_iff :
  forall evs, let h := run_hist evs init_used [] in
  NoDup (full_names h) <-> (forall n, In (n, false) h -> ~ In (getter n) (map fst h)).
Proof. exact names_distinct_iff. Qed.
Print Assumptions C42_names_distinct_iff.
Theorem C42_message_names_distinct_iff :
  forall fs onames,
  nodupb (full_names (message_hist fs onames)) = oneof_getter_free (message_hist fs onames).
Proof. exact message_names_distinct_iff. Qed.
Print Assumptions C42_message_names_distinct_iff.

(* partial: a message without oneofs — for every list of field names the Go
   names, the getters and the reserved method names are pairwise distinct
   (missing for the full property: oneofs, see the refutations above; setters
   and the opaque API's Has/Clear/Which are not modelled) *)
Theorem C42_names_distinct_partial :
  forall fs onames, (forall f, In f fs -> f_oneof f = None) ->
  NoDup (full_names (message_hist fs onames)).
Proof. exact message_names_distinct_no_oneof. Qed.
Print Assumptions C42_names_distinct_partial.
Example C42_names_distinct_nonvacuous :
  message_names [ f [ "x" ]%byte; f [ "X" ]%byte; f [ "g"; "e"; "t"; "_"; "x" ]%byte; f [ "r"; "e"; "s"; "e"; "t" ]%byte ] [] =
  ([ [ "X" ]%byte; [ "X"; "_" ]%byte; [ "G"; "e"; "t"; "X"; "_"; "_" ]%byte; [ "R"; "e"; "s"; "e"; "t"; "_" ]%byte ], []).
Proof. vm_compute. reflexivity. Qed.

(* "every method emitted for each message is in the reserved set": refuted
   (finding FH1) — ProtoReflect is not; a field proto_reflect keeps the Go name
   ProtoReflect next to the method ProtoReflect() *)
Theorem C42_base_methods_reserved_refuted :
  exists b fs, In b base_methods /\ ~ In b reserved /\ In b (fst (message_names fs [])).
Proof.
  exists [ "P"; "r"; "o"; "t"; "o"; "R"; "e"; "f"; "l"; "e"; "c"; "t" ]%byte,
         [ f [ "p"; "r"; "o"; "t"; "o"; "_"; "r"; "e"; "f"; "l"; "e"; "c"; "t" ]%byte ].
  split; [vm_compute; tauto|]. split.
  - intros H. apply mem_name_in in H. vm_compute in H. discriminate.
  - vm_compute. tauto.
Qed.
Print Assumptions C42_base_methods_reserved_refuted.

(* oneof wrapper types: never the Go identifier of a nested message or enum ... *)
Theorem C42_wrapper_not_nested :
  forall msg taken g, ~ In (wrapper_name msg taken g) taken.
Proof. exact wrapper_not_taken. Qed.
Print Assumptions C42_wrapper_not_nested.
(* ... but "wrapper types of distinct Go names are distinct": refuted (finding FH2):
   message M { message Foo {} oneof o { int32 foo = 1; int32 foo_ = 2; } } *)
Theorem C42_wrappers_distinct_refuted :
  exists msg taken g1 g2, g1 <> g2 /\ wrapper_name msg taken g1 = wrapper_name msg taken g2.
Proof.
  exists [ "M" ]%byte, [ [ "M"; "_"; "F"; "o"; "o" ]%byte ], [ "F"; "o"; "o" ]%byte, [ "F"; "o"; "o"; "_" ]%byte.
  split; [discriminate|reflexivity].
Qed.
Print Assumptions C42_wrappers_distinct_refuted.

(* ---------- opaque API (protogen_opaque.go) ----------
   "the accessor methods Get/Set/Has/Clear<camelCase> and Has/Clear/Which<oneof> of a
   message are pairwise distinct": refuted twice.
   FH4: _foo and X_foo both camel-case to XFoo and are renamed XFoo_1, XFoo_2; the
   field x_foo_2 is XFoo_2 already. *)
Theorem C42_opaque_suffix_collision_refuted :
  exists fs, ~ NoDup (opaque_methods fs [] []).
Proof.
  exists [ mkofield [ "_"; "f"; "o"; "o" ]%byte 1 None true;
           mkofield [ "X"; "_"; "f"; "o"; "o" ]%byte 2 None true;
           mkofield [ "x"; "_"; "f"; "o"; "o"; "_"; "2" ]%byte 3 None true ].
  intros H. apply nodupb_nodup in H. vm_compute in H. discriminate.
Qed.
Print Assumptions C42_opaque_suffix_collision_refuted.
(* FH5: two oneofs x_x and XX (the open API names them XX and XX_; the opaque API
   uses the camel-case name and resolves collisions between fields only) *)
Theorem C42_opaque_oneof_collision_refuted :
  exists fs onames real, ~ NoDup (opaque_methods fs onames real).
Proof.
  exists [ mkofield [ "a" ]%byte 1 (Some 0) true; mkofield [ "b" ]%byte 2 (Some 1) true ],
         [ [ "x"; "_"; "x" ]%byte; [ "X"; "X" ]%byte ], [ true; true ].
  intros H. apply nodupb_nodup in H. vm_compute in H. discriminate.
Qed.
Print Assumptions C42_opaque_oneof_collision_refuted.

(* ---------- Tier T: internal/strs/strings.go as translated by srcmodel_strs (Gen/StrsGo.v) ----------
   [zb s] is the string s as the translation sees it (list of byte values in Z);
   [go_len_ok s] says len(s) < 2^63, which holds for every Go string. *)
Theorem C42_go_isASCII_eq_model :
  forall c, go_isASCIILower (zc c) = is_lower c /\ go_isASCIIUpper (zc c) = is_upper c /\
            go_isASCIIDigit (zc c) = is_digit c.
Proof. exact go_isASCII_eq. Qed.
Print Assumptions C42_go_isASCII_eq_model.
Theorem C42_go_GoCamelCase_eq_model :
  forall s, go_len_ok s -> go_GoCamelCase (zb s) = Val (zb (go_camel_case s)).
Proof. exact go_GoCamelCase_eq. Qed.
Print Assumptions C42_go_GoCamelCase_eq_model.
Theorem C42_go_JSONCamelCase_eq_model :
  forall s, go_len_ok s -> go_JSONCamelCase (zb s) = Val (zb (json_camel_case s)).
Proof. exact go_JSONCamelCase_eq. Qed.
Print Assumptions C42_go_JSONCamelCase_eq_model.
Theorem C42_go_JSONSnakeCase_eq_model :
  forall s, go_len_ok s -> go_JSONSnakeCase (zb s) = Val (zb (json_snake_case s)).
Proof. exact go_JSONSnakeCase_eq. Qed.
Print Assumptions C42_go_JSONSnakeCase_eq_model.
(* the translated source never panics (index out of range) and its loops never
   exhaust their fuel *)
Theorem C42_go_strs_never_panic :
  forall s, go_len_ok s ->
  (exists o, go_GoCamelCase (zb s) = Val o) /\ (exists o, go_JSONCamelCase (zb s) = Val o) /\
  (exists o, go_JSONSnakeCase (zb s) = Val o).
Proof. exact go_strs_total. Qed.
Print Assumptions C42_go_strs_never_panic.
(* the translated GoCamelCase maps every protobuf identifier to an exported Go identifier *)
Theorem C42_go_GoCamelCase_exported_identifier :
  forall s, go_len_ok s -> proto_ident s = true ->
  exists c r, go_GoCamelCase (zb s) = Val (zb (c :: r)) /\ go_isASCIIUpper (zc c) = true /\
              forallb is_letter_digit_b (c :: r) = true.
Proof. exact go_GoCamelCase_exported_identifier. Qed.
Print Assumptions C42_go_GoCamelCase_exported_identifier.
(* the translated JSONSnakeCase inverts the translated JSONCamelCase exactly on snake_ok *)
Theorem C42_go_snake_camel_inverse :
  forall s, go_len_ok s ->
  (bind (go_JSONCamelCase (zb s)) go_JSONSnakeCase = Val (zb s) <-> snake_ok s = true).
Proof. exact go_snake_camel_inverse. Qed.
Print Assumptions C42_go_snake_camel_inverse.
Example C42_go_nonvacuous :
  go_len_ok [ "_"; "f"; "o"; "o"; "_"; "b"; "1" ]%byte /\
  go_GoCamelCase (zb [ "_"; "f"; "o"; "o"; "_"; "b"; "1" ]%byte) = Val (zb [ "X"; "F"; "o"; "o"; "B"; "1" ]%byte) /\
  go_GoCamelCase (zb [ "a"; "."; "b"; "."; "_"; "c"; "_" ]%byte) = Val (zb [ "A"; "B"; "_"; "X"; "C"; "_" ]%byte) /\
  go_JSONCamelCase (zb [ "a"; "_"; "b"; "_"; "_"; "1" ]%byte) = Val (zb [ "a"; "B"; "1" ]%byte) /\
  go_JSONSnakeCase (zb [ "a"; "B"; "c" ]%byte) = Val (zb [ "a"; "_"; "b"; "c" ]%byte).
Proof. unfold go_len_ok. repeat split; reflexivity. Qed.

(* strs.TrimEnumPrefix as translated (loop with `continue`; unicode.ToLower(rune(byte)) and
   strings.TrimLeft(s, "_") enter through the hand-written CodeGen/StrsGoBase.v, compared with
   the library on every run): equals the hand model on all strings, never panics, returns a
   suffix of the value name, and never the empty string for a non-empty name *)
Theorem C42_go_TrimEnumPrefix_eq_model :
  forall s prefix, go_TrimEnumPrefix (zb s) (zb prefix) = Val (zb (trim_enum_prefix s prefix)).
Proof. exact go_TrimEnumPrefix_eq. Qed.
Print Assumptions C42_go_TrimEnumPrefix_eq_model.
Theorem C42_go_TrimEnumPrefix_suffix_nonempty :
  forall s prefix, exists p o, go_TrimEnumPrefix (zb s) (zb prefix) = Val (zb o) /\ s = p ++ o /\ (s <> [] -> o <> []).
Proof. exact go_TrimEnumPrefix_suffix_nonempty. Qed.
Print Assumptions C42_go_TrimEnumPrefix_suffix_nonempty.
Example C42_go_trim_nonvacuous :
  go_TrimEnumPrefix (zb [ "F"; "O"; "O"; "_"; "B"; "A"; "R" ]%byte) (zb [ "f"; "o"; "o" ]%byte) = Val (zb [ "B"; "A"; "R" ]%byte) /\
  go_TrimEnumPrefix (zb [ "F"; "O"; "O"; "_" ]%byte) (zb [ "f"; "o"; "o" ]%byte) = Val (zb [ "F"; "O"; "O"; "_" ]%byte) /\
  go_TrimEnumPrefix (zb [ "F"; "_"; "O"; "x" ]%byte) (zb [ "f"; "o"; "o" ]%byte) = Val (zb [ "F"; "_"; "O"; "x" ]%byte).
Proof. repeat split; reflexivity. Qed.
