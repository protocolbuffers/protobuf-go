(* C28 — the reflection API follows the protoreflect contract.
   Statements only; each closed by [exact] of a lemma of Msg/ReflectP.v or Msg/ReflectCellP.v.

   The contract (reflect/protoreflect/value.go) is the model Msg/ReflectModel.v: the abstract
   message of the codec model with Has / Get / Set / Clear / Mutable / NewField / WhichOneof /
   Range / GetUnknown / SetUnknown, the List and Map operations, extensions (fields with
   [f_ext]), at any path into sub-messages, reached with Get (read-only empties) or Mutable.
   The harness family "refl" runs every flavour of the implementation against it.

   1. invariant: every history from a well-formed message stays well formed (numbers strictly
      increasing, no empty field, declared fields only, oneofs exclusive, in every sub-message);
   2. consequences for every reachable state and every path: Range visits exactly the populated
      fields, once; oneof members exclude each other and WhichOneof names the populated one;
      Get of an unpopulated field is the default / an empty read-only composite; writes through
      read-only composites panic and change nothing; Truncate beyond the length panics;
   3. refinement: a dynamicpb message (known map entries + ext registration, isSet) and an
      opaque generated message (presence bits, value cells, lazy pointers, oneof wrappers,
      extension entries) simulate the contract model step by step through the abstraction
      function, for every operation at every path, hence for every history.

   Scope of 3 (see props/C28.json level_note): one message level is concrete, the sub-messages
   stored in its cells are abstract values -- deeper levels are the same statement again.
   Findings: FWE1 (Truncate(n), Len < n <= cap, does not panic) contradicts
   [C28_truncate_out_of_bounds_panics] on the implementation.  FWE2: opaque WhichOneof of a
   synthetic oneof must ask the field's own [has]; the code does so from commit 6a7663d on, and
   the model is of that code: [C28_opaque_synthetic_whichoneof]. *)
From Coq Require Import List NArith ZArith Bool.
From PB Require Import Base.PBytes Wire.WireModel Msg.MsgSchema Msg.MsgValue.
From PB Require Import Msg.ReflectModel Msg.ReflectP Msg.ReflectCellModel Msg.ReflectCellP.
Import ListNotations.
Open Scope N_scope.

Theorem C28_invariant_all_histories :
  forall (S : schema) (D : rdefs) (steps : list rstep) (m : value),
    refl_wf S O m = true ->
    refl_wf S O (fst (refl_run S D m steps)) = true /\
    Forall (fun om => refl_wf S O (snd om) = true) (snd (refl_run S D m steps)).
Proof. exact run_wf. Qed.
Print Assumptions C28_invariant_all_histories.

(* a path focuses on one well-formed message level (or fails for every operation alike) *)
Theorem C28_focus_is_a_wellformed_level :
  forall (S : schema) (D : rdefs) (w : bool) (path : list pstep) (tid : nat) (ro : bool) (fs : fields) (u : list byte),
    WFm S (nth tid S []) fs ->
    (forall op, snd (refl_focus S D w path tid ro op (fs, u)) = OPanic) \/
    exists tid' ro' fs' u', WFm S (nth tid' S []) fs' /\
      forall op, snd (refl_focus S D w path tid ro op (fs, u)) = snd (refl_step S D tid' ro' op (fs', u')).
Proof. exact focus_read. Qed.
Print Assumptions C28_focus_is_a_wellformed_level.

Theorem C28_range_visits_populated_once :
  forall (S : schema) (D : rdefs) (w : bool) (path : list pstep) (m : value) (fs : fields) (u : list byte),
    refl_wf S O m = true ->
    snd (refl_apply S D w path RRange m) = OState fs u ->
    NoDup (map fst fs) /\
    forall k, In k (map fst fs) <-> snd (refl_apply S D w path (RHas k) m) = OBool true.
Proof. exact range_visits_populated_once. Qed.
Print Assumptions C28_range_visits_populated_once.

Theorem C28_oneof_exclusive :
  forall (S : schema) (md : mdesc) (fs : fields) (k1 k2 : N) (fd1 fd2 : fdesc) (i : N),
    WFm S md fs ->
    msg_find_field md k1 = Some fd1 -> msg_find_field md k2 = Some fd2 ->
    f_oneof fd1 = Some i -> f_oneof fd2 = Some i ->
    refl_has fs k1 = true -> refl_has fs k2 = true -> k1 = k2.
Proof. exact oneof_exclusive. Qed.
Print Assumptions C28_oneof_exclusive.

Theorem C28_whichoneof_names_the_populated_member :
  forall (S : schema) (md : mdesc) (fs : fields) (k : N) (fd : fdesc) (o : N),
    NoDup (map f_num md) -> WFm S md fs ->
    msg_find_field md k = Some fd -> f_oneof fd = Some o -> refl_has fs k = true ->
    refl_which md o fs = k.
Proof. exact which_correct. Qed.
Print Assumptions C28_whichoneof_names_the_populated_member.

Theorem C28_get_unpopulated_is_default :
  forall (D : rdefs) (tid : nat) (fd : fdesc) (fs : fields),
    refl_has fs (f_num fd) = false ->
    refl_get D tid fd fs =
      if refl_is_map fd || refl_is_list fd then OVal false []
      else match f_kind fd with
           | KS sk => OVal true [VS (refl_default D tid (f_num fd) sk)]
           | _ => OVal false [msg_empty]
           end.
Proof. exact get_unpopulated_is_default. Qed.
Print Assumptions C28_get_unpopulated_is_default.

Theorem C28_readonly_empty_list :
  forall (S : schema) (D : rdefs) (tid : nat) (ro : bool) (fs : fields) (u : list byte) (f : N) (o : lop),
    refl_has fs f = false ->
    match o with LSet _ _ | LAppend _ | LTruncate _ | LAppendMutable => True | _ => False end ->
    refl_step S D tid ro (RList f true o) (fs, u) = ((fs, u), OPanic).
Proof. exact readonly_empty_list. Qed.
Print Assumptions C28_readonly_empty_list.

Theorem C28_readonly_empty_map :
  forall (S : schema) (D : rdefs) (tid : nat) (ro : bool) (fs : fields) (u : list byte) (f : N) (o : mop),
    refl_has fs f = false ->
    match o with MSet _ _ | MMutable _ => True | _ => False end ->
    refl_step S D tid ro (RMap f true o) (fs, u) = ((fs, u), OPanic).
Proof. exact readonly_empty_map. Qed.
Print Assumptions C28_readonly_empty_map.

Theorem C28_readonly_empty_message_writes_panic :
  forall (S : schema) (D : rdefs) (tid : nat) (op : rop) (fs : fields) (u : list byte),
    match op with RSet _ _ | RClear _ | RMutable _ | RSetUnknown _ => True | _ => False end ->
    refl_step S D tid true op (fs, u) = ((fs, u), OPanic).
Proof. exact readonly_empty_message_step. Qed.
Print Assumptions C28_readonly_empty_message_writes_panic.

Theorem C28_readonly_empty_message_leaves_parent :
  forall (S : schema) (D : rdefs) (rest : list pstep) (tid : nat) (ro : bool) (op : rop) (fs : fields) (u : list byte) (f : N),
    refl_has fs f = false ->
    fst (refl_focus S D false (PF f :: rest) tid ro op (fs, u)) = (fs, u).
Proof. exact readonly_empty_message. Qed.
Print Assumptions C28_readonly_empty_message_leaves_parent.

(* "Get, Set, and Truncate panic with out of bound indexes" -- the implementation does not for
   Truncate(n) with Len < n <= cap: finding FWE1 *)
Theorem C28_truncate_out_of_bounds_panics :
  forall (D : rdefs) (tid : nat) (fd : fdesc) (lro : bool) (vs : list value) (n : N),
    N.of_nat (length vs) < n ->
    refl_list_edit D tid fd lro (LTruncate n) vs = (None, OPanic).
Proof. exact truncate_out_of_bounds. Qed.
Print Assumptions C28_truncate_out_of_bounds_panics.

Theorem C28_dynamic_cells_satisfy_the_cell_laws : celllaws dyncell dyn_ops dyn_inv.
Proof. exact dyn_laws. Qed.
Print Assumptions C28_dynamic_cells_satisfy_the_cell_laws.

Theorem C28_opaque_cells_satisfy_the_cell_laws : celllaws ocell opq_ops opq_inv.
Proof. exact opq_laws. Qed.
Print Assumptions C28_opaque_cells_satisfy_the_cell_laws.

(* one operation at one path: the concrete machine and the contract model commute with the
   abstraction function (any representation satisfying the cell laws) *)
Theorem C28_step_simulation :
  forall (cell : Type) (ops : cellops cell) (inv : fdesc -> cell -> Prop),
    celllaws cell ops inv ->
    forall (md : mdesc) (S : schema) (D : rdefs) (w : bool) (path : list pstep) (tid : nat) (op : rop)
           (st st' : cmsg cell) (out : rout),
      md = nth tid S [] -> md_ok md -> CInv cell inv md (cm_cells st) ->
      cm_focus cell ops S D w path tid op st = (st', out) ->
      refl_focus S D w path tid false op (cm_abs cell ops md st) = (cm_abs cell ops md st', out) /\
      CInv cell inv md (cm_cells st').
Proof. exact cm_focus_sim. Qed.
Print Assumptions C28_step_simulation.

Theorem C28_dynamic_refines_abstract :
  forall (S : schema) (D : rdefs) (steps : list rstep) (st : cmsg dyncell),
    md_ok (nth O S []) -> CInv dyncell dyn_inv (nth O S []) (cm_cells st) ->
    refl_val_of (cm_abs dyncell dyn_ops (nth O S []) (fst (cm_run dyncell dyn_ops S D st steps))) =
      fst (refl_run S D (refl_val_of (cm_abs dyncell dyn_ops (nth O S []) st)) steps) /\
    snd (cm_run dyncell dyn_ops S D st steps) =
      map fst (snd (refl_run S D (refl_val_of (cm_abs dyncell dyn_ops (nth O S []) st)) steps)) /\
    CInv dyncell dyn_inv (nth O S []) (cm_cells (fst (cm_run dyncell dyn_ops S D st steps))).
Proof. exact dynamic_refines_abstract. Qed.
Print Assumptions C28_dynamic_refines_abstract.

Theorem C28_opaque_refines_abstract :
  forall (S : schema) (D : rdefs) (steps : list rstep) (st : cmsg ocell),
    md_ok (nth O S []) -> CInv ocell opq_inv (nth O S []) (cm_cells st) ->
    refl_val_of (cm_abs ocell opq_ops (nth O S []) (fst (cm_run ocell opq_ops S D st steps))) =
      fst (refl_run S D (refl_val_of (cm_abs ocell opq_ops (nth O S []) st)) steps) /\
    snd (cm_run ocell opq_ops S D st steps) =
      map fst (snd (refl_run S D (refl_val_of (cm_abs ocell opq_ops (nth O S []) st)) steps)) /\
    CInv ocell opq_inv (nth O S []) (cm_cells (fst (cm_run ocell opq_ops S D st steps))).
Proof. exact opaque_refines_abstract. Qed.
Print Assumptions C28_opaque_refines_abstract.

(* WhichOneof of the synthetic oneof of a proto3-optional field on the opaque representation
   (finding FWE2 was about this function): the member is reported exactly when it is populated *)
Theorem C28_opaque_synthetic_whichoneof :
  forall (fd : fdesc) (c : ocell), opq_which_synthetic fd c = negb (refl_is_nil (opq_vals fd c)).
Proof. exact opq_which_synthetic_correct. Qed.
Print Assumptions C28_opaque_synthetic_whichoneof.

(* non-vacuity *)
(* one message type: 1 optional int32, 2 repeated int32, 3 message (oneof 0), 4 string (oneof 0),
   5 lazy message, 6 implicit int64, 7 map<int32, message>, 100 extension int32 *)
Definition c28_md : mdesc :=
  [ mkF 1 (KS SkInt32) COpt None false false false;
    mkF 2 (KS SkInt32) CRep None false false false;
    mkF 3 (KMsg O) COpt (Some 0) false false false;
    mkF 4 (KS SkString) COpt (Some 0) true false false;
    mkF 5 (KMsg O) COpt None false false true;
    mkF 6 (KS SkInt64) CImp None false false false;
    mkF 7 (KMsg O) (CMap SkInt32 false 0%Z) None false false false;
    mkF 100 (KS SkInt32) COpt None false true false ].
Definition c28_schema : schema := [c28_md].
Definition c28_defs : rdefs := mkRD [[(1, SZ 41%Z)]] [[]].
Definition c28_history : list rstep :=
  [ mkStep true [] (RGet 1);
    mkStep true [] (RSet 4 [VS (SBy [x61])]);
    mkStep true [] (RMutable 3);
    mkStep false [] (RWhich 0);
    mkStep true [PF 3] (RSet 6 [VS (SZ 0%Z)]);
    mkStep true [PF 3] (RSet 6 [VS (SZ 7%Z)]);
    mkStep true [] (RList 2 false (LAppend (VS (SZ 1%Z))));
    mkStep true [] (RList 2 false (LAppend (VS (SZ 2%Z))));
    mkStep true [] (RList 2 false (LTruncate 1));
    mkStep true [] (RList 2 false (LTruncate 5));
    mkStep false [PF 5] (RSet 1 [VS (SZ 1%Z)]);
    mkStep true [PF 5] (RSet 1 [VS (SZ 1%Z)]);
    mkStep true [] (RMap 7 false (MMutable (SZ 9%Z)));
    mkStep true [PM 7 (SZ 9%Z)] (RSetUnknown [x08; x01]);
    mkStep true [] (RSet 100 [VS (SZ 5%Z)]);
    mkStep true [] (RClear 3);
    mkStep true [] RRange ].

Example C28_example_md_ok : md_ok c28_md.
Proof. split; [repeat constructor; cbn; intuition discriminate | intros fd H; cbn in H; intuition; subst; reflexivity]. Qed.

Example C28_example_wf : refl_wf c28_schema O msg_empty = true.
Proof. vm_compute. reflexivity. Qed.

(* the history exercises the model: the final Range shows fields 2, 5, 7 and 100 *)
Example C28_example_history :
  map fst (snd (refl_run c28_schema c28_defs msg_empty c28_history)) =
  [ OVal true [VS (SZ 41%Z)]; ONone; OVal true [msg_empty]; ONum 3; ONone; ONone; ONone; ONone; ONone; OPanic;
    OPanic; ONone; OVal true [msg_empty]; ONone; ONone; ONone;
    OState [ (2, [VS (SZ 1%Z)]);
             (5, [VMsg [(1, [VS (SZ 1%Z)])] []]);
             (7, [VEntry (SZ 9%Z) (VMsg [] [x08; x01])]);
             (100, [VS (SZ 5%Z)]) ] [] ].
Proof. vm_compute. reflexivity. Qed.

(* both concrete machines, started from the empty message, produce the same results *)
Example C28_example_dynamic :
  snd (cm_run dyncell dyn_ops c28_schema c28_defs (mkCM [] []) c28_history) =
  map fst (snd (refl_run c28_schema c28_defs msg_empty c28_history)).
Proof. vm_compute. reflexivity. Qed.
Example C28_example_opaque :
  snd (cm_run ocell opq_ops c28_schema c28_defs (mkCM [] []) c28_history) =
  map fst (snd (refl_run c28_schema c28_defs msg_empty c28_history)).
Proof. vm_compute. reflexivity. Qed.
