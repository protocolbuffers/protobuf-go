(* C33 — registries behave like a conflict-checking name table.

   Model: Desc/RegistryModel.v (local protoregistry.Files and protoregistry.Types).
   Every theorem quantifies over ALL operation histories [ops] (any length): [fstate_after ops]
   is the concrete state after the history, [registered ops] the abstract state = the list of
   successfully registered files (resp. [tstate_after], [tregistered] for Types).

   Hypotheses of the Files theorems: every file handed to RegisterFile satisfies [wf_file]
   (what protodesc.NewFile guarantees: simple names are non-empty and dot-free, names are
   unique per scope).  The harness checks [wf_file] on every file it generates.  The Types
   theorems have no hypotheses.

   Statements only; each closed by [exact] of a lemma proved in Desc/Registry*P.v. *)
From Coq Require Import List NArith Bool Permutation.
From PB Require Import Desc.RegistryModel Desc.RegistryFilesP Desc.RegistryFindP Desc.RegistryTypesP.
Import ListNotations.

(* ------------------------------------------------------------------ Files: registration *)
(* RegisterFile returns ok iff the file conflicts with nothing registered: its path is not
   registered, no dotted prefix of its package is a registered top-level declaration name,
   and none of its top-level full names is a registered top-level declaration name or a
   registered package prefix.  The error class follows the order path, package, name.
   The hypothesis [wf_file f] on the candidate is not used: RegistryFilesP.register_result_iff
   is this statement without it. *)
Theorem C33_register_ok_iff_no_conflict :
  forall ops fid f,
  forallb wf_fop ops = true -> wf_file f = true ->
  let r := snd (register_file (fstate_after ops) fid f) in
  let rs := registered ops in
  (r = ROk <-> ~ conflict_path rs f /\ ~ conflict_pkg rs f /\ ~ conflict_name rs f) /\
  (r = RErrPath <-> conflict_path rs f) /\
  (r = RErrPkg <-> ~ conflict_path rs f /\ conflict_pkg rs f) /\
  (r = RErrName <-> ~ conflict_path rs f /\ ~ conflict_pkg rs f /\ conflict_name rs f).
Proof. exact register_ok_iff_no_conflict. Qed.
Print Assumptions C33_register_ok_iff_no_conflict.

(* the model's auxiliary outcomes (fuel exhaustion of the Parent() loop, failed type
   assertion to *packageDescriptor) are unreachable *)
Theorem C33_register_total :
  forall ops fid f,
  forallb wf_fop ops = true -> wf_file f = true ->
  snd (register_file (fstate_after ops) fid f) <> ROutOfFuel /\
  snd (register_file (fstate_after ops) fid f) <> RPanic.
Proof. exact register_total. Qed.
Print Assumptions C33_register_total.

(* a failed registration returns the concrete state unchanged ... *)
Theorem C33_failed_register_noop :
  forall ops fid f,
  forallb wf_fop ops = true -> wf_file f = true ->
  snd (register_file (fstate_after ops) fid f) <> ROk ->
  fst (register_file (fstate_after ops) fid f) = fstate_after ops.
Proof. exact failed_register_noop. Qed.
Print Assumptions C33_failed_register_noop.

(* ... hence every later observation is unchanged *)
Theorem C33_failed_register_later_obs :
  forall ops fid f ops2,
  forallb wf_fop ops = true -> wf_file f = true ->
  snd (register_file (fstate_after ops) fid f) <> ROk ->
  frun_from (fst (register_file (fstate_after ops) fid f)) ops2 = frun_from (fstate_after ops) ops2.
Proof. exact failed_register_later_obs. Qed.
Print Assumptions C33_failed_register_later_obs.

(* the abstraction function (contents of filesByPath) is the list of registered files *)
Theorem C33_abs_files_registered :
  forall ops, forallb wf_fop ops = true -> Permutation (abs_files (fstate_after ops)) (registered ops).
Proof. exact abs_files_registered. Qed.
Print Assumptions C33_abs_files_registered.

(* ------------------------------------------------------------------ Files: lookup by name *)
(* FindDescriptorByName n returns d iff d is a declaration with full name n of some registered
   file — every kind: messages, nested messages, enums, enum values (in the enclosing scope),
   extensions (top-level and nested), fields, oneofs, services, methods; it returns NotFound
   iff no registered file declares n. *)
Theorem C33_find_by_name_sound_complete :
  forall ops,
  forallb wf_fop ops = true ->
  let s := fstate_after ops in
  let rs := registered ops in
  (forall nm d, find_descriptor_by_name s nm = FFound d <-> (d_full d = nm /\ declared rs d)) /\
  (forall nm, find_descriptor_by_name s nm = FNotFound <-> ~ exists d, d_full d = nm /\ declared rs d).
Proof. exact find_by_name_sound_complete. Qed.
Print Assumptions C33_find_by_name_sound_complete.

Theorem C33_find_total :
  forall ops nm, find_descriptor_by_name (fstate_after ops) nm <> FOutOfFuel.
Proof. exact find_total. Qed.
Print Assumptions C33_find_total.

(* the registry never holds two declarations with the same full name *)
Theorem C33_declared_unique :
  forall ops d d',
  forallb wf_fop ops = true ->
  declared (registered ops) d -> declared (registered ops) d' -> d_full d = d_full d' -> d = d'.
Proof. exact declared_unique. Qed.
Print Assumptions C33_declared_unique.

(* ------------------------------------------------------------------ Files: counts and ranges *)
(* NumFiles, RangeFiles (as a multiset), NumFilesByPackage / RangeFilesByPackage (registration
   order) are exact; paths of registered files are pairwise distinct, so FindFileByPath never
   reports "multiple files" on a local registry and finds exactly the registered paths. *)
Theorem C33_counts_and_ranges_exact :
  forall ops,
  forallb wf_fop ops = true ->
  let s := fstate_after ops in
  let rs := registered ops in
  num_files s = length rs /\
  Permutation (range_files s) (map fst rs) /\
  (forall p, range_files_by_package s p = map fst (filter (fun r => name_eqb (f_pkg (snd r)) p) rs)) /\
  (forall p, num_files_by_package s p = length (filter (fun r => name_eqb (f_pkg (snd r)) p) rs)) /\
  NoDup (map (fun r => f_path (snd r)) rs) /\
  (forall p, find_file_by_path s p <> PMultiple) /\
  (forall p fid, find_file_by_path s p = PFound fid <-> exists f, In (fid, f) rs /\ f_path f = p) /\
  (forall p, find_file_by_path s p = PNotFound <-> ~ path_registered rs p).
Proof. exact counts_and_ranges_exact. Qed.
Print Assumptions C33_counts_and_ranges_exact.

(* ------------------------------------------------------------------ Types *)
(* RegisterMessage/RegisterEnum fail iff the name is taken (by a type of any kind);
   RegisterExtension first checks the (extendee, number) pair, then the name. *)
Theorem C33_types_register_ok_iff_no_conflict :
  forall ops,
  let s := tstate_after ops in
  let rs := tregistered ops in
  (forall id n, (snd (register_message s id n) = TOk <-> ~ name_taken rs n) /\
                (snd (register_message s id n) = TErrName <-> name_taken rs n)) /\
  (forall id n, (snd (register_enum s id n) = TOk <-> ~ name_taken rs n) /\
                (snd (register_enum s id n) = TErrName <-> name_taken rs n)) /\
  (forall id n m num,
      let r := snd (register_extension s id n m num) in
      (r = TOk <-> ~ extnum_taken rs m num /\ ~ name_taken rs n) /\
      (r = TErrExtNum <-> extnum_taken rs m num) /\
      (r = TErrName <-> ~ extnum_taken rs m num /\ name_taken rs n)).
Proof. exact types_register_ok_iff_no_conflict. Qed.
Print Assumptions C33_types_register_ok_iff_no_conflict.

Theorem C33_types_failed_register_noop :
  forall ops op,
  let s := tstate_after ops in
  (exists r, snd (tstep s op) = TORes r /\ r <> TOk) -> fst (tstep s op) = s.
Proof. exact types_failed_register_noop. Qed.
Print Assumptions C33_types_failed_register_noop.

(* Find{Message,Enum,Extension}ByName: found iff registered with that kind, "wrong type" iff
   registered with another kind, NotFound iff the name is not registered;
   FindExtensionByNumber finds exactly the registered (extendee, number) pairs. *)
Theorem C33_types_find_sound_complete :
  forall ops,
  let s := tstate_after ops in
  let rs := tregistered ops in
  (forall want n id, find_type s want n = TFound id <->
                     exists e, In e rs /\ te_name e = n /\ te_kind e = want /\ te_id e = id) /\
  (forall want n, find_type s want n = TWrongType <->
                  exists e, In e rs /\ te_name e = n /\ te_kind e <> want) /\
  (forall want n, find_type s want n = TNotFound <-> ~ name_taken rs n) /\
  (forall m num id, find_extension_by_number s m num = TFound id <->
                    exists e, In e rs /\ te_kind e = TExt /\ te_ext e = m /\ te_num e = num /\ te_id e = id) /\
  (forall m num, find_extension_by_number s m num = TNotFound <-> ~ extnum_taken rs m num) /\
  (forall m num, find_extension_by_number s m num <> TWrongType).
Proof. exact types_find_sound_complete. Qed.
Print Assumptions C33_types_find_sound_complete.

(* FindMessageByURL looks up what follows the last '/' *)
Theorem C33_url_name_spec :
  (forall s, ~ In slashb s -> url_name s = s) /\
  (forall a b, ~ In slashb b -> url_name (a ++ slashb :: b) = b).
Proof. exact url_name_spec. Qed.
Print Assumptions C33_url_name_spec.

(* counters and ranges enumerate exactly the registered types *)
Theorem C33_types_counts_exact :
  forall ops,
  let s := tstate_after ops in
  let rs := tregistered ops in
  ts_nenum s = length (kind_filter rs TEnum) /\
  ts_nmsg s = length (kind_filter rs TMsg) /\
  ts_next s = length (kind_filter rs TExt) /\
  (forall k, range_types s k = map te_id (kind_filter rs k)) /\
  (forall m, length (ext_map s m) = length (ext_filter rs m)) /\
  (forall m, map snd (ext_map s m) = map te_id (ext_filter rs m)) /\
  abs_types s = map (fun e => (te_kind e, te_id e, te_name e)) rs.
Proof. exact types_counts_exact. Qed.
Print Assumptions C33_types_counts_exact.

(* ------------------------------------------------------------------ non-vacuity *)
(* file A: package a; message b { message c { field f }  enum E { V }  field f  oneof o }
           service S { method m }
   file B: package a.b; message M        (its package collides with message a.b of A) *)
Definition ex_a : name := [x61].
Definition ex_ab : name := [x61; x2e; x62].
Definition ex_fileA : file :=
  File [x70; x31] ex_a []
       [MsgDecl [x62] [MsgDecl [x63] [] [] [] [[x66]] []] [EnumDecl [x45] [[x56]]] [] [[x66]] [[x6f]]]
       [] [SvcDecl [x53] [[x6d]]].
Definition ex_fileB : file := File [x70; x32] ex_ab [] [MsgDecl [x4d] [] [] [] [] []] [] [].
Definition ex_ops : list fop := [FReg 0 ex_fileA; FFind ex_ab; FReg 1 ex_fileB; FReg 0 ex_fileA].

(* the hypotheses of the Files theorems are satisfiable, and all result classes occur *)
Example C33_ex_register :
  forallb wf_fop ex_ops = true /\ wf_file ex_fileB = true /\
  registered ex_ops = [(0, ex_fileA)] /\
  snd (register_file (fstate_after ex_ops) 1 ex_fileB) = RErrPkg /\
  snd (register_file (fstate_after ex_ops) 2 ex_fileA) = RErrPath /\
  snd (register_file (fstate_after [FReg 1 ex_fileB]) 0 ex_fileA) = RErrName /\
  snd (register_file (fstate_after []) 0 ex_fileA) = ROk /\
  fst (register_file (fstate_after ex_ops) 1 ex_fileB) = fstate_after ex_ops.
Proof. vm_compute. repeat split; reflexivity. Qed.

(* nested field a.b.c.f, enum value a.b.V (enclosing scope), method a.S.m, oneof a.b.o are found;
   a.b.c.f. (trailing dot) and a.b.M (file B was rejected) are not *)
Example C33_ex_find :
  let s := fstate_after ex_ops in
  find_descriptor_by_name s (ex_ab ++ [x2e; x63; x2e; x66]) = FFound (Desc KField 0 (ex_ab ++ [x2e; x63; x2e; x66])) /\
  find_descriptor_by_name s (ex_ab ++ [x2e; x56]) = FFound (Desc KEnumVal 0 (ex_ab ++ [x2e; x56])) /\
  find_descriptor_by_name s (ex_ab ++ [x2e; x6f]) = FFound (Desc KOneof 0 (ex_ab ++ [x2e; x6f])) /\
  find_descriptor_by_name s [x61; x2e; x53; x2e; x6d] = FFound (Desc KMethod 0 [x61; x2e; x53; x2e; x6d]) /\
  find_descriptor_by_name s (ex_ab ++ [x2e; x63; x2e; x66; x2e]) = FNotFound /\
  find_descriptor_by_name s (ex_ab ++ [x2e; x4d]) = FNotFound /\
  declared (registered ex_ops) (Desc KField 0 (ex_ab ++ [x2e; x63; x2e; x66])) /\
  num_files s = 1 /\ find_file_by_path s [x70; x31] = PFound 0 /\ num_files_by_package s ex_a = 1.
Proof.
  cbv zeta. repeat split; try (vm_compute; reflexivity).
  exists ex_fileA. split; vm_compute; tauto.
Qed.

(* Types: extension-number conflict is reported before the name conflict; wrong-type lookups *)
Definition ex_tops : list top :=
  [TRegMsg 0 [x4d]; TRegExt 1 [x78] [x4d] 100%N; TRegExt 2 [x78] [x4d] 100%N; TRegExt 3 [x78] [x4d] 101%N;
   TRegEnum 4 [x4d]].
Example C33_ex_types :
  snd (trun ex_tops) = [TORes TOk; TORes TOk; TORes TErrExtNum; TORes TErrName; TORes TErrName] /\
  (exists r, snd (tstep (tstate_after ex_tops) (TRegEnum 4 [x4d])) = TORes r /\ r <> TOk) /\
  find_type (tstate_after ex_tops) TEnum [x4d] = TWrongType /\
  find_type (tstate_after ex_tops) TMsg (url_name [x74; x2f; x4d]) = TFound 0 /\
  find_extension_by_number (tstate_after ex_tops) [x4d] 100%N = TFound 1.
Proof.
  repeat split; try (vm_compute; reflexivity).
  exists TErrName. split; [vm_compute; reflexivity | discriminate].
Qed.
