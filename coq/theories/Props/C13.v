(* C13 — UTF-8 validation is enforced exactly where required.
   Statements only; closed by [exact] of lemmas proved in Base/Utf8ValidP.v, Msg/Utf8EnforceP.v and,
   for the coder table, Msg/Utf8CoderTableP.v. *)
From Coq Require Import List NArith Bool.
From PB Require Import Base.PBytes Base.Utf8Valid Base.Utf8ValidP Msg.Utf8EnforceModel Msg.Utf8EnforceP.
From PB Require Gen.CoderTable Msg.Utf8CoderTableP.
Import ListNotations.

(* Go's utf8.Valid (first-byte table, accept ranges, 8-byte ASCII fast path) accepts exactly
   the concatenations of shortest-form encodings of Unicode scalar values — every byte list *)
Theorem C13_utf8_valid_spec : forall bs, utf8_valid bs = true <-> is_utf8 bs.
Proof. exact utf8_valid_spec. Qed.
Print Assumptions C13_utf8_valid_spec.
Example C13_utf8_valid_spec_ex :
  utf8_valid [x61; xc3; xa9; xe2; x82; xac; xf0; x9f; x98; x80] = true /\
  utf8_valid [xed; xa0; x80] = false /\ utf8_valid [xc0; xaf] = false /\ utf8_valid [xf4; x90; x80; x80] = false.
Proof. vm_compute. auto. Qed.

(* the validity test used by the JSON and text lexers/encoders (iterate utf8.DecodeRune and
   fail on (RuneError, 1)) is the same predicate *)
Theorem C13_decode_loop_is_valid : forall bs, utf8_valid_dec bs = utf8_valid bs.
Proof. exact utf8_valid_dec_eq. Qed.
Print Assumptions C13_decode_loop_is_valid.

(* one iteration of utf8.Valid's loop is one utf8.DecodeRune step *)
Theorem C13_valid_loop_decode : forall b0 rest,
  valid_loop (b0 :: rest) =
  if decode_bad (decode_rune (b0 :: rest)) then false
  else valid_loop (skipn (snd (decode_rune (b0 :: rest))) (b0 :: rest)).
Proof. exact valid_loop_decode. Qed.
Print Assumptions C13_valid_loop_decode.

(* Full statement (refuted by the faithful model, findings FL1 and FL2):
     forall c p e bs, declared c p e = true -> ~ is_utf8 bs -> verdict_of c KString p e bs = Reject
   i.e. every codec rejects ill-formed strings in every string position whose descriptor is validated. *)
Theorem C13_enforced_positions_reject_refuted :
  exists c p e bs, declared c p e = true /\ ~ is_utf8 bs /\ verdict_of c KString p e bs <> Reject.
Proof. exact enforced_positions_reject_refuted. Qed.
Print Assumptions C13_enforced_positions_reject_refuted.
Theorem C13_enforced_positions_reject_refuted_FL2 :
  exists bs, declared TextUnmarshalEsc PAnyTypeUrl {| e_self := true; e_map := true |} = true /\ ~ is_utf8 bs /\
             verdict_of TextUnmarshalEsc KString PAnyTypeUrl {| e_self := true; e_map := true |} bs <> Reject.
Proof. exact enforced_positions_reject_refuted_FL2. Qed.
Print Assumptions C13_enforced_positions_reject_refuted_FL2.

(* every codec, every string position outside the two recorded exclusions:
   validated and ill-formed -> rejected *)
Theorem C13_enforced_positions_reject_except_FL1_FL2 : forall c p e bs,
  excl_FL1 c p = false -> excl_FL2 c p = false ->
  declared c p e = true -> ~ is_utf8 bs -> verdict_of c KString p e bs = Reject.
Proof. exact enforced_positions_reject_except. Qed.
Print Assumptions C13_enforced_positions_reject_except_FL1_FL2.
Example C13_enforced_positions_reject_except_ex :
  excl_FL1 BinUnmarshalFast PMapValue = false /\ excl_FL2 BinUnmarshalFast PMapValue = false /\
  declared BinUnmarshalFast PMapValue {| e_self := true; e_map := true |} = true /\ ~ is_utf8 [xff].
Proof. repeat split. rewrite <- utf8_valid_spec. vm_compute. discriminate. Qed.

(* in terms of the bit the code acts on *)
Theorem C13_consulted_reject : forall c p e bs,
  consulted c p e = true -> ~ is_utf8 bs -> verdict_of c KString p e bs = Reject.
Proof. exact enforced_positions_reject. Qed.
Print Assumptions C13_consulted_reject.
Example C13_consulted_reject_ex :
  consulted Validator PExtensionList {| e_self := true; e_map := true |} = true.
Proof. reflexivity. Qed.

(* every codec, every position, string or bytes: well-formed UTF-8 is accepted and delivered unchanged *)
Theorem C13_enforced_positions_accept : forall c k p e bs,
  is_utf8 bs -> verdict_of c k p e bs = Accept bs.
Proof. exact valid_accepted. Qed.
Print Assumptions C13_enforced_positions_accept.
Example C13_enforced_positions_accept_ex : is_utf8 [xc3; xa9].
Proof. apply utf8_valid_spec. reflexivity. Qed.

(* binary codecs, validator, prototext: rejection happens exactly when enforced and ill-formed;
   otherwise the bytes are delivered unchanged *)
Theorem C13_string_verdict_exact : forall c p e bs,
  passthrough_codec c = true ->
  (verdict_of c KString p e bs = Reject <-> consulted c p e = true /\ ~ is_utf8 bs) /\
  (verdict_of c KString p e bs <> Reject -> verdict_of c KString p e bs = Accept bs).
Proof. exact string_verdict_exact. Qed.
Print Assumptions C13_string_verdict_exact.
Example C13_string_verdict_exact_ex : passthrough_codec TextUnmarshalEsc = true.
Proof. reflexivity. Qed.

Theorem C13_nonenforced_passthrough : forall c p e bs,
  passthrough_codec c = true -> consulted c p e = false -> verdict_of c KString p e bs = Accept bs.
Proof. exact nonenforced_passthrough. Qed.
Print Assumptions C13_nonenforced_passthrough.
Example C13_nonenforced_passthrough_ex :
  passthrough_codec BinMarshalSlow = true /\ consulted BinMarshalSlow POneof {| e_self := false; e_map := false |} = false.
Proof. auto. Qed.

(* bytes fields are never validated (raw non-UTF-8 bytes inside a text-format literal are a lexical
   error of internal/encoding/text for every field kind; the text encoder never produces them) *)
Theorem C13_bytes_passthrough : forall c p e bs,
  c <> TextUnmarshalRaw -> verdict_of c KBytes p e bs = Accept bs.
Proof. exact bytes_passthrough. Qed.
Print Assumptions C13_bytes_passthrough.
Example C13_bytes_passthrough_ex : Validator <> TextUnmarshalRaw.
Proof. discriminate. Qed.

(* protojson goes beyond the property: ill-formed strings are refused in every string field *)
Theorem C13_json_rejects_all_invalid : forall p e bs,
  ~ is_utf8 bs ->
  verdict_of JsonMarshal KString p e bs = Reject /\ verdict_of JsonUnmarshal KString p e bs = Reject.
Proof. exact json_rejects_all_invalid. Qed.
Print Assumptions C13_json_rejects_all_invalid.

(* the validator (lazy decoding) and the eager table-driven decoder agree when a map field and the
   fields of its synthetic entry carry the same enforcement bit, as protoc guarantees
   (not at repeated string extensions: FL1) *)
Theorem C13_validator_agrees : forall k p e bs,
  e_map e = e_self e -> p <> PExtensionList ->
  verdict_of Validator k p e bs = verdict_of BinUnmarshalFast k p e bs.
Proof. exact validator_agrees. Qed.
Print Assumptions C13_validator_agrees.
Example C13_validator_agrees_ex : e_map {| e_self := true; e_map := true |} = e_self {| e_self := true; e_map := true |}.
Proof. reflexivity. Qed.

(* strs.EnforceUTF8 as a complete decision table *)
Theorem C13_enforce_table : forall legacy fd,
  enforce_utf8 legacy fd =
  match fd_has_method fd, legacy, fd_syntax fd with
  | true, _, Editions => fd_validated fd
  | true, true, _ => fd_validated fd
  | _, _, Proto3 => true
  | _, _, _ => false
  end.
Proof. exact enforce_table. Qed.
Print Assumptions C13_enforce_table.

(* Tier T: the decision table of
   internal/impl/codec_tables.go (fieldCoder, encoderFuncsForValue), regenerated from the source on
   every run by srcmodel_codertable into Gen/CoderTable.v. *)
Module CT.
Import Coq.Strings.String PB.Gen.CoderTable PB.Msg.Utf8CoderTableP.
Open Scope string_scope.

(* the extractor classified every row and every coder variable *)
Theorem C13_coder_table_classified : classified = true.
Proof. exact classified_true. Qed.
Print Assumptions C13_coder_table_classified.

(* Full statement (refuted, FL1): for every row whose kind is String and either value of
   strs.EnforceUTF8(fd), the selected coder is a ...ValidateUTF8 coder iff EnforceUTF8, and its marshal
   and unmarshal functions call utf8.Valid/ValidString iff EnforceUTF8. *)
Theorem C13_validate_coder_refuted_FL1 :
  exists r c, In r table /\ r_kind r = "String" /\ excl_FL1_row r = true /\
    select table (r_fn r) (r_cls r) "String" (r_gotype r) true = Some c /\
    validating_name c = false /\ funcs_validate c = Some (false, false).
Proof. exact validate_coder_refuted_FL1. Qed.
Print Assumptions C13_validate_coder_refuted_FL1.

Theorem C13_validate_coder_iff_enforce_except_FL1 : forall r enf,
  In r table -> r_kind r = "String" -> excl_FL1_row r = false ->
  exists c, select table (r_fn r) (r_cls r) "String" (r_gotype r) enf = Some c /\
            validating_name c = enf /\ funcs_validate c = Some (enf, enf).
Proof. exact validate_coder_iff_enforce_except_FL1. Qed.
Print Assumptions C13_validate_coder_iff_enforce_except_FL1.
Example C13_validate_coder_iff_enforce_except_FL1_ex :
  select table "fieldCoder" "NoZero" "String" "String" true = Some "coderStringNoZeroValidateUTF8" /\
  select table "fieldCoder" "NoZero" "String" "String" false = Some "coderStringNoZero" /\
  select table "encoderFuncsForValue" "Value" "String" "Any" true = Some "coderStringValueValidateUTF8".
Proof. vm_compute. repeat split. Qed.

(* the exclusion predicate is exact: every excluded String row really selects a non-validating coder *)
Theorem C13_excl_FL1_rows_all_fail : forall r,
  In r table -> r_kind r = "String" -> excl_FL1_row r = true -> check_row r true = false.
Proof. exact excl_FL1_rows_all_fail. Qed.
Print Assumptions C13_excl_FL1_rows_all_fail.

Theorem C13_bytes_rows_never_validate : forall r,
  In r table -> r_kind r = "Bytes" ->
  validating_name (r_coder r) = false /\ funcs_validate (r_coder r) = Some (false, false).
Proof. exact bytes_rows_never_validate. Qed.
Print Assumptions C13_bytes_rows_never_validate.
End CT.
