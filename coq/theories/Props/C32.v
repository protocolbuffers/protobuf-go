(* C32 — protorange visits every populated value exactly once.
   Statements about the model Msg/RangeModel.v of reflect/protorange
   (Options{Stable:true}.Range); each closed by [exact] of a lemma of Msg/RangeP.v.

   Reading conventions: a [tree] is a message value with its populated fields in
   range order; [push]/[pop] are arbitrary callbacks (functions of the path);
   [range push pop root] = (error returned by Range, sequence of callback
   events); [wf] = field numbers / map keys are distinct at every level;
   [at_path q V] = the callback returning V exactly at path q; [cont] = the
   callback that always returns nil; [paths] forgets the values of the events;
   [wn p ev] = ev is a well-nested sequence of Push/Pop pairs below path p; [final V] = what Range
   returns for verdict V (Break and Terminate are not errors); [trm leaf r t] / [brk leaf r t] = t
   pruned as a traversal stopped by Terminate / Break at relative path r leaves it, with
   leaf = [strip] (verdict from push: the value at r without its children) or [keep] (from pop).
   All of these are defined in Msg/RangeP.v. *)
From Coq Require Import List NArith Bool.
From PB Require Import Msg.RangeModel Msg.RangeP.
Import ListNotations.
Open Scope N_scope.

(* pushes and pops are balanced and properly nested, for every callback
   behaviour (also after Break, Terminate and errors: pop is always called) *)
Theorem C32_range_balanced :
  forall push pop root, wn [] (snd (range push pop root)).
Proof. exact range_wn. Qed.
Print Assumptions C32_range_balanced.

(* the first push and the last pop are those of the Root step *)
Theorem C32_range_root_first_last :
  forall push pop root, exists inner,
  snd (range push pop root) = Push [SRoot] root :: inner ++ [Pop [SRoot] root] /\ wn [SRoot] inner.
Proof. exact range_root_events. Qed.
Print Assumptions C32_range_root_first_last.

(* with callbacks that always continue, the pushes are exactly the populated
   positions, depth first, and Range returns nil ... *)
Theorem C32_range_visits_once :
  forall root,
  range cont cont root = (Continue, snd (range cont cont root)) /\
  pushes (snd (range cont cont root)) = all_positions root.
Proof. exact range_visits_once. Qed.
Print Assumptions C32_range_visits_once.

(* ... and no position occurs twice *)
Theorem C32_positions_distinct : forall root, wf root -> NoDup (all_positions root).
Proof. exact all_positions_nodup. Qed.
Print Assumptions C32_positions_distinct.

(* the value handed to a callback is the one obtained by applying the steps of
   its path to the root value, for every callback behaviour *)
Theorem C32_range_step_value :
  forall push pop root e, wf root -> In e (snd (range push pop root)) ->
  resolve root (ev_path e) = Some (ev_val e).
Proof. exact range_step_value. Qed.
Print Assumptions C32_range_step_value.

(* Break returned by push at a populated position SRoot :: r: the callback
   sequence is that of an all-continue traversal of the tree in which the value
   at r has no children and its later siblings (incl. unknown fields) are
   removed; Range returns nil *)
Theorem C32_break_semantics :
  forall r root, r <> [] -> wf root -> apply_steps root r <> None ->
  fst (range (at_path (SRoot :: r) Break) cont root) = Continue /\
  paths (snd (range (at_path (SRoot :: r) Break) cont root))
  = paths (snd (range cont cont (brk strip r root))).
Proof. exact break_semantics. Qed.
Print Assumptions C32_break_semantics.

(* Break returned by pop: the children have been visited, the later siblings are skipped *)
Theorem C32_break_pop_semantics :
  forall r root, r <> [] -> wf root -> apply_steps root r <> None ->
  fst (range cont (at_path (SRoot :: r) Break) root) = Continue /\
  paths (snd (range cont (at_path (SRoot :: r) Break) root))
  = paths (snd (range cont cont (brk keep r root))).
Proof. exact break_pop_semantics. Qed.
Print Assumptions C32_break_pop_semantics.

(* Terminate (final V = nil) or a callback error (final V = that error) from
   push at SRoot :: r: at every level along r the later siblings are skipped,
   all open steps are popped, nothing else is visited *)
Theorem C32_terminate_semantics :
  forall V r root, is_nil V = false -> V <> Break ->
  r <> [] -> wf root -> apply_steps root r <> None ->
  fst (range (at_path (SRoot :: r) V) cont root) = final V /\
  paths (snd (range (at_path (SRoot :: r) V) cont root))
  = paths (snd (range cont cont (trm strip r root))).
Proof. exact terminate_semantics. Qed.
Print Assumptions C32_terminate_semantics.

Theorem C32_terminate_pop_semantics :
  forall V r root, is_nil V = false -> V <> Break ->
  r <> [] -> wf root -> apply_steps root r <> None ->
  fst (range cont (at_path (SRoot :: r) V) root) = final V /\
  paths (snd (range cont (at_path (SRoot :: r) V) root))
  = paths (snd (range cont cont (trm keep r root))).
Proof. exact terminate_pop_semantics. Qed.
Print Assumptions C32_terminate_pop_semantics.

(* verdicts at the Root step itself *)
Theorem C32_root_push_verdict :
  forall V root, is_nil V = false ->
  range (at_path [SRoot] V) cont root = (final V, [Push [SRoot] root; Pop [SRoot] root]).
Proof. exact root_push_verdict. Qed.
Print Assumptions C32_root_push_verdict.

Theorem C32_root_pop_verdict :
  forall V root, range cont (at_path [SRoot] V) root = (final V, snd (range cont cont root)).
Proof. exact root_pop_verdict. Qed.
Print Assumptions C32_root_pop_verdict.

(* non-vacuity: a concrete well-formed tree and a position in it *)
Definition ex_tree : tree :=
  Message [(1, Scalar);
           (2, TList [Scalar; Message [(5, Scalar)] true None]);
           (3, TMap [(0, Scalar); (1, Message [] false (Some (Message [(7, Scalar)] false None)))]);
           (4, Scalar)] true None.
Definition ex_path : list step := [SField 2; SIndex 1; SField 5].

Ltac solve_nodup := cbn; repeat (constructor; [cbn; intuition discriminate|]); constructor.
Ltac solve_wf :=
  constructor; [solve_nodup |
    cbn; let s := fresh "s" in let v := fresh "v" in let H := fresh "H" in
    intros s v H;
    repeat (destruct H as [H|H]; [inversion H; subst; solve_wf|]); destruct H].

Example C32_nonvacuous_wf : wf ex_tree.
Proof. solve_wf. Qed.
Example C32_nonvacuous_position : ex_path <> [] /\ apply_steps ex_tree ex_path <> None.
Proof. split; [discriminate | cbn; discriminate]. Qed.
Example C32_nonvacuous_verdicts :
  is_nil Terminate = false /\ Terminate <> Break /\ is_nil (Error 1) = false /\ Error 1 <> Break.
Proof. repeat split; discriminate. Qed.
(* the Break theorem says something: the pruned traversal is strictly shorter *)
Example C32_break_example :
  length (snd (range (at_path (SRoot :: [SField 2; SIndex 0]) Break) cont ex_tree)) = 22%nat /\
  length (snd (range cont cont ex_tree)) = 28%nat.
Proof. split; vm_compute; reflexivity. Qed.
Example C32_step_value_example :
  In (Push [SRoot; SField 3; SKey 1; SAny; SField 7] Scalar) (snd (range cont cont ex_tree)).
Proof. vm_compute. tauto. Qed.
