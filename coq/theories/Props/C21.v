(* C21 — protojson speaks exactly JSON.
   Statements only; each closed by [exact] of a lemma proved in Json/*P.v.

   Specification side (Json/JsonGrammar.v, Json/JsonUtf8.v): [json_text] is RFC 8259 as an
   inductive grammar over bytes (strings are RFC 3629 UTF-8), [rfc_number], [rfc_string] its
   number and string productions; [strip_number] / [is_json] are executable recognisers.
   Code side: Json/JsonLexModel.v (Decoder), Json/JsonNumModel.v (parseNumber),
   Json/JsonEncModel.v (Encoder). *)
From Coq Require Import List NArith ZArith.
From PB Require Import Base.PBytes Json.JsonUtf8 Json.JsonGrammar Json.JsonNumModel Json.JsonNumP
  Json.JsonLexModel Json.JsonStrP Json.JsonLexP Json.JsonEncModel Json.JsonEncP Json.JsonEncSpec
  Json.JsonEncGrammarP Json.JsonGrammarP Json.JsonStrict Json.JsonLexCompleteP Json.JsonGrammarCompleteP Json.JsonLexExactP.
Import ListNotations.

(* If reading tokens to EOF succeeds (and at least one token was read) the input is a JSON
   text.  parseNumber requires a digit after the exponent marker and sign (finding F2), so the
   theorem covers numbers as well as strings and structure. *)
Theorem C21_lexer_accepts_only_json :
  forall input toks, read_all input = (toks, None) -> toks <> [] -> json_text input.
Proof. exact lexer_accepts_only_json. Qed.
Print Assumptions C21_lexer_accepts_only_json.

(* The side condition [toks <> []] is necessary for the code as it stands: in Decoder.Read the
   EOF test `d.lastToken.kind&scalar|ObjectClose|ArrayClose == 0` parses as
   `((kind&scalar)|ObjectClose|ArrayClose) == 0`, which is constantly false, so blank input is
   read as EOF without error.  (protojson.Unmarshal is not affected: it requires '{' first.) *)
Theorem C21_lexer_blank_input_reads_eof :
  exists input, read_all input = ([], None) /\ ~ json_text input.
Proof. exact lexer_blank_input_reads_eof. Qed.
Print Assumptions C21_lexer_blank_input_reads_eof.

(* parseNumber is exactly the RFC 8259 number recogniser followed by the delimiter rule *)
Theorem C21_parse_number_is_rfc_number :
  forall input, parse_number input =
    match strip_number input with
    | Some r => if delim_or_end r then Some (length input - length r)%nat else None
    | None => None
    end.
Proof. exact parse_number_strip. Qed.
Print Assumptions C21_parse_number_is_rfc_number.

Theorem C21_parse_number_sound :
  forall input n, parse_number input = Some n ->
    rfc_number (firstn n input) /\ delim_or_end (skipn n input) = true /\ (0 < n <= length input)%nat.
Proof. exact parse_number_sound. Qed.
Print Assumptions C21_parse_number_sound.

Theorem C21_parse_number_complete :
  forall num r, rfc_number num -> delim_or_end r = true -> parse_number (num ++ r) = Some (length num).
Proof. exact parse_number_complete. Qed.
Print Assumptions C21_parse_number_complete.

(* the executable number recogniser and the inductive grammar coincide *)
Theorem C21_is_rfc_number_iff : forall s, is_rfc_number s = true <-> rfc_number s.
Proof. exact is_rfc_number_iff. Qed.
Print Assumptions C21_is_rfc_number_iff.

(* The executable recogniser of whole documents (the one the harness compares with
   encoding/json.Valid && utf8.Valid on every generated document) and the inductive grammar
   coincide. *)
Theorem C21_is_json_sound : forall s, is_json s = true -> json_text s.
Proof. exact is_json_sound. Qed.
Print Assumptions C21_is_json_sound.

Theorem C21_is_json_iff : forall s, is_json s = true <-> json_text s.
Proof. exact is_json_iff. Qed.
Print Assumptions C21_is_json_iff.

(* parseString accepts only RFC 8259 strings (escapes, \u with surrogate pairs, UTF-8) *)
Theorem C21_parse_string_sound :
  forall pos inp s n, parse_string_at pos inp = Ok (s, n) ->
    rfc_string (firstn n inp) /\ (2 <= n <= length inp)%nat /\
    exists body, firstn n inp = c_quote :: body ++ [c_quote].
Proof. exact parse_string_at_sound. Qed.
Print Assumptions C21_parse_string_sound.

(* appendString followed by parseString is the identity on every string the encoder accepts *)
Theorem C21_string_escape_roundtrip :
  forall s out rest pos, append_string s = (out, true) ->
    parse_string_at pos (out ++ rest) = Ok (s, length out).
Proof. exact string_escape_roundtrip. Qed.
Print Assumptions C21_string_escape_roundtrip.

(* Every tree written through the Encoder calls (WriteNull/Bool/String/Int/Uint, StartObject/
   WriteName/EndObject, StartArray/EndArray in the balanced order [calls_of_tree]) renders a
   JSON text, for every indent made of spaces/tabs and every detrand stream.  [tree_ok] says
   that all strings and names are valid UTF-8 (WriteString/WriteName succeed). *)
Theorem C21_encoder_emits_json :
  forall rnd indent t, indent_ok indent = true -> tree_ok t ->
    exists out, render rnd indent t = (out, true) /\ json_text out.
Proof. exact encoder_emits_json. Qed.
Print Assumptions C21_encoder_emits_json.

(* Decoder completeness.  [stext s ks] (Json/JsonStrict.v) is RFC 8259 with the one side condition
   the code has: a \u escape that denotes a UTF-16 surrogate must be a high surrogate
   (D800..DBFF) immediately followed by the \u escape of a low surrogate (DC00..DFFF); the
   grammar is indexed by the tokens [ks] (kind, raw bytes, bool, decoded string) of the
   derivation.  Every such text is read to EOF, yielding exactly those tokens. *)
Theorem C21_lexer_accepts_all_strict_json :
  forall s ks, stext s ks ->
    exists toks, read_all s = (toks, None) /\ map atok_of toks = ks /\ toks <> [].
Proof. exact lexer_accepts_all_strict_json. Qed.
Print Assumptions C21_lexer_accepts_all_strict_json.

Theorem C21_strict_json_is_json : forall s ks, stext s ks -> json_text s.
Proof. exact stext_json_text. Qed.
Print Assumptions C21_strict_json_is_json.

(* On the domain of inputs whose readings as a JSON text have no unpaired surrogate escapes,
   the Decoder accepts exactly the JSON texts. *)
Theorem C21_lexer_accepts_iff_json :
  forall s, (json_text s -> exists ks, stext s ks) ->
    ((exists toks, read_all s = (toks, None) /\ toks <> []) <-> json_text s).
Proof. exact lexer_accepts_iff_json. Qed.
Print Assumptions C21_lexer_accepts_iff_json.

(* The Decoder's language exactly (no domain restriction): an input is read to EOF, with at
   least one token, iff it is a strict JSON text; and the tokens read are those of the
   derivation.  (The soundness half is the simulation argument of Json/JsonLexStrictP.v; the
   statements above about json_text follow from this one because every strict text is a
   json_text.) *)
Theorem C21_lexer_accepts_exactly_strict_json :
  forall s, (exists toks, read_all s = (toks, None) /\ toks <> []) <-> (exists ks, stext s ks).
Proof. exact lexer_accepts_exactly_strict_json. Qed.
Print Assumptions C21_lexer_accepts_exactly_strict_json.

Theorem C21_lexer_tokens_are_derivation :
  forall s toks, read_all s = (toks, None) -> toks <> [] -> stext s (map atok_of toks).
Proof. exact lexer_tokens_are_derivation. Qed.
Print Assumptions C21_lexer_tokens_are_derivation.

(* indent_invariant, full statement: every rendering (any indent of spaces/tabs, any detrand
   stream) is read back by the Decoder to EOF as the token sequence of the tree, hence parses
   to the same token/value sequence as the compact rendering. *)
Theorem C21_indent_invariant :
  forall rnd1 rnd2 indent1 indent2 t,
    indent_ok indent1 = true -> indent_ok indent2 = true -> tree_ok t ->
    snd (read_all (fst (render rnd1 indent1 t))) = None /\ snd (read_all (fst (render rnd2 indent2 t))) = None /\
    map atok_of (fst (read_all (fst (render rnd1 indent1 t)))) = map atok_of (fst (read_all (fst (render rnd2 indent2 t)))) /\
    map atok_of (fst (read_all (fst (render rnd1 indent1 t)))) = tree_toks t.
Proof. exact indent_invariant_tokens. Qed.
Print Assumptions C21_indent_invariant.

(* ... and, independently of the Decoder, indent and detrand only change insignificant
   whitespace: after deleting the whitespace outside string literals ([squeeze SqOut],
   Json/JsonEncSpec.v) every rendering equals the canonical compact rendering [compact t]. *)
Theorem C21_indent_invariant_modulo_ws :
  forall rnd1 rnd2 indent1 indent2 t,
    indent_ok indent1 = true -> indent_ok indent2 = true -> tree_ok t ->
    squeeze SqOut (fst (render rnd1 indent1 t)) = squeeze SqOut (fst (render rnd2 indent2 t)) /\
    squeeze SqOut (fst (render rnd1 indent1 t)) = compact t.
Proof. exact indent_invariant. Qed.
Print Assumptions C21_indent_invariant_modulo_ws.

(* Read's recursion after a comma is at most one level deep (justifies the shape of [read]) *)
Theorem C21_read_step_after_comma :
  forall st tok st', d_last st = KComma -> read_step st = Ok (tok, st') -> t_kind tok <> KComma.
Proof. exact read_step_after_comma. Qed.
Print Assumptions C21_read_step_after_comma.

(* non-vacuity *)
Definition C21_doc : list byte := ["{"; x22; "a"; x22; ":"; "["; "1"; "e"; "5"; ","; " "; "t"; "r"; "u"; "e"; "]"; "}"]%byte.
Example C21_ex_reads : snd (read_all C21_doc) = None /\ length (fst (read_all C21_doc)) = 7%nat.
Proof. vm_compute. split; reflexivity. Qed.
Example C21_ex_F2_rejected :
  snd (read_all ["["; "1"; "e"; ","; "2"; "]"]%byte) <> None /\ parse_number ["1"; "e"; ","]%byte = None.
Proof. vm_compute. split; [discriminate|reflexivity]. Qed.
Definition C21_tree : jtree :=
  TObj [(["a"]%byte, TArr [TInt 1; TStr [x22; " "]%byte; TNull]); (["b"]%byte, TObj [])].
Example C21_ex_render :
  tree_ok C21_tree /\
  fst (render (fun _ => true) [" "; " "]%byte C21_tree) <> fst (render (fun _ => false) [] C21_tree) /\
  squeeze SqOut (fst (render (fun _ => true) [" "; " "]%byte C21_tree)) = fst (render (fun _ => false) [] C21_tree).
Proof. vm_compute. repeat split; auto; discriminate. Qed.
Example C21_ex_escape :
  append_string [x22; x0a; x01; "a"]%byte = ([x22; x5c; x22; x5c; "n"; x5c; "u"; "0"; "0"; "0"; "1"; "a"; x22]%byte, true).
Proof. vm_compute. reflexivity. Qed.
Example C21_ex_number_complete :
  rfc_number ["-"; "1"; "."; "5"; "e"; "+"; "3"]%byte /\
  parse_number ["-"; "1"; "."; "5"; "e"; "+"; "3"; "]"]%byte = Some 7%nat /\
  parse_number ["-"; "1"; "."; "5"; "e"; "+"; "3"; "x"]%byte = None.
Proof. split; [apply is_rfc_number_iff; vm_compute; reflexivity|vm_compute; split; reflexivity]. Qed.
Example C21_ex_is_json :
  is_json C21_doc = true /\ is_json ["["; "1"; ","; "]"]%byte = false /\ is_json [] = false.
Proof. vm_compute. repeat split. Qed.
Example C21_ex_render_reads :
  map atok_of (fst (read_all (fst (render (fun _ => true) [" "; " "]%byte C21_tree)))) = tree_toks C21_tree /\
  length (tree_toks C21_tree) = 11%nat.
Proof. vm_compute. split; reflexivity. Qed.

(* ---- Tier T: the same statements about the Go source itself ----
   Gen/JsonNumGo.v is regenerated from internal/encoding/json/decode_number.go (+ isNotDelim
   of decode.go) by srcmodel_jsonnum on every check; bytes are list Z (zbytes), ints are Z with
   explicit int64 wraps, index/slice expressions are checked (Panic), loops run on fuel (Fuel).
   Domain: inputs shorter than 2^63 bytes (max_len), i.e. every Go slice. *)
From PB Require Import Base.GoInt Gen.JsonNumGo Json.JsonNumGoP.

Theorem C21_go_isNotDelim_eq_model :
  forall b, go_isNotDelim (zb b) = is_not_delim b.
Proof. exact go_isNotDelim_eq_model. Qed.
Print Assumptions C21_go_isNotDelim_eq_model.

(* the translated parseNumber computes the hand model; in particular no Panic, no Fuel *)
Theorem C21_go_parseNumber_eq_model :
  forall input, (Z.of_nat (length input) < max_len)%Z ->
    go_parseNumber (zbytes input) = Val (zres (parse_number input)).
Proof. exact go_parseNumber_eq_model. Qed.
Print Assumptions C21_go_parseNumber_eq_model.

(* the translated source is exactly the RFC 8259 number recogniser followed by the delimiter
   rule, and returns the length of the number *)
Theorem C21_go_parseNumber_is_rfc_number :
  forall input, (Z.of_nat (length input) < max_len)%Z ->
    go_parseNumber (zbytes input) =
    Val (match strip_number input with
         | Some r => if delim_or_end r then (Z.of_nat (length input - length r), true) else (0%Z, false)
         | None => (0%Z, false)
         end).
Proof. exact go_parseNumber_is_rfc_number. Qed.
Print Assumptions C21_go_parseNumber_is_rfc_number.

Theorem C21_go_parseNumber_sound :
  forall input n, (Z.of_nat (length input) < max_len)%Z ->
    go_parseNumber (zbytes input) = Val (n, true) ->
    rfc_number (firstn (Z.to_nat n) input) /\ delim_or_end (skipn (Z.to_nat n) input) = true /\
    (0 < n <= Z.of_nat (length input))%Z.
Proof. exact go_parseNumber_sound. Qed.
Print Assumptions C21_go_parseNumber_sound.

Theorem C21_go_parseNumber_complete :
  forall num r, (Z.of_nat (length (num ++ r)) < max_len)%Z ->
    rfc_number num -> delim_or_end r = true ->
    go_parseNumber (zbytes (num ++ r)) = Val (Z.of_nat (length num), true).
Proof. exact go_parseNumber_complete. Qed.
Print Assumptions C21_go_parseNumber_complete.

Example C21_ex_go_parseNumber :
  go_parseNumber (zbytes ["-"; "1"; "."; "5"; "e"; "+"; "3"; "]"]%byte) = Val (7%Z, true) /\
  go_parseNumber (zbytes ["1"; "e"; ","]%byte) = Val (0%Z, false) /\
  go_parseNumber (zbytes ["0"; "1"]%byte) = Val (0%Z, false).
Proof. vm_compute. repeat split. Qed.
