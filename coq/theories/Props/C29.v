(* C29 — all API flavours of one schema are interchangeable.
   Statements only; each closed by [exact] of a lemma of Msg/ReflectFlavP.v.

   Corollaries of the C28 refinement theorems: any two representations that satisfy the cell
   laws (Msg/ReflectCellP.v: dynamicpb cells, opaque cells; open structs are the opaque cells
   without presence bits) and hold the same content, driven by the same history of reflection
   calls, give the same result for every call and end with the same content -- hence the same
   deterministic wire bytes ([msg_encode], the encoder of C03), the same size, and the same value
   of every function of the abstract message.  The JSON and text encoders are such functions in
   the codec models of C20 / C24; the statement quantifies over every function F of the abstract
   value instead of naming them.

   What is not a theorem here: that the generated setters / builders / struct literals of the
   Go API perform these reflection calls -- that is what the harness family "flavors" searches
   (wire bytes, dumps, JSON, text, cross-decoding, getters, for every flavour). *)
From Coq Require Import List NArith ZArith Bool.
From PB Require Import Base.PBytes Wire.WireModel Msg.MsgSchema Msg.MsgValue Msg.MsgEnc.
From PB Require Import Msg.ReflectModel Msg.ReflectP Msg.ReflectCellModel Msg.ReflectCellP Msg.ReflectFlavP.
Import ListNotations.
Open Scope N_scope.

Theorem C29_same_abstraction_same_encodings :
  forall (cellA cellB : Type) (opsA : cellops cellA) (opsB : cellops cellB) (S : schema)
         (a : cmsg cellA) (b : cmsg cellB),
    refl_val_of (cm_abs cellA opsA (nth O S []) a) = refl_val_of (cm_abs cellB opsB (nth O S []) b) ->
    msg_encode S O (refl_val_of (cm_abs cellA opsA (nth O S []) a)) =
      msg_encode S O (refl_val_of (cm_abs cellB opsB (nth O S []) b)) /\
    msg_size_body S O (refl_val_of (cm_abs cellA opsA (nth O S []) a)) =
      msg_size_body S O (refl_val_of (cm_abs cellB opsB (nth O S []) b)) /\
    forall (X : Type) (F : value -> X),
      F (refl_val_of (cm_abs cellA opsA (nth O S []) a)) = F (refl_val_of (cm_abs cellB opsB (nth O S []) b)).
Proof. exact same_abstraction_same_encodings. Qed.
Print Assumptions C29_same_abstraction_same_encodings.

Theorem C29_flavours_agree :
  forall (cellA cellB : Type) (opsA : cellops cellA) (opsB : cellops cellB)
         (invA : fdesc -> cellA -> Prop) (invB : fdesc -> cellB -> Prop),
    celllaws cellA opsA invA -> celllaws cellB opsB invB ->
    forall (S : schema) (D : rdefs) (steps : list rstep) (a : cmsg cellA) (b : cmsg cellB),
      md_ok (nth O S []) ->
      CInv cellA invA (nth O S []) (cm_cells a) -> CInv cellB invB (nth O S []) (cm_cells b) ->
      refl_val_of (cm_abs cellA opsA (nth O S []) a) = refl_val_of (cm_abs cellB opsB (nth O S []) b) ->
      let a' := fst (cm_run cellA opsA S D a steps) in
      let b' := fst (cm_run cellB opsB S D b steps) in
      msg_encode S O (refl_val_of (cm_abs cellA opsA (nth O S []) a')) =
        msg_encode S O (refl_val_of (cm_abs cellB opsB (nth O S []) b')) /\
      msg_size_body S O (refl_val_of (cm_abs cellA opsA (nth O S []) a')) =
        msg_size_body S O (refl_val_of (cm_abs cellB opsB (nth O S []) b')) /\
      (forall (X : Type) (F : value -> X),
         F (refl_val_of (cm_abs cellA opsA (nth O S []) a')) = F (refl_val_of (cm_abs cellB opsB (nth O S []) b'))) /\
      snd (cm_run cellA opsA S D a steps) = snd (cm_run cellB opsB S D b steps).
Proof. exact flavours_agree. Qed.
Print Assumptions C29_flavours_agree.

Theorem C29_dynamic_and_opaque_agree :
  forall (S : schema) (D : rdefs) (steps : list rstep),
    md_ok (nth O S []) ->
    let a' := fst (cm_run dyncell dyn_ops S D (mkCM [] []) steps) in
    let b' := fst (cm_run ocell opq_ops S D (mkCM [] []) steps) in
    msg_encode S O (refl_val_of (cm_abs dyncell dyn_ops (nth O S []) a')) =
    msg_encode S O (refl_val_of (cm_abs ocell opq_ops (nth O S []) b')) /\
    snd (cm_run dyncell dyn_ops S D (mkCM [] []) steps) = snd (cm_run ocell opq_ops S D (mkCM [] []) steps).
Proof. exact dynamic_and_opaque_agree. Qed.
Print Assumptions C29_dynamic_and_opaque_agree.

(* non-vacuity: the hypotheses hold for a schema with an optional and a repeated scalar, a message
   and a string member of one oneof, a lazy message and an implicit-presence scalar (no map, no
   extension); the two representations
   hold different cells and produce the same bytes *)
Definition c29_md : mdesc :=
  [ mkF 1 (KS SkInt32) COpt None false false false;
    mkF 2 (KS SkInt32) CRep None false false false;
    mkF 3 (KMsg O) COpt (Some 0) false false false;
    mkF 4 (KS SkString) COpt (Some 0) true false false;
    mkF 5 (KMsg O) COpt None false false true;
    mkF 6 (KS SkInt64) CImp None false false false ].
Definition c29_steps : list rstep :=
  [ mkStep true [] (RSet 1 [VS (SZ 5%Z)]);
    mkStep true [] (RSet 6 [VS (SZ 0%Z)]);
    mkStep true [] (RMutable 2);
    mkStep true [PF 5] (RSet 1 [VS (SZ 7%Z)]);
    mkStep true [] (RSet 4 [VS (SBy [x61])]);
    mkStep true [] (RMutable 3) ].
Example C29_example_md_ok : md_ok c29_md.
Proof. split; [repeat constructor; cbn; intuition discriminate | intros fd H; cbn in H; intuition; subst; reflexivity]. Qed.
Example C29_example_bytes_agree :
  let a' := fst (cm_run dyncell dyn_ops [c29_md] (mkRD [] []) (mkCM [] []) c29_steps) in
  let b' := fst (cm_run ocell opq_ops [c29_md] (mkRD [] []) (mkCM [] []) c29_steps) in
  (* the implicit-presence zero is stored in both representations and populated in neither *)
  dc_known (cs_get dyncell dyn_ops (cm_cells a') 6) = Some (DOne (VS (SZ 0%Z))) /\
  cs_get ocell opq_ops (cm_cells b') 6 = OCDirect (SZ 0%Z) /\
  msg_encode [c29_md] O (refl_val_of (cm_abs dyncell dyn_ops c29_md a')) =
    [x08; x05; x2a; x02; x08; x07; x1a; x00] /\
  msg_encode [c29_md] O (refl_val_of (cm_abs ocell opq_ops c29_md b')) =
    [x08; x05; x2a; x02; x08; x07; x1a; x00].
Proof. vm_compute. repeat split. Qed.
