(* C24 — prototext round-trips every message.
   Statements only; each closed by [exact] of a lemma proved in Text/TextMsgP.v.

   Model (tree level): Text/TextMsgModel.v -- [to_text] / [of_text] map canonical message values
   (Msg/MsgValue.v) to abstract text trees and back, mirroring encoding/prototext/encode.go and
   decode.go: field order (declared fields by index, extensions by full name), repeated fields as
   repeated names, maps as key/value entry messages sorted by key, groups under their type name (the
   text name of the schema), enums by name or number, Any expanded as [type.url] { ... } when the type
   resolves, the value decodes and the content marshals -- otherwise as an ordinary message.
   The byte level (lexing, string escapes incl. EmitASCII, number text, indentation) is C25 and the
   text number model (Text/TextNumModel.v); the tree level does not depend on Multiline / Indent / EmitASCII at all
   (C24_rendering_options_irrelevant), so every theorem below holds for all option values.

   Full statement (DESIGN.md section 7):
     forall opts S m, valid S m -> of_text S (to_text opts S m) = Ok (strip_unknown m)
   Refuted as the code stands (C24_text_roundtrip_refuted, finding FWD1): an Any whose type URL
   contains a character outside the alphabet that the text lexer accepts between '[' and ']'
   (e.g. the ':' of "https://...") is expanded by Marshal into text that Unmarshal rejects.
   Proved: the statement with exactly that exclusion (C24_text_roundtrip_except_FWD1), for every
   schema table accepted by [text_schema_ok] (a decidable check that every schema of the harness
   passes) and every canonical value accepted by [text_valid true] (Text/TextMsgValid.v):
   typed, in range, strings of validated fields valid UTF-8, NaNs in normal form (all NaNs are
   identified), Any values that get expanded hold the deterministic encoding of valid content.

   _partial: floats are strconv-relative (C24_float32_roundtrip_partial / float64: under the explicit
   hypotheses that shortest formatting followed by parsing at the same bit size is the identity on
   finite values and never spells nan/inf); the byte-level statement is by composition with C25 and
   the text number model. *)
From Coq Require Import List NArith ZArith Bool.
From PB Require Import Base.PBytes Msg.MsgSchema Msg.MsgValue Json.RtSchema.
From PB Require Import Text.TextMsgModel Text.TextMsgValid Text.TextMsgP Text.TextMsgExample.
Import ListNotations.
Open Scope N_scope.

Theorem C24_text_roundtrip_except_FWD1 :
  forall (o : topts) (S : schema) (nm : names) (lim fuel tid : nat) (v : value),
    text_schema_ok S nm = true ->
    text_valid true S nm lim fuel tid v = true ->
    exists t, to_text o S nm lim fuel tid v = TOk t /\ of_text S nm fuel tid t = TOk (strip_unknown v).
Proof. exact text_roundtrip_except_FWD1. Qed.
Print Assumptions C24_text_roundtrip_except_FWD1.

(* the full statement ([text_valid false]: no condition on type URLs) is refuted *)
Theorem C24_text_roundtrip_refuted :
  exists (o : topts) (S : schema) (nm : names) (lim fuel tid : nat) (v : value) (t : tfields),
    text_schema_ok S nm = true /\ text_valid false S nm lim fuel tid v = true /\
    to_text o S nm lim fuel tid v = TOk t /\ of_text S nm fuel tid t <> TOk (strip_unknown v).
Proof.
  exists (mkTO false false false), ex_schema, ex_names, 100%nat, 4%nat, 0%nat, ex_any_fwd1.
  eexists. split; [vm_compute; reflexivity|]. split; [vm_compute; reflexivity|].
  split; [vm_compute; reflexivity|]. vm_compute. discriminate.
Qed.
Print Assumptions C24_text_roundtrip_refuted.

Theorem C24_marshal_total :
  forall (o : topts) (S : schema) (nm : names) (lim fuel tid : nat) (v : value),
    text_schema_ok S nm = true ->
    text_valid true S nm lim fuel tid v = true ->
    exists t, to_text o S nm lim fuel tid v = TOk t.
Proof. exact text_marshal_total. Qed.
Print Assumptions C24_marshal_total.

Theorem C24_rendering_options_irrelevant :
  forall (o o' : topts) (S : schema) (nm : names) (lim fuel tid : nat) (v : value),
    to_text o S nm lim fuel tid v = to_text o' S nm lim fuel tid v.
Proof. exact text_rendering_options_irrelevant. Qed.
Print Assumptions C24_rendering_options_irrelevant.

Theorem C24_float32_roundtrip_partial :
  forall (fmt32 : N -> list byte) (parse32 : list byte -> option N),
    (forall b, f32_finite b = true -> parse32 (fmt32 b) = Some b) ->
    (forall b, f32_finite b = true -> float_lit true (fmt32 b) = None) ->
    forall b, read_f32 parse32 (render_f32 fmt32 b) = Some (if f32_is_nan b then f32_nan else b).
Proof. exact float32_text_roundtrip. Qed.
Print Assumptions C24_float32_roundtrip_partial.

Theorem C24_float64_roundtrip_partial :
  forall (fmt64 : N -> list byte) (parse64 : list byte -> option N),
    (forall b, f64_finite b = true -> parse64 (fmt64 b) = Some b) ->
    (forall b, f64_finite b = true -> float_lit false (fmt64 b) = None) ->
    forall b, read_f64 parse64 (render_f64 fmt64 b) = Some (if f64_is_nan b then f64_nan else b).
Proof. exact float64_text_roundtrip. Qed.
Print Assumptions C24_float64_roundtrip_partial.

(* non-vacuity: the example schema passes the schema check; a message with scalars, a NaN, infinities
   and -0 in a packed list, a map, a nested message with unknown fields, an expanded Any, an enum, a
   oneof member, an extension and unknown fields is valid, and its round trip computes *)
Example C24_example_schema_ok : text_schema_ok ex_schema ex_names = true.
Proof. vm_compute. reflexivity. Qed.
Example C24_example_valid : text_valid true ex_schema ex_names 100 5 1 ex_t = true.
Proof. vm_compute. reflexivity. Qed.
Example C24_example_roundtrip :
  exists t, to_text (mkTO true true true) ex_schema ex_names 100 5 1 ex_t = TOk t /\
            of_text ex_schema ex_names 5 1 t = TOk (strip_unknown ex_t).
Proof. eexists. split; [vm_compute; reflexivity|]. vm_compute. reflexivity. Qed.
(* the FWD1 witness is excluded only by the URL condition *)
Example C24_example_fwd1_excluded :
  text_valid true ex_schema ex_names 100 4 0 ex_any_fwd1 = false /\
  text_valid false ex_schema ex_names 100 4 0 ex_any_fwd1 = true.
Proof. vm_compute. split; reflexivity. Qed.
