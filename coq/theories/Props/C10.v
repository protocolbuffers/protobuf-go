(* C10 — Required-field checks are exact.
   Statements only; each closed by [exact] of a lemma proved in Msg/InitP.v.

   Model: Msg/InitModel.v -- [msg_check_init] (the tree walk of proto.CheckInitialized: list
   elements, map values, oneof members, extensions), [msg_init_flag] (the UnmarshalInitialized flag of
   the table-driven eager decoder: requiredMask / numRequiredFields accounting, conjunction over
   message-typed occurrences, with the quirk of the code for map entries),
   [msg_unmarshal] / [msg_unmarshal_slow] / [msg_marshal_checked] (the AllowPartial logic of
   proto.Unmarshal / proto.Marshal), [msg_unmarshal_lazy] (lazy decoding).

   Proved at full strength: checkinit_exact, mask_sound (every number of required fields, more than
   64 included), unmarshal_slow_error_iff_partial, marshal_error_iff_partial, allow_partial_no_error.
   fast_flag_sound and unmarshal_error_iff_partial (table-driven path) are proved for schemas
   satisfying [msg_init_wf]:
     - field numbers identify fields; required fields are neither extensions nor oneof members
       (guaranteed by protodesc);
     - (finding FA2: a partial message in a non-first oneof member left the flag set; the code carries the
       repair "check required fields of every message-typed oneof member on unmarshal" and the model
       follows it; C10_example_FA2_repaired replays the witness);
     - [msg_maps_wf]  the value type of a map either needs no init check or is a LEAF type (all its fields
       of scalar kind, e.g. map<int32, TestRequired>); for such maps the theorem holds for ARBITRARY
       input, duplicated key/value occurrences included (a required field, once decoded, is never
       removed).  For value types with sub-messages the faithful model refutes the statement
       (C10_fast_flag_sound_refuted_FA5, finding FA5: two value occurrences in one entry); the version
       "canonical input, any value type" is checked on the implementation only: hence _partial;
     - [msg_ni_sound]  the needsInitCheck oracle is sound (a type it declares free of init checks has
       only initialized values); finding FA4 is a violation of exactly this by the implementation's memo.
   Lazy decoding: C10_unmarshal_lazy_exact_refuted_FA1 (finding FA1). *)
From Coq Require Import List NArith ZArith.
From PB Require Import Base.PBytes Wire.WireModel.
From PB Require Import Msg.MsgSchema Msg.MsgValue Msg.MsgEnc Msg.MsgDec Msg.InitModel Msg.InitP.
Import ListNotations.
Open Scope N_scope.

(* error <-> some message of the tree (list elements, map values, oneof members, extensions)
   lacks a required field *)
Theorem C10_checkinit_exact :
  forall (S : schema) (tid : nat) (v : value),
    msg_check_init S tid v = false <-> msg_missing S tid v.
Proof. exact msg_checkinit_exact. Qed.
Print Assumptions C10_checkinit_exact.

(* requiredMask accounting, for every number of required fields: if each bit of the mask is the
   bit of some field with property P and popcount(mask) = numRequiredFields, every required field
   has property P (P = "was decoded" / "is present") *)
Theorem C10_mask_sound :
  forall (md : mdesc) (hits : list N),
    msg_nums_unique md ->
    msg_popcount (msg_mask_of md hits 0) = msg_num_required md ->
    forall fd, In fd md -> f_ext fd = false -> msg_is_req fd = true -> In (f_num fd) hits.
Proof. exact msg_mask_sound. Qed.
Print Assumptions C10_mask_sound.

(* the fast path never marks a partial message as initialized *)
Theorem C10_fast_flag_sound_partial :
  forall (S : schema) (ni : nat -> bool) (limit tid : nat) (bs : list byte) (v : value),
    msg_init_wf S ni ->
    msg_decode false S limit tid bs = DOk v ->
    msg_init_flag S ni limit tid bs = DOk true ->
    msg_check_init S tid v = true.
Proof. exact msg_fast_flag_sound. Qed.
Print Assumptions C10_fast_flag_sound_partial.

Theorem C10_fast_flag_sound_refuted_FA5 :
  exists S ni bs v, msg_decode false S 100 0 bs = DOk v /\ msg_init_flag S ni 100 0 bs = DOk true /\
                    msg_check_init S 0 v = false.
Proof. exact msg_fast_flag_sound_refuted_FA5. Qed.
Print Assumptions C10_fast_flag_sound_refuted_FA5.

(* Unmarshal without AllowPartial: required-field error iff the decoded message is partial *)
Theorem C10_unmarshal_error_iff_partial_partial :
  forall (S : schema) (ni : nat -> bool) (limit tid : nat) (bs : list byte),
    msg_init_wf S ni ->
    (msg_unmarshal S ni limit tid false bs = URequired <->
     exists v, msg_decode false S limit tid bs = DOk v /\ msg_check_init S tid v = false).
Proof. exact msg_unmarshal_exact. Qed.
Print Assumptions C10_unmarshal_error_iff_partial_partial.

Theorem C10_unmarshal_slow_error_iff_partial :
  forall (S : schema) (limit tid : nat) (bs : list byte),
    msg_unmarshal_slow S limit tid false bs = URequired <->
    exists v, msg_decode true S limit tid bs = DOk v /\ msg_check_init S tid v = false.
Proof. exact msg_unmarshal_slow_exact. Qed.
Print Assumptions C10_unmarshal_slow_error_iff_partial.

Theorem C10_marshal_error_iff_partial :
  forall (S : schema) (tid : nat) (v : value),
    msg_marshal_checked S tid false v = None <-> msg_check_init S tid v = false.
Proof. exact msg_marshal_exact. Qed.
Print Assumptions C10_marshal_error_iff_partial.

Theorem C10_unmarshal_lazy_exact_refuted_FA1 :
  exists S ni bs v, msg_unmarshal_lazy S ni 100 0 false bs = UOk v /\ msg_check_init S 0 v = false.
Proof. exact msg_unmarshal_lazy_exact_refuted_FA1. Qed.
Print Assumptions C10_unmarshal_lazy_exact_refuted_FA1.

Theorem C10_allow_partial_no_error_unmarshal :
  forall (S : schema) (ni : nat -> bool) (limit tid : nat) (bs : list byte),
    msg_unmarshal S ni limit tid true bs <> URequired.
Proof. exact msg_allow_partial_unmarshal. Qed.
Print Assumptions C10_allow_partial_no_error_unmarshal.

Theorem C10_allow_partial_no_error_unmarshal_slow :
  forall (S : schema) (limit tid : nat) (bs : list byte),
    msg_unmarshal_slow S limit tid true bs <> URequired.
Proof. exact msg_allow_partial_unmarshal_slow. Qed.
Print Assumptions C10_allow_partial_no_error_unmarshal_slow.

Theorem C10_allow_partial_no_error_marshal :
  forall (S : schema) (tid : nat) (v : value),
    msg_marshal_checked S tid true v = Some (msg_encode S tid v).
Proof. exact msg_allow_partial_marshal. Qed.
Print Assumptions C10_allow_partial_no_error_marshal.

(* non-vacuity: the hypothesis of the flag theorems holds of TestRequiredForeign (singular, repeated, map
   value and oneof member of a message with a required field), and the theorem's conclusion is not
   trivially true there: a partial input clears the flag; the map entry with a complete value keeps it *)
Example C10_example_wf : msg_init_wf ex_wf (fun _ => true).
Proof. exact ex_wf_ok. Qed.
Example C10_example_flag :
  msg_init_flag ex_wf (fun _ => true) 100 0 (map n2b [10; 2; 8; 1; 34; 2; 8; 5]) = DOk true /\
  msg_init_flag ex_wf (fun _ => true) 100 0 (map n2b [10; 2; 8; 1; 34; 0]) = DOk false /\
  msg_init_flag ex_wf (fun _ => true) 100 0 (map n2b [18; 0]) = DOk false /\
  msg_init_flag ex_wf (fun _ => true) 100 0 (map n2b [26; 6; 8; 7; 18; 2; 8; 1]) = DOk true /\
  msg_init_flag ex_wf (fun _ => true) 100 0 (map n2b [26; 8; 8; 7; 18; 2; 8; 1; 18; 0]) = DOk true /\
  msg_init_flag ex_wf (fun _ => true) 100 0 (map n2b [26; 4; 8; 7; 18; 0]) = DOk false.
Proof. vm_compute. repeat split; reflexivity. Qed.
Example C10_example_FA2_repaired :
  msg_init_flag ex_fa2 (fun _ => true) 100 0 [n2b 18; n2b 0] = DOk false /\
  msg_init_flag ex_fa2 (fun _ => true) 100 0 [n2b 18; n2b 2; n2b 8; n2b 1] = DOk true.
Proof. exact msg_flag_oneof_member_FA2_repaired. Qed.
Example C10_example_missing :
  msg_missing ex_wf 0 (VMsg [(1, [VMsg [] []])] []).
Proof. apply C10_checkinit_exact. vm_compute. reflexivity. Qed.
