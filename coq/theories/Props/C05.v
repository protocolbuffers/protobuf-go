(* C05 — Deterministic marshaling is a function of message content.
   Statements only; each closed by [exact] of a lemma proved in Msg/DetP.v / Msg/DetHistP.v.

   Model: Msg/DetModel.v.  A concrete message is a [value] whose bindings and map entries stand in
   insertion order; whoever iterates a Go map sees an arbitrary permutation, modelled by the
   oracles [pf] (bindings of a message: the extension map, dynamicpb's field map) and [pi] (entries
   of a map field), which the theorems quantify over.  [det_encode pf pi S tid m] = Marshal with
   Deterministic: iterate (oracle order), sort (map keys: bool false<true, signed and unsigned
   numerically, strings bytewise; bindings by number), then the encoder of the codec model
   (Msg/MsgEnc.v, order.LegacyFieldOrder).  [det_canon] is the abstraction (sorted content, empty
   bindings dropped); [det_run md h] replays an operation history (Set / Clear / map insert / map
   delete / SetUnknown, with the implicit-presence and oneof rules) from the empty message.

   Proved, for all schemas, histories and oracles:
     det_history_independent   two histories with the same abstract content marshal to the same
                               deterministic bytes, whatever the iteration orders
     det_content_determines_bytes   the same for any two well-formed concrete messages
     key_order_strict_total    the key order is a strict total order on every key kind
     sort_unique               a sorted permutation is unique: the ONLY assumption about Go's
                               sort.Slice / sort.Ints is that they return a sorted permutation
     sort_any_order            the model's sort returns the same list for every permutation of its input
     det_equal_converse        equal deterministic bytes of two valid messages => same abstract
                               content (hence proto.Equal, C30_equal_refl) -- from C03's injectivity,
                               under C03's validity predicate [msg_valid] (which on the reflection
                               path asks group-typed values to pass the wire scanner,
                               msg_group_scans); _partial in the names: relative to that predicate
   Hypothesis of the history theorem: [det_ops_ok] -- the sub-messages mentioned by the operations
   are themselves well-formed concrete values (distinct numbers, distinct map keys).
   Not modelled: lazily decoded fields (the harness covers them: Deterministic forces the decode);
   "separate processes" is a statement about the Go runtime: the theorem quantifies over all
   iteration orders, the cross-process run of the harness is search. *)
From Coq Require Import List NArith ZArith Bool Permutation Sorting.Sorted.
From PB Require Import Base.PBytes Wire.WireModel.
From PB Require Import Msg.MsgSchema Msg.MsgValue Msg.MsgEnc Msg.MsgDec Msg.MsgValid Msg.MsgExample.
From PB Require Import Msg.DetModel Msg.DetP Msg.DetHistP Msg.EqualModel Msg.EqualCorP.
Import ListNotations.
Open Scope N_scope.

Theorem C05_det_history_independent :
  forall (S : schema) (tid : nat) (md : mdesc) (h1 h2 : list det_op)
         (pf1 pf2 : fields -> fields) (pi1 pi2 : list value -> list value),
    det_perm_oracle pf1 -> det_perm_oracle pf2 -> det_perm_oracle pi1 -> det_perm_oracle pi2 ->
    det_ops_ok h1 = true -> det_ops_ok h2 = true ->
    det_canon (det_run md h1) = det_canon (det_run md h2) ->
    det_encode pf1 pi1 S tid (det_run md h1) = det_encode pf2 pi2 S tid (det_run md h2).
Proof. exact det_history_independent. Qed.
Print Assumptions C05_det_history_independent.

Theorem C05_det_content_determines_bytes :
  forall (S : schema) (tid : nat) (m1 m2 : value)
         (pf1 pf2 : fields -> fields) (pi1 pi2 : list value -> list value),
    det_perm_oracle pf1 -> det_perm_oracle pf2 -> det_perm_oracle pi1 -> det_perm_oracle pi2 ->
    det_wf m1 = true -> det_wf m2 = true -> det_canon m1 = det_canon m2 ->
    det_encode pf1 pi1 S tid m1 = det_encode pf2 pi2 S tid m2.
Proof. exact det_content_determines_bytes. Qed.
Print Assumptions C05_det_content_determines_bytes.

(* histories preserve well-formedness (so the previous theorem applies to every reachable state) *)
Theorem C05_det_run_wf :
  forall (md : mdesc) (ops : list det_op), det_ops_ok ops = true -> det_wf (det_run md ops) = true.
Proof. exact det_run_wf. Qed.
Print Assumptions C05_det_run_wf.

Theorem C05_key_order_strict_total :
  det_strict_total (fun s => exists b, s = SB b) msg_scmp /\
  det_strict_total (fun s => exists z, s = SZ z) msg_scmp /\
  det_strict_total (fun s => exists n, s = SN n) msg_scmp /\
  det_strict_total (fun s => exists bs, s = SBy bs) msg_scmp /\
  det_strict_total (fun _ => True) det_kcmp.
Proof. exact det_key_order_strict_total. Qed.
Print Assumptions C05_key_order_strict_total.

Theorem C05_sort_unique :
  forall (A : Type) (lt : A -> A -> Prop), (forall a b, lt a b -> lt b a -> False) ->
  forall l1 l2, StronglySorted lt l1 -> StronglySorted lt l2 -> Permutation l1 l2 -> l1 = l2.
Proof. exact @det_sorted_unique. Qed.
Print Assumptions C05_sort_unique.

(* the sort of the model: map entries with pairwise distinct keys, in any order, sort to one list *)
Theorem C05_sort_any_order :
  forall l l' : list value,
    forallb det_is_entry l = true -> det_nodup_keys l = true -> Permutation l l' ->
    det_sort det_entry_lt l = det_sort det_entry_lt l'.
Proof. exact det_sort_entries_perm. Qed.
Print Assumptions C05_sort_any_order.

(* Deterministic marshal is default marshal under an iteration order that happens to be sorted *)
Theorem C05_det_is_nondet_sorted : forall pf pi S tid v,
  det_encode pf pi S tid v = det_encode_nondet pf (fun l => det_sort det_entry_lt (pi l)) S tid v.
Proof. exact det_is_nondet_sorted. Qed.
Print Assumptions C05_det_is_nondet_sorted.

Theorem C05_det_equal_converse_partial :
  forall (slow : bool) (S : schema) (limit : nat) (tid : nat) (m1 m2 : value)
         (pf1 pf2 : fields -> fields) (pi1 pi2 : list value -> list value),
    det_perm_oracle pf1 -> det_perm_oracle pf2 -> det_perm_oracle pi1 -> det_perm_oracle pi2 ->
    det_wf m1 = true -> det_wf m2 = true ->
    msg_valid slow S limit tid (det_canon m1) = true -> msg_valid slow S limit tid (det_canon m2) = true ->
    det_encode pf1 pi1 S tid m1 = det_encode pf2 pi2 S tid m2 ->
    det_canon m1 = det_canon m2.
Proof. exact det_equal_bytes_same_content. Qed.
Print Assumptions C05_det_equal_converse_partial.

(* ... and hence proto.Equal (the equality model of C30) *)
Theorem C05_det_equal_converse_equal_partial :
  forall (slow : bool) (S : schema) (limit : nat) (tid : nat) (m1 m2 : value)
         (pf1 pf2 : fields -> fields) (pi1 pi2 : list value -> list value),
    det_perm_oracle pf1 -> det_perm_oracle pf2 -> det_perm_oracle pi1 -> det_perm_oracle pi2 ->
    det_wf m1 = true -> det_wf m2 = true ->
    msg_valid slow S limit tid (det_canon m1) = true -> msg_valid slow S limit tid (det_canon m2) = true ->
    det_encode pf1 pi1 S tid m1 = det_encode pf2 pi2 S tid m2 ->
    eqm_equal S tid (det_canon m1) (det_canon m2) = true.
Proof. exact eqm_det_equal_converse. Qed.
Print Assumptions C05_det_equal_converse_equal_partial.

(* ---------- non-vacuity ---------- *)
(* two histories of the example type (Msg/MsgExample.v): different assignment order, a map filled
   in opposite orders with an extra key inserted and deleted, a value overwritten, a oneof member
   replaced, a field set and cleared, unknown bytes replaced *)
Definition c05_h1 : list det_op :=
  [ DSet 1 [VS (SZ 5)]; DPut 5 (SBy [x62]) ex_sub; DPut 5 (SBy [x61]) msg_empty;
    DPut 12 (SZ 3) (VS (SZ 0)); DPut 12 (SZ (-7)) (VS (SZ 1)); DSet 8 [VS (SBy [x01])]; DUnk [x98; x06; x07] ].
Definition c05_h2 : list det_op :=
  [ DUnk [x08]; DPut 12 (SZ (-7)) (VS (SZ 9)); DPut 12 (SZ 99) (VS (SZ 9)); DSet 9 [VS (SB true)];
    DPut 5 (SBy [x61]) ex_sub; DSet 4 [VS (SN 1)]; DPut 12 (SZ 3) (VS (SZ 0)); DDel 12 (SZ 99);
    DPut 5 (SBy [x61]) msg_empty; DSet 8 [VS (SBy [x01])]; DPut 12 (SZ (-7)) (VS (SZ 1));
    DClear 4; DPut 5 (SBy [x62]) ex_sub; DSet 1 [VS (SZ 7)]; DSet 1 [VS (SZ 5)]; DUnk [x98; x06; x07] ].

Example C05_example_histories :
  det_ops_ok c05_h1 = true /\ det_ops_ok c05_h2 = true /\
  det_run ex_T0 c05_h1 <> det_run ex_T0 c05_h2 /\
  det_canon (det_run ex_T0 c05_h1) = det_canon (det_run ex_T0 c05_h2) /\
  det_encode (@rev _) (@rev _) ex_schema 0 (det_run ex_T0 c05_h1) =
  det_encode det_id det_id ex_schema 0 (det_run ex_T0 c05_h2).
Proof. vm_compute. repeat split; try reflexivity. discriminate. Qed.

(* reversal is an iteration-order oracle *)
Example C05_example_oracle : det_perm_oracle (@rev value) /\ det_perm_oracle (@rev (N * list value)).
Proof. split; intros l; apply Permutation_sym, Permutation_rev. Qed.

(* without sorting the iteration order shows: default marshal differs between two oracles *)
Example C05_example_nondet_differs :
  det_encode_nondet det_id (@rev _) ex_schema 0 (det_run ex_T0 c05_h1) <>
  det_encode_nondet det_id det_id ex_schema 0 (det_run ex_T0 c05_h1).
Proof. vm_compute. discriminate. Qed.

(* the converse theorem is not vacuous: the example message of C03 is valid and well-formed *)
Example C05_example_valid :
  det_wf ex_msg = true /\ msg_valid false ex_schema 3 0 (det_canon ex_msg) = true /\ det_canon ex_msg = ex_msg.
Proof. vm_compute. repeat split; reflexivity. Qed.

(* the order is strict: a list is not sorted unless its keys are distinct; the key order separates
   numerically negative keys from their unsigned encodings *)
Example C05_example_key_order :
  det_sort det_entry_lt [VEntry (SZ 3) (VS (SZ 0)); VEntry (SZ (-7)) (VS (SZ 1)); VEntry (SZ 0) (VS (SZ 2))]
  = [VEntry (SZ (-7)) (VS (SZ 1)); VEntry (SZ 0) (VS (SZ 2)); VEntry (SZ 3) (VS (SZ 0))].
Proof. vm_compute. reflexivity. Qed.
