(* C08 — Generated fast path and reflection path are indistinguishable.
   Statements only; each closed by [exact] of a lemma proved in Msg/FastSlowP.v or Msg/FastSlowDecP.v.

   The codec, size, equality and determinism models (C03, C04, C05, C30) are functions of the
   abstract message that the harness runs against BOTH paths (generated types, dynamicpb, and --
   family fastslow -- the -tags protoreflect build of the same binary); this file is about the two
   places where the algorithms differ (Msg/FastSlowModel.v):

     fast_slow_order_equal      the emission order computed by internal/impl (extension numbers
                                sorted, then orderedCoderFields: by number, re-sorted with
                                LegacyFieldOrder when the message declares oneofs) and the order
                                computed by proto.marshalMessageSlow in Deterministic mode (Range
                                in any order, sort.Slice with LegacyFieldOrder) are the same list,
                                for every iteration order of the extension map / of Range;
                                stated exactly: populated fields with pairwise distinct numbers
                                below 2^29 (fsm_fields_ok); when the type declares no oneof no
                                regular populated field is a oneof member
     fast_slow_det_bytes_equal  hence the same bytes for any per-field encoder
     normalize_*                [fsm_normalize_unknown_tags] maps what the reflection decoder
                                retains for a sequence of unknown fields (raw tag bytes) to what the
                                table-driven decoder retains (minimal tags), is the identity on the
                                latter, and idempotent
     fast_slow_decode_equal_partial
                                the two modes of the decoder model (Msg/MsgDec.v: [slow = true]
                                proto.unmarshalMessageSlow, [slow = false] internal/impl) give the
                                same verdict on EVERY byte string -- the same error class, except
                                that the reflection path may report the recursion limit where the
                                table-driven path reports a parse error (an end-group tag carrying
                                the number of a map field when no depth is left for a map entry:
                                the reflection path notices an end-group tag only in
                                ConsumeFieldValue, after the map field's depth check) --, and when they
                                accept, the reflection result with its unknown-field tags
                                normalised IS the table-driven result -- by a simulation along the
                                decoder's recursion (Msg/FastSlowDecP.v).  _partial: for schema
                                tables without group-typed fields (the reflection path scans a
                                group with protowire.ConsumeGroup first, the table-driven path
                                reads it directly; their agreement is checked by execution only)
                                and without fields on which the paths validate UTF-8 differently
                                (finding FL1); [fsd_schema_okb] decides that condition.
     fast_slow_decode_equal_step  one step on an unknown field, for all schemas
   Required-field accounting (mask vs tree walk) is C10's subject; the harness found the
   two paths to DISAGREE there: finding FWC1 (KNOWN_FINDINGS.txt). *)
From Coq Require Import List NArith ZArith Bool Permutation.
From PB Require Import Base.PBytes Wire.WireModel Wire.WireGrammar.
From PB Require Import Msg.MsgSchema Msg.MsgValue Msg.MsgDec Msg.MsgExample.
From PB Require Import Msg.DetModel Msg.FastSlowModel Msg.FastSlowP Msg.FastSlowDecP.
Import ListNotations.
Open Scope N_scope.

Theorem C08_fast_slow_order_equal :
  forall (has_oneofs : bool) (rx r : list fdesc -> list fdesc) (present : list fdesc),
    fsm_perm_oracle rx -> fsm_perm_oracle r -> fsm_fields_ok present ->
    (has_oneofs = false -> Forall (fun fd => f_ext fd = true \/ f_oneof fd = None) present) ->
    fsm_order_fast has_oneofs rx present = fsm_order_slow r present.
Proof. exact fsm_order_equal. Qed.
Print Assumptions C08_fast_slow_order_equal.

Theorem C08_fast_slow_det_bytes_equal :
  forall (has_oneofs : bool) (rx r : list fdesc -> list fdesc) (present : list fdesc) (enc : fdesc -> list byte),
    fsm_perm_oracle rx -> fsm_perm_oracle r -> fsm_fields_ok present ->
    (has_oneofs = false -> Forall (fun fd => f_ext fd = true \/ f_oneof fd = None) present) ->
    fsm_encode_with (fsm_order_fast has_oneofs rx present) enc = fsm_encode_with (fsm_order_slow r present) enc.
Proof. exact fsm_det_bytes_equal. Qed.
Print Assumptions C08_fast_slow_det_bytes_equal.

Theorem C08_normalize_raw_to_min :
  forall cs, Forall fsm_chunk_ok cs -> fsm_normalize_unknown_tags (fsm_flat_raw cs) = fsm_flat_min cs.
Proof. exact fsm_normalize_raw_to_min. Qed.
Print Assumptions C08_normalize_raw_to_min.

Theorem C08_normalize_min_fixed :
  forall cs, Forall fsm_chunk_ok cs -> fsm_normalize_unknown_tags (fsm_flat_min cs) = fsm_flat_min cs.
Proof. exact fsm_normalize_min_fixed. Qed.
Print Assumptions C08_normalize_min_fixed.

Theorem C08_normalize_idempotent :
  forall cs, Forall fsm_chunk_ok cs ->
  fsm_normalize_unknown_tags (fsm_normalize_unknown_tags (fsm_flat_raw cs)) = fsm_normalize_unknown_tags (fsm_flat_raw cs).
Proof. exact fsm_normalize_idempotent. Qed.
Print Assumptions C08_normalize_idempotent.

Theorem C08_fast_slow_decode_equal_step :
  forall bs num typ r acc acc_s acc_f rs rf,
    dec_tag bs = Ok (num, typ, r) ->
    msg_unknown (firstn (length bs - length r) bs) num typ r acc = DOk (acc_s, rs) ->
    msg_unknown (enc_tag num typ) num typ r acc = DOk (acc_f, rf) ->
    rs = rf /\ fst acc_s = fst acc_f /\
    exists chunk_s chunk_f,
      snd acc_s = snd acc ++ chunk_s /\ snd acc_f = snd acc ++ chunk_f /\
      fsm_normalize_unknown_tags chunk_s = chunk_f /\ fsm_normalize_unknown_tags chunk_f = chunk_f.
Proof. exact fsm_unknown_step. Qed.
Print Assumptions C08_fast_slow_decode_equal_step.

Theorem C08_fast_slow_decode_equal_partial :
  forall (S : schema) (limit tid : nat) (bs : list byte),
    fsd_schema_ok S ->
    match msg_decode true S limit tid bs, msg_decode false S limit tid bs with
    | DOk v_slow, DOk v_fast => fsm_normalize v_slow = v_fast
    | DErr e_slow, DErr e_fast => e_slow = e_fast \/ (e_slow = DDepth /\ e_fast = DParse)
    | _, _ => False
    end.
Proof. exact fsd_decode_equal. Qed.
Print Assumptions C08_fast_slow_decode_equal_partial.

Theorem C08_schema_ok_decidable : forall S, fsd_schema_okb S = true -> fsd_schema_ok S.
Proof. exact fsd_schema_okb_ok. Qed.
Print Assumptions C08_schema_ok_decidable.

(* the two modes fail together on an unknown field *)
Theorem C08_fast_slow_unknown_verdict :
  forall raw1 raw2 num typ r acc,
    (exists e, msg_unknown raw1 num typ r acc = DErr e) <-> (exists e, msg_unknown raw2 num typ r acc = DErr e).
Proof. exact fsm_unknown_verdict. Qed.
Print Assumptions C08_fast_slow_unknown_verdict.

(* ---------- non-vacuity ---------- *)
(* the populated fields of the example message: an extension, regular fields, a oneof member;
   Range order reversed, extension map reversed: one order *)
Definition c08_present : list fdesc := filter (fun fd => negb (f_num fd =? 9)) ex_T0.
Example C08_example_order :
  fsm_order_fast (fsm_has_oneofs ex_T0) (@rev _) c08_present = fsm_order_slow (@rev _) c08_present /\
  map f_num (fsm_order_slow (@rev _) c08_present) = [100; 1; 2; 3; 4; 5; 6; 7; 10; 11; 12; 8].
Proof. vm_compute. split; reflexivity. Qed.
Example C08_example_fields_ok : fsm_fields_ok c08_present /\ fsm_perm_oracle (@rev fdesc).
Proof.
  split; [split|].
  - vm_compute. repeat (constructor; [intros H; repeat (destruct H as [H|H]; [discriminate H|]); exact H|]). constructor.
  - repeat constructor; vm_compute; reflexivity.
  - intros l. apply Permutation_sym, Permutation_rev.
Qed.
(* a field with a tag padded to 3 bytes (number 996, varint 1) normalises to the 2-byte tag *)
Example C08_example_normalize :
  fsm_normalize_unknown_tags [xa0; xbe; x00; x01] = [xa0; x3e; x01] /\
  fsm_normalize_unknown_tags [xa0; x3e; x01] = [xa0; x3e; x01].
Proof. vm_compute. split; reflexivity. Qed.

(* the example schema without its group field satisfies the hypothesis of the decode theorem; on an
   input with a padded unknown tag, a nested message with another one and a map entry, the two
   modes differ, and differ by normalisation only *)
Definition c08_schema : schema := [filter (fun fd => negb (f_num fd =? 7)) ex_T0; ex_T1].
Definition c08_input : list byte :=
  [x08; x05; xa0; xbe; x00; x01; x32; x07; x08; x01; xa8; xbe; x80; x00; x02; x2a; x05; x0a; x01; x61; x12; x00].
Example C08_example_decode :
  fsd_schema_okb c08_schema = true /\
  (exists vs vf, msg_decode true c08_schema 5 0 c08_input = DOk vs /\
                 msg_decode false c08_schema 5 0 c08_input = DOk vf /\ vs <> vf /\ fsm_normalize vs = vf).
Proof.
  split; [vm_compute; reflexivity|].
  eexists. eexists. split; [vm_compute; reflexivity|]. split; [vm_compute; reflexivity|].
  split; [vm_compute; discriminate|vm_compute; reflexivity].
Qed.
