(* C11 — Field presence follows the declared presence discipline.
   Statements only; closed by [exact] of lemmas proved in Msg/PresenceP.v, Msg/OneofP.v,
   Msg/PresenceCodecP.v and, for the translated bitmap functions, Msg/PresenceGoP.v. *)
From Coq Require Import List NArith Bool.
From PB Require Import Base.PBytes Wire.WireModel Msg.PresenceModel Msg.PresenceP Msg.OneofModel Msg.OneofP.
From PB Require Import Msg.MsgSchema Msg.MsgValue Msg.MsgEnc Msg.MsgDec Msg.MsgValid Msg.MsgExample Msg.PresenceCodec Msg.PresenceCodecP.
Import ListNotations.
Open Scope N_scope.

(** HasPresence (filedesc.Field / filedesc.Extension) is the declared presence discipline,
    for every well-formed combination of syntax, label, oneof membership, proto3_optional,
    message kind, extension and resolved features.field_presence. *)
Theorem C11_has_presence_spec :
  forall a, valid_attr a = true -> has_presence a = presence_rule a.
Proof. exact has_presence_spec. Qed.
Print Assumptions C11_has_presence_spec.
Example C11_has_presence_spec_nonvacuous :
  valid_attr (mkFattr SEditions LOptional false false false false FPImplicit) = true /\
  has_presence (mkFattr SEditions LOptional false false false false FPImplicit) = false /\
  valid_attr (mkFattr SProto3 LOptional false true false false FPImplicit) = true /\
  has_presence (mkFattr SProto3 LOptional false true false false FPImplicit) = true.
Proof. repeat split. Qed.

(** the same table, as a computation over the enumeration of all 432 combinations *)
Theorem C11_has_presence_table :
  forallb (fun a => implb (valid_attr a) (Bool.eqb (has_presence a) (presence_rule a))) all_attrs = true.
Proof. exact table_ok_all. Qed.
Print Assumptions C11_has_presence_table.

(** bitmap_refines_set: the uint32 word array is a finite set of indices. *)
Theorem C11_bitmap_set_refines :
  forall s i j, i < 32 * N.of_nat (length s) ->
  bm_present (bm_set s i) j = (i =? j) || bm_present s j.
Proof. exact bm_set_present. Qed.
Print Assumptions C11_bitmap_set_refines.
Example C11_bitmap_set_refines_nonvacuous :
  bm_present (bm_set [0; 0; 0] 70) 70 = true /\ bm_present (bm_set [0; 0; 0] 70) 38 = false.
Proof. split; reflexivity. Qed.

Theorem C11_bitmap_clear_refines :
  forall s i j, bm_present (bm_clear s i) j = negb (i =? j) && bm_present s j.
Proof. exact bm_clear_present. Qed.
Print Assumptions C11_bitmap_clear_refines.

Theorem C11_bitmap_other_words_untouched :
  forall s i k, k <> N.to_nat (pword i) ->
  nth_error (bm_set s i) k = nth_error s k /\ nth_error (bm_clear s i) k = nth_error s k /\
  length (bm_set s i) = length s /\ length (bm_clear s i) = length s.
Proof.
  exact (fun s i k H => conj (bm_set_other_words s i k H) (conj (bm_clear_other_words s i k H)
           (conj (bm_set_length s i) (bm_clear_length s i)))).
Qed.
Print Assumptions C11_bitmap_other_words_untouched.
Example C11_bitmap_other_words_nonvacuous : 1%nat <> N.to_nat (pword 70).
Proof. discriminate. Qed.

(** every history of SetPresent / SetPresentNonAtomic / ClearPresent, every index *)
Theorem C11_bitmap_refines_set :
  forall ops s j,
  Forall (fun o => bmop_index o < 32 * N.of_nat (length s)) ops ->
  bm_present (bm_run s ops) j = set_run (bm_present s) ops j.
Proof. exact bm_run_refines. Qed.
Print Assumptions C11_bitmap_refines_set.
Example C11_bitmap_refines_set_nonvacuous :
  Forall (fun o => bmop_index o < 32 * N.of_nat (length [0; 0])) [BSet 33; BClear 1; BSetNA 63].
Proof. repeat constructor. Qed.

(** AnyPresent(size) is true iff some index of the scanned words is present *)
Theorem C11_bitmap_any_present :
  forall s size, bm_wf s -> size + 31 < 2^32 -> (size + 31) / 32 <= N.of_nat (length s) ->
  (bm_any s size = true <-> exists i, i < 32 * ((size + 31) / 32) /\ bm_present s i = true).
Proof. exact bm_any_spec. Qed.
Print Assumptions C11_bitmap_any_present.
Example C11_bitmap_any_present_nonvacuous :
  bm_wf [0; 2] /\ 33 + 31 < 2^32 /\ (33 + 31) / 32 <= N.of_nat (length [0; 2]) /\ bm_any [0; 2] 33 = true
  /\ bm_any [0; 2] 32 = false.
Proof. repeat split; try (repeat constructor; fail); try reflexivity. Qed.
Theorem C11_bitmap_words_stay_uint32 :
  forall ops s, bm_wf s -> bm_wf (bm_run s ops) /\ length (bm_run s ops) = length s.
Proof. exact (fun ops s H => conj (bm_run_wf ops s H) (bm_run_length ops s)). Qed.
Print Assumptions C11_bitmap_words_stay_uint32.

(** has_correct: Has after every history, per field class *)
Theorem C11_has_correct_explicit :
  forall ops, fhas (frun (StOpt None) ops) = rule_explicit ops.
Proof. exact explicit_has_correct. Qed.
Print Assumptions C11_has_correct_explicit.

Theorem C11_has_explicit_set_even_zero :
  forall ops v, fhas (frun (StOpt None) (ops ++ [OpSet v])) = true.
Proof. exact explicit_has_after_set. Qed.
Print Assumptions C11_has_explicit_set_even_zero.

Theorem C11_has_explicit_until_clear :
  forall ops, fhas (frun (StOpt None) (ops ++ [OpClear])) = false.
Proof. exact explicit_not_has_after_clear. Qed.
Print Assumptions C11_has_explicit_until_clear.

Theorem C11_has_correct_implicit :
  forall zero ops, fhas (frun (StVal zero) ops) = rule_implicit zero ops.
Proof. exact implicit_has_correct. Qed.
Print Assumptions C11_has_correct_implicit.

Theorem C11_has_implicit_iff_nonzero :
  forall zero ops v, fhas (frun (StVal zero) (ops ++ [OpSet v])) = nonzero v.
Proof. exact implicit_has_after_set. Qed.
Print Assumptions C11_has_implicit_iff_nonzero.

(** a float counts as zero only if all its bits are zero: -0.0 is populated *)
Theorem C11_float_zero_iff_bits :
  forall w bits, 0 < w -> bits < 2^w ->
  (float_ne0 w bits || float_signbit w bits = false <-> bits = 0).
Proof. exact float_has_iff_bits. Qed.
Print Assumptions C11_float_zero_iff_bits.
Example C11_float_negzero_populated : nonzero (PVF64 (2^63)) = true /\ nonzero (PVF32 (2^31)) = true /\ nonzero (PVF64 0) = false.
Proof. repeat split. Qed.

Theorem C11_has_correct_list :
  forall ops l,
  frun (StList l) ops = StList (list_contents l ops) /\
  fhas (frun (StList l) ops) = negb (Nat.eqb (length (list_contents l ops)) 0).
Proof. exact list_has_correct. Qed.
Print Assumptions C11_has_correct_list.

Theorem C11_has_correct_map :
  forall ops m,
  frun (StMap m) ops = StMap (map_contents m ops) /\
  fhas (frun (StMap m) ops) = negb (Nat.eqb (length (map_contents m ops)) 0).
Proof. exact map_has_correct. Qed.
Print Assumptions C11_has_correct_map.

(** the opaque representation: the presence bit of field i in the shared bitmap, under a
    history that touches any fields of the message, is the explicit-presence rule applied to
    the operations on field i *)
Theorem C11_has_correct_opaque :
  forall h nwords vals i,
  Forall (fun io => fst io < 32 * N.of_nat nwords) h ->
  ohas (orun (mkO (repeat 0 nwords) vals) h) i = rule_explicit (ops_of i h).
Proof. exact opaque_has_rule. Qed.
Print Assumptions C11_has_correct_opaque.
Example C11_has_correct_opaque_nonvacuous :
  Forall (fun io => fst io < 32 * N.of_nat 3) [(70, OpSet (PVInt 0)); (6, OpSet (PVInt 1)); (70, OpClear)].
Proof. repeat constructor. Qed.

(** presenceIndex: two different fields outside oneofs never share a presence bit, and every
    such index is below presenceSize (so it lies inside the XXX_presence array) *)
Theorem C11_presence_index_distinct :
  forall fs i j bi bj, i <> j -> nth_error fs i = Some (false, bi) -> nth_error fs j = Some (false, bj) ->
  fst (presence_index fs i) <> fst (presence_index fs j).
Proof. exact presence_index_distinct. Qed.
Print Assumptions C11_presence_index_distinct.
Theorem C11_presence_index_in_range :
  forall fs j b, nth_error fs j = Some (false, b) -> fst (presence_index fs j) < snd (presence_index fs j).
Proof. exact presence_index_lt_size. Qed.
Print Assumptions C11_presence_index_in_range.
Example C11_presence_index_nonvacuous :
  presence_index [(false, false); (true, false); (true, true); (false, false)] 3 = (2, 3).
Proof. reflexivity. Qed.

(** oneof members: Has iff the member is the selected one (from the oneof model of C12) *)
Theorem C11_has_oneof_member_iff_selected :
  forall w m, whas w m = true <-> wwhich w = Some m.
Proof. exact whas_iff_which. Qed.
Print Assumptions C11_has_oneof_member_iff_selected.

(** round trips, against the minimal single-field varint codec of PresenceModel.v only, which speaks of
    the states of the op-history model.  The statements over the full message codec of C03, for
    every schema table, field kind and cardinality, follow below. *)
Theorem C11_implicit_zero_not_encoded_partial :
  forall num st,
  (exists n, st = StVal (PVInt n)) \/ (exists b, st = StVal (PVBool b)) ->
  (enc_field FCImplicit num st = [] <-> fhas st = false).
Proof. exact implicit_zero_not_encoded. Qed.
Print Assumptions C11_implicit_zero_not_encoded_partial.
Example C11_implicit_zero_not_encoded_nonvacuous :
  enc_field FCImplicit 1 (StVal (PVInt 0)) = [] /\ enc_field FCImplicit 1 (StVal (PVInt 1)) <> [].
Proof. split; [reflexivity|discriminate]. Qed.

Theorem C11_explicit_survives_roundtrip_partial :
  forall num st, encode_tag num 0 < 2^64 ->
  match st with Some v => v < 2^64 | None => True end ->
  dec_explicit num (enc_explicit num st) = Ok st.
Proof. exact explicit_roundtrip. Qed.
Print Assumptions C11_explicit_survives_roundtrip_partial.
Example C11_explicit_survives_roundtrip_nonvacuous :
  dec_explicit 5 (enc_explicit 5 (Some 0)) = Ok (Some 0) /\ enc_explicit 5 (Some 0) <> [].
Proof. split; [reflexivity|discriminate]. Qed.

(* ------------------------------------------------------------------------------------------ *)
(** * C11 over the full binary codec of C03 (Msg/MsgSchema, MsgValue, MsgEnc, MsgDec, MsgValid)

    [pc_has S tid v f] is Has of field f on a canonical message value v of type tid, defined by
    the presence rule of the cardinality class of f in the schema table: explicit presence
    (COpt, CReq: optional / required / oneof members / messages) -- a value is stored, whatever it
    is; implicit presence (CImp) -- the stored scalar is non-zero; repeated and map -- non-empty.
    All theorems are for every schema table S (recursive types, all 16 scalar kinds, enum,
    message, group, packed and expanded lists, maps, oneofs, extensions), both decoder paths and
    every recursion limit. *)

(** On canonical values Has is "the value has an entry for the field": an implicit-presence
    zero is never stored, an explicit-presence default is. *)
Theorem C11_has_canonical_iff_present :
  forall slow S dep tid v num,
  msg_typed slow S dep tid v = true -> pc_has S tid v num = pc_present v num.
Proof. exact pc_has_present. Qed.
Print Assumptions C11_has_canonical_iff_present.

(** The wire-tree scanner of Wire/WireModel.v ([parse_fields], protowire.ConsumeField in a loop)
    reads the encoding of a canonical value as: the wire fields [pc_wire] of the known part,
    followed by exactly the wire fields of the preserved unknown bytes; and the field numbers of
    the known part are exactly the populated fields.  Both directions of the property text:
    an unpopulated field (in particular an implicit-presence zero) is not encoded, every
    populated field (in particular an explicit-presence field holding its default) is.
    [pc_groups_scan]: top-level group values pass the scanner within its nesting budget -- part
    of msg_valid on the reflection path, the exclusion of finding FB3 on the table-driven path,
    vacuous for message types without group fields (the two theorems on the scan condition below). *)
Theorem C11_encoded_fields_are_populated_fields :
  forall slow S limit tid v,
  msg_valid slow S limit tid v = true -> pc_groups_scan S tid v = true ->
  exists wu,
    parse_fields (x00 :: pc_unknown v) default_dep (pc_unknown v) [] = Ok wu /\
    parse_fields (x00 :: msg_encode S tid v) default_dep (msg_encode S tid v) [] = Ok (pc_wire S tid v ++ wu) /\
    forall f, In f (map fst (pc_wire S tid v)) <-> pc_has S tid v f = true.
Proof. exact pc_encode_fields. Qed.
Print Assumptions C11_encoded_fields_are_populated_fields.

Theorem C11_implicit_zero_not_encoded :
  forall slow S limit tid v f,
  msg_valid slow S limit tid v = true -> pc_groups_scan S tid v = true ->
  pc_has S tid v f = false -> ~ In f (map fst (pc_wire S tid v)).
Proof. exact pc_unpopulated_not_encoded. Qed.
Print Assumptions C11_implicit_zero_not_encoded.

Theorem C11_populated_field_encoded :
  forall slow S limit tid v f,
  msg_valid slow S limit tid v = true -> pc_groups_scan S tid v = true ->
  pc_has S tid v f = true -> In f (map fst (pc_wire S tid v)).
Proof. exact pc_populated_encoded. Qed.
Print Assumptions C11_populated_field_encoded.

(** without unknown bytes: the scanner output names exactly the populated fields *)
Theorem C11_encoded_fields_no_unknown :
  forall slow S limit tid fs,
  msg_valid slow S limit tid (VMsg fs []) = true -> pc_groups_scan S tid (VMsg fs []) = true ->
  exists wfs, parse_fields (x00 :: msg_encode S tid (VMsg fs [])) default_dep (msg_encode S tid (VMsg fs [])) [] = Ok wfs /\
    forall f, In f (map fst wfs) <-> pc_has S tid (VMsg fs []) f = true.
Proof. exact pc_encode_fields_no_unknown. Qed.
Print Assumptions C11_encoded_fields_no_unknown.

(** for an implicit-presence field Has is the non-zero test of the stored scalar *)
Theorem C11_implicit_has_iff_nonzero_canonical :
  forall slow S dep tid fs unk num fd,
  msg_typed slow S dep tid (VMsg fs unk) = true ->
  msg_find_field (nth tid S []) num = Some fd -> f_card fd = CImp ->
  pc_has S tid (VMsg fs unk) num =
  match msg_fget fs num with [VS s] => negb (msg_scalar_is_zero s) | _ => false end.
Proof. exact pc_implicit_has_iff_nonzero. Qed.
Print Assumptions C11_implicit_has_iff_nonzero_canonical.

(** the scan condition *)
Theorem C11_scan_condition_reflection_path :
  forall S limit tid v, msg_valid true S limit tid v = true -> pc_groups_scan S tid v = true.
Proof. exact pc_valid_slow_scans. Qed.
Print Assumptions C11_scan_condition_reflection_path.
Theorem C11_scan_condition_no_groups :
  forall (S : schema) tid v,
  (forall fd, In fd (nth tid S ([] : mdesc)) -> match f_kind fd with KGrp _ => False | _ => True end) ->
  pc_groups_scan S tid v = true.
Proof. exact pc_no_groups_scans. Qed.
Print Assumptions C11_scan_condition_no_groups.

(** explicit_survives_roundtrip: Has of every field -- explicit-presence fields holding their
    default included -- is the same after Unmarshal(Marshal(v)) (from C03_roundtrip) *)
Theorem C11_explicit_survives_roundtrip :
  forall slow S limit tid v,
  msg_valid slow S limit tid v = true ->
  exists v', msg_decode slow S limit tid (msg_encode S tid v) = DOk v' /\
             forall f, pc_has S tid v' f = pc_has S tid v f.
Proof. exact pc_has_roundtrip. Qed.
Print Assumptions C11_explicit_survives_roundtrip.

(* non-vacuity on the example of C03 (13 fields of all shapes, unknown bytes, a group list):
   field 8 is an explicit-presence bytes member of a oneof holding the empty string (its
   default) and is populated and encoded; field 9 (the other member) and field 2's siblings are
   not; field 4 holds the zero 0 inside a list (lists are not subject to the zero rule) *)
Example C11_codec_nonvacuous :
  msg_valid false ex_schema 3 0 ex_msg = true /\ pc_groups_scan ex_schema 0 ex_msg = true /\
  pc_has ex_schema 0 ex_msg 8 = true /\ pc_has ex_schema 0 ex_msg 9 = false /\
  map fst (pc_wire ex_schema 0 ex_msg) = [100; 1; 2; 3; 4; 4; 5; 5; 6; 7; 7; 10; 11; 12; 12; 8].
Proof. vm_compute. repeat split; reflexivity. Qed.
(* a stored implicit-presence zero is not canonical *)
Example C11_codec_implicit_zero_not_canonical :
  msg_valid false ex_schema 3 0 (VMsg [(2, [VS (SBy [])])] []) = false /\
  msg_valid false ex_schema 3 0 (VMsg [(8, [VS (SBy [])])] []) = true.
Proof. vm_compute. split; reflexivity. Qed.

(** the cardinality class that the harness of C03 derives for its schema tables
    (common_msg.go msgFieldToken: 0 explicit, 1 implicit, 2 required, 3/4 repeated, 5 map) is the
    class the HasPresence decision table gives: explicit-or-required iff HasPresence *)
Theorem C11_schema_card_explicit_iff_has_presence :
  forall a packed, valid_attr a = true -> is_repeated (fa_label a) = false ->
  pc_card_explicit (pc_card a false packed) = has_presence a.
Proof. exact pc_card_explicit_iff_presence. Qed.
Print Assumptions C11_schema_card_explicit_iff_has_presence.
Theorem C11_schema_card_implicit_iff :
  forall a packed, valid_attr a = true ->
  (pc_card a false packed = 1 <-> (is_repeated (fa_label a) = false /\ has_presence a = false)).
Proof. exact pc_card_implicit_iff. Qed.
Print Assumptions C11_schema_card_implicit_iff.

(* ------------------------------------------------------------------------------------------ *)
(** * Tier T: the statements above for the Gallina translation of the Go source

    Gen/PresenceGo.v is regenerated on every check from internal/impl/presence.go and
    api_export_opaque.go by srcmodel_presence (unsafe pointer arithmetic kept: addresses are
    absolute, the XXX_presence array is [heap_of P s] = words [s] stored from address [P] on; an
    access outside the array is the outcome Panic).  Proofs: Msg/PresenceGoP.v.  [addr_ok P s]:
    the array lies inside the 64-bit address space.  Single-threaded: atomic.CompareAndSwapUint32
    is one sequentially consistent step (interleavings are C18's concern). *)
From Coq Require Import ZArith.
From PB Require Import Base.GoInt Msg.PresenceHeap Gen.PresenceGo Msg.PresenceGoP.
Open Scope N_scope.

(** toElem addresses word num/32: 4 * (num / 32) bytes from the base *)
Theorem C11_go_toElem_word_address :
  forall P s num, addr_ok P s -> num < 32 * N.of_nat (length s) ->
  go_presence_toElem P (Z.of_N num) = (P + 4 * Z.of_N (pword num))%Z.
Proof. exact go_toElem_model. Qed.
Print Assumptions C11_go_toElem_word_address.
Example C11_go_nonvacuous :
  addr_ok 4096 [0; 0; 0] /\ 70 < 32 * N.of_nat (length [0; 0; 0]) /\ bm_wf [0; 0; 0] /\
  go_presence_toElem 4096 70 = 4104%Z /\
  go_presence_SetPresent (heap_of 4096 [0; 0; 0]) 4096 70 96 = Val (heap_of 4096 [0; 0; 64]) /\
  go_presence_Present (heap_of 4096 [0; 0; 64]) 4096 70 = Val true /\
  go_presence_Present (heap_of 4096 [0; 0; 64]) 4096 38 = Val false /\
  go_presence_Present (heap_of 4096 [0; 0; 64]) 4096 96 = Panic /\
  go_presence_ClearPresent (heap_of 4096 [0; 5; 64]) 4096 34 = Val (heap_of 4096 [0; 1; 64]) /\
  go_presence_AnyPresent (heap_of 4096 [0; 2]) 4096 33 = Val true /\
  go_presence_AnyPresent (heap_of 4096 [0; 2]) 4096 32 = Val false.
Proof. unfold addr_ok. repeat split; try (repeat constructor; fail); try reflexivity; vm_compute; congruence. Qed.

Theorem C11_go_Present_eq_model :
  forall P s num, addr_ok P s -> num < 32 * N.of_nat (length s) ->
  go_presence_Present (heap_of P s) P (Z.of_N num) = Val (bm_present s num).
Proof. exact go_Present_model. Qed.
Print Assumptions C11_go_Present_eq_model.

(** beyond the array the source reads memory it does not own *)
Theorem C11_go_Present_outside_array_faults :
  forall P s num, addr_ok P s -> num < 2^32 -> 32 * N.of_nat (length s) <= num ->
  go_presence_Present (heap_of P s) P (Z.of_N num) = Panic.
Proof. exact go_Present_out_of_range. Qed.
Print Assumptions C11_go_Present_outside_array_faults.

Theorem C11_go_SetPresent_eq_model :
  forall P s num size, addr_ok P s -> bm_wf s -> num < 32 * N.of_nat (length s) ->
  go_presence_SetPresent (heap_of P s) P (Z.of_N num) size = Val (heap_of P (bm_set s num)).
Proof. exact go_SetPresent_model. Qed.
Print Assumptions C11_go_SetPresent_eq_model.

Theorem C11_go_SetPresentUnatomic_eq_model :
  forall P s num size, addr_ok P s -> bm_wf s -> num < 32 * N.of_nat (length s) ->
  go_presence_SetPresentUnatomic (heap_of P s) P (Z.of_N num) size = Val (heap_of P (bm_set s num)).
Proof. exact go_SetPresentUnatomic_model. Qed.
Print Assumptions C11_go_SetPresentUnatomic_eq_model.

Theorem C11_go_ClearPresent_eq_model :
  forall P s num, addr_ok P s -> num < 32 * N.of_nat (length s) ->
  go_presence_ClearPresent (heap_of P s) P (Z.of_N num) = Val (heap_of P (bm_clear s num)).
Proof. exact go_ClearPresent_model. Qed.
Print Assumptions C11_go_ClearPresent_eq_model.

Theorem C11_go_AnyPresent_eq_model :
  forall P s size, addr_ok P s -> size < 2^32 -> u32 (size + 31) / 32 <= N.of_nat (length s) ->
  go_presence_AnyPresent (heap_of P s) P (Z.of_N size) = Val (bm_any s size).
Proof. exact go_AnyPresent_model. Qed.
Print Assumptions C11_go_AnyPresent_eq_model.

Theorem C11_go_LoadPresenceCache_first_word :
  forall P s, addr_ok P s -> (0 < P)%Z -> (0 < length s)%nat ->
  go_presence_LoadPresenceCache (heap_of P s) P = Val (Z.of_N (nth 0 s 0)).
Proof. exact go_LoadPresenceCache_model. Qed.
Print Assumptions C11_go_LoadPresenceCache_first_word.

(** the set-refinement statements (C11_bitmap_set_refines / _clear_refines / _any_present) for
    the translated source, in terms of the translated Present *)
Theorem C11_go_SetPresent_refines_set :
  forall P s i j size,
  addr_ok P s -> bm_wf s -> i < 32 * N.of_nat (length s) -> j < 32 * N.of_nat (length s) ->
  exists h', go_presence_SetPresent (heap_of P s) P (Z.of_N i) size = Val h' /\
    (forall b, go_presence_Present (heap_of P s) P (Z.of_N j) = Val b ->
               go_presence_Present h' P (Z.of_N j) = Val ((i =? j) || b)).
Proof. exact go_SetPresent_then_Present. Qed.
Print Assumptions C11_go_SetPresent_refines_set.

Theorem C11_go_SetPresentUnatomic_refines_set :
  forall P s i j size,
  addr_ok P s -> bm_wf s -> i < 32 * N.of_nat (length s) -> j < 32 * N.of_nat (length s) ->
  exists h', go_presence_SetPresentUnatomic (heap_of P s) P (Z.of_N i) size = Val h' /\
    (forall b, go_presence_Present (heap_of P s) P (Z.of_N j) = Val b ->
               go_presence_Present h' P (Z.of_N j) = Val ((i =? j) || b)).
Proof. exact go_SetPresentUnatomic_then_Present. Qed.
Print Assumptions C11_go_SetPresentUnatomic_refines_set.

Theorem C11_go_ClearPresent_refines_set :
  forall P s i j,
  addr_ok P s -> i < 32 * N.of_nat (length s) -> j < 32 * N.of_nat (length s) ->
  exists h', go_presence_ClearPresent (heap_of P s) P (Z.of_N i) = Val h' /\
    (forall b, go_presence_Present (heap_of P s) P (Z.of_N j) = Val b ->
               go_presence_Present h' P (Z.of_N j) = Val (negb (i =? j) && b)).
Proof. exact go_ClearPresent_then_Present. Qed.
Print Assumptions C11_go_ClearPresent_refines_set.

Theorem C11_go_AnyPresent_iff_some_bit :
  forall P s size,
  addr_ok P s -> bm_wf s -> size + 31 < 2^32 -> (size + 31) / 32 <= N.of_nat (length s) ->
  exists b, go_presence_AnyPresent (heap_of P s) P (Z.of_N size) = Val b /\
    (b = true <-> exists i, i < 32 * ((size + 31) / 32) /\
                            go_presence_Present (heap_of P s) P (Z.of_N i) = Val true).
Proof. exact go_AnyPresent_iff_some_bit. Qed.
Print Assumptions C11_go_AnyPresent_iff_some_bit.
