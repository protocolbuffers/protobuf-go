(* C23 — Well-known types use their JSON forms exactly (Duration, Timestamp, FieldMask parts).
   Statements only; each closed by [exact] of a lemma of Known/DurJsonP.v, Known/FmJsonP.v,
   Known/TsJsonP.v, Known/CivilP.v.  Strings are byte lists (the content of the JSON string). *)
From Coq Require Import List NArith ZArith Bool.
From Coq Require Strings.String.
Import Coq.Strings.String.StringSyntax.
Delimit Scope string_scope with string.
From PB Require Import Base.PBytes Known.FieldMaskModel Known.DurationModel Known.TimestampModel
  Known.WktJsonModel Known.DurJsonP Known.FmJsonP Known.CivilModel Known.CivilP Known.TsJsonModel Known.TsJsonP Known.TsGrammarP Gen.KnownGo Known.KnownGoP.
Import ListNotations.
Open Scope Z_scope.

(* Tier T: the range constants of the model are those of the current source
   (Gen/KnownGo.v, regenerated from encoding/protojson/well_known_types.go and types/known/*pb) *)
Theorem C23_constants_match_source :
  c_pj_secondsInNanos = seconds_in_nanos /\ c_pj_maxSecondsInDuration = max_seconds_in_duration /\
  c_pj_maxTimestampSeconds = max_timestamp_seconds /\ c_pj_minTimestampSeconds = min_timestamp_seconds /\
  c_pj_maxSecondsInDuration = c_dur_check_absDuration /\
  c_pj_maxTimestampSeconds = c_ts_check_maxTimestamp /\ c_pj_minTimestampSeconds = c_ts_check_minTimestamp.
Proof. exact json_constants_match_source. Qed.
Print Assumptions C23_constants_match_source.

(* ---------------- Duration ---------------- *)

(* Marshal accepts exactly the valid Durations (check() = 0 of C43) *)
Theorem C23_duration_marshal_range :
  forall secs nanos, (exists out, marshal_duration secs nanos = MOk out) <-> dur_check secs nanos = 0.
Proof. exact marshal_duration_accepts. Qed.
Print Assumptions C23_duration_marshal_range.

(* every valid seconds/nanos pair round-trips exactly *)
Theorem C23_duration_json_roundtrip :
  forall secs nanos, dur_check secs nanos = 0 ->
  exists out, marshal_duration secs nanos = MOk out /\
              parse_duration out = Some (secs, nanos) /\ unmarshal_duration out = UOk secs nanos.
Proof. exact duration_json_roundtrip. Qed.
Print Assumptions C23_duration_json_roundtrip.

(* the output has 0, 3, 6 or 9 fractional digits *)
Theorem C23_duration_json_frac_digits :
  forall secs nanos, dur_check secs nanos = 0 ->
  exists pre fd, marshal_duration secs nanos = MOk (pre ++ (match fd with [] => [] | _ => dot :: fd end) ++ [ch_s]) /\
                 ~ In dot pre /\ Forall D fd /\
                 (length fd = 0 \/ length fd = 3 \/ length fd = 6 \/ length fd = 9)%nat.
Proof. exact duration_json_frac_digits. Qed.
Print Assumptions C23_duration_json_frac_digits.

(* parseDuration accepts s  <->  s = [+-]? ( (0 | [1-9]d* ) ("." d{0,9})? | "." d{1,9} ) "s"
   with integer part <= MaxInt64, and returns the signed value.  (dur_syntax s neg ip fo is that
   decomposition: sign, integer digits ip, optional fraction digits fo.)
   Note: the integer part has NO leading zeros ("01s" is rejected, "1.s" is accepted, ".s" is
   rejected: a '.' needs a digit on one side; this is the case of known finding F3a). *)
Theorem C23_duration_grammar :
  forall s secs nanos,
  parse_duration s = Some (secs, nanos) <->
  exists neg ip fo, dur_syntax s neg ip fo /\ dec_value ip <= max_int64 /\
                    secs = apply_sign neg (dec_value ip) /\ nanos = apply_sign neg (frac_value fo).
Proof. exact duration_grammar. Qed.
Print Assumptions C23_duration_grammar.

(* ... and Unmarshal additionally demands |seconds| <= 315576000000 *)
Theorem C23_duration_unmarshal_grammar :
  forall s secs nanos,
  unmarshal_duration s = UOk secs nanos <->
  exists neg ip fo, dur_syntax s neg ip fo /\ dec_value ip <= 315576000000 /\
                    secs = apply_sign neg (dec_value ip) /\ nanos = apply_sign neg (frac_value fo).
Proof. exact duration_unmarshal_grammar. Qed.
Print Assumptions C23_duration_unmarshal_grammar.

(* ---------------- Timestamp ---------------- *)

Theorem C23_timestamp_marshal_range :
  forall secs nanos, (exists out, marshal_timestamp secs nanos = MOk out) <-> ts_check secs nanos = 0.
Proof. exact marshal_timestamp_accepts. Qed.
Print Assumptions C23_timestamp_marshal_range.

(* own civil-date arithmetic, inverse in both directions (all years) *)
Theorem C23_civil_inverse :
  (forall z, let '(y, m, d) := civil_from_days z in days_from_civil y m d = z /\ valid_date y m d) /\
  (forall y m d, valid_date y m d -> civil_from_days (days_from_civil y m d) = (y, m, d)).
Proof. exact (conj days_from_civil_from_days civil_from_days_from_civil). Qed.
Print Assumptions C23_civil_inverse.

(* every in-range (seconds, nanos) is formatted to a string that the STRICT RFC 3339 parser
   (and therefore the model of unmarshalTimestamp) reads back exactly *)
Theorem C23_timestamp_format_parse_roundtrip :
  forall secs nanos, ts_check secs nanos = 0 ->
  exists out, marshal_timestamp secs nanos = MOk out /\
              parse_ts false out = Some (secs, nanos) /\ unmarshal_timestamp out = UOk secs nanos.
Proof. exact timestamp_format_parse_roundtrip. Qed.
Print Assumptions C23_timestamp_format_parse_roundtrip.

(* the output is yyyy-mm-ddThh:mm:ss[.d{3}|.d{6}|.d{9}]Z for the civil date of the instant, years 1..9999 *)
Theorem C23_timestamp_json_shape :
  forall secs nanos, ts_check secs nanos = 0 ->
  exists y m d hh mi ss fd,
    marshal_timestamp secs nanos = MOk (pre_civil y m d hh mi ss ++ (match fd with [] => [] | _ => dot :: fd end) ++ [ch_Z]) /\
    1 <= y <= 9999 /\ valid_date y m d /\ 0 <= hh <= 23 /\ 0 <= mi <= 59 /\ 0 <= ss <= 59 /\
    secs = days_from_civil y m d * 86400 + hh * 3600 + mi * 60 + ss /\
    Forall D fd /\ (length fd = 0 \/ length fd = 3 \/ length fd = 6 \/ length fd = 9)%nat.
Proof. exact timestamp_json_shape. Qed.
Print Assumptions C23_timestamp_json_shape.

(* "parsing accepts exactly RFC 3339": REFUTED for the model of the code (known finding F3b):
   strings the strict parser rejects are accepted through the layout-driven time.Parse *)
Theorem C23_timestamp_strict_grammar_refuted :
  exists s1 s2 s3 s4,
    parse_ts false s1 = None /\ unmarshal_timestamp s1 = UOk 946684800 123456789 /\   (* "2000-01-01T00:00:00,1234567890123Z" *)
    parse_ts false s2 = None /\ unmarshal_timestamp s2 = UOk 946688400 0 /\           (* "2000-01-01T1:00:00Z" *)
    parse_ts false s3 = None /\ unmarshal_timestamp s3 = UOk 946598400 0 /\           (* "2000-01-01T00:00:00+24:00" *)
    parse_ts false s4 = None /\ unmarshal_timestamp s4 = UOk 946681200 0.             (* "2000-01-01T00:00:00+00:60" *)
Proof. exact timestamp_strict_grammar_refuted. Qed.
Print Assumptions C23_timestamp_strict_grammar_refuted.

(* whatever Unmarshal accepts beyond the strict parser comes from the lenient one *)
Theorem C23_timestamp_accepts_except_F3b :
  forall s secs nanos, unmarshal_timestamp s = UOk secs nanos ->
  (exists ns, parse_ts false s = Some (secs, ns)) \/
  (parse_ts false s = None /\ exists ns, parse_ts true s = Some (secs, ns)).
Proof. exact timestamp_accepts_except_f3b. Qed.
Print Assumptions C23_timestamp_accepts_except_F3b.

(* The grammar of the parser model, for both the strict (len = false: RFC 3339 with upper-case
   T/Z, two-digit fields, '.' fraction of any length, offset 00..23:00..59, seconds 00..59,
   year 0000..9999) and the layout-driven parser (len = true: additionally one-digit hour,
   ',' separator, offset hour 24, offset minute 60):
     parse_ts len s = Some v  <->  s has that shape (ts_syntax) and v is its value *)
Theorem C23_timestamp_grammar :
  forall len s secs ns,
  parse_ts len s = Some (secs, ns) <->
  exists y m d hh mi ss fr off, ts_syntax len s y m d hh mi ss fr off /\ (secs, ns) = ts_value y m d hh mi ss fr off.
Proof. exact timestamp_grammar. Qed.
Print Assumptions C23_timestamp_grammar.

(* whatever the lenient parser accepts is either accepted with the same value by the strict
   one or has the lenient shape without having the strict shape (the F3b class) *)
Theorem C23_timestamp_lenient_only_F3b :
  forall s secs ns,
  parse_ts true s = Some (secs, ns) -> parse_ts false s = Some (secs, ns) \/ f3b_deviation s.
Proof. exact timestamp_lenient_only_f3b. Qed.
Print Assumptions C23_timestamp_lenient_only_F3b.

(* ---------------- FieldMask ---------------- *)

(* marshal succeeds <-> every path is a valid full name p with JSONSnakeCase(JSONCamelCase p) = p *)
Theorem C23_fieldmask_marshal_accepts :
  forall paths,
  (exists out, marshal_fieldmask paths = MOk out) <->
  Forall (fun p => fullname_valid p = true /\ json_snake_case (json_camel_case p) = p) paths.
Proof. exact marshal_fieldmask_accepts. Qed.
Print Assumptions C23_fieldmask_marshal_accepts.

(* ... and then unmarshal returns the paths *)
Theorem C23_fieldmask_json_reversible :
  forall paths,
  Forall (fun p => fullname_valid p = true /\ json_snake_case (json_camel_case p) = p) paths ->
  exists out, marshal_fieldmask paths = MOk out /\ unmarshal_fieldmask out = Some paths.
Proof. exact fieldmask_json_reversible. Qed.
Print Assumptions C23_fieldmask_json_reversible.

(* ---- non-vacuity ---- *)
Local Notation "'B' s" := (String.list_byte_of_string s%string) (at level 0).
Example C23_ex_duration :
  marshal_duration 3 1000 = MOk (B "3.000001s") /\ marshal_duration (-3) (-500000000) = MOk (B "-3.500s") /\
  parse_duration (B "1.s") = Some (1, 0) /\ parse_duration (B ".s") = None /\ parse_duration (B "01s") = None /\
  parse_duration (B "-.5s") = Some (0, -500000000) /\ unmarshal_duration (B "315576000001s") = UErr 2.
Proof. vm_compute. repeat split; reflexivity. Qed.
Example C23_ex_timestamp :
  marshal_timestamp 951782400 0 = MOk (B "2000-02-29T00:00:00Z") /\
  marshal_timestamp (-62135596800) 1000 = MOk (B "0001-01-01T00:00:00.000001Z") /\
  unmarshal_timestamp (B "9999-12-31T23:59:59.999999999Z") = UOk 253402300799 999999999 /\
  unmarshal_timestamp (B "2000-01-01T00:00:00.1234567890Z") = UErr 1 /\
  unmarshal_timestamp (B "0000-12-31T23:59:59-00:01") = UOk (-62135596741) 0 /\
  unmarshal_timestamp (B "10000-01-01T00:00:00Z") = UErr 1 /\ unmarshal_timestamp (B "9999-12-31T23:59:59-00:01") = UErr 2.
Proof. vm_compute. repeat split; reflexivity. Qed.
Example C23_ex_fieldmask :
  marshal_fieldmask [B "user.display_name"; B "photo"] = MOk (B "user.displayName,photo") /\
  unmarshal_fieldmask (B " user.displayName,photo ") = Some [B "user.display_name"; B "photo"] /\
  marshal_fieldmask [B "fooBar"] = MErr 2 /\ marshal_fieldmask [B "foo__bar"] = MErr 2 /\ marshal_fieldmask [B "a-b"] = MErr 1 /\
  marshal_fieldmask [B "_a"] = MOk (B "A") /\ unmarshal_fieldmask (B "A") = Some [B "_a"].
Proof. vm_compute. repeat split; reflexivity. Qed.
