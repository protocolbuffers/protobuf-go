(* C45 — Struct, Value and Any conversions round-trip.
   Statements only; each closed by [exact] of a lemma proved in Known/StructP.v or Known/AnyP.v.
   Models: Known/StructModel.v (structpb.NewValue / AsInterface), Known/AnyModel.v (anypb).
   "Valid UTF-8" below is [utf8_valid] of Known/StructModel.v, written after unicode/utf8.ValidString;
   it is a definition of its own and no lemma relates it to the predicates of Base/Utf8Valid.v (C13). *)
From Coq Require Import List NArith ZArith Bool.
From PB Require Import Base.PBytes Known.StructModel Known.StructP Known.AnyModel Known.AnyP.
Import ListNotations.
Open Scope N_scope.

(* ---- structpb *)

(* NewValue(v).AsInterface() = v on the JSON-like domain: nil, bool, finite float64, valid UTF-8
   strings, lists and maps with valid UTF-8 keys, arbitrarily nested. *)
Theorem C45_value_roundtrip :
  forall v, json_like v = true -> exists p, new_value v = Some p /\ as_interface p = v.
Proof. exact value_roundtrip. Qed.
Print Assumptions C45_value_roundtrip.

Example C45_value_roundtrip_nonvacuous :
  json_like (GMap [([n2b 97], GList [GNil; GBool true; GNum 0x3ff0000000000000; GStr [n2b 0xC3; n2b 0xA9]])]) = true.
Proof. vm_compute. reflexivity. Qed.

(* On the whole documented domain (everything that contains no invalid string/key and no
   unsupported type) NewValue succeeds and AsInterface returns the documented conversion [norm]:
   integers and float32 become float64, []byte becomes its base64 text, NaN and the infinities become
   the strings "NaN", "Infinity", "-Infinity". *)
Theorem C45_value_roundtrip_conversions :
  forall v, rejected v = false -> exists p, new_value v = Some p /\ as_interface p = norm v.
Proof. exact value_roundtrip_conversions. Qed.
Print Assumptions C45_value_roundtrip_conversions.

Example C45_value_roundtrip_conversions_nonvacuous :
  rejected (GList [GInt (-5); GBytes [n2b 1; n2b 2]; GF32 0x7fc00000; GNum f64_ninf]) = false /\
  norm (GList [GInt (-5); GBytes [n2b 1; n2b 2]; GF32 0x7fc00000; GNum f64_ninf])
  = GList [GNum 0xc014000000000000; GStr [n2b 65; n2b 81; n2b 73; n2b 61]; GStr str_NaN; GStr str_mInfinity].
Proof. vm_compute. split; reflexivity. Qed.

(* NewValue fails exactly on the rejected inputs *)
Theorem C45_value_error_iff :
  forall v, new_value v = None <-> rejected v = true.
Proof. exact new_value_none_iff. Qed.
Print Assumptions C45_value_error_iff.

(* in particular invalid UTF-8 in any string or map key at any depth is rejected *)
Theorem C45_value_invalid_utf8_rejected :
  forall v, has_invalid_utf8 v = true -> new_value v = None.
Proof. exact value_invalid_utf8_rejected. Qed.
Print Assumptions C45_value_invalid_utf8_rejected.

Example C45_value_invalid_utf8_rejected_nonvacuous :
  has_invalid_utf8 (GList [GMap [([n2b 0xC0; n2b 0x80], GNil)]]) = true /\
  has_invalid_utf8 (GMap [([n2b 97], GStr [n2b 0xED; n2b 0xA0; n2b 0x80])]) = true.
Proof. vm_compute. split; reflexivity. Qed.

(* the documented integer conversion is exact up to 2^53 in magnitude (and then finite, so that
   AsInterface returns the number itself) *)
Theorem C45_int_conversion_exact :
  forall z, (Z.abs z <= 2^53)%Z -> f64_to_Z (z_to_f64 z) = Some z /\ f64_finite (z_to_f64 z) = true.
Proof. exact int_conversion_exact. Qed.
Print Assumptions C45_int_conversion_exact.

Example C45_int_conversion_exact_nonvacuous :
  (Z.abs (- 2^53) <= 2^53)%Z /\ f64_to_Z (z_to_f64 (- 2^53)) = Some (- 2^53)%Z /\ z_to_f64 (- 2^53) = 0xc340000000000000.
Proof. vm_compute. repeat split; congruence. Qed.

(* and not beyond: 2^53 + 1 is the first integer that is changed *)
Example C45_int_conversion_inexact_above :
  f64_to_Z (z_to_f64 (2^53 + 1)) = Some (2^53)%Z.
Proof. vm_compute. reflexivity. Qed.

(* the documented []byte conversion loses nothing and always yields a valid string *)
Theorem C45_bytes_conversion_invertible :
  forall bs, b64_decode (b64_encode bs) = Some bs /\ utf8_valid (b64_encode bs) = true.
Proof. exact bytes_conversion_invertible. Qed.
Print Assumptions C45_bytes_conversion_invertible.

(* encoding/json of AsInterface agrees with protojson of the Value whenever protojson succeeds.
   _partial: proved for the abstract JSON trees only (which value becomes which JSON kind, NaN/Inf
   and unset Values being protojson errors); number formatting, string escaping and key order of
   the two encoders are compared by the harness (semantic JSON equality), not proved. *)
Theorem C45_value_json_agrees_partial :
  forall p j, json_of_pval p = Some j -> json_of_gval (as_interface p) = Some j.
Proof. exact value_json_agrees_tree. Qed.
Print Assumptions C45_value_json_agrees_partial.

Example C45_value_json_agrees_partial_nonvacuous :
  json_of_pval (PStruct [([n2b 97], PList [PNull; PNumber 0x8000000000000000; PString []])])
  = Some (JObj [([n2b 97], JArr [JNull; JNum 0x8000000000000000; JStr []])]).
Proof. vm_compute. reflexivity. Qed.

(* ---- anypb *)

(* MessageIs is exactly: URL == name, or URL ends with "/" ++ name (for arbitrary byte strings) *)
Theorem C45_message_is_suffix_rule :
  forall url name, message_is url name = true <-> (url = name \/ exists p, url = p ++ slash :: name).
Proof. exact message_is_suffix_rule. Qed.
Print Assumptions C45_message_is_suffix_rule.

(* after New, MessageIs holds for the packed type and MessageName is its full name *)
Theorem C45_message_is_name :
  forall name, message_is (any_new_url name) name = true /\
               (full_name_valid name = true -> message_name (any_new_url name) = name).
Proof. exact message_is_name_both. Qed.
Print Assumptions C45_message_is_name.

Example C45_message_is_name_nonvacuous :
  full_name_valid (map (fun n => n2b (N.of_nat n)) [103; 46; 112; 46; 65; 110; 121]%nat) = true.
Proof. vm_compute. reflexivity. Qed.

(* the validity check inside MessageName accepts exactly ident(.ident)*; in particular the fuel of
   the model's loop never runs out *)
Theorem C45_full_name_valid_iff :
  forall s, full_name_valid s = true <-> full_name s.
Proof. exact full_name_valid_iff. Qed.
Print Assumptions C45_full_name_valid_iff.

(* MessageName and MessageIs agree, for arbitrary URLs *)
Theorem C45_message_name_is_agree :
  (forall url name, full_name_valid name = true -> message_is url name = true -> message_name url = name) /\
  (forall url, message_name url <> [] -> message_is url (message_name url) = true).
Proof. exact message_name_is_agree. Qed.
Print Assumptions C45_message_name_is_agree.

(* MessageIs is false for any other valid name *)
Theorem C45_message_is_other_false :
  forall name other, full_name_valid name = true -> full_name_valid other = true -> other <> name ->
  message_is (any_new_url name) other = false.
Proof. exact message_is_other_false. Qed.
Print Assumptions C45_message_is_other_false.

(* New then UnmarshalTo / UnmarshalNew return the message, relative to the round-trip property of
   the underlying codec (C03), which enters as a hypothesis; UnmarshalTo into another type fails. *)
Theorem C45_any_roundtrip :
  forall (msg : Type) (name_of : msg -> list byte) (marshal : msg -> option (list byte))
         (unmarshal : list byte -> list byte -> option msg) (resolve : list byte -> bool),
  (forall m b, marshal m = Some b -> unmarshal (name_of m) b = Some m) ->
  forall m a, any_new msg name_of marshal m = Some a ->
  unmarshal_to msg unmarshal a (name_of m) = Some m /\
  (full_name_valid (name_of m) = true -> resolve (name_of m) = true ->
   unmarshal_new msg unmarshal resolve a = Some m) /\
  (forall other, full_name_valid (name_of m) = true -> full_name_valid other = true -> other <> name_of m ->
   unmarshal_to msg unmarshal a other = None).
Proof. exact any_roundtrip_all. Qed.
Print Assumptions C45_any_roundtrip.

(* the hypothesis is satisfiable and New succeeds: a one-type codec over byte strings *)
Example C45_any_roundtrip_nonvacuous :
  let name := [n2b 65] in
  (forall (m b : list byte), Some m = Some b -> (fun _ v => Some v) name b = Some m) /\
  any_new (list byte) (fun _ => name) (fun m => Some m) [n2b 1] <> None.
Proof. cbv zeta. split; [intros m b H; now inversion H|discriminate]. Qed.
