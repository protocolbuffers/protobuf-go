(* C12 — Oneof members are mutually exclusive.
   Statements only; each closed by [exact] of a lemma proved in Msg/OneofP.v. *)
From Coq Require Import List NArith Bool.
From PB Require Import Base.PBytes Msg.OneofModel Msg.OneofP.
Import ListNotations.
Open Scope N_scope.

(** oneof_invariant, interface-wrapper representation (open, hybrid and opaque generated
    structs): after every history of Set / Clear / Mutable / Clear<Oneof> / generated setters /
    typed-nil assignment / Merge / binary decoding, from any wrapper state: at most one member
    reports Has, WhichOneof names exactly that member, and the wrapper refines the abstract
    [option (member, value)] state. *)
Theorem C12_oneof_invariant_wrapper :
  forall members ops w0, NoDup members ->
  let w := wrun w0 ops in
  (wpopulated members w <= 1)%nat /\
  (forall m, whas w m = true <-> wwhich w = Some m) /\
  wabs w = arun (wabs w0) ops /\
  (forall m, whas w m = ahas (arun (wabs w0) ops) m) /\
  wwhich w = awhich (arun (wabs w0) ops).
Proof. exact wrapper_invariant. Qed.
Print Assumptions C12_oneof_invariant_wrapper.
Example C12_oneof_invariant_wrapper_nonvacuous :
  NoDup [111; 112; 113] /\
  wrun WNil [OSet 111 (OVScalar 5); OMutable 112; OMerge (Some (113, OVBytes []))] = WVal 113 (OVBytes []).
Proof. split; [repeat constructor; cbn; intuition discriminate|reflexivity]. Qed.

(** oneof_invariant, dynamicpb: the [known] map with clearOtherOneofFields, from the empty
    message, for histories that name members of this oneof. *)
Theorem C12_oneof_invariant_dynamic :
  forall members ops, NoDup members -> Forall (fun o => op_ok members o = true) ops ->
  let k := drun members kempty ops in
  (dpopulated members k <= 1)%nat /\
  (forall m, In m members -> (dhas k m = true <-> dwhich members k = Some m)) /\
  dabs members k = arun None ops /\
  (forall m, In m members -> dhas k m = ahas (arun None ops) m) /\
  dwhich members k = awhich (arun None ops).
Proof. exact dynamic_invariant. Qed.
Print Assumptions C12_oneof_invariant_dynamic.
Example C12_oneof_invariant_dynamic_nonvacuous :
  Forall (fun o => op_ok [111; 112] o = true) [OSet 111 (OVScalar 5); OMutable 112; OClear 111] /\
  dwhich [111; 112] (drun [111; 112] kempty [OSet 111 (OVScalar 5); OMutable 112; OClear 111]) = Some 112.
Proof. split; [repeat constructor|reflexivity]. Qed.

(** the generated hybrid/opaque accessors (Which<Oneof>, Has<Member>: Go type switch) agree with
    reflection on every well-formed wrapper; all operations except the direct assignment of a
    typed nil wrapper pointer keep the wrapper well-formed *)
Theorem C12_generated_accessors_agree :
  forall w, wrap_wf w = true ->
  gcase w = match wwhich w with Some m => m | None => 0 end /\ forall m, ghas w m = whas w m.
Proof. exact (fun w H => conj (gcase_which w H) (fun m => ghas_whas w m H)). Qed.
Print Assumptions C12_generated_accessors_agree.
Theorem C12_wellformed_preserved :
  forall w o, wrap_wf w = true -> (forall m, o <> OSetTypedNil m) -> wrap_wf (wstep w o) = true.
Proof. exact wstep_wf. Qed.
Print Assumptions C12_wellformed_preserved.
(* observation (not a violation of C12: reflection stays exclusive): with an ill-formed typed nil
   wrapper pointer the generated accessors report the member as set, reflection does not *)
Theorem C12_typed_nil_accessors_disagree :
  forall m, m <> 0 ->
  gcase (WTypedNil m) = m /\ wwhich (WTypedNil m) = None /\ ghas (WTypedNil m) m = true /\ whas (WTypedNil m) m = false.
Proof. exact typed_nil_disagreement. Qed.
Print Assumptions C12_typed_nil_accessors_disagree.

(* binary decoding: the member of the last occurrence is the populated one *)
Theorem C12_binary_last_wins :
  forall st occ m v, awhich (wire_decode st (occ ++ [(m, v)])) = Some m.
Proof. exact binary_last_wins_which. Qed.
Print Assumptions C12_binary_last_wins.

Theorem C12_binary_last_wins_scalar :
  forall st occ m v, (forall sm, v <> OVMsg sm) -> wire_decode st (occ ++ [(m, v)]) = Some (m, v).
Proof. exact binary_last_wins_scalar. Qed.
Print Assumptions C12_binary_last_wins_scalar.
Example C12_binary_last_wins_scalar_nonvacuous : forall sm, OVScalar 7 <> OVMsg sm.
Proof. discriminate. Qed.

(** a trailing run of occurrences of the same message member merges; anything before it is dropped *)
Theorem C12_binary_last_wins_message :
  forall st pre m block, block <> [] -> awhich (wire_decode st pre) <> Some m ->
  wire_decode st (pre ++ map (fun sm => (m, OVMsg sm)) block) = Some (m, OVMsg (merge_block block)).
Proof. exact binary_last_wins_message. Qed.
Print Assumptions C12_binary_last_wins_message.
Example C12_binary_last_wins_message_nonvacuous :
  wire_decode None ([(111, OVScalar 1)] ++ map (fun sm => (112, OVMsg sm)) [(Some 5, None); (None, Some 6)])
  = Some (112, OVMsg (Some 5, Some 6)) /\ awhich (wire_decode None [(111, OVScalar 1)]) <> Some 112.
Proof. split; [reflexivity|discriminate]. Qed.

(** binary decoding through the wrapper or through dynamicpb is the abstract decoding *)
Theorem C12_binary_decode_is_op_semantics :
  forall st occ, wire_decode st occ = arun st (map (fun mv => OWire (fst mv) (snd mv)) occ).
Proof. exact wire_decode_arun. Qed.
Print Assumptions C12_binary_decode_is_op_semantics.

(** json_text_reject_two_members: every event sequence that names (with a value that is not a
    skipped JSON null) two fields of one oneof is rejected; in particular two distinct members *)
Theorem C12_json_reject_two_members :
  forall o pre e1 mid e2 post,
  names_oneof o e1 -> names_oneof o e2 ->
  exists e, json_decode (pre ++ e1 :: mid ++ e2 :: post) = TErr e.
Proof. exact json_rejects_two_members. Qed.
Print Assumptions C12_json_reject_two_members.
Example C12_json_reject_two_members_nonvacuous :
  names_oneof 0 (mkTev 111 (Some 0) false) /\
  json_decode [mkTev 111 (Some 0) false; mkTev 113 (Some 0) false] = TErr EOneofSet /\
  (* a JSON null on a non-Value member is skipped: this document is accepted (conformance:
     OneofFieldNullFirst / OneofFieldNullSecond) *)
  json_decode [mkTev 111 (Some 0) true; mkTev 113 (Some 0) false] = TOk [113].
Proof. repeat split. Qed.

Theorem C12_text_reject_two_members :
  forall o pre e1 mid e2 post,
  te_oneof e1 = Some o -> te_oneof e2 = Some o ->
  exists e, text_decode (pre ++ e1 :: mid ++ e2 :: post) = TErr e.
Proof. exact text_rejects_two_members. Qed.
Print Assumptions C12_text_reject_two_members.
Example C12_text_reject_two_members_nonvacuous :
  text_decode [mkTev 111 (Some 0) false; mkTev 1 None false; mkTev 113 (Some 0) false] = TErr EOneofSet.
Proof. reflexivity. Qed.
