(* C47 — MessageSet encoding round-trips and matches the item format.
   Statements only; closed by [exact] of lemmas proved in Msg/MsetP.v, Msg/MsetSetP.v and, for the
   translated item codec, Msg/MsetGoP.v.  The model is Msg/MsetModel.v (executed against
   internal/encoding/messageset, internal/impl/codec_messageset.go and
   proto/messageset.go by the harness family "mset").

   Conventions: [wl] is ConsumeFieldValue's wantLen; [kn] says which type ids
   the resolver knows, [pok] which payloads the extension's message type accepts
   (both arbitrary); a MessageSet message is [mset] = extensions sorted by type
   id (payload bytes standing for the extension message) + raw unknown bytes.
   Every length bound [< 2^64] holds for any Go slice. *)
From Coq Require Import List NArith ZArith Bool Lia.
From PB Require Import Base.PBytes Wire.WireModel Msg.MsetModel Msg.MsetWireP Msg.MsetP Msg.MsetSetP.
From PB Require Import Base.GoInt Wire.WireGoBaseP Gen.WireGo Msg.MsetGoRt Gen.MsetGo Msg.MsetGoP.
Import ListNotations.
Open Scope N_scope.

(* ---- the item format: group 1 { type_id = 2 varint; message = 3 bytes } ---- *)
Theorem C47_mset_item_roundtrip :
  forall wl id p rest,
  valid_id id -> N.of_nat (length p) < 2^64 ->
  exists body,
    dec_tag (append_item id p ++ rest) = Ok (1, 3, body) /\
    consume_item wl body = MOk (id, if wl then enc_bytes p else p, rest).
Proof. exact item_roundtrip. Qed.
Print Assumptions C47_mset_item_roundtrip.
Example C47_mset_item_roundtrip_nonvacuous : valid_id 1000 /\ N.of_nat (length [x08; x01]) < 2^64.
Proof. split; [unfold valid_id, max_int32|cbn [length]]; now compute. Qed.

(* any arrangement of the subfields of an item: the last type_id wins (0 when
   there is none: the caller then drops the item), message chunks are
   concatenated in order of arrival (with wantLen: a single chunk keeps its wire
   bytes, merged chunks get a fresh minimal length, no chunk gives a zero
   length), every other subfield is skipped *)
Theorem C47_mset_item_either_order :
  forall wl parts rest,
  Forall valid_part parts ->
  N.of_nat (length (payload_of (chunks_of parts))) < 2^64 ->
  consume_item wl (flat_map render_part parts ++ enc_tag 1 4 ++ rest)
  = MOk (last_id 0 parts, item_message wl (chunks_of parts), rest).
Proof. exact consume_item_parts. Qed.
Print Assumptions C47_mset_item_either_order.
Example C47_mset_item_either_order_nonvacuous :
  Forall valid_part [PChunk (enc_bytes [x08; x01]) [x08; x01]; PJunk 7 0 [x05]; PId 1000; PChunk [x81; x00; x10] [x10]]
  /\ N.of_nat (length (payload_of (chunks_of [PChunk (enc_bytes [x08; x01]) [x08; x01]; PJunk 7 0 [x05]; PId 1000;
                                               PChunk [x81; x00; x10] [x10]]))) < 2^64.
Proof.
  split; [|now vm_compute].
  assert (H1 : valid_part (PChunk (enc_bytes [x08; x01]) [x08; x01])) by (apply lp_enc_bytes; now vm_compute).
  assert (H2 : valid_part (PJunk 7 0 [x05])).
  { split; [unfold valid_num; lia|]. split; [lia|]. split; [reflexivity|].
    intros y. eexists. vm_compute. reflexivity. }
  assert (H3 : valid_part (PId 1000)) by (unfold valid_part, max_int32; lia).
  assert (H4 : valid_part (PChunk [x81; x00; x10] [x10])).
  { apply (lp_of_prefix [x81; x00] [x10]). intros y. reflexivity. }
  repeat (constructor; try assumption).
Qed.

(* message first, type_id second decodes exactly like the canonical order *)
Theorem C47_mset_item_swapped :
  forall wl id p rest,
  valid_id id -> N.of_nat (length p) < 2^64 ->
  consume_item wl (enc_tag 3 2 ++ enc_bytes p ++ enc_tag 2 0 ++ enc_varint id ++ enc_tag 1 4 ++ rest)
  = consume_item wl (item_body id p ++ rest).
Proof. exact item_body_swapped. Qed.
Print Assumptions C47_mset_item_swapped.

(* the two variants of ConsumeFieldValue agree on EVERY input *)
Theorem C47_mset_consume_item_wantlen_agree :
  forall bs, N.of_nat (length bs) < 2^64 ->
  match consume_item false bs with
  | MOk (id, p, r) => exists v, consume_item true bs = MOk (id, v, r) /\ lp v p /\ id <= max_int32
                                /\ (length r < length bs)%nat
  | MErr e => consume_item true bs = MErr e /\ e <> MFuel /\ e <> MImpossible
  end.
Proof. exact consume_item_sim. Qed.
Print Assumptions C47_mset_consume_item_wantlen_agree.

(* ---- messages ---- *)
(* decode (encode content) = content on both paths, for content whose unknown items carry
   minimal length prefixes ([canon]): extensions with distinct known ids and accepted payloads
   (bytes arbitrary otherwise), unknown items with unresolvable ids and arbitrary payload bytes.
   Without [canon] the slow path normalises the prefixes (next theorem; FJ1 is the witness) *)
Theorem C47_mset_roundtrip :
  forall kn pok exts unks,
  content_ok kn pok exts unks -> Forall canon unks ->
  exists bs, encode (mk_mset exts unks) = MOk bs /\
             decode_fast kn pok bs mset_empty = MOk (mk_mset exts unks) /\
             decode_slow kn pok bs mset_empty = MOk (mk_mset exts unks).
Proof. exact mset_roundtrip. Qed.
Print Assumptions C47_mset_roundtrip.
Example C47_mset_roundtrip_nonvacuous :
  content_ok (kn_of [1000]) payload_ok [(1000, [x08; x01])] [(5000, enc_bytes [xff], [xff])]
  /\ Forall canon [(5000, enc_bytes [xff], [xff])].
Proof.
  split; [|repeat constructor].
  split; [|split].
  - constructor; [|constructor]. unfold ext_ok, valid_id, max_int32. cbn [fst snd length].
    split; [lia|]. split; [now vm_compute|]. split; [now vm_compute|now vm_compute].
  - split; [constructor|exact I].
  - constructor; [|constructor]. split; [|now vm_compute].
    unfold witem_ok, valid_id, max_int32. split; [lia|]. split; [|now vm_compute].
    apply lp_enc_bytes. now vm_compute.
Qed.

(* unknown items are preserved: the fast path keeps even a non-minimal length
   prefix byte for byte, the slow path keeps id and payload and re-encodes the
   length *)
Theorem C47_mset_unknown_preserved :
  forall kn pok exts unks,
  content_ok kn pok exts unks ->
  exists bs, encode (mk_mset exts unks) = MOk bs /\
             decode_fast kn pok bs mset_empty = MOk (mk_mset exts unks) /\
             decode_slow kn pok bs mset_empty = MOk (mk_mset_norm exts unks).
Proof. exact mset_unknown_preserved. Qed.
Print Assumptions C47_mset_unknown_preserved.
Example C47_mset_unknown_preserved_nonvacuous :
  content_ok (kn_of [1000]) payload_ok [] [(5000, [x81; x00; xff], [xff]); (3, enc_bytes [], [])].
Proof.
  split; [constructor|split; [exact I|]].
  constructor; [|constructor; [|constructor]].
  - split; [|now vm_compute]. unfold witem_ok, valid_id, max_int32. split; [lia|]. split; [|now vm_compute].
    apply (lp_of_prefix [x81; x00] [xff]). intros y. reflexivity.
  - split; [|now vm_compute]. unfold witem_ok, valid_id, max_int32. split; [lia|]. split; [|now vm_compute].
    apply lp_enc_bytes. now vm_compute.
Qed.

(* Size = length of the encoding, for every message whose Marshal succeeds;
   SizeUnknown agrees with AppendUnknown on every unknown section *)
Theorem C47_mset_size_eq_length :
  forall m bs,
  Forall (fun e => valid_id (fst e) /\ N.of_nat (length (snd e)) < 2^64) (m_ext m) ->
  encode m = MOk bs -> size m = N.of_nat (length bs).
Proof. exact size_eq_length. Qed.
Print Assumptions C47_mset_size_eq_length.
Example C47_mset_size_eq_length_nonvacuous :
  exists bs, encode {| m_ext := [(1000, [x08; x01])]; m_unknown := [xc2; xb8; x02; x01; xff] |} = MOk bs.
Proof. eexists. vm_compute. reflexivity. Qed.

Theorem C47_mset_size_unknown :
  forall u,
  match append_unknown u with
  | MOk bs => size_unknown u = N.of_nat (length bs)
  | MErr _ => size_unknown u = 0
  end.
Proof. exact size_unknown_spec. Qed.
Print Assumptions C47_mset_size_unknown.

(* fast and slow path: same bytes and size for the same message; same
   acceptance, same error, same extensions and the same unknown items (up to
   the spelling of a length prefix) for every input *)
Theorem C47_mset_fast_slow_agree_encode :
  forall m, encode_slow m = encode m /\ size_slow m = size m.
Proof. exact encode_size_fast_slow. Qed.
Print Assumptions C47_mset_fast_slow_agree_encode.

Theorem C47_mset_fast_slow_agree :
  forall kn pok bs s,
  N.of_nat (length bs) < 2^64 ->
  match decode_slow kn pok bs s with
  | MOk t' => exists s', decode_fast kn pok bs s = MOk s' /\ st_rel s' t'
  | MErr e => decode_fast kn pok bs s = MErr e /\ e <> MFuel /\ e <> MImpossible
  end.
Proof. exact decode_fast_slow_agree. Qed.
Print Assumptions C47_mset_fast_slow_agree.

(* ... and "up to the spelling of a length prefix" cannot be dropped (finding FJ1):
   item { type_id 5000, message with length prefix 82 00 } *)
Theorem C47_mset_fast_slow_unknown_bytes_refuted :
  exists f s, decode_fast (fun _ => false) (fun _ => true) fj1_witness mset_empty = MOk f /\
              decode_slow (fun _ => false) (fun _ => true) fj1_witness mset_empty = MOk s /\
              m_unknown f <> m_unknown s.
Proof. exact fast_slow_unknown_differ. Qed.
Print Assumptions C47_mset_fast_slow_unknown_bytes_refuted.

(* the model's loops never run out of fuel and never reach the state in which the Go code would panic *)
Theorem C47_mset_model_total :
  forall kn pok bs s,
  N.of_nat (length bs) < 2^64 ->
  decode_slow kn pok bs s <> MErr MFuel /\ decode_fast kn pok bs s <> MErr MFuel
  /\ decode_fast kn pok bs s <> MErr MImpossible.
Proof. exact decode_no_fuel. Qed.
Print Assumptions C47_mset_model_total.

(* ================================================================== *)
(* Tier T: the same statements about the Go source itself.  Gen/MsetGo.v is
   regenerated from internal/encoding/messageset/messageset.go on every run
   (extractor srcmodel_mset); its calls of protowire.* are the translated
   wire.go functions of Gen/WireGo.v.  [zbytes] is the byte string as the
   translated code sees it; [bn] says whether the argument slice is nil. *)
Open Scope Z_scope.

(* ConsumeFieldValue as written in messageset.go computes consume_item of the
   model on every input (error values by class: go_ParseError of the wire code,
   the errors.New text for an invalid type_id) *)
Theorem C47_go_ConsumeFieldValue_eq_model :
  forall bs bn wl,
  Z.of_nat (length bs) < 2^63 -> (bn = true -> bs = []) ->
  MsetGo.go_ConsumeFieldValue (zbytes bs) bn wl = zres_item (Z.of_nat (length bs)) (consume_item wl bs).
Proof. exact go_ConsumeFieldValue_eq_model. Qed.
Print Assumptions C47_go_ConsumeFieldValue_eq_model.
Example C47_go_ConsumeFieldValue_eq_model_nonvacuous :
  Z.of_nat (length [x10; x01; x0c]) < 2^63 /\ (false = true -> [x10; x01; x0c] = []).
Proof. split; [now vm_compute|discriminate]. Qed.

(* ... and neither indexes out of range (message[nn:], b[:n:n], b[n:]) nor runs out of loop fuel *)
Theorem C47_go_ConsumeFieldValue_total :
  forall bs bn wl,
  Z.of_nat (length bs) < 2^63 -> (bn = true -> bs = []) ->
  exists v, MsetGo.go_ConsumeFieldValue (zbytes bs) bn wl = Val v.
Proof. exact go_ConsumeFieldValue_total. Qed.
Print Assumptions C47_go_ConsumeFieldValue_total.

(* the translated AppendFieldStart / message subfield / AppendFieldEnd, read back
   by the translated ConsumeTag + ConsumeFieldValue, give the type id and the
   message (with its length prefix when wantLen), in either order of the two subfields *)
Theorem C47_go_item_roundtrip :
  forall (wl : bool) (id : N) (p rest : list byte),
  valid_id id -> Z.of_nat (length (append_item id p ++ rest)) < 2^63 ->
  let msg := zbytes (if wl then enc_bytes p else p) in
  exists body,
    go_write_item id p = zbytes (enc_tag 1 3)%N ++ zbytes body /\
    WireGo.go_ConsumeTag (go_write_item id p ++ zbytes rest) = Val (1, 3, Z.of_nat (length (enc_tag 1 3)%N)) /\
    MsetGo.go_ConsumeFieldValue (zbytes body ++ zbytes rest) false wl
      = Val (Z.of_N id, msg, Z.of_nat (length body), GoNil) /\
    exists n,
    MsetGo.go_ConsumeFieldValue
      (zbytes (enc_tag 3 2 ++ enc_bytes p ++ enc_tag 2 0 ++ enc_varint id ++ enc_tag 1 4)%N ++ zbytes rest) false wl
      = Val (Z.of_N id, msg, n, GoNil).
Proof. exact go_item_roundtrip. Qed.
Print Assumptions C47_go_item_roundtrip.
Example C47_go_item_roundtrip_nonvacuous :
  valid_id 1000 /\ Z.of_nat (length (append_item 1000 [x08; x01] ++ [xff])) < 2^63.
Proof. split; [unfold valid_id, max_int32; lia|now vm_compute]. Qed.

(* SizeField(id) + SizeTag(3) + SizeBytes(len p), all as translated, is the
   number of bytes the translated writers produce.  The bound 2^62 is that of go_SizeBytes_spec
   (Wire/WireGoP.v): below it SizeVarint(n) + n stays within int *)
Theorem C47_go_size_eq_length :
  forall id p,
  valid_id id -> (N.of_nat (length p) < 2^62)%N ->
  go_SizeField (Z.of_N id) + WireGo.go_SizeTag 3 + WireGo.go_SizeBytes (len (zbytes p)) = len (go_write_item id p).
Proof. exact go_size_eq_length. Qed.
Print Assumptions C47_go_size_eq_length.

Theorem C47_go_writers_eq_model :
  (forall num, (num <= 2147483647)%N -> go_SizeField (Z.of_N num) = Z.of_N (size_field num)) /\
  (forall b num, (num <= 2147483647)%N ->
     go_AppendFieldStart (zbytes b) (Z.of_N num) = zbytes (b ++ append_field_start num)) /\
  (forall b, go_AppendFieldEnd (zbytes b) = zbytes (b ++ append_field_end)).
Proof. exact (conj go_SizeField_spec (conj go_AppendFieldStart_spec go_AppendFieldEnd_spec)). Qed.
Print Assumptions C47_go_writers_eq_model.
