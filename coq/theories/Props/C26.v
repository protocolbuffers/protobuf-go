(* C26 — JSON and text decoders are total and enforce field uniqueness.
   Statements only; each closed by [exact] of a lemma proved in Json/UniqP.v.

   The documents are field-event trees (Json/UniqModel.v [fld]); [jmsg] / [tmsg] are the event-level
   models of protojson / prototext unmarshalMessage with RecursionLimit [rem]. *)
From Coq Require Import List NArith Bool.
From PB Require Import Json.UniqModel Json.UniqP.
Import ListNotations.

(* internal/set.Ints: Has/Set/Clear/Len of the 64-bit word + map representation refine a finite set of
   numbers, for every op history; no history panics (the nil map is made before the first store) *)
Theorem C26_ints_refines_set : forall ops,
  exists s, ints_run ops ints_empty = Some s /\
    NoDup (spec_run ops []) /\
    (forall n, ints_has s n = mem n (spec_run ops [])) /\
    ints_len s = length (spec_run ops []).
Proof. exact ints_refines_set. Qed.
Print Assumptions C26_ints_refines_set.

(* ---- protojson *)
(* every message body that names one field number twice is rejected (lists and maps too) *)
Theorem C26_json_duplicate_rejected : forall discard rem fs,
  names_twice_j fs -> jmsg discard rem fs <> Accept.
Proof. exact j_duplicate_rejected. Qed.
Print Assumptions C26_json_duplicate_rejected.
Example C26_json_duplicate_rejected_ex :
  names_twice_j [Known 1 CSingular None false []; Unknown false 0; Known 1 CSingular None false []].
Proof. exists [], 1%N, CSingular, None, false, [], [Unknown false 0; Known 1 CSingular None false []], CSingular, None, false, []. cbn. auto. Qed.

Theorem C26_json_two_oneof_members_rejected : forall discard rem fs,
  two_oneof_j fs -> jmsg discard rem fs <> Accept.
Proof. exact j_two_oneof_rejected. Qed.
Print Assumptions C26_json_two_oneof_members_rejected.
Example C26_json_two_oneof_members_rejected_ex :
  two_oneof_j [Known 111 CSingular (Some 0%N) false []; Known 113 CSingular (Some 0%N) false []].
Proof. exists [], 111%N, 0%N, [], [Known 113 CSingular (Some 0%N) false []], 113%N, []. cbn. auto. Qed.

(* anywhere in the document: a duplicate, a oneof pair, or a nested message with one of them *)
Theorem C26_json_violation_rejected : forall discard fs,
  violates_j fs -> forall rem, jmsg discard rem fs <> Accept.
Proof. exact j_violation_rejected. Qed.
Print Assumptions C26_json_violation_rejected.
Example C26_json_violation_rejected_ex :
  violates_j [Known 18 CSingular None false [[Known 1 CSingular None false []; Known 1 CSingular None false []]]].
Proof.
  eapply VJ_child; [left; reflexivity|left; reflexivity|]. apply VJ_dup.
  exists [], 1%N, CSingular, None, false, [], [Known 1 CSingular None false []], CSingular, None, false, []. cbn. auto.
Qed.

(* accepted => the nesting (messages, and brackets of skipped values) is at most RecursionLimit *)
Theorem C26_json_depth_bounded : forall discard rem fs,
  jmsg discard rem fs = Accept -> depth_j fs <= rem.
Proof. exact j_depth_bounded_num. Qed.
Print Assumptions C26_json_depth_bounded.
Example C26_json_depth_bounded_ex :
  jmsg true 3 [Known 2 CSingular None false [[Unknown false 1]]] = Accept /\
  jmsg true 3 [Known 2 CSingular None false [[Unknown false 2]]] = Reject RDepth /\
  depth_j [Known 2 CSingular None false [[Unknown false 1]]] = 3 /\ depth_j [Known 2 CSingular None false [[Unknown false 2]]] = 4.
Proof. vm_compute. auto. Qed.

Theorem C26_json_no_panic : forall discard rem fs, jmsg discard rem fs <> Panic.
Proof. exact j_no_panic. Qed.
Print Assumptions C26_json_no_panic.

(* ---- prototext *)
Theorem C26_text_duplicate_rejected : forall discard rem fs,
  names_twice_t fs -> tmsg discard rem fs <> Accept.
Proof. exact t_duplicate_rejected. Qed.
Print Assumptions C26_text_duplicate_rejected.
Example C26_text_duplicate_rejected_ex :
  names_twice_t [Known 1 CSingular None false []; Known 1 CSingular None false []].
Proof. exists [], 1%N, None, false, [], [Known 1 CSingular None false []], None, false, []. cbn. auto. Qed.

Theorem C26_text_two_oneof_members_rejected : forall discard rem fs,
  two_oneof_t fs -> tmsg discard rem fs <> Accept.
Proof. exact t_two_oneof_rejected. Qed.
Print Assumptions C26_text_two_oneof_members_rejected.
Example C26_text_two_oneof_members_rejected_ex :
  two_oneof_t [Known 111 CSingular (Some 0%N) false []; Known 113 CSingular (Some 0%N) false []].
Proof. exists [], 111%N, 0%N, false, [], [Known 113 CSingular (Some 0%N) false []], 113%N, false, []. cbn. auto. Qed.

Theorem C26_text_violation_rejected : forall discard fs,
  violates_t fs -> forall rem, tmsg discard rem fs <> Accept.
Proof. exact t_violation_rejected. Qed.
Print Assumptions C26_text_violation_rejected.
Example C26_text_violation_rejected_ex :
  violates_t [Known 4 CMap None false [[Known 2 CSingular None false []; ByNum]]].
Proof. eapply VT_child; [left; reflexivity|left; reflexivity|]. apply VT_bynum. cbn. auto. Qed.

(* accepted => nesting (messages, map entries, skipped messages) fits into RecursionLimit;
   the skip path is included (skipMessageValue decrements RecursionLimit; finding F5 was its absence) *)
Theorem C26_text_depth_bounded : forall discard rem fs,
  tmsg discard rem fs = Accept -> depth_t fs <= rem.
Proof. exact t_depth_bounded_num. Qed.
Print Assumptions C26_text_depth_bounded.
Example C26_text_depth_bounded_ex :
  tmsg false 3 [Known 4 CMap None false [[Unknown true 0]]] = Accept /\
  tmsg false 3 [Known 4 CMap None false [[Unknown true 1]]] = Reject RDepth /\
  tmsg false 1 [Known 4 CMap None false []] = Reject RDepth /\
  depth_t [Known 4 CMap None false [[Unknown true 0]]] = 3 /\ depth_t [Known 4 CMap None false []] = 2.
Proof. vm_compute. repeat split. Qed.

Theorem C26_text_no_panic : forall discard rem fs, tmsg discard rem fs <> Panic.
Proof. exact t_no_panic. Qed.
Print Assumptions C26_text_no_panic.

(* ---- prototext unmarshalAny has a loop of its own (type_url: / value: / [type.url] { ... }).
   Full statement (refuted by the faithful model, finding FL3): an Any body that gives Any.value a
   value twice is rejected.  The expanded form tests seenTypeUrl and isExpanded but not seenValue. *)
Theorem C26_text_any_value_twice_refuted :
  exists evs, 2 <= value_sets evs /\ tany evs false false false = Accept.
Proof. exact tany_value_twice_refuted. Qed.
Print Assumptions C26_text_any_value_twice_refuted.

Theorem C26_text_any_value_twice_except_FL3 : forall evs,
  excl_FL3 evs = false -> 2 <= value_sets evs -> tany evs false false false <> Accept.
Proof. exact tany_value_twice_except_FL3. Qed.
Print Assumptions C26_text_any_value_twice_except_FL3.
Example C26_text_any_value_twice_except_FL3_ex :
  excl_FL3 [AE Accept; AV] = false /\ 2 <= value_sets [AE Accept; AV].
Proof. cbn. auto. Qed.
