(* C35 — Descriptor validation never crashes and rejects invalid schemas.
   Statements only; each closed by [exact] of a lemma proved in Desc/Validate*P.v.
   The model is Desc/ValidateModel.v (protodesc.FileOptions.New on a small descriptor-proto
   AST, checks in the order of the code, first error class returned); it is executed against
   protodesc on every run (family "dval").  Totality of the REAL code is established by search
   only (harness, subprocess isolation); the theorems below are about the model. *)
From Coq Require Import List NArith ZArith Bool.
From PB Require Import Desc.ValidateModel Desc.ValidateP Desc.ValidateSoundP Desc.ValidateTotalP Desc.ValidateBaseP Desc.ValidateRangesP
                       Desc.FeaturesModel Desc.FeaturesP Desc.VisibleModel Desc.VisibleP.
Import ListNotations.
Open Scope Z_scope.

(* validate_total: the model has no Panic outcome and its only fuel-indexed loop (the scope
   walk of findDescriptor) never runs out of fuel: every input is accepted or rejected with a
   genuine error class. *)
Theorem C35_validate_total : forall legacy allow f, validate legacy allow f <> Reject E_outoffuel.
Proof. exact validate_total. Qed.
Print Assumptions C35_validate_total.

(* validate_sound (_partial): if the model accepts a file (build without protolegacy), then no
   message of the tree exhibits any of the definite errors of [msg_definite_error]
     duplicate field numbers, use of a reserved name, duplicate reserved names, field number
     outside 1..2^29-1, invalid label, a message field with an extendee, an empty oneof,
     proto3: required field / extension ranges, proto3_optional outside proto3 or on a
     non-optional field, MessageSet
   and no enum exhibits any of [enum_definite_error]
     empty enum, duplicate numbers without allow_alias, allow_alias without aliases, open enum
     whose first value is not zero, use of a reserved name, duplicate reserved names, value
     without a number.
   The range-related classes (invalid / overlapping ranges, use of reserved numbers, fields in
   extension ranges) are C35_validate_sound_ranges below.
   _partial: the remaining definite-error classes of the property text (map-entry and group
   shape, non-consecutive oneofs, duplicate declared names, unresolvable references) are checked
   by the model in code order and compared with the implementation on every run, but their
   declarative characterisation is not proved. *)
Theorem C35_validate_sound_partial : forall allow f,
  validate false allow f = Accept ->
  (forall m, In m (file_msgs f) -> ~ msg_definite_error (fl_syntax f) m) /\
  (forall e, In e (file_enums f) -> ~ enum_definite_error (fl_syntax f) e).
Proof. exact validate_sound. Qed.
Print Assumptions C35_validate_sound_partial.

(* validate_sound, ranges: an accepted file has, in every message, only valid reserved and
   extension ranges (1 <= start <= end-1 <= 2^29-1, with the int32 wrap of the code's End()),
   no range declared twice, pairwise disjoint reserved ranges, pairwise disjoint extension
   ranges, reserved ranges disjoint from extension ranges, and no field numbered inside any of
   them; and in every enum only valid, distinct, pairwise disjoint reserved ranges that contain
   no value number. *)
Theorem C35_validate_sound_ranges : forall allow f,
  validate false allow f = Accept ->
  (forall m, In m (file_msgs f) -> ~ msg_range_error m) /\
  (forall e, In e (file_enums f) -> ~ enum_range_error e).
Proof. exact validate_sound_ranges. Qed.
Print Assumptions C35_validate_sound_ranges.

(* ranges_checkvalid_spec: what FieldRanges.CheckValid (sort by start + one pass) accepting a list
   implies: every declared range is valid, no range is repeated, any two distinct ranges are
   disjoint, and Has (binary search over the sorted copy) decides membership.  One direction only;
   that every such list is accepted is C36_check_valid_spec, on the model of Desc/DescRangesModel.v. *)
Theorem C35_ranges_checkvalid_spec : forall ms l,
  field_ranges_ok ms l = true ->
  (forall r, In r l -> 1 <= fst r <= fr_end r /\ (ms = false -> fr_end r <= 536870911)) /\ NoDup l /\
  (forall a b, In a l -> In b l -> a <> b -> disjoint fr_end a b) /\
  (forall n, field_ranges_has l n = true <-> exists r, In r l /\ fst r <= n <= fr_end r).
Proof. exact field_ranges_ok_spec. Qed.
Print Assumptions C35_ranges_checkvalid_spec.

Theorem C35_enum_ranges_checkvalid_spec : forall l,
  enum_ranges_ok l = true ->
  (forall r, In r l -> fst r <= snd r) /\ NoDup l /\
  (forall a b, In a l -> In b l -> a <> b -> disjoint snd a b) /\
  (forall n, enum_ranges_has l n = true <-> exists r, In r l /\ fst r <= n <= snd r).
Proof. exact enum_ranges_ok_spec. Qed.
Print Assumptions C35_enum_ranges_checkvalid_spec.

(* checkoverlap_spec: the two-pointer sweep of CheckOverlap over two lists that passed
   CheckValid reports no overlap only if every range of one is disjoint from every range of
   the other. *)
Theorem C35_checkoverlap_spec : forall ms a b,
  field_ranges_ok ms a = true -> field_ranges_ok ms b = true -> ranges_no_overlap a b = true ->
  forall x y, In x a -> In y b -> disjoint fr_end x y.
Proof. exact ranges_no_overlap_spec. Qed.
Print Assumptions C35_checkoverlap_spec.

Example C35_ranges_nonvacuous :
  field_ranges_ok false [(50, 60); (10, 20); (30, 40)] = true /\
  field_ranges_ok false [(40, 50); (20, 30); (60, 70)] = true /\
  ranges_no_overlap [(50, 60); (10, 20); (30, 40)] [(40, 50); (20, 30); (60, 70)] = true /\
  ranges_no_overlap [(50, 60); (10, 20); (30, 40)] [(40, 50); (20, 31); (60, 70)] = false /\
  field_ranges_ok false [(10, 20); (19, 30)] = false /\
  field_ranges_has [(50, 60); (10, 20); (30, 40)] 39 = true /\
  field_ranges_has [(50, 60); (10, 20); (30, 40)] 40 = false.
Proof. exact ranges_examples. Qed.

(* what acceptance means structurally: every message declaration of the tree passed its own
   checks and every enum declaration passed validateEnumDeclarations *)
Theorem C35_accept_structure : forall legacy allow f,
  validate legacy allow f = Accept ->
  (forall m, In m (file_msgs f) -> msg_ok legacy allow (fl_syntax f) (file_table f) m) /\
  (forall e, In e (file_enums f) -> validate_enum (fl_syntax f) e = Ok tt).
Proof. exact accept_structure. Qed.
Print Assumptions C35_accept_structure.

(* validate_accepts_base: files built by the explicit valid-by-construction predicate
   [base_file] (flat messages, scalar fields, valid distinct numbers, file-wide distinct valid
   names, any syntax, any json_name / packed option) are accepted under both AllowUnresolvable
   settings. *)
Theorem C35_validate_accepts_base : forall legacy allow f, base_file f -> validate legacy allow f = Accept.
Proof. exact validate_accepts_base. Qed.
Print Assumptions C35_validate_accepts_base.

Example C35_validate_accepts_base_nonvacuous :
  base_file ex_file /\ validate false false ex_file = Accept /\ validate false true ex_file = Accept.
Proof. exact ex_file_base. Qed.

(* non-vacuity of soundness: the hypothesis is satisfiable (above), and the checks do fire *)
Example C35_validate_sound_nonvacuous :
  validate false false
    (mkFile 0 [112%N] [] [Msg [77%N] [ex_field [97%N] 1 1 5; ex_field [98%N] 1 1 5] [] [] [] [] [] [] [] false false] [])
  = Reject E_m_dupnum /\
  validate false false (mkFile 1 [] [mkEnum [69%N] [mkEValue [65%N] (Some 1)] false [] []] [] []) = Reject E_e_first.
Proof. exact checks_fire. Qed.

(* ---------- multi-file schemas: which files a reference may resolve into (Desc/VisibleModel.v
   mirrors the importSet construction of desc.go; compared with the implementation on random
   import graphs, op "visible") *)

(* import_visibility_sound: whatever the import set contains is the file itself, a direct
   import, or a file reachable from a direct import through PUBLIC import edges only.
   _partial: the converse (completeness of the fuel-bounded traversal for acyclic graphs) is
   checked on the examples below and by the correspondence run, not proved. *)
Theorem C35_import_visibility_sound_partial : forall g a f, visible_b g a f = true -> visible g a f.
Proof. exact visible_b_sound. Qed.
Print Assumptions C35_import_visibility_sound_partial.

(* when no direct import of [a] re-exports anything, nothing beyond the direct imports is visible
   (the a -> b -> c shape with a non-public b -> c edge) *)
Theorem C35_no_public_edges_only_direct : forall g a f,
  (forall d p, In (d, p) (imports_of g a) -> forall j, ~ In (j, true) (imports_of g d)) ->
  visible g a f -> f = a \/ exists p, In (f, p) (imports_of g a).
Proof. exact no_public_edges_only_direct. Qed.
Print Assumptions C35_no_public_edges_only_direct.

Example C35_import_visibility_nonvacuous :
  (visible_b [[]; [(0, false)]; [(1, false)]] 2 0 = false /\
   visible_b [[]; [(0, true)]; [(1, false)]] 2 0 = true /\
   visible_b [[]; [(0, false)]; [(1, true)]] 2 0 = false /\
   visible_b [[]; [(0, true)]; [(1, true)]; [(2, false)]] 3 0 = true /\
   visible_b [[]; [(0, true)]; [(1, false)]; [(2, false)]] 3 0 = false /\
   visible_b [[]; []; [(0, false); (1, true)]; [(2, true)]; [(3, false)]] 4 1 = true /\
   visible_b [[]; []; [(0, false); (1, true)]; [(2, true)]; [(3, false)]] 4 0 = false)%nat.
Proof. exact visible_examples. Qed.

(* ---------- recorded findings: where "rejects every definite error / never crashes" fails *)

(* FM1: an invalid [packed = true] (non-repeated field) is accepted: the "is not packable" check
   of desc_validate.go can never fire *)
Theorem C35_rejects_invalid_packed_refuted :
  exists f, validate false false f = Accept /\
    exists m fl, In m (file_msgs f) /\ In fl (m_fields m) /\ f_packed fl = Some true /\ f_label fl = 1.
Proof. exact invalid_packed_accepted. Qed.
Print Assumptions C35_rejects_invalid_packed_refuted.

(* FM2: a message field numbered in the implementation-reserved range 19000..19999 is accepted *)
Theorem C35_rejects_reserved_implementation_numbers_refuted :
  exists f, validate false false f = Accept /\
    exists m fl, In m (file_msgs f) /\ In fl (m_fields m) /\ 19000 <= f_num fl <= 19999.
Proof. exact reserved_implementation_number_accepted. Qed.
Print Assumptions C35_rejects_reserved_implementation_numbers_refuted.

(* F10: in front of the modelled part, New resolves the edition defaults (model in
   Desc/FeaturesModel.v over the regenerated defaults table); for an edition number that
   toEditionProto does not know this panics, and for edition 0 it calls os.Exit — reachable
   because desc.go skips its edition check under the cmd/protoc-gen-go/testdata/ prefix *)
Theorem C35_never_panics_refuted_F10 : defaults_for 99999 = DPanic /\ defaults_for 0 = DExit.
Proof. exact (conj defaults_unknown_edition_panics defaults_edition_zero_exits). Qed.
Print Assumptions C35_never_panics_refuted_F10.
