(* C37 -- Compact descriptor builder agrees with protodesc.
   Statements only; each closed by [exact] of a lemma proved in Desc/ConvertP.v.
   Model: Desc/ConvertModel.v ([fd_build] = filedesc.Builder on the decoded proto,
   [new_file] = protodesc.NewFile without validation). *)
From Coq Require Import List NArith ZArith Bool.
From PB Require Import Base.PBytes Desc.ConvertModel Desc.ConvertP.
Import ListNotations.
Open Scope N_scope.

(* On every proto that protodesc.NewFile accepts and that is well formed for the builder
   ([wf37]: types set, references absolute -- what protoc emits -- and none of the two
   recorded divergences FK2, FK3), filedesc.Builder yields the same resolved descriptor, hence the same
   value for every accessor computed from it.
   _partial: wire decoding of the raw descriptor is abstract (second theorem: any decoder that
   inverts the encoder); options opaque; services by name; lazy initialisation is not modelled
   as state (the harness compares snapshots before and after forcing it). *)
Theorem C37_builders_agree_partial :
  forall canon env p d, wf37 p = true -> new_file canon env p = Ok d -> fd_build canon env p = Ok d.
Proof. exact builders_agree. Qed.
Print Assumptions C37_builders_agree_partial.

Theorem C37_builders_agree_raw_partial :
  forall (encode : FileP -> bytes) (decode : bytes -> option FileP),
    (forall p, decode (encode p) = Some p) ->
    forall canon env p d, wf37 p = true -> new_file canon env p = Ok d ->
    raw_build decode canon env (encode p) = Ok d.
Proof. exact builders_agree_raw. Qed.
Print Assumptions C37_builders_agree_raw_partial.

(* the exclusions in [wf37] are necessary: the faithful models disagree (findings FK3, FK2; on the FK1 input the models agree: last example) *)
Theorem C37_builders_agree_refuted_packed_feature :
  exists p, first_field_packed (new_file idc [] p) = Some false /\ first_field_packed (fd_build idc [] p) = Some true.
Proof. exact builders_disagree_packed_feature. Qed.
Print Assumptions C37_builders_agree_refuted_packed_feature.

Theorem C37_builders_agree_refuted_extension_lazy :
  exists p, first_ext_lazy (new_file idc [] p) = Some false /\ first_ext_lazy (fd_build idc [] p) = Some true.
Proof. exact builders_disagree_extension_lazy. Qed.
Print Assumptions C37_builders_agree_refuted_extension_lazy.

(* ---- non-vacuity: a file that satisfies wf37 and is accepted by new_file *)
Example C37_ex_wf37 :
  wf37 (normalize idc [] ex_file) = true /\ is_ok (new_file idc [] (normalize idc [] ex_file)) = true.
Proof. exact ex_file_wf37. Qed.

Example C37_ex_decoder : forall p : FileP, (fun _ : bytes => Some p) ((fun _ : FileP => @nil byte) p) = Some p.
Proof. reflexivity. Qed.

(* FK1: an enum-level enum_type override is honoured by both models *)
Example C37_ex_enum_features :
  wf37 fk1_file = true /\
  first_enum_open (new_file idc [] fk1_file) = Some false /\ first_enum_open (fd_build idc [] fk1_file) = Some false.
Proof. exact builders_agree_enum_features_example. Qed.
