(* C06 — Binary decoding is total, bounded and agrees with validation.
   Statements only; closed by [exact] of lemmas proved in Msg/DecTotalP.v, Msg/ValidateMsgP.v,
   Msg/InitSoundP.v, Msg/ValidateStackP.v and Msg/ValidateStackRunP.v; the two refutations at the end
   by computation on a witness.

   Models: Msg/MsgDec.v (the merging decoder, table-driven path [slow = false] and reflection
   path [slow = true]; owned by C03) and Msg/ValidateMsgModel.v (the fast-path validator
   internal/impl/validate.go in recursive-descent form, proto.CheckInitialized on decoded
   values, the error class of proto.Unmarshal).  Both are executed against the implementation on
   every run (families msg and dectot).

   What is proved, for every schema table, recursion limit, message type and byte string:
     decode_total            the decoder (either path, into an empty or a populated message)
                             never runs out of fuel -- [DFuel] also stands for the slice-bounds
                             panic of the reflection path's group handling -- and, on a schema
                             table without dangling type indices, never reports [DSchema]
     decode_no_overread      what a message/group tag loop leaves unread is a suffix of its input
     decode_fails_iff_malformed   on the table-driven path: error <-> not well formed, where
                             well formed = accepted by the validator without the FWB4 quirk, i.e.
                             every tag/value parses, lengths fit, groups are balanced and
                             matched, packed payloads split into elements, nesting stays within
                             the limit (map entries cost a level), enforced strings are UTF-8
     validate_valid_sound    Valid (no quirk) -> Unmarshal succeeds
     validate_valid_quirk    Valid with the quirk -> Unmarshal fails with the depth error; this
                             REFUTES the plain statement "Valid -> Unmarshal succeeds" as the
                             code stands (finding FWB4, witness below)
     validate_invalid_sound  Invalid -> Unmarshal fails, for schemas without the FL1 field shape
                             (a repeated string extension with enforced UTF-8); refuted
                             without that hypothesis (witness below)
     validate_total          the validator never runs out of fuel
     validate_stack_eq_recursive   the explicit-stack machine of the Go code = the recursive-descent
                             validator on whole runs (schemas without dangling type indices), so
                             validate_* hold of the machine: validate_stack_total / _valid_sound_or_FWB4
                             / _invalid_sound_except_FL1 / _initialized_sound
   _partial / not covered: ValidationUnknown (aberrant message types, resolver failures) and the
   MessageSet item branch (build tag protolegacy) are outside the schema-table model;
   and [ValidationWrongWireType] (only returned by skipField, modelled in Msg/LazyModel.v).
     validate_initialized_sound   Valid with the initialized flag set, and the decoder returns v
                             -> CheckInitialized v succeeds: the validator never reports a
                             partial message as initialized (schemas with unique field numbers
                             whose required fields are not oneof members and whose map values
                             are not groups -- true of every descriptor protodesc accepts) *)
From Coq Require Import List NArith ZArith Bool.
From PB Require Import Base.PBytes Wire.WireModel.
From PB Require Import Msg.MsgSchema Msg.MsgValue Msg.MsgEnc Msg.MsgDec Msg.MsgExample.
From PB Require Import Msg.ValidateMsgModel Msg.ValidateMsgP Msg.DecTotalP Msg.InitSoundP Msg.ValidateStackP.
From PB Require Import Msg.ValidateStackRunP.
Import ListNotations.
Open Scope N_scope.

Theorem C06_decode_total :
  forall (slow : bool) (S : schema) (limit tid : nat) (bs : list byte) (old : value),
    dt_schema_wf S -> nth_error S tid <> None ->
    msg_decode_into slow S limit tid bs old <> DErr DFuel /\
    msg_decode_into slow S limit tid bs old <> DErr DSchema.
Proof. exact dt_decode_total. Qed.
Print Assumptions C06_decode_total.

Theorem C06_decode_never_out_of_fuel :
  forall (slow : bool) (S : schema) (limit tid : nat) (bs : list byte) (old : value),
    msg_decode_into slow S limit tid bs old <> DErr DFuel.
Proof. exact dt_decode_never_fuel. Qed.
Print Assumptions C06_decode_never_out_of_fuel.

Theorem C06_decode_no_overread :
  forall (slow : bool) (S : schema) (dep tid : nat) (grp : N) (bs : list byte)
         (acc m : msg_macc) (r : list byte),
    msg_decode_msg slow S dep tid grp (x00 :: bs) bs acc = DOk (m, r) ->
    exists consumed, bs = consumed ++ r.
Proof. exact dt_no_overread. Qed.
Print Assumptions C06_decode_no_overread.

Theorem C06_decode_fails_iff_malformed :
  forall (S : schema) (limit tid : nat) (bs : list byte),
    vp_fl1_free S ->
    ((exists e, msg_decode false S limit tid bs = DErr e) <-> vp_wellformed S limit tid bs = false).
Proof. exact vp_fails_iff. Qed.
Print Assumptions C06_decode_fails_iff_malformed.

Theorem C06_validate_total :
  forall (S : schema) (limit tid : nat) (bs : list byte),
    fst (fst (vm_validate S limit tid bs)) <> 0.
Proof. exact vp_validate_total. Qed.
Print Assumptions C06_validate_total.

Theorem C06_validate_valid_sound_except_FWB4 :
  forall (S : schema) (limit tid : nat) (bs : list byte) (initialized : bool),
    vm_validate S limit tid bs = (3, initialized, false) ->
    exists v, msg_decode false S limit tid bs = DOk v.
Proof. exact vp_valid_sound. Qed.
Print Assumptions C06_validate_valid_sound_except_FWB4.

Theorem C06_validate_valid_quirk :
  forall (S : schema) (limit tid : nat) (bs : list byte) (initialized : bool),
    vm_validate S limit tid bs = (3, initialized, true) ->
    msg_decode false S limit tid bs = DErr DDepth.
Proof. exact vp_valid_quirk. Qed.
Print Assumptions C06_validate_valid_quirk.

Theorem C06_validate_invalid_sound_except_FL1 :
  forall (S : schema) (limit tid : nat) (bs : list byte),
    vp_fl1_free S -> fst (fst (vm_validate S limit tid bs)) = 2 ->
    exists e, msg_decode false S limit tid bs = DErr e.
Proof. exact vp_invalid_sound. Qed.
Print Assumptions C06_validate_invalid_sound_except_FL1.

Theorem C06_validate_initialized_sound :
  forall (S : schema) (limit tid : nat) (bs : list byte) (quirk : bool) (v : value),
    is_schema_ok S ->
    vm_validate S limit tid bs = (3, true, quirk) ->
    msg_decode false S limit tid bs = DOk v ->
    msg_check_init S tid v = true.
Proof. exact is_validate_initialized_sound. Qed.
Print Assumptions C06_validate_initialized_sound.

(* The explicit-stack state machine of MessageInfo.validate ([vm_run] / [vm_validate_stack]: a stack of
   states with endGroup / tail / requiredMask, depth -- on push and ++ on pop, the one/two-byte
   fast paths for tags and lengths, the unrolled varint skip, fuel 2|b|+2) computes, on WHOLE RUNS,
   exactly what the recursive-descent validator computes about which the theorems above are
   proved: same status (Valid / Invalid, never out of fuel) and same [initialized] output, for
   every schema table without dangling type indices, every recursion limit, message type and
   input.  Proof (Msg/ValidateStackRunP.v): induction on the depth budget and the input with the
   stack invariant "a frame = a pending call of the recursive form" (push = call, pop = return;
   the frame's requiredMask is the recursive loop's list of required numbers seen, a map-entry
   frame's bit 2 is its value-seen flag), and the step count n + 2|rest| <= 2|b| + 1 per frame
   that justifies the fuel of the Go-shaped loop.
   The hypothesis [dt_schema_wf] (every message/group-typed field names an existing table; its
   boolean form [dt_schema_wfb] is evaluated on every schema of every `val` case of the run,
   ocaml/fam_dectot.ml, and a table that fails it fails the case) is needed by the MODEL only: on a dangling
   index the recursive form fails ([nth_error]) while the machine reads an empty table ([nth]);
   [C06_validate_stack_eq_recursive_needs_wf] is that witness.  The quirk flag (FWB4) is an
   output of the recursive form only; the machine has no such output. *)
Theorem C06_validate_stack_eq_recursive :
  forall (S : schema) (limit tid : nat) (bs : list byte),
    dt_schema_wf S ->
    vm_validate_stack S limit tid bs =
    (fst (fst (vm_validate S limit tid bs)), snd (fst (vm_validate S limit tid bs))).
Proof. exact vs_stack_eq_recursive. Qed.
Print Assumptions C06_validate_stack_eq_recursive.

Theorem C06_validate_stack_eq_recursive_needs_wf :
  exists (S : schema) (limit tid : nat) (bs : list byte),
    vm_validate_stack S limit tid bs <>
    (fst (fst (vm_validate S limit tid bs)), snd (fst (vm_validate S limit tid bs))).
Proof. exact vs_stack_neq_dangling. Qed.
Print Assumptions C06_validate_stack_eq_recursive_needs_wf.

(* hence the properties of the recursive form are properties of the machine *)
Theorem C06_validate_stack_total :
  forall (S : schema) (limit tid : nat) (bs : list byte),
    dt_schema_wf S -> fst (vm_validate_stack S limit tid bs) <> 0.
Proof. exact vs_stack_total. Qed.
Print Assumptions C06_validate_stack_total.

Theorem C06_validate_stack_valid_sound_or_FWB4 :
  forall (S : schema) (limit tid : nat) (bs : list byte) (initialized : bool),
    dt_schema_wf S -> vm_validate_stack S limit tid bs = (3, initialized) ->
    (exists v, msg_decode false S limit tid bs = DOk v) \/ msg_decode false S limit tid bs = DErr DDepth.
Proof. exact vs_stack_valid_cases. Qed.
Print Assumptions C06_validate_stack_valid_sound_or_FWB4.

Theorem C06_validate_stack_invalid_sound_except_FL1 :
  forall (S : schema) (limit tid : nat) (bs : list byte),
    dt_schema_wf S -> vp_fl1_free S -> fst (vm_validate_stack S limit tid bs) = 2 ->
    exists e, msg_decode false S limit tid bs = DErr e.
Proof. exact vs_stack_invalid_sound. Qed.
Print Assumptions C06_validate_stack_invalid_sound_except_FL1.

Theorem C06_validate_stack_initialized_sound :
  forall (S : schema) (limit tid : nat) (bs : list byte) (v : value),
    dt_schema_wf S -> is_schema_ok S ->
    vm_validate_stack S limit tid bs = (3, true) ->
    msg_decode false S limit tid bs = DOk v ->
    msg_check_init S tid v = true.
Proof. exact vs_stack_initialized_sound. Qed.
Print Assumptions C06_validate_stack_initialized_sound.

(* the per-field step of that proof, kept as a statement of its own: the action the machine takes
   for one field of a message/group state (skip, push a state, fail) is the recursive step
   [vr_step]; its fast paths are protowire.ConsumeVarint. *)
Theorem C06_validate_stack_field_eq_recursive :
  forall (reqof : nat -> bool) (md : mdesc) (vsub : vr_t) (vsub2 : option vr_t) (num typ : N) (r : list byte),
    vs_step_rel reqof md vsub vsub2 num typ r
                (vm_field_action (vs_vt_of md num) num typ r) (vr_step reqof md vsub vsub2 num typ r).
Proof. exact vs_step_action. Qed.
Print Assumptions C06_validate_stack_field_eq_recursive.

Theorem C06_validate_stack_fastpaths :
  forall b : list byte,
    vm_fast_varint b = match dec_varint b with Ok (v, r) => Some (v, r) | Err _ => None end /\
    vm_skip_varint b = match dec_varint b with Ok (_, r) => Some r | Err _ => None end.
Proof. exact (fun b => conj (vs_fast_varint b) (vs_skip_varint b)). Qed.
Print Assumptions C06_validate_stack_fastpaths.

(* ---------- refutations of the unrestricted statements (findings) ---------- *)
(* FWB4: a map field occurring as VARINT at recursion limit 1: Valid, but Unmarshal fails *)
Definition C06_map_schema : schema :=
  [[mkF 1 (KS SkInt32) (CMap SkInt32 false 0) None false false false]].
Theorem C06_validate_valid_sound_refuted :
  exists (S : schema) (limit tid : nat) (bs : list byte),
    fst (fst (vm_validate S limit tid bs)) = 3 /\ msg_decode false S limit tid bs = DErr DDepth.
Proof. exists C06_map_schema, 1%nat, 0%nat, [x08; x00]. vm_compute. split; reflexivity. Qed.
Print Assumptions C06_validate_valid_sound_refuted.

(* FL1: a repeated string extension with enforced UTF-8 holding 0xff: Invalid, Unmarshal succeeds *)
Definition C06_fl1_schema : schema :=
  [[mkF 1 (KS SkString) CRep None true true false]].
Theorem C06_validate_invalid_sound_refuted :
  exists (S : schema) (limit tid : nat) (bs : list byte) (v : value),
    fst (fst (vm_validate S limit tid bs)) = 2 /\ msg_decode false S limit tid bs = DOk v.
Proof.
  exists C06_fl1_schema, 5%nat, 0%nat, [x0a; x01; xff], (VMsg [(1, [VS (SBy [xff])])] []).
  vm_compute. split; reflexivity.
Qed.
Print Assumptions C06_validate_invalid_sound_refuted.

(* ---------- non-vacuity ---------- *)
Example C06_example_schema_wf : dt_schema_wf ex_schema /\ vp_fl1_free ex_schema /\ nth_error ex_schema 0 <> None.
Proof.
  split; [apply dt_schema_wfb_spec; vm_compute; reflexivity|].
  split; [apply vp_fl1_freeb_spec; vm_compute; reflexivity|discriminate].
Qed.
(* the example message is Valid and initialized at limit 3, Invalid at limit 2 (depth) *)
Example C06_example_validate :
  vm_validate ex_schema 3 0 (msg_encode ex_schema 0 ex_msg) = (3, true, false) /\
  vm_validate ex_schema 2 0 (msg_encode ex_schema 0 ex_msg) = (2, false, false) /\
  vp_wellformed ex_schema 3 0 (msg_encode ex_schema 0 ex_msg) = true.
Proof. vm_compute. repeat split; reflexivity. Qed.
(* truncating it makes it Invalid, and the decoder fails with a parse error *)
Example C06_example_truncated :
  fst (fst (vm_validate ex_schema 3 0 (firstn 20 (msg_encode ex_schema 0 ex_msg)))) = 2 /\
  msg_decode false ex_schema 3 0 (firstn 20 (msg_encode ex_schema 0 ex_msg)) = DErr DParse.
Proof. vm_compute. split; reflexivity. Qed.
(* the quirk hypothesis is satisfiable: the FWB4 witness is Valid with the quirk flag *)
Example C06_example_quirk : vm_validate C06_map_schema 1 0 [x08; x00] = (3, true, true).
Proof. vm_compute. reflexivity. Qed.
(* the hypotheses of validate_initialized_sound hold of the example: the schema is regular, the
   validator reports initialized, the decoder returns a value, and CheckInitialized accepts it *)
Example C06_example_initialized :
  is_schema_ok ex_schema /\
  vm_validate ex_schema 3 0 (msg_encode ex_schema 0 ex_msg) = (3, true, false) /\
  msg_decode false ex_schema 3 0 (msg_encode ex_schema 0 ex_msg) = DOk ex_msg /\
  msg_check_init ex_schema 0 ex_msg = true.
Proof. split; [apply is_schema_okb_spec; vm_compute; reflexivity|]. vm_compute. repeat split; reflexivity. Qed.
(* a message without its required field 10 is Valid but not initialized *)
Example C06_example_partial : vm_validate ex_schema 3 0 [x08; x01] = (3, false, false).
Proof. vm_compute. reflexivity. Qed.
(* the hypotheses of the stack-machine theorems hold of the example schema, and the machine gives
   the recursive form's verdicts on the example inputs (Valid+initialized, Invalid by depth,
   Valid+partial) *)
Example C06_example_stack :
  dt_schema_wf ex_schema /\ is_schema_ok ex_schema /\
  vm_validate_stack ex_schema 3 0 (msg_encode ex_schema 0 ex_msg) = (3, true) /\
  vm_validate_stack ex_schema 2 0 (msg_encode ex_schema 0 ex_msg) = (2, false) /\
  vm_validate_stack ex_schema 3 0 [x08; x01] = (3, false).
Proof.
  split; [apply dt_schema_wfb_spec; vm_compute; reflexivity|].
  split; [apply is_schema_okb_spec; vm_compute; reflexivity|].
  vm_compute. repeat split; reflexivity.
Qed.
