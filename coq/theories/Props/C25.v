(* C25 -- Text string literals encode arbitrary bytes losslessly.
   Statements only; each closed by [exact] of a lemma proved in Text/*P.v. *)
From Coq Require Import List NArith ZArith Bool.
From PB Require Import Base.PBytes Base.Utf8Model Wire.WireModel Text.TextStrModel Text.TextStrP
  Wire.WireGrammar Text.TextUnknownModel Text.TextUnknownP Text.TextUnknownWireP
  Text.TextNumModel Text.TextNumP.
From PB Require Import Base.GoInt Text.TextEscGoSup Gen.TextEscGo Text.TextEscGoP Text.TextEscGoAppP.
Import ListNotations.
Open Scope N_scope.

(* whatever text.appendString writes (either EmitASCII setting), parseString
   reads back as exactly the original bytes and stops right after the closing
   quote -- for EVERY byte list (invalid UTF-8, controls, quotes, ...) *)
Theorem C25_text_string_roundtrip :
  forall ascii bs tail, parse_string (append_string ascii bs ++ tail) = SOk (bs, tail).
Proof. exact text_string_roundtrip. Qed.
Print Assumptions C25_text_string_roundtrip.

(* the same through text.UnmarshalString *)
Theorem C25_unmarshal_string_roundtrip :
  forall ascii bs, unmarshal_string (append_string ascii bs) = SOk bs.
Proof. exact text_unmarshal_string_roundtrip. Qed.
Print Assumptions C25_unmarshal_string_roundtrip.

(* at the Decoder level (parseStringValue: the trailing consume and the
   concatenation of adjacent literals): the literal is read back as one string
   token, and two literals separated by whitespace/comments concatenate *)
Theorem C25_string_token_roundtrip :
  forall ascii bs rest f, no_quote_head (consume_ws false rest) ->
  parse_string_value (S f) (append_string ascii bs ++ rest) = SOk (bs, consume_ws false rest).
Proof. exact text_string_value_roundtrip. Qed.
Print Assumptions C25_string_token_roundtrip.

Theorem C25_string_token_concat :
  forall a1 bs1 a2 bs2 ws rest f,
  consume_ws false (ws ++ append_string a2 bs2 ++ rest) = append_string a2 bs2 ++ rest ->
  no_quote_head (consume_ws false rest) ->
  parse_string_value (S (S f)) (append_string a1 bs1 ++ ws ++ append_string a2 bs2 ++ rest)
  = SOk (bs1 ++ bs2, consume_ws false rest).
Proof. exact text_string_value_concat. Qed.
Print Assumptions C25_string_token_concat.

(* the model's out-of-fuel outcome is unreachable: on EVERY input parseString
   returns a string, unexpected-EOF or a syntax error *)
Theorem C25_parse_string_total : forall inp, parse_string inp <> SErr SFuel.
Proof. exact parse_string_total. Qed.
Print Assumptions C25_parse_string_total.

(* with EmitASCII every output byte is printable ASCII *)
Theorem C25_emit_ascii_printable :
  forall bs, Forall (fun b => 32 <= b2n b <= 126) (append_string true bs).
Proof. exact emit_ascii_printable. Qed.
Print Assumptions C25_emit_ascii_printable.

(* the run-copying fast paths of both Go loops do not change the functions *)
Theorem C25_append_string_fast_path :
  forall ascii bs, append_string ascii bs = append_string_simple ascii bs.
Proof. exact append_string_eq. Qed.
Print Assumptions C25_append_string_fast_path.

(* EmitUnknown: the Encoder (prepareNext's un-indenting slice) cannot panic on
   the call sequences marshalUnknown makes, in single-line and multi-line mode *)
Theorem C25_render_toks_total :
  forall c ts, wf_toks ts ->
  exists s', render_toks c {| es_last := TZero; es_indents := []; es_out := [] |} ts = Some s'.
Proof. exact render_toks_total. Qed.
Print Assumptions C25_render_toks_total.

(* EmitUnknown is total (no Panic outcome: neither the explicit panic on an
   unexpected wire type nor a slice-bounds panic after a failed Consume call) for
   every option setting and every well-formed unknown-field set, stated twice:
   over the wire grammar of C02 (Wire/WireGrammar.v, depth <= 10001 levels,
   non-minimal varints and end-group tags included) and over every byte string
   that the wire scanner accepts as a field sequence *)
Theorem C25_marshal_unknown_total :
  forall c d bs, (d <= N.to_nat 10001)%nat -> wf_fields d bs -> exists out, marshal_unknown c bs = Some out.
Proof. exact marshal_unknown_total_wf. Qed.
Print Assumptions C25_marshal_unknown_total.

Theorem C25_marshal_unknown_total_parsed :
  forall c bs fs, parse_fields (x00 :: bs) default_dep bs [] = Ok fs -> exists out, marshal_unknown c bs = Some out.
Proof. exact marshal_unknown_total_parsed. Qed.
Print Assumptions C25_marshal_unknown_total_parsed.

(* Number tokens (the lexical fact behind the float statements of C24; the "num" op of this
   family checks the token model against text.Decoder):
   every string in the output grammar of strconv.FormatFloat(x, 'g', -1, bits)
   for finite x -- sign? intpart (. digits)? (e sign digits)? -- followed by a
   delimiter or the end of input is lexed by parseNumber as ONE number token:
   its size and string are the whole rendering, kind float unless it has neither
   fraction nor exponent, and ParseFloat's syntax accepts it *)
Theorem C25_float_text_accepted :
  forall neg ip fr ex rest,
  int_part ip -> frac_part fr -> exp_part ex -> at_delim rest = true ->
  let s := float_text neg ip fr ex in
  exists num, parse_number (s ++ rest) = Some num /\
              nsize num = length s /\ nneg num = neg /\ nsep num = O /\
              nkind num = (if TextNumP.is_nil fr && TextNumP.is_nil ex then 0 else 4) /\
              number_string num (s ++ rest) = s.
Proof. exact float_text_accepted. Qed.
Print Assumptions C25_float_text_accepted.

Theorem C25_float_text_syntax_ok :
  forall neg ip fr ex, int_part ip -> frac_part fr -> exp_part ex ->
  float_syntax_ok (float_text neg ip fr ex) = true.
Proof. exact float_text_syntax_ok. Qed.
Print Assumptions C25_float_text_syntax_ok.

(* Tier T: the Go source of appendString / indexNeedEscapeInString itself.
   Gen/TextEscGo.v is regenerated from internal/encoding/text/encode.go on every
   run (srcmodel_textesc); go_appendString / go_indexNeedEscapeInString are the
   translated functions (byte strings are [list Z], [zb] embeds [list byte]).
   The only bound is Go's own: a string is shorter than 2^63 bytes.  The library
   calls utf8.DecodeRuneInString, strconv.AppendUint, bits.Len32 are the models
   of Text/TextEscGoSup.v (trusted, see props/C25.json). *)
Theorem C25_go_indexNeedEscapeInString_eq_model :
  forall bs, (Z.of_nat (length bs) < 2^63)%Z ->
  go_indexNeedEscapeInString (zb bs) = Val (Z.of_nat (index_need_escape bs)).
Proof. exact go_indexNeedEscapeInString_spec. Qed.
Print Assumptions C25_go_indexNeedEscapeInString_eq_model.

(* the translated appendString equals the hand model on every input: no
   slice-bounds panic (the "00"[k:] paddings included), no fuel exhaustion *)
Theorem C25_go_appendString_eq_model :
  forall out bs ascii, (Z.of_nat (length bs) < 2^63)%Z ->
  go_appendString out (zb bs) ascii = Val (out ++ zb (append_string ascii bs))%list.
Proof. exact go_appendString_spec. Qed.
Print Assumptions C25_go_appendString_eq_model.

(* the property itself, for the translated source: what it writes is read back
   by parseString as exactly the input bytes, stopping after the closing quote *)
Theorem C25_go_appendString_roundtrip :
  forall ascii bs tail, (Z.of_nat (length bs) < 2^63)%Z ->
  exists o, go_appendString [] (zb bs) ascii = Val o /\
            parse_string (map z2byte o ++ tail) = SOk (bs, tail).
Proof. exact go_appendString_roundtrip. Qed.
Print Assumptions C25_go_appendString_roundtrip.

(* with outputASCII the translated source writes printable ASCII only *)
Theorem C25_go_appendString_ascii_printable :
  forall bs, (Z.of_nat (length bs) < 2^63)%Z ->
  exists o, go_appendString [] (zb bs) true = Val o /\ Forall (fun z => 32 <= z <= 126)%Z o.
Proof. exact go_appendString_ascii_printable. Qed.
Print Assumptions C25_go_appendString_ascii_printable.

(* appending to the Encoder's buffer only prefixes it *)
Theorem C25_go_appendString_prefix :
  forall out bs ascii, (Z.of_nat (length bs) < 2^63)%Z ->
  exists o, go_appendString [] (zb bs) ascii = Val o /\ go_appendString out (zb bs) ascii = Val (out ++ o)%list.
Proof. exact go_appendString_prefix. Qed.
Print Assumptions C25_go_appendString_prefix.

(* non-vacuity / sanity: the model computes the expected literals *)
Example C25_ex_escape :
  append_string true [x01; x22; xc3; xa9; xff; x27] =
  [x22; x5c; x78; x30; x31; x5c; x22; x5c; x75; x30; x30; x65; x39; x5c; x78; x66; x66; x27; x22].
Proof. vm_compute. reflexivity. Qed.
Example C25_ex_c1_always_escaped :
  append_string false [xc2; x80; xc3; xa9] = [x22; x5c; x75; x30; x30; x38; x30; xc3; xa9; x22].
Proof. vm_compute. reflexivity. Qed.
Example C25_ex_parse :
  parse_string [x27; x5c; x75; x64; x38; x33; x64; x5c; x75; x64; x65; x30; x30; x5c; x31; x30; x31; x27; x20] =
  SOk ([xf0; x9f; x98; x80; x41], [x20]).
Proof. vm_compute. reflexivity. Qed.
(* the model renders groups (with a non-minimal end tag here); garbage panics *)
Example C25_ex_unknown :
  marshal_unknown {| ec_indent := [x20]; ec_extra := false; ec_ascii := false |}
                  [x0b; x08; x01; x8c; x00; x15; x01; x00; x00; x00] =
  Some [x31; x3a; x20; x7b; x0a; x20; x31; x3a; x20; x31; x0a; x7d; x0a; x32; x3a; x20; x30; x78; x31; x0a].
Proof. vm_compute. reflexivity. Qed.
Example C25_ex_unknown_panics_on_garbage :
  marshal_unknown {| ec_indent := []; ec_extra := false; ec_ascii := false |} [x0c] = None.
Proof. vm_compute. reflexivity. Qed.
(* the float grammar is inhabited: -1.5e+07 *)
Example C25_ex_float_grammar :
  int_part [x31] /\ frac_part [x2e; x35] /\ exp_part [x65; x2b; x30; x37] /\
  float_text true [x31] [x2e; x35] [x65; x2b; x30; x37] = [x2d; x31; x2e; x35; x65; x2b; x30; x37].
Proof.
  split; [|split; [|split; [|reflexivity]]].
  - apply ip_nz; [reflexivity|constructor].
  - apply fp_some; [discriminate|repeat constructor].
  - apply ep_some; [left; reflexivity|discriminate|repeat constructor].
Qed.
(* the hypothesis of C25_marshal_unknown_total_parsed is satisfiable: the
   scanner accepts the byte string of C25_ex_unknown *)
Example C25_ex_unknown_wellformed :
  exists fs, parse_fields (x00 :: [x0b; x08; x01; x8c; x00; x15; x01; x00; x00; x00]) default_dep
                          [x0b; x08; x01; x8c; x00; x15; x01; x00; x00; x00] [] = Ok fs.
Proof. eexists. vm_compute. reflexivity. Qed.
(* the hypotheses of the string-token theorems are satisfiable *)
Example C25_ex_token_hyps :
  no_quote_head (consume_ws false [x20; x23; x22; x0a; x7d]) /\
  consume_ws false ([x20; x0a] ++ append_string false [x41] ++ [x7d]) = append_string false [x41] ++ [x7d].
Proof. split; reflexivity. Qed.
(* the translated source computes the same literal as C25_ex_escape *)
Example C25_ex_go_escape :
  go_appendString [] (zb [x01; x22; xc3; xa9; xff; x27]) true =
  Val (zb [x22; x5c; x78; x30; x31; x5c; x22; x5c; x75; x30; x30; x65; x39; x5c; x78; x66; x66; x27; x22]).
Proof. vm_compute. reflexivity. Qed.
