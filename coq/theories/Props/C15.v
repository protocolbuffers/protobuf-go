(* C15 — Unmarshal (without Merge) and Reset erase all prior state.
   Statements only; each closed by [exact] of a lemma proved in Msg/ResetP.v.

   [cf] = (struct flavour, build: generated methods or -tags protoreflect, lazy-capable type);
   [schema] = the fields of the message type; a history is any list of operations
   (reflection Set/Clear/Mutable/Append/Truncate, extension set/clear, SetUnknown,
   Size, deterministic Marshal, reading everything, proto.Merge, merging Unmarshal —
   succeeding or failing after any prefix, possibly inside a nested message —,
   non-merging Unmarshal, Reset) that mentions only fields of the schema. *)
From Coq Require Import List NArith Bool.
From PB Require Import Base.PBytes Msg.ResetModel Msg.ResetP.
Import ListNotations.
Open Scope N_scope.

(* proto.Reset after ANY history: the abstract content is empty; with the
   generated Reset every concrete component is the zero value; with the
   reflection reset (resetMessage) the only residue is: nil-or-empty list cells
   (the opaque *[]*T pointer survives Clear), extensions that were set to an
   empty list (Range does not visit them), no presence bit, no oneof, no
   unknown bytes, no lazy buffer, no size cache. *)
Theorem C15_reset_empty :
  forall cf schema ops,
  Forall (op_ok schema) ops ->
  let s := run cf schema ops init in
  abs_empty cf (reset cf schema s) /\
  (fast cf = true -> reset cf schema s = init) /\
  (fast cf = false -> residue cf (reset cf schema s)).
Proof. exact reset_empty. Qed.
Print Assumptions C15_reset_empty.

(* the generated Reset does not even depend on the state being reachable *)
Theorem C15_reset_generated_is_zero_value :
  forall cf schema s, fast cf = true -> reset cf schema s = init.
Proof. exact reset_fast_init. Qed.
Print Assumptions C15_reset_generated_is_zero_value.

(* proto.Unmarshal(b, m) after ANY history = proto.Unmarshal(b, new message),
   for every input, including inputs on which decoding fails after a prefix *)
Theorem C15_unmarshal_equals_fresh :
  forall cf schema ops items fl,
  Forall (op_ok schema) ops ->
  abs_eq cf (unmarshal cf schema items fl (run cf schema ops init))
            (unmarshal cf schema items fl init).
Proof. exact unmarshal_equals_fresh. Qed.
Print Assumptions C15_unmarshal_equals_fresh.

(* default build: not only the content, the whole concrete state coincides *)
Theorem C15_unmarshal_fast_same_state :
  forall cf schema items fl s,
  fast cf = true -> unmarshal cf schema items fl s = unmarshal cf schema items fl init.
Proof. exact unmarshal_fast_same_state. Qed.
Print Assumptions C15_unmarshal_fast_same_state.

(* non-vacuity *)
Definition ex_lazy := mkFld 24 ML 0.
Definition ex_int := mkFld 1 SP 0.
Definition ex_list := mkFld 48 LO 0.
Definition ex_schema := [ex_int; ex_lazy; ex_list].
Definition ex_fast := mkCfg Opaque true true.
Definition ex_slow := mkCfg Opaque false true.

(* a history with a lazily decoded field, a reflection Clear and a merging
   Unmarshal that fails after the lazy field: presence bit set, pointer nil,
   lazy buffer replaced, index stale, size cache written *)
Definition ex_hist : list op :=
  [ OUm [WField ex_lazy true 0 100] FNone;
    OClr ex_lazy;
    OSize;
    OUnk [x08; x01];
    OXSet 1000 true 0 7;
    OSet ex_list true 2 300;
    OClr ex_list;
    OUm [WField ex_lazy true 0 200; WField ex_int true 0 201] (FAt 1 false None) ].

Example C15_history_ok : Forall (op_ok ex_schema) ex_hist.
Proof. repeat first [apply Forall_nil | apply Forall_cons | split]; cbn; auto 10. Qed.

Example C15_dirty_state :
  let s := run ex_fast ex_schema ex_hist init in
  has_field ex_fast s ex_lazy = true /\ cells s 24 = CZero /\ pres s = [24] /\
  lazy s = Some (mkLazy [(24, 200); (1, 201)] false (Some [(24, 0%nat)])) /\   (* new buffer, index of the OLD one *)
  cells s 48 = CSeq [] /\ szc s = true /\ unk s = [x08; x01] /\ exts s = [(1000, XVal true [])].
Proof. vm_compute. repeat split. Qed.

(* the erasure is needed: merging WITHOUT the reset gives another content *)
Example C15_merge_without_reset_differs :
  ~ abs_eq ex_fast (um ex_fast [WField ex_int true 0 5] FNone (run ex_fast ex_schema ex_hist init))
                   (um ex_fast [WField ex_int true 0 5] FNone init).
Proof. intros [H _]. specialize (H ex_lazy). vm_compute in H. discriminate. Qed.

(* the reflection reset really leaves the residue the theorem allows *)
Example C15_reflection_reset_residue :
  let s := reset ex_slow ex_schema (run ex_slow ex_schema ex_hist init) in
  cells s 48 = CSeq [] /\ exts s = [(1000, XVal true [])] /\ pres s = [] /\ unk s = [].
Proof. vm_compute. repeat split. Qed.
