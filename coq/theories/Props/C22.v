(* C22 — JSON scalar values decode exactly.
   Statements only; each closed by [exact] of a lemma proved in Json/*P.v. *)
From Coq Require Import List NArith ZArith.
From PB Require Import Base.PBytes Json.JsonGrammar Json.JsonNumModel Json.JsonNumP Json.JsonIntP
  Json.JsonLexModel Json.JsonLexP Json.JsonEncModel Json.JsonScalarModel Json.JsonScalarP Json.JsonB64P Json.JsonB64VarP Json.JsonB64IffP Json.JsonB64NlP Json.JsonInt64P Json.JsonQuotedP.
Import ListNotations.
Open Scope N_scope.

(* The specification side (Json/JsonGrammar.v): [rfc_number raw] is the RFC 8259 number
   grammar; [lit_is_int raw v] says that the rational value mant*10^exp10 of the literal is
   the integer v; [int_in_range bits signed v] that v is representable.  The code side
   (Json/JsonNumModel.v: [token_int], [token_uint]; combined in Json/JsonIntP.v): [decode_int bits signed raw] is Token.Int / Token.Uint
   (parseNumberParts, normalizeToIntString, strconv.ParseInt/ParseUint) on the raw bytes of
   a Number token. *)

(* soundness holds unconditionally: whatever is accepted is the exact value *)
Theorem C22_int_decode_sound :
  forall bits signed raw v, 1 <= bits -> rfc_number raw ->
    decode_int bits signed raw = Some v -> lit_is_int raw v /\ int_in_range bits signed v.
Proof. exact int_decode_sound. Qed.
Print Assumptions C22_int_decode_sound.

(* the full statement (accepted <-> integral and representable) is refuted by the code as
   it stands: finding F6, 0.01e21 = 10^19 into uint64 *)
Theorem C22_int_decode_exact_refuted :
  exists bits signed raw v, rfc_number raw /\ lit_is_int raw v /\ int_in_range bits signed v /\
                            decode_int bits signed raw = None.
Proof. exact int_decode_exact_refuted. Qed.
Print Assumptions C22_int_decode_exact_refuted.

(* ... and holds outside the class recognised by [f6_class] (integer part 0, non-zero
   fraction, exponent above 20; or an exponent outside int32) *)
Theorem C22_int_decode_exact_except_F6 :
  forall bits signed raw v, 1 <= bits <= 64 -> rfc_number raw -> f6_class raw = false ->
    (decode_int bits signed raw = Some v <-> lit_is_int raw v /\ int_in_range bits signed v).
Proof. exact int_decode_exact_except_F6. Qed.
Print Assumptions C22_int_decode_exact_except_F6.

(* the exclusion is tight on the rejecting side: everything in the class is rejected, so the
   property fails exactly on the members of the class that denote a representable integer *)
Theorem C22_int_decode_in_F6_rejected :
  forall bits signed raw, rfc_number raw -> f6_class raw = true -> decode_int bits signed raw = None.
Proof. exact int_decode_in_F6_rejected. Qed.
Print Assumptions C22_int_decode_in_F6_rejected.

(* protojson layer (unmarshalInt / unmarshalUint): a bare number token or a quoted number
   (string token whose content is one number, read by a nested Decoder); whatever is accepted
   is the exact value of the literal.  [lexeme k raw] is what parseNext guarantees of a token. *)
Theorem C22_unmarshal_int_sound :
  forall bits tok v, 1 <= bits -> lexeme (t_kind tok) (t_raw tok) ->
    unmarshal_int bits tok = Some v ->
    exists raw, rfc_number raw /\ lit_is_int raw v /\ int_in_range bits true v /\
      ((t_kind tok = KNumber /\ raw = t_raw tok) \/
       (t_kind tok = KString /\ exists w1 w2, ws w1 /\ ws w2 /\ t_str tok = w1 ++ raw ++ w2)).
Proof. exact unmarshal_int_sound. Qed.
Print Assumptions C22_unmarshal_int_sound.

Theorem C22_unmarshal_uint_sound :
  forall bits tok v, lexeme (t_kind tok) (t_raw tok) ->
    unmarshal_uint bits tok = Some v ->
    exists raw, rfc_number raw /\ lit_is_int raw (Z.of_N v) /\ int_in_range bits false (Z.of_N v) /\
      ((t_kind tok = KNumber /\ raw = t_raw tok) \/
       (t_kind tok = KString /\ exists w1 w2, ws w1 /\ ws w2 /\ t_str tok = w1 ++ raw ++ w2)).
Proof. exact unmarshal_uint_sound. Qed.
Print Assumptions C22_unmarshal_uint_sound.

(* int_decode_exact at the protojson layer (unmarshalInt / unmarshalUint, bare and quoted):
   outside the F6 class a token is accepted with value v iff it is a number token, or a string
   token whose whole content is one number literal (no surrounding whitespace), and the literal
   denotes the integer v representable in the type. *)
Theorem C22_unmarshal_int_exact_except_F6 :
  forall bits tok v, 1 <= bits <= 64 -> lexeme (t_kind tok) (t_raw tok) ->
    (forall lit, int_literal_of tok = Some lit -> f6_class lit = false) ->
    (unmarshal_int bits tok = Some v <->
     exists lit, int_literal_of tok = Some lit /\ rfc_number lit /\ lit_is_int lit v /\ int_in_range bits true v).
Proof. exact unmarshal_int_exact_except_F6. Qed.
Print Assumptions C22_unmarshal_int_exact_except_F6.

Theorem C22_unmarshal_uint_exact_except_F6 :
  forall bits tok v, bits <= 64 -> lexeme (t_kind tok) (t_raw tok) ->
    (forall lit, int_literal_of tok = Some lit -> f6_class lit = false) ->
    (unmarshal_uint bits tok = Some v <->
     exists lit, int_literal_of tok = Some lit /\ rfc_number lit /\ lit_is_int lit (Z.of_N v) /\
                 int_in_range bits false (Z.of_N v)).
Proof. exact unmarshal_uint_exact_except_F6. Qed.
Print Assumptions C22_unmarshal_uint_exact_except_F6.

(* enums: by name (first declared value of that name) or by any int32 number *)
Theorem C22_enum_by_name :
  forall values discard tok s v, t_kind tok = KString -> t_str tok = s ->
    enum_by_name values s = Some v -> unmarshal_enum values discard tok = Some (Some v).
Proof. exact enum_name_decodes. Qed.
Print Assumptions C22_enum_by_name.

Theorem C22_enum_by_name_spec :
  forall values s v, enum_by_name values s = Some v ->
    exists pre post, values = pre ++ (s, v) :: post /\ forall n w, In (n, w) pre -> n <> s.
Proof. exact enum_by_name_spec. Qed.
Print Assumptions C22_enum_by_name_spec.

Theorem C22_enum_by_number :
  forall values discard tok v, t_kind tok = KNumber -> rfc_number (t_raw tok) ->
    unmarshal_enum values discard tok = Some (Some v) ->
    lit_is_int (t_raw tok) v /\ int_in_range 32 true v.
Proof. exact enum_number_exact. Qed.
Print Assumptions C22_enum_by_number.

(* floats, relative to the strconv.ParseFloat oracle (a Section variable with the hypothesis
   that its result is correctly rounded): the literal is handed to the oracle once, at the
   field's own width. *)
Theorem C22_float_decode_correctly_rounded_partial :
  forall (parse_float : N -> list byte -> option N) (correctly_rounded : N -> list byte -> N -> Prop),
    (forall bits s b, parse_float bits s = Some b -> correctly_rounded bits s b) ->
    forall bits tok b, t_kind tok = KNumber ->
      unmarshal_float parse_float bits tok = Some (FNum b) -> correctly_rounded bits (t_raw tok) b.
Proof. exact float_decode_number. Qed.
Print Assumptions C22_float_decode_correctly_rounded_partial.

Theorem C22_float_decode_is_oracle :
  forall (parse_float : N -> list byte -> option N) bits tok, t_kind tok = KNumber ->
    unmarshal_float parse_float bits tok =
    match parse_float bits (t_raw tok) with Some b => Some (FNum b) | None => None end.
Proof. exact float_decode_is_oracle. Qed.
Print Assumptions C22_float_decode_is_oracle.

(* 64-bit integers are written as JSON strings (one WriteString call whose bytes are the quoted
   decimal value, nothing to escape) and the string token read back decodes to the same value *)
Theorem C22_int64_written_as_string :
  forall rnd e z, int_in_range 64 true z ->
    marshal_int 64 z = CString (dec_int z) /\
    fst (enc_call rnd (marshal_int 64 z) e) = emit (c_quote :: dec_int z ++ [c_quote]) (prepare_next rnd EKScalar e) /\
    (forall pos rest, parse_string_at pos ((c_quote :: dec_int z ++ [c_quote]) ++ rest)
                      = Ok (dec_int z, length (c_quote :: dec_int z ++ [c_quote]))) /\
    (forall raw pos, unmarshal_int 64 (string_token raw (dec_int z) pos) = Some z).
Proof. exact int64_written_as_string. Qed.
Print Assumptions C22_int64_written_as_string.

Theorem C22_uint64_written_as_string :
  forall rnd e n, n < 2 ^ 64 ->
    marshal_uint 64 n = CString (dec_digits n) /\
    fst (enc_call rnd (marshal_uint 64 n) e) = emit (c_quote :: dec_digits n ++ [c_quote]) (prepare_next rnd EKScalar e) /\
    (forall raw pos, unmarshal_uint 64 (string_token raw (dec_digits n) pos) = Some n).
Proof. exact uint64_written_as_string. Qed.
Print Assumptions C22_uint64_written_as_string.

Theorem C22_int32_written_as_number :
  forall rnd e z, int_in_range 32 true z ->
    fst (enc_call rnd (marshal_int 32 z) e) = emit (dec_int z) (prepare_next rnd EKScalar e) /\
    token_int 32 (dec_int z) = Some z.
Proof. exact int32_written_as_number. Qed.
Print Assumptions C22_int32_written_as_number.

(* bytes: marshalSingular writes padded standard base64 ([marshal_bytes b = CString
   (b64_encode false b)]); unmarshalBytes, through its variant selection, reads it back.
   (The decoder model [b64_decode] covers all four variants; their acceptance is the next theorem.) *)
Theorem C22_bytes_base64_roundtrip :
  forall b tok, t_kind tok = KString -> t_str tok = b64_encode false b -> unmarshal_bytes tok = Some b.
Proof. exact bytes_base64_roundtrip. Qed.
Print Assumptions C22_bytes_base64_roundtrip.

(* ... and each of the four encodings (standard / URL-safe alphabet, with / without padding:
   base64.StdEncoding, URLEncoding, RawStdEncoding, RawURLEncoding) of b is accepted by
   unmarshalBytes' variant selection and decodes to b *)
Theorem C22_bytes_base64_accepts_all_variants :
  forall url pad b tok, t_kind tok = KString -> t_str tok = b64_encode_variant url pad b ->
    unmarshal_bytes tok = Some b.
Proof. exact bytes_base64_accepts_all_variants. Qed.
Print Assumptions C22_bytes_base64_accepts_all_variants.

(* ... and nothing else: for strings without CR/LF (which encoding/base64 skips anywhere),
   unmarshalBytes accepts s with result b iff s is a base64 text denoting b ([b64_text]: full
   quanta of four alphabet characters, then optionally a final quantum of 2 or 3 characters,
   completed by '=' iff padding is in force) in the variant it selects: URL-safe alphabet iff
   s contains '-' or '_', padded iff the length of s is a multiple of four. *)
Theorem C22_bytes_base64_accepts_iff :
  forall tok b, t_kind tok = KString -> no_nl (t_str tok) ->
    (unmarshal_bytes tok = Some b <->
     b64_text (has_url_char (t_str tok)) (Nat.eqb (Nat.modulo (length (t_str tok)) 4) 0) (t_str tok) b).
Proof. exact bytes_base64_accepts_iff. Qed.
Print Assumptions C22_bytes_base64_accepts_iff.

(* the same for all strings: encoding/base64 skips CR and LF anywhere, so s is accepted iff s
   with its CR/LF bytes deleted ([strip_nl]) is such a text (the variant selection looks at s
   as given, CR/LF included) *)
Theorem C22_bytes_base64_accepts_iff_nl :
  forall tok b, t_kind tok = KString ->
    (unmarshal_bytes tok = Some b <->
     b64_text (has_url_char (t_str tok)) (Nat.eqb (Nat.modulo (length (t_str tok)) 4) 0) (strip_nl (t_str tok)) b).
Proof. exact bytes_base64_accepts_iff_nl. Qed.
Print Assumptions C22_bytes_base64_accepts_iff_nl.

(* consequences for rejection: every character of an accepted string is in the selected
   alphabet (or is padding when padding is in force); unpadded texts never have length 1 mod 4 *)
Theorem C22_bytes_base64_text_chars :
  forall url pad s b, b64_text url pad s b ->
    Forall (fun c => b64_val url c <> None \/ (pad = true /\ c = c_pad)) s.
Proof. exact b64_text_chars. Qed.
Print Assumptions C22_bytes_base64_text_chars.

Theorem C22_bytes_base64_text_length_raw :
  forall url s b, b64_text url false s b -> (length s mod 4 <> 1)%nat.
Proof. exact b64_text_length_raw. Qed.
Print Assumptions C22_bytes_base64_text_length_raw.

(* non-vacuity: notations of 100 into int32, and both F6 witnesses are in the class *)
Example C22_ex_1e2 :
  decode_int 32 true ["1"; "e"; "2"]%byte = Some 100%Z /\
  decode_int 32 true ["1"; "0"; "0"; "."; "0"]%byte = Some 100%Z /\
  decode_int 32 true ["1"; "0"; "0"; "0"; "e"; "-"; "1"]%byte = Some 100%Z /\
  decode_int 32 true ["1"; "."; "5"]%byte = None /\
  decode_int 64 false ["0"; "."; "1"; "e"; "2"; "0"]%byte = Some 10000000000000000000%Z /\
  f6_class f6_witness = true /\ f6_class f6_witness32 = true /\
  f6_class ["0"; "."; "1"; "e"; "2"; "0"]%byte = false.
Proof. vm_compute. repeat split. Qed.

(* non-vacuity for the protojson layer *)
Definition C22_str_tok (s : list byte) : token :=
  {| t_kind := KString; t_pos := 0; t_raw := []; t_boo := false; t_str := s |}.
Example C22_ex_quoted :
  unmarshal_int 32 (C22_str_tok ["1"; "e"; "2"]%byte) = Some 100%Z /\
  unmarshal_int 32 (C22_str_tok [" "; "1"]%byte) = None /\
  unmarshal_int 64 (C22_str_tok ["-"; "9"; "2"; "2"; "3"; "3"; "7"; "2"; "0"; "3"; "6"; "8"; "5"; "4"; "7"; "7"; "5"; "8"; "0"; "8"]%byte)
    = Some (-9223372036854775808)%Z /\
  unmarshal_uint 64 (C22_str_tok ["0"; "."; "0"; "1"; "e"; "2"; "1"]%byte) = None.
Proof. vm_compute. repeat split. Qed.
Example C22_ex_bytes :
  b64_encode false ["A"; "B"]%byte = ["Q"; "U"; "I"; "="]%byte /\
  unmarshal_bytes (C22_str_tok ["Q"; "U"; "I"; "="]%byte) = Some ["A"; "B"]%byte /\
  unmarshal_bytes (C22_str_tok ["Q"; "U"; "I"]%byte) = Some ["A"; "B"]%byte /\
  unmarshal_bytes (C22_str_tok ["-"; "_"; "8"]%byte) = Some [xfb; xff]%byte /\
  unmarshal_bytes (C22_str_tok ["Q"; "="]%byte) = None /\
  unmarshal_bytes (C22_str_tok ["Q"; "U"; "I"; "!"]%byte) = None /\
  unmarshal_bytes (C22_str_tok ["Q"; "U"; "I"; "D"; "Q"]%byte) = None /\
  b64_encode_variant true false [xfb; xff]%byte = ["-"; "_"; "8"]%byte /\
  no_nl ["Q"; "U"; "I"; "="]%byte.
Proof. vm_compute. repeat split. Qed.
Example C22_ex_enum :
  let values := [(["F"; "O"; "O"]%byte, 0%Z); (["B"; "A"; "R"]%byte, 1%Z)] in
  unmarshal_enum values false (C22_str_tok ["B"; "A"; "R"]%byte) = Some (Some 1%Z) /\
  unmarshal_enum values false (C22_str_tok ["b"; "a"; "r"]%byte) = None /\
  unmarshal_enum values true (C22_str_tok ["b"; "a"; "r"]%byte) = Some None /\
  unmarshal_enum values false {| t_kind := KNumber; t_pos := 0; t_raw := ["1"; "e"; "0"]%byte; t_boo := false; t_str := [] |}
    = Some (Some 1%Z).
Proof. vm_compute. repeat split. Qed.
