(* C44 — FieldMask operations implement path-set algebra.
   Statements only; each closed by [exact] of a lemma proved in Known/FieldMaskP.v
   or Known/FieldMaskValidP.v.  Paths are byte lists.

   covers mask p  :=  exists q in mask, q = p \/ exists w, p = q ++ "." ++ w
   sort.Slice enters only through its contract (C44_sort_contract_determines_result). *)
From Coq Require Import List NArith Bool Sorted Permutation.
From PB Require Import Base.PBytes Known.FieldMaskModel Known.FieldMaskP Known.FieldMaskValidP.
Import ListNotations.
Open Scope N_scope.

(* lessPath is a strict total order: lexicographic, bytes ordered by (b - '.') mod 256
   (so '.' is the least byte), a proper prefix is smaller *)
Theorem C44_less_path_strict_total :
  (forall x, ~ lt_path x x) /\
  (forall x y z, lt_path x y -> lt_path y z -> lt_path x z) /\
  (forall x y, lt_path x y \/ x = y \/ lt_path y x) /\
  (forall a b x y, a <> b -> (lt_path (a :: x) (b :: y) <-> (b2n a + 210) mod 256 < (b2n b + 210) mod 256)) /\
  (forall a x y, lt_path (a :: x) (a :: y) <-> lt_path x y) /\
  (forall y, lt_path [] y <-> y <> []).
Proof. exact less_path_strict_total. Qed.
Print Assumptions C44_less_path_strict_total.

(* Any function that returns a lessPath-sorted permutation of its argument is the
   model's sort: the theorems below therefore hold for the code under the sole
   assumption that sort.Slice meets that contract. *)
Theorem C44_sort_contract_determines_result :
  forall srt : list path -> list path,
  (forall l, Permutation l (srt l) /\ StronglySorted le_path (srt l)) ->
  forall l, srt l = sort_paths l.
Proof. exact sort_spec_unique. Qed.
Print Assumptions C44_sort_contract_determines_result.

Theorem C44_model_sort_meets_contract :
  forall l, Permutation l (sort_paths l) /\ StronglySorted le_path (sort_paths l).
Proof. exact (fun l => conj (sort_perm l) (sort_sorted l)). Qed.
Print Assumptions C44_model_sort_meets_contract.

(* the paths covered by [a] form a contiguous block of the order starting at [a] *)
Theorem C44_covered_block_contiguous :
  forall a b c, le_path a b -> le_path b c -> has_path_prefix c a = true -> has_path_prefix b a = true.
Proof. exact covered_block_contiguous. Qed.
Print Assumptions C44_covered_block_contiguous.

Theorem C44_has_path_prefix_spec :
  forall p q, has_path_prefix p q = true <-> (q = p \/ exists w, p = q ++ dot :: w).
Proof. exact hpp_spec. Qed.
Print Assumptions C44_has_path_prefix_spec.

Theorem C44_normalize_idempotent :
  forall paths, normalize (normalize paths) = normalize paths.
Proof. exact normalize_idempotent. Qed.
Print Assumptions C44_normalize_idempotent.

(* sorted_prefix_free l := strictly sorted by lessPath, and no element covers another *)
Theorem C44_normalize_sorted_prefix_free :
  forall paths,
  StronglySorted lt_path (normalize paths) /\
  (forall x y, In x (normalize paths) -> In y (normalize paths) -> has_path_prefix x y = true -> x = y).
Proof. exact normalize_sorted_prefix_free. Qed.
Print Assumptions C44_normalize_sorted_prefix_free.

Theorem C44_normalize_same_cover :
  forall paths p, covers (normalize paths) p <-> covers paths p.
Proof. exact normalize_same_cover. Qed.
Print Assumptions C44_normalize_same_cover.

(* the result is THE canonical form: exactly the sorted prefix-free lists are fixed points *)
Theorem C44_normalize_canonical :
  forall l, sorted_prefix_free l <-> normalize l = l.
Proof. exact normalize_canonical. Qed.
Print Assumptions C44_normalize_canonical.

Theorem C44_union_cover :
  forall mx my ms p,
  covers (fm_union mx my ms) p <-> covers mx p \/ covers my p \/ exists m, In m ms /\ covers m p.
Proof. exact union_cover. Qed.
Print Assumptions C44_union_cover.

Theorem C44_intersect_cover :
  forall mx my ms p,
  covers (fm_intersect mx my ms) p <-> covers mx p /\ covers my p /\ forall m, In m ms -> covers m p.
Proof. exact intersect_cover. Qed.
Print Assumptions C44_intersect_cover.

Theorem C44_union_intersect_canonical :
  forall mx my ms, sorted_prefix_free (fm_union mx my ms) /\ sorted_prefix_free (fm_intersect mx my ms).
Proof. exact (fun mx my ms => conj (union_sorted_prefix_free mx my ms) (intersect_sorted_prefix_free mx my ms)). Qed.
Print Assumptions C44_union_intersect_canonical.

(* a path is accepted iff it splits at dots into segments that name a chain of
   fields in which every non-final field is a singular message field *)
Theorem C44_valid_paths_exact :
  forall sc root p,
  path_valid sc root p = true <->
  exists segs, segs <> [] /\ Forall nodot segs /\ p = join_dots segs /\ reach sc root segs.
Proof. exact valid_paths_exact. Qed.
Print Assumptions C44_valid_paths_exact.

Theorem C44_is_valid_exact :
  forall sc root paths,
  fm_is_valid sc root paths = true <-> Forall (fun p => path_valid sc root p = true) paths.
Proof. exact is_valid_exact. Qed.
Print Assumptions C44_is_valid_exact.

(* Append (and New = Append to the empty mask) appends exactly the longest valid
   prefix and reports an error iff a path remains, the first remaining one being invalid *)
Theorem C44_append_exact :
  forall sc root have paths,
  let '(out, err) := fm_append sc root have paths in
  exists pre post, paths = pre ++ post /\ out = have ++ pre /\
    Forall (fun p => path_valid sc root p = true) pre /\
    (err = false <-> post = []) /\
    (forall p post', post = p :: post' -> path_valid sc root p = false).
Proof. exact append_exact. Qed.
Print Assumptions C44_append_exact.

(* The code's lookup rule [names] of C44_valid_paths_exact (ByName, then ByName(ToLower), each
   checked against TextName) selects exactly the field whose text-format name is the segment,
   for every well-formed schema (unique field names and text names per message; TextName is the
   field name or a message name that lower-cases to it).  No input is excluded (known finding F16 concerned this lookup). *)
Theorem C44_names_text_exact :
  forall sc md seg fd, schema_wf sc -> (names sc md seg fd <-> names_text sc md seg fd).
Proof. exact names_text_exact. Qed.
Print Assumptions C44_names_text_exact.

Theorem C44_valid_paths_text_name_exact :
  forall sc root p, schema_wf sc ->
  (path_valid sc root p = true <->
   exists segs, segs <> [] /\ Forall nodot segs /\ p = join_dots segs /\ reach_text sc root segs).
Proof. exact valid_paths_text_name_exact. Qed.
Print Assumptions C44_valid_paths_text_name_exact.

(* ---- non-vacuity ---- *)
Local Notation "'a'" := "a"%byte. Local Notation "'b'" := "b"%byte. Local Notation "'c'" := "c"%byte.
Example C44_ex_normalize :
  normalize [[b; dot; c]; [a]; [b]; [a; dot; b]; [a; b]] = [[a]; [a; b]; [b]].
Proof. vm_compute. reflexivity. Qed.
Example C44_ex_intersect :
  fm_intersect [[a]; [b; dot; c]] [[a; dot; b]; [b]] [] = [[a; dot; b]; [b; dot; c]].
Proof. vm_compute. reflexivity. Qed.
Example C44_ex_dot_least :   (* "a.b" < "a-" although '-' (0x2d) < '.' (0x2e) numerically *)
  less_path [a; dot; b] [a; "-"%byte] = true.
Proof. vm_compute. reflexivity. Qed.
Example C44_ex_valid :
  let sc := [ {| m_name := [a]; m_fields := [ {| f_name := [b]; f_text := [b]; f_kind := KMessage 0; f_rep := false |};
                                            {| f_name := [c]; f_text := [c]; f_kind := KMessage 0; f_rep := true |} ] |} ] in
  path_valid sc 0 [b; dot; b; dot; c] = true /\ path_valid sc 0 [c; dot; b] = false /\
  path_valid sc 0 [b; dot] = false /\ path_valid sc 0 [] = false.
Proof. vm_compute. auto. Qed.
(* the case of known finding F16: a DELIMITED field "c" of message type "a" that is not group-like is named "c";
   a group-like field "a" of type "A" is named "A" *)
Example C44_ex_text_name :
  let sc := [ {| m_name := ["A"%byte]; m_fields := [ {| f_name := [c]; f_text := [c]; f_kind := KGroup 0; f_rep := false |};
                                                   {| f_name := [a]; f_text := ["A"%byte]; f_kind := KGroup 0; f_rep := false |} ] |} ] in
  path_valid sc 0 [c] = true /\ path_valid sc 0 [c; dot; "A"%byte] = true /\ path_valid sc 0 ["A"%byte] = true /\
  path_valid sc 0 [a] = false.
Proof. vm_compute. auto. Qed.
