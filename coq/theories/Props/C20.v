(* C20 — protojson round-trips every JSON-representable message.
   Statements only; each closed by [exact] of a lemma proved in Json/JsonWktP.v
   (the rendering options: Json/JsonMsgP.v).

   Model (tree level): Json/JsonMsgModel.v -- [to_json] / [of_json] map canonical message values
   (Msg/MsgValue.v) to abstract JSON values and back, mirroring encoding/protojson/encode.go,
   decode.go and well_known_types.go: member order (declared fields by index, extensions by full name),
   JSON name or proto name, enums by name or number (unknown numbers as numbers, NullValue as null),
   EmitUnpopulated / EmitDefaultValues (unpopulatedFieldRanger), 64-bit integers as strings, bytes as
   base64, non-finite floats as strings, maps with stringified sorted keys, and the special mappings
   of Any, Timestamp, Duration, the wrappers, Struct, ListValue, Value, FieldMask, Empty.
   The option record is a universally quantified parameter of every theorem (all 2^6 combinations at
   once); Multiline and Indent do not influence the tree at all (C20_rendering_options_irrelevant).
   The byte level (tokenizer, string escapes, number text) is C21/C22; base64 and the Timestamp /
   Duration strings enter as the codec parameter [cd] (C22/C23; executable instance Json/JsonWktLite.v).

   Full statement (DESIGN.md section 7):
     forall opts S m, representable S m -> to_json opts S m = Ok j -> of_json S j = Ok (strip_unknown m)
   Refuted as the code stands (C20_json_roundtrip_refuted, finding F11): under EmitUnpopulated an unset
   explicit-presence field of type google.protobuf.NullValue (or Value) is written as null, and null
   unmarshals into a set field.
   Proved (C20_json_roundtrip_except_F11_partial): the statement with exactly the exclusion of F11
   ([json_valid true]: EmitUnpopulated /\ an unset explicit-presence Value/NullValue field outside
   every oneof), for all option records, every schema table accepted by [json_schema_ok] (decidable;
   every schema the harness uses is checked with the extracted function) and every representable
   canonical value ([json_valid2] = [json_valid] of Json/JsonMsgValid.v plus: a Value has exactly one kind and
   a finite number).
   _partial, because:
     [json_core2] every message type of the table that carries the code of a special JSON mapping has the
                  shape of the corresponding well-known type (Any, Timestamp, Duration, the wrappers,
                  Struct, ListValue, Value, FieldMask, Empty: Json/JsonWktValid.v) -- a decidable check
                  that the real descriptors pass; all special mappings are inside the proved part;
     [codec_ok]   the string forms owned by other properties enter as round-trip hypotheses on the codec:
                  base64 (C22) -- proved for the executable codec, Json/JsonB64RtP.v -- and the Timestamp /
                  Duration strings (C23: parse (format s n) = (s, n) on the range Marshal accepts);
     floats are strconv-relative (NF32/NF64 nodes), lexing is by composition with C21.
   C20_json_marshal_fails_only_when_partial: representable content never makes Marshal fail (core);
   that every failure is one of the enumerated classes is checked on the implementation and on the
   model by the harness (error classes are compared on every failing case). *)
From Coq Require Import List NArith ZArith Bool.
From PB Require Import Base.PBytes Msg.MsgSchema Msg.MsgValue Json.RtSchema.
From PB Require Import Json.JsonMsgModel Json.JsonMsgValid Json.JsonWktValid Json.JsonWktLite Json.JsonMsgP Json.JsonWktP.
From PB Require Import Text.TextMsgExample.
Import ListNotations.
Open Scope N_scope.

Theorem C20_json_roundtrip_except_F11_partial :
  forall (cd : jcodec) (o : jopts) (S : schema) (nm : names) (lim fuel tid : nat) (v : value),
    codec_ok cd ->
    json_schema_ok S nm = true -> json_core2 S nm = true ->
    json_valid2 true (o_emit_unpop o) S nm lim fuel tid v = true ->
    exists j, to_json cd o S nm lim fuel tid v = JOk j /\ of_json cd S nm fuel tid j = JOk (strip_unknown v).
Proof. exact json_roundtrip_wkt_except_F11_partial. Qed.
Print Assumptions C20_json_roundtrip_except_F11_partial.

(* the same for the executable codec: the base64 hypothesis is proved (Json/JsonB64RtP.v); the
   Timestamp / Duration string forms stay explicit hypotheses (they are the subject of C23) *)
Theorem C20_json_roundtrip_std_except_F11_partial :
  forall (o : jopts) (S : schema) (nm : names) (lim fuel tid : nat) (v : value),
    (forall s n, ts_in_range s n = true -> ts_parse_canon (ts_format s n) = Some (s, n)) ->
    (forall s n, dur_in_range s n = true -> dur_parse_s (dur_format s n) = Some (s, n)) ->
    json_schema_ok S nm = true -> json_core2 S nm = true ->
    json_valid2 true (o_emit_unpop o) S nm lim fuel tid v = true ->
    exists j, to_json std_codec o S nm lim fuel tid v = JOk j /\ of_json std_codec S nm fuel tid j = JOk (strip_unknown v).
Proof. exact json_roundtrip_std_except_F11_partial. Qed.
Print Assumptions C20_json_roundtrip_std_except_F11_partial.

(* the full statement ([json_valid2 false]: no exclusion) is refuted: verif.KW{} -- unset optional
   Value and NullValue fields, as in textpb2.KnownTypes{} -- with EmitUnpopulated *)
Theorem C20_json_roundtrip_refuted :
  exists (cd : jcodec) (o : jopts) (S : schema) (nm : names) (lim fuel tid : nat) (v : value) (j : jv),
    json_schema_ok S nm = true /\ json_core2 S nm = true /\
    json_valid2 false (o_emit_unpop o) S nm lim fuel tid v = true /\
    to_json cd o S nm lim fuel tid v = JOk j /\ of_json cd S nm fuel tid j <> JOk (strip_unknown v).
Proof.
  exists std_codec, (mkJO false false false false true false), ex_schema_w, ex_names_w, 100%nat, 3%nat, 2%nat, ex_kw_empty.
  eexists. split; [vm_compute; reflexivity|]. split; [vm_compute; reflexivity|]. split; [vm_compute; reflexivity|].
  split; [vm_compute; reflexivity|]. vm_compute. discriminate.
Qed.
Print Assumptions C20_json_roundtrip_refuted.

Theorem C20_json_marshal_fails_only_when_partial :
  forall (cd : jcodec) (o : jopts) (S : schema) (nm : names) (lim fuel tid : nat) (v : value),
    codec_ok cd ->
    json_schema_ok S nm = true -> json_core2 S nm = true ->
    json_valid2 true (o_emit_unpop o) S nm lim fuel tid v = true ->
    exists j, to_json cd o S nm lim fuel tid v = JOk j.
Proof. exact json_marshal_total_wkt_partial. Qed.
Print Assumptions C20_json_marshal_fails_only_when_partial.

Theorem C20_rendering_options_irrelevant :
  forall (cd : jcodec) (ml ml' ind ind' pn en eu ed : bool) (S : schema) (nm : names) (lim fuel tid : nat) (v : value),
    to_json cd (mkJO ml ind pn en eu ed) S nm lim fuel tid v = to_json cd (mkJO ml' ind' pn en eu ed) S nm lim fuel tid v.
Proof. exact json_rendering_options_irrelevant. Qed.
Print Assumptions C20_rendering_options_irrelevant.

(* non-vacuity: the example tables pass the checks; messages with scalars of many kinds, NaN /
   infinity / -0 in a list, a map with an int64 boundary value, nested messages with unknown fields,
   an Empty, enums, oneof members, an extension, a Value of every kind, a Struct with nested lists, a
   ListValue, an Int64Value wrapper, a repeated Value, a Timestamp, a negative sub-second Duration, a
   FieldMask and Any values (embedding an ordinary message, a wrapper, an Empty; empty) are representable, and their round trips
   compute for several option records *)
Example C20_example_schema_ok :
  json_schema_ok ex_schema_w ex_names_w = true /\ json_core2 ex_schema_w ex_names_w = true.
Proof. vm_compute. split; reflexivity. Qed.
Example C20_example_valid :
  json_valid2 true true ex_schema_w ex_names_w 100 6 1 ex_tj = true /\ json_valid2 true true ex_schema_w ex_names_w 100 8 2 ex_kw = true.
Proof. vm_compute. split; reflexivity. Qed.
Example C20_example_roundtrip_all_on :
  exists j, to_json std_codec (mkJO true true true true true true) ex_schema_w ex_names_w 100 6 1 ex_tj = JOk j /\
            of_json std_codec ex_schema_w ex_names_w 6 1 j = JOk (strip_unknown ex_tj).
Proof. eexists. split; [vm_compute; reflexivity|]. vm_compute. reflexivity. Qed.
Example C20_example_roundtrip_all_off :
  exists j, to_json std_codec (mkJO false false false false false false) ex_schema_w ex_names_w 100 6 1 ex_tj = JOk j /\
            of_json std_codec ex_schema_w ex_names_w 6 1 j = JOk (strip_unknown ex_tj).
Proof. eexists. split; [vm_compute; reflexivity|]. vm_compute. reflexivity. Qed.
Example C20_example_roundtrip_wkt :
  exists j, to_json std_codec (mkJO false false true false true true) ex_schema_w ex_names_w 100 8 2 ex_kw = JOk j /\
            of_json std_codec ex_schema_w ex_names_w 8 2 j = JOk (strip_unknown ex_kw).
Proof. eexists. split; [vm_compute; reflexivity|]. vm_compute. reflexivity. Qed.
(* the F11 witness is excluded only by the F11 condition, and only under EmitUnpopulated *)
Example C20_example_f11_excluded :
  json_valid2 true true ex_schema_w ex_names_w 100 3 2 ex_kw_empty = false /\
  json_valid2 false true ex_schema_w ex_names_w 100 3 2 ex_kw_empty = true /\
  json_valid2 true false ex_schema_w ex_names_w 100 3 2 ex_kw_empty = true.
Proof. vm_compute. repeat split; reflexivity. Qed.
