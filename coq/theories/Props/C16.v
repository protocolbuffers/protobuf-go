(* C16 — The size cache never makes Marshal output stale.
   Statements only; each closed by [exact] of a lemma of Msg/SizeCacheP.v or of a term that
   instantiates one (UseCachedSize := false discharges the hypothesis "uc = true -> cache_valid").

   Model: Msg/SizeCacheModel.v.  [enc] is the true encoding of the current
   content (it never looks at a cache); [size_pass uc] is impl.sizePointer,
   [append_pass uc] is impl.marshalAppendPointer, [marshal ouc] is
   proto.MarshalOptions{UseCachedSize: ouc}.marshal.  [fits n] says that the
   encoding is shorter than 2^64 bytes (a Go slice is shorter than 2^63).
   Mutations ([OSet]/[OIns]/[ODel]) never touch a cache. *)
From Coq Require Import List NArith Bool.
From PB Require Import Base.PBytes Wire.WireModel Msg.SizeCacheModel Msg.SizeCacheP.
Import ListNotations.
Open Scope N_scope.

(* Size (without UseCachedSize) returns the length of the true encoding, whatever
   the caches contain. *)
Theorem C16_size_eq_length_enc :
  forall n, fits n -> fst (size_pass false n) = len (enc n).
Proof. exact (fun n Hf => proj1 (size_pass_spec false n Hf (fun H => False_ind _ (Bool.diff_false_true H)))). Qed.
Print Assumptions C16_size_eq_length_enc.

(* After the size pass every cache of the returned tree holds exactly what
   sizePointerSlow stores for the true size of its node (size+1, or 0 above
   MaxInt32-1), and the content is unchanged. *)
Theorem C16_size_pass_cache_ok :
  forall n, fits n ->
    cache_fresh (snd (size_pass false n)) /\ cache_valid (snd (size_pass false n)) /\
    clone (snd (size_pass false n)) = clone n.
Proof.
  exact (fun n Hf =>
    match size_pass_spec false n Hf (fun H => False_ind _ (Bool.diff_false_true H)) with
    | conj _ (conj Hv Hfr) => conj (Hfr eq_refl) (conj Hv (size_pass_clone false n))
    end).
Qed.
Print Assumptions C16_size_pass_cache_ok.

(* The append pass with UseCachedSize on a tree whose caches are all
   unset-or-correct outputs the true encoding (and keeps that invariant). *)
Theorem C16_append_pass_on_cache_ok :
  forall n, fits n -> cache_valid n ->
    fst (append_pass true n) = ABytes (enc n) /\ cache_valid (snd (append_pass true n)).
Proof.
  exact (fun n Hf Hv =>
    match append_pass_complete true n Hf (fun _ => Hv) with
    | conj H1 H2 => conj H1 (H2 Hv)
    end).
Qed.
Print Assumptions C16_append_pass_on_cache_ok.

(* proto.Marshal from EVERY cache state (stale, unset, arbitrary numbers):
   the output is the encoding of the current content. *)
Theorem C16_marshal_any_caches :
  forall n, fits n -> fst (marshal false n) = ABytes (enc n) /\ cache_valid (snd (marshal false n)).
Proof. exact marshal_spec. Qed.
Print Assumptions C16_marshal_any_caches.

(* The property: for every history of mutations / Size / Marshal / Equal /
   Clone at any paths, starting from the empty message, a Marshal of any
   submessage returns the encoding of that submessage's current content. *)
Theorem C16_marshal_current :
  forall (ops : list op) (p : list nat) (s : node),
    subtree p (run ops empty) = Some s -> fits s ->
    snd (step (run ops empty) (OMarshal p false)) = OBytes (enc s).
Proof. exact (fun ops p s => step_marshal (run ops empty) p s). Qed.
Print Assumptions C16_marshal_current.

(* The same along a whole history, from any start state: every Marshal and Size
   observation is current; a Marshal with the caller's UseCachedSize is current
   whenever it does not fail. *)
Theorem C16_history_current :
  forall ops t, observations_current ops t.
Proof. exact history_current. Qed.
Print Assumptions C16_history_current.

(* MarshalOptions{UseCachedSize: true} (public API; its contract is "Size was
   called and nothing was mutated since"):
   (a) under the contract it returns the true encoding; *)
Theorem C16_cached_marshal_after_size :
  forall n, fits n -> fst (marshal true (snd (size_pass false n))) = ABytes (enc n).
Proof. exact cmarshal_after_size. Qed.
Print Assumptions C16_cached_marshal_after_size.

(* (b) outside the contract (arbitrary caches) it either reports
   MismatchedSizeCalculation or still returns the true encoding: a stale cache
   is never silently written into the output. *)
Theorem C16_cached_marshal_sound :
  forall ouc n b, fits n -> fst (marshal ouc n) = ABytes b -> b = enc n.
Proof. exact marshal_sound. Qed.
Print Assumptions C16_cached_marshal_sound.

(* the recursion fuel of the model's append pass always suffices *)
Theorem C16_marshal_total :
  forall ouc n, fst (marshal ouc n) <> AFuel.
Proof. exact marshal_no_fuel. Qed.
Print Assumptions C16_marshal_total.

(* Size, Marshal, Equal and Clone are read-only on the content. *)
Theorem C16_readonly_ops_preserve_content :
  forall t o, readonly o = true -> clone (fst (step t o)) = clone t.
Proof. exact step_readonly. Qed.
Print Assumptions C16_readonly_ops_preserve_content.

(* Equal is a function of the contents only (no cache is consulted) ... *)
Theorem C16_equal_ignores_caches :
  forall a a' b b', clone a = clone a' -> clone b = clone b' -> equal a b = equal a' b'.
Proof. exact equal_cache_independent. Qed.
Print Assumptions C16_equal_ignores_caches.

Theorem C16_equal_iff_same_content :
  forall a b, equal a b = true <-> clone a = clone b.
Proof. exact equal_iff. Qed.
Print Assumptions C16_equal_iff_same_content.

(* ... and Clone yields a tree with all caches unset whose Marshal is the
   encoding of the source's content. *)
Theorem C16_clone_fresh_and_current :
  forall n, fits n ->
    Forall (fun c => c = 0) (caches (clone n)) /\ fst (marshal false (clone n)) = ABytes (enc n).
Proof. exact (fun n Hf => conj (clone_caches_zero n) (clone_marshal n Hf)). Qed.
Print Assumptions C16_clone_fresh_and_current.

(* non-vacuity: a 3-level tree whose caches are stale before the Marshal *)
Definition ex_grandchild : node := Node 0 [Raw [x08; x03]].
Definition ex_child : node := Node 0 [Raw [x08; x02]; Sub (KLen [x1a]) ex_grandchild].
Definition ex_history : list op :=
  [ OIns [] 0 (Raw [x08; x01]);
    OIns [] 1 (Sub (KLen [x12]) ex_child);
    OSize [] false;                                   (* fills all three caches: 11, 7, 3 *)
    OSet [1%nat; 1%nat] 0 (Raw (repeat x2a 200)) ].   (* the grandchild grows across the 127/128 boundary *)
Definition ex_state : node := run ex_history empty.

(* the caches are stale: they still say 10 / 6 / 2 bytes, the truth is 210 / 205 / 200 *)
Example C16_ex_caches_stale :
  caches ex_state = [11; 7; 3] /\
  len (enc ex_state) = 210 /\
  ~ cache_valid ex_state.
Proof.
  split; [vm_compute; reflexivity|]. split; [vm_compute; reflexivity|].
  intros H. apply all_nodes_unfold in H. destruct H as [[H|H] _]; vm_compute in H; discriminate.
Qed.

(* using the stale caches directly fails loudly; the ordinary entry point is current *)
Example C16_ex_marshal :
  subtree [] ex_state = Some ex_state /\ fits ex_state /\
  snd (step ex_state (OMarshal [] true)) = OMismatch /\
  snd (step ex_state (OMarshal [] false)) = OBytes (enc ex_state) /\
  snd (step ex_state (OSize [] true)) = OSz 10 /\
  snd (step ex_state (OSize [] false)) = OSz 210.
Proof.
  split; [reflexivity|]. split; [unfold fits; vm_compute; reflexivity|].
  repeat split; vm_compute; reflexivity.
Qed.

(* hypotheses of the cached-marshal theorem are satisfiable and needed *)
Example C16_ex_cached_after_size :
  fst (marshal true (snd (size_pass false ex_state))) = ABytes (enc ex_state) /\
  fst (marshal true ex_state) = AMismatch.
Proof. split; vm_compute; reflexivity. Qed.

(* above MaxInt32-1 the size is not cached (cache stays 0) and is recomputed *)
Example C16_ex_store :
  store 2147483646 = 2147483647 /\ store 2147483647 = 0 /\ store 0 = 1.
Proof. repeat split; reflexivity. Qed.

Example C16_ex_equal_clone :
  equal ex_state (clone ex_state) = true /\ caches (clone ex_state) = [0; 0; 0] /\
  equal ex_state (run [ODel [1%nat] 0] ex_state) = false.
Proof. repeat split; vm_compute; reflexivity. Qed.
