(* C21: if the Decoder reads tokens to EOF without error (and read at least one token)
   then the input is a JSON text (RFC 8259).  The simulation argument is carried out once, for
   the strict grammar, in JsonLexStrictP.v; a strict JSON text is a JSON text. *)
From Coq Require Import List NArith ZArith Lia Bool.
From PB Require Import Base.PBytes Json.JsonUtf8 Json.JsonGrammar Json.JsonNumModel Json.JsonNumP
  Json.JsonLexModel Json.JsonStrP Json.JsonStrict.
From PB Require Export Json.JsonBytesP Json.JsonReadP Json.JsonLexStrictP.
Import ListNotations.
Open Scope N_scope.

(* parseNext: whitespace, one lexeme, whitespace *)
Definition lexeme (k : kind) (raw : list byte) : Prop :=
  match k with
  | KEOF => raw = []
  | KNull => raw = lit_null
  | KBool => raw = lit_true \/ raw = lit_false
  | KNumber => rfc_number raw
  | KString => rfc_string raw
  | KObjOpen => raw = [c_lbrace] | KObjClose => raw = [c_rbrace]
  | KArrOpen => raw = [c_lbrack] | KArrClose => raw = [c_rbrack]
  | KComma => raw = [c_comma]
  | _ => False
  end.

Lemma slexeme_lexeme k raw : slexeme k raw -> lexeme k raw.
Proof. destruct k; auto. intros (d & H). eapply sstring_rfc; eauto. Qed.

Theorem parse_next_spec st tok st' : parse_next st = Ok (tok, st') ->
  exists w1 w2, ws w1 /\ ws w2 /\ d_in st = w1 ++ t_raw tok ++ w2 ++ d_in st' /\
    lexeme (t_kind tok) (t_raw tok) /\ d_last st' = d_last st /\ d_stack st' = d_stack st /\
    (t_kind tok = KEOF -> d_in st' = []).
Proof.
  intros H. destruct (parse_next_strict _ _ _ H) as (w1 & w2 & H1 & H2 & H3 & H4 & H5).
  exists w1, w2. repeat (split; [assumption|]). split; [now apply slexeme_lexeme|exact H5].
Qed.

(* the strict grammar is a sub-grammar of RFC 8259 *)
Lemma strict_is_json :
  (forall v ks, svalue v ks -> jvalue v) /\ (forall p ks, selems p ks -> jelems p) /\
  (forall p ks, smembers p ks -> jmembers p).
Proof.
  apply strict_mutind; intros; try (now constructor); eauto using sstring_rfc, jvalue, jelems, jmembers.
Qed.

Theorem stext_json_text s ks : stext s ks -> json_text s.
Proof.
  intros (w1 & v & w2 & -> & H1 & Hv & H2). exists w1, v, w2. repeat split; auto.
  eapply (proj1 strict_is_json); eauto.
Qed.

(* JsonLexStrictP has a theorem of the same name that concludes [xtext input]; with this file
   imported the short name means the one below *)
Theorem lexer_accepts_only_json input toks :
  read_all input = (toks, None) -> toks <> [] -> json_text input.
Proof.
  intros H Hne. destruct (lexer_accepts_only_strict_json _ _ H Hne) as (ks & Hs). exact (stext_json_text _ _ Hs).
Qed.

(* the EOF test of Read (operator precedence) lets blank input through *)
Lemma not_json_text_nil : ~ json_text [].
Proof.
  intros (w1 & v & w2 & H & _ & Hv & _).
  destruct w1; [|discriminate]. destruct v; [|discriminate]. clear H.
  inversion Hv as [| | |s Hs|s Hs| | | |]; subst.
  - inversion Hs as [m i f e Hm Hi Hf He Heq].
    destruct m; [|discriminate]. destruct i; [|discriminate]. inversion Hi.
  - destruct Hs as (body & H & _). discriminate.
Qed.

Theorem lexer_blank_input_reads_eof :
  exists input, read_all input = ([], None) /\ ~ json_text input.
Proof. exists []. split; [reflexivity|apply not_json_text_nil]. Qed.

(* Read's recursion after a comma is at most one level deep *)
Theorem read_step_after_comma st tok st' :
  d_last st = KComma -> read_step st = Ok (tok, st') -> t_kind tok <> KComma.
Proof.
  intros Hl H. apply read_step_spec in H as (tk & st1 & k' & stack' & Hp & Hr & _ & -> & ->). cbn [t_kind set_kind].
  destruct (parse_next_strict _ _ _ Hp) as (_ & _ & _ & _ & _ & _ & Hl1 & _). rewrite Hl1, Hl in Hr.
  intros E. destruct (rstep_comma _ _ _ _ _ Hr E). discriminate.
Qed.
