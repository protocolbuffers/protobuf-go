(* bytes fields: standard base64 with padding on output; decode (encode b) = b through the
   variant selection of unmarshalBytes. *)
From Coq Require Import List NArith.
From PB Require Import Base.PBytes Json.JsonLexModel Json.JsonScalarModel Json.JsonB64VarP.
Import ListNotations.
Open Scope N_scope.

(* marshalSingular writes padded standard base64 and unmarshalBytes reads it back *)
Theorem bytes_base64_roundtrip b tok :
  t_kind tok = KString -> t_str tok = b64_encode false b -> unmarshal_bytes tok = Some b.
Proof. exact (bytes_base64_accepts_all_variants false true b tok). Qed.
