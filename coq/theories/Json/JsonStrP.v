(* Proofs about strings: Go's DecodeRune accepts only RFC 3629 sequences; parseString accepts
   only strict strings (JsonStrict.v), with their decoded value, hence only RFC 8259 strings. *)
From Coq Require Import List NArith ZArith Lia Bool.
From Coq Require Import ZifyBool ZifyNat ZifyN.
From PB Require Import Base.PBytes Json.JsonUtf8 Json.JsonGrammar Json.JsonNumModel Json.JsonNumP Json.JsonBytesP
  Json.JsonLexModel Json.JsonStrict.
Import ListNotations.
Open Scope N_scope.

Lemma decode_rune_ascii b X : b2n b < 128 -> decode_rune (b :: X) = (b2n b, 1%nat).
Proof. intros H. unfold decode_rune. replace (b2n b <? 128) with true by lia. reflexivity. Qed.

(* RFC 3629's table for 2, 3 and 4 bytes is the test DecodeRune makes on a sequence of that length *)
Lemma rfc3629_char2 a b : rfc3629_char [a; b] = (194 <=? b2n a) && (b2n a <? 224) && cont (b2n b).
Proof. unfold rfc3629_char, utf8_tail, in_range, cont. lia. Qed.

Lemma rfc3629_char3 a b c : rfc3629_char [a; b; c] = (224 <=? b2n a) && (b2n a <? 240) &&
  (((if b2n a =? 224 then 160 else 128) <=? b2n b) && (b2n b <? (if b2n a =? 237 then 160 else 192)) && cont (b2n c)).
Proof.
  unfold rfc3629_char, utf8_tail, in_range, cont. generalize (b2n a), (b2n b), (b2n c). intros x y z.
  destruct (N.eqb_spec x 224) as [->|Ha]; [cbn; lia|]. destruct (N.eqb_spec x 237) as [->|Hb]; [cbn; lia|]. lia.
Qed.

Lemma rfc3629_char4 a b c d : rfc3629_char [a; b; c; d] = (240 <=? b2n a) && (b2n a <? 245) &&
  (((if b2n a =? 240 then 144 else 128) <=? b2n b) && (b2n b <? (if b2n a =? 244 then 144 else 192)) &&
   cont (b2n c) && cont (b2n d)).
Proof.
  unfold rfc3629_char, utf8_tail, in_range, cont. generalize (b2n a), (b2n b), (b2n c), (b2n d). intros x y z t.
  destruct (N.eqb_spec x 240) as [->|Ha]; [cbn; lia|]. destruct (N.eqb_spec x 244) as [->|Hb]; [cbn; lia|]. lia.
Qed.

Lemma decode_rune_wf b rest r n : decode_rune (b :: rest) = (r, n) -> is_bad_rune (r, n) = false ->
  rfc3629_char (firstn n (b :: rest)) = true /\ (n <= length (b :: rest))%nat /\
  ((n = 1%nat /\ r = b2n b /\ r < 128) \/ ((2 <= n)%nat /\ 128 <= r /\ 128 <= b2n b)).
Proof.
  intros H Hbad. assert (Hne : (rune_error, 1%nat) <> (r, n)) by (intros [= <- <-]; discriminate Hbad).
  revert H. unfold decode_rune. clear Hbad.
  destruct (b2n b <? 128) eqn:E1.
  { intros [= <- <-]. cbn [firstn rfc3629_char length]. unfold in_range. clear - E1. lia. }
  destruct (b2n b <? 194) eqn:E2; [contradiction|].
  destruct (b2n b <? 224) eqn:E3.
  { destruct rest as [|b1 rest]; [contradiction|]. destruct (cont (b2n b1)) eqn:C; [|contradiction].
    intros [= <- <-]. cbn [firstn length]. rewrite rfc3629_char2, C. clear - E2 E3. lia. }
  destruct (b2n b <? 240) eqn:E4.
  { destruct rest as [|b1 [|b2 rest]]; try contradiction.
    match goal with |- context [if ?c then _ else _] => destruct c eqn:C end; [|contradiction].
    intros [= <- <-]. cbn [firstn length]. rewrite rfc3629_char3, C. clear - E3 E4 C.
    destruct (b2n b =? 224) eqn:Ea; lia. }
  destruct (b2n b <? 245) eqn:E5; [|contradiction].
  destruct rest as [|b1 [|b2 [|b3 rest]]]; try contradiction.
  match goal with |- context [if ?c then _ else _] => destruct c eqn:C end; [|contradiction].
  intros [= <- <-]. cbn [firstn length]. rewrite rfc3629_char4, C. clear - E4 E5 C.
  destruct (b2n b =? 240) eqn:Ea; lia.
Qed.

(* a rune that parseString / appendString copy verbatim is one unescaped character *)
Lemma decode_rune_plain b rest r n : decode_rune (b :: rest) = (r, n) -> is_bad_rune (r, n) = false ->
  (r <? 32) = false -> is b c_quote = false -> is b c_bslash = false ->
  rfc3629_char (firstn n (b :: rest)) = true /\ unescaped (firstn n (b :: rest)) = true.
Proof.
  intros Hd Hbad H32 Hq Hb. destruct (decode_rune_wf _ _ _ _ Hd Hbad) as (Hwf & Hn & Hc). split; auto.
  destruct Hc as [(-> & -> & _) | (Hn2 & _)].
  - cbn [firstn unescaped]. rewrite Hq, Hb. cbn [negb andb]. lia.
  - destruct n as [|[|n']]; [clear - Hn2; lia ..|]. destruct rest as [|b1 r']; [cbn [length] in Hn; clear - Hn; lia|].
    cbn [firstn]. destruct n'; reflexivity.
Qed.

(* one that they escape is a single ASCII byte *)
Lemma decode_rune_special b rest r n : decode_rune (b :: rest) = (r, n) -> is_bad_rune (r, n) = false ->
  ((r <? 32) || is b c_quote || is b c_bslash) = true -> n = 1%nat /\ r = b2n b /\ r < 128.
Proof.
  intros Hd Hbad Hs. destruct (decode_rune_wf _ _ _ _ Hd Hbad) as (_ & _ & [Hc | (_ & Hr & Hb)]); auto.
  exfalso. apply orb_true_iff in Hs as [Hs|Hs]; [apply orb_true_iff in Hs as [Hs|Hs]|];
    [lia|apply is_true in Hs; subst b; cbn in Hb; lia ..].
Qed.

(* DecodeRune reads a well-formed character back, whatever follows it *)
Lemma rfc3629_decode c : rfc3629_char c = true ->
  exists r, (forall X, decode_rune (c ++ X) = (r, length c)) /\ is_bad_rune (r, length c) = false /\
            (forall b, c = [b] -> r = b2n b) /\ ((2 <= length c)%nat -> 128 <= r).
Proof.
  unfold is_bad_rune, rune_error. cbn [fst snd].
  destruct c as [|b0 [|b1 [|b2 [|b3 [|b4 c]]]]]; try discriminate; cbn [length app]; unfold decode_rune.
  - cbn [rfc3629_char]. unfold in_range. intros H. exists (b2n b0). replace (b2n b0 <? 128) with true by lia.
    split; [reflexivity|]. split; [lia|]. split; [intros b [= ->]; reflexivity|lia].
  - rewrite rfc3629_char2. intros H. apply andb_true_iff in H as [H C]. rewrite C.
    replace (b2n b0 <? 128) with false by lia. replace (b2n b0 <? 194) with false by lia.
    replace (b2n b0 <? 224) with true by lia. eexists. split; [reflexivity|]. split; [lia|]. split; [intros b [=]|lia].
  - rewrite rfc3629_char3. intros H. apply andb_true_iff in H as [H C]. rewrite C.
    replace (b2n b0 <? 128) with false by lia. replace (b2n b0 <? 194) with false by lia.
    replace (b2n b0 <? 224) with false by lia. replace (b2n b0 <? 240) with true by lia.
    eexists. split; [reflexivity|]. split; [lia|]. split; [intros b [=]|destruct (b2n b0 =? 224) eqn:Ea; lia].
  - rewrite rfc3629_char4. intros H. apply andb_true_iff in H as [H C]. rewrite C.
    replace (b2n b0 <? 128) with false by lia. replace (b2n b0 <? 194) with false by lia.
    replace (b2n b0 <? 224) with false by lia. replace (b2n b0 <? 240) with false by lia.
    replace (b2n b0 <? 245) with true by lia.
    eexists. split; [reflexivity|]. split; [lia|]. split; [intros b [=]|destruct (b2n b0 =? 240) eqn:Ea; lia].
Qed.

(* parseString accepts only strict strings, with their decoded value *)
Lemma s_app_ok pre r d rest : s_app pre r = SOk d rest -> exists d', r = SOk d' rest /\ d = pre ++ d'.
Proof. destruct r; cbn [s_app]; try discriminate. intros [= <- <-]. eauto. Qed.

Lemma hex_val_is_hex b v : hex_val b = Some v -> is_hex b = true.
Proof.
  unfold hex_val, is_hex. destruct (is_digit b); [reflexivity|].
  destruct (in_range 97 102 b); [reflexivity|]. destruct (in_range 65 70 b); [reflexivity|discriminate].
Qed.

Lemma hex4_is_hex a b c d v : hex4 a b c d = Some v ->
  is_hex a = true /\ is_hex b = true /\ is_hex c = true /\ is_hex d = true.
Proof.
  unfold hex4. destruct (hex_val a) eqn:Ea; [|discriminate]. destruct (hex_val b) eqn:Eb; [|discriminate].
  destruct (hex_val c) eqn:Ec; [|discriminate]. destruct (hex_val d) eqn:Ed; [|discriminate].
  intros _. repeat split; eapply hex_val_is_hex; eauto.
Qed.

Lemma simple_esc_intro e : (is e c_quote || is e c_bslash || is e c_slash || is e "b"%byte || is e "f"%byte
                            || is e "n"%byte || is e "r"%byte || is e "t"%byte) = true -> is_simple_esc e = true.
Proof. auto. Qed.

(* utf16.DecodeRune succeeds exactly on a high surrogate followed by a low one *)
Lemma decode_surrogates_ok v1 v2 :
  (decode_surrogates v1 v2 =? rune_error) = false <-> 55296 <= v1 < 56320 /\ 56320 <= v2 < 57344.
Proof.
  unfold decode_surrogates, rune_error.
  destruct ((55296 <=? v1) && (v1 <? 56320) && (56320 <=? v2) && (v2 <? 57344)) eqn:E; lia.
Qed.

Theorem parse_string_loop_strict fuel inp d rest :
  parse_string_loop fuel inp = SOk d rest ->
  exists body, inp = body ++ c_quote :: rest /\ schars body d.
Proof.
  revert inp d rest. induction fuel as [|f IH]; intros inp d rest; cbn [parse_string_loop]; [discriminate|].
  destruct inp as [|b r]; [discriminate|].
  destruct (decode_rune (b :: r)) as [rn n] eqn:Ed.
  destruct (is_bad_rune (rn, n)) eqn:Ebad; [discriminate|]. cbn [fst snd].
  destruct (rn <? 32) eqn:E32; [discriminate|].
  destruct (is b c_quote) eqn:Eq.
  { intros [= <- <-]. apply is_true in Eq. subst. exists []. split; auto. constructor. }
  destruct (is b c_bslash) eqn:Eb.
  { apply is_true in Eb. subst b. destruct r as [|e r1]; [discriminate|].
    assert (Hsimple : forall pre, is_simple_esc e = true -> pre = [simple_esc_val e] ->
              s_app pre (parse_string_loop f r1) = SOk d rest ->
              exists body, c_bslash :: e :: r1 = body ++ c_quote :: rest /\ schars body d).
    { intros pre He -> H. apply s_app_ok in H as (d' & H & ->). apply IH in H as (body & -> & Hb).
      exists (c_bslash :: e :: body). split; auto. cbn [app]. now apply SCesc. }
    destruct (is e c_quote || is e c_bslash || is e c_slash) eqn:E1.
    { apply Hsimple. { unfold is_simple_esc. rewrite E1. reflexivity. }
      apply orb_true_iff in E1 as [E1|E1]; [apply orb_true_iff in E1 as [E1|E1]|]; apply is_true in E1; subst; reflexivity. }
    destruct (is e "b"%byte) eqn:E2. { apply is_true in E2. subst. apply Hsimple; reflexivity. }
    destruct (is e "f"%byte) eqn:E3. { apply is_true in E3. subst. apply Hsimple; reflexivity. }
    destruct (is e "n"%byte) eqn:E4. { apply is_true in E4. subst. apply Hsimple; reflexivity. }
    destruct (is e "r"%byte) eqn:E5. { apply is_true in E5. subst. apply Hsimple; reflexivity. }
    destruct (is e "t"%byte) eqn:E6. { apply is_true in E6. subst. apply Hsimple; reflexivity. }
    destruct (is e c_u) eqn:E7; [|discriminate]. apply is_true in E7. subst e.
    destruct r1 as [|h1 [|h2 [|h3 [|h4 r2]]]]; try discriminate.
    destruct (hex4 h1 h2 h3 h4) as [v|] eqn:Eh; [|discriminate].
    destruct (is_surrogate v) eqn:Esur.
    - destruct r2 as [|b0 [|b1 [|g1 [|g2 [|g3 [|g4 r3]]]]]]; try discriminate.
      destruct (hex4 g1 g2 g3 g4) as [v2|] eqn:Eg.
      2:{ rewrite !orb_true_r. discriminate. }
      destruct (is b0 c_bslash) eqn:Eb0; [|discriminate]. destruct (is b1 c_u) eqn:Eb1; [|discriminate].
      apply is_true in Eb0, Eb1. subst b0 b1. cbn [negb orb].
      destruct (decode_surrogates v v2 =? rune_error) eqn:Err; [discriminate|]. cbn [orb].
      intros H. apply s_app_ok in H as (d' & H & ->). apply IH in H as (body & -> & Hb).
      exists (c_bslash :: c_u :: h1 :: h2 :: h3 :: h4 :: c_bslash :: c_u :: g1 :: g2 :: g3 :: g4 :: body).
      split; auto. apply decode_surrogates_ok in Err as [Hv1 Hv2]. now apply SCpair.
    - intros H. apply s_app_ok in H as (d' & H & ->). apply IH in H as (body & -> & Hb).
      exists (c_bslash :: c_u :: h1 :: h2 :: h3 :: h4 :: body). split; auto. now apply SCuni. }
  intros H. apply s_app_ok in H as (d' & H & ->). apply IH in H as (body & Hsk & Hb).
  exists (firstn n (b :: r) ++ body). split.
  - rewrite <- app_assoc, <- Hsk. symmetry. apply firstn_skipn.
  - destruct (decode_rune_plain _ _ _ _ Ed Ebad E32 Eq Eb). now apply SCplain.
Qed.

(* and every strict string, yielding its decoded value *)
Lemma simple_esc_cases e : is_simple_esc e = true ->
  e = c_quote \/ e = c_bslash \/ e = c_slash \/ e = "b"%byte \/ e = "f"%byte \/ e = "n"%byte \/ e = "r"%byte \/ e = "t"%byte.
Proof.
  unfold is_simple_esc. rewrite !orb_true_iff. intros H.
  repeat match type of H with _ \/ _ => destruct H as [H|H] end; apply is_true in H; auto 10.
Qed.

Theorem parse_string_loop_complete body d : schars body d ->
  forall rest fuel, (length body < fuel)%nat -> parse_string_loop fuel (body ++ c_quote :: rest) = SOk d rest.
Proof.
  induction 1 as [|c rest0 d Hc Hu Hs IH|e rest0 d He Hs IH|h1 h2 h3 h4 v rest0 d Hh Hsur Hs IH
                  |h1 h2 h3 h4 g1 g2 g3 g4 v1 v2 rest0 d Hh Hg Hv1 Hv2 Hs IH];
    intros rest fuel Hf; (destruct fuel as [|f]; [lia|]).
  - cbn [app parse_string_loop]. rewrite (decode_rune_ascii c_quote rest) by (cbn; lia). reflexivity.
  - destruct (rfc3629_decode c Hc) as (r & Hdec & Hbad & H1 & H2).
    destruct (rfc3629_shape c Hc) as (b & c' & -> & _ & Hsh).
    rewrite <- app_assoc. cbn [app parse_string_loop].
    change (b :: c' ++ rest0 ++ c_quote :: rest) with ((b :: c') ++ rest0 ++ c_quote :: rest).
    rewrite Hdec, Hbad. cbn [fst snd].
    assert (Hr : (r <? 32) = false /\ is b c_quote = false /\ is b c_bslash = false).
    { destruct Hsh as [[-> Hb] | [Hl HF]].
      - rewrite (H1 b eq_refl). cbn [unescaped] in Hu. apply andb_true_iff in Hu as [Hu Hu3].
        apply andb_true_iff in Hu as [Hu1 Hu2]. apply negb_true_iff in Hu2, Hu3. repeat split; auto. lia.
      - specialize (H2 Hl). inversion HF; subst. repeat split; [lia| |]; apply is_b2n_false; cbn; lia. }
    destruct Hr as (-> & -> & ->).
    rewrite firstn_app_len. rewrite skipn_app, Nat.sub_diag, skipn_all. cbn [skipn app].
    rewrite IH by (rewrite app_length in Hf; cbn [length] in *; lia). reflexivity.
  - cbn [app parse_string_loop]. rewrite (decode_rune_ascii c_bslash) by (cbn; lia).
    change (is_bad_rune (b2n c_bslash, 1%nat)) with false. cbn [fst snd].
    change (b2n c_bslash <? 32) with false. eval_is. cbv iota.
    rewrite IH by (cbn [length] in Hf; lia).
    destruct (simple_esc_cases e He) as [->|[->|[->|[->|[->|[->|[->| ->]]]]]]]; reflexivity.
  - cbn [app parse_string_loop]. rewrite (decode_rune_ascii c_bslash) by (cbn; lia).
    change (is_bad_rune (b2n c_bslash, 1%nat)) with false. cbn [fst snd].
    change (b2n c_bslash <? 32) with false. eval_is. cbv iota.
    rewrite Hh, Hsur. rewrite IH by (cbn [length] in Hf; lia). reflexivity.
  - cbn [app parse_string_loop]. rewrite (decode_rune_ascii c_bslash) by (cbn; lia).
    change (is_bad_rune (b2n c_bslash, 1%nat)) with false. cbn [fst snd].
    change (b2n c_bslash <? 32) with false. eval_is. cbv iota.
    rewrite Hh. replace (is_surrogate v1) with true by (unfold is_surrogate; lia).
    rewrite Hg. eval_is. cbn [negb orb].
    rewrite (proj2 (decode_surrogates_ok v1 v2) (conj Hv1 Hv2)). cbn [orb]. rewrite IH by (cbn [length] in Hf; lia). reflexivity.
Qed.

(* strict strings are RFC 8259 strings *)
Lemma schars_jchars body d : schars body d -> jchars body.
Proof.
  induction 1 as [|c rest0 d Hc Hu Hs IH|e rest0 d He Hs IH|h1 h2 h3 h4 v rest0 d Hh Hsur Hs IH
                  |h1 h2 h3 h4 g1 g2 g3 g4 v1 v2 rest0 d Hh Hg Hv1 Hv2 Hs IH].
  - constructor.
  - now apply JCplain.
  - now apply JCesc.
  - apply hex4_is_hex in Hh as (? & ? & ? & ?). now apply JCuni.
  - apply hex4_is_hex in Hh as (? & ? & ? & ?). apply hex4_is_hex in Hg as (? & ? & ? & ?).
    apply JCuni; auto. now apply JCuni.
Qed.
Lemma sstring_rfc s d : sstring s d -> rfc_string s.
Proof. intros (body & -> & H). exists body. split; auto. eapply schars_jchars; eauto. Qed.

Theorem parse_string_loop_sound fuel inp d rest :
  parse_string_loop fuel inp = SOk d rest ->
  exists body, inp = body ++ c_quote :: rest /\ jchars body.
Proof.
  intros H. apply parse_string_loop_strict in H as (body & Hi & Hb). eauto using schars_jchars.
Qed.

Theorem parse_string_at_strict pos inp s n : parse_string_at pos inp = Ok (s, n) ->
  sstring (firstn n inp) s /\ (2 <= n <= length inp)%nat.
Proof.
  unfold parse_string_at. destruct inp as [|b r]; [discriminate|].
  destruct (is b c_quote) eqn:Eq; [|discriminate]. apply is_true in Eq. subst b.
  destruct (parse_string_loop (S (length r)) r) as [d rest| | |] eqn:E; try discriminate.
  intros H. assert (Hs : s = d) by congruence.
  assert (Hn : n = (length (c_quote :: r) - length rest)%nat) by congruence. subst s n. clear H.
  apply parse_string_loop_strict in E as (body & -> & Hb).
  set (l := c_quote :: body ++ [c_quote]).
  assert (El : c_quote :: body ++ c_quote :: rest = l ++ rest).
  { subst l. cbn [app]. now rewrite <- app_assoc. }
  assert (En : (length (c_quote :: body ++ c_quote :: rest) - length rest)%nat = length l).
  { rewrite El, app_length. lia. }
  rewrite En, El, firstn_app_len. split; [exists body; auto|].
  rewrite app_length. subst l. cbn [length]. rewrite app_length. cbn [length]. lia.
Qed.

Theorem parse_string_at_complete s d rest pos : sstring s d ->
  parse_string_at pos (s ++ rest) = Ok (d, length s).
Proof.
  intros (body & -> & Hb). cbn [app parse_string_at]. eval_is. cbv iota.
  rewrite <- app_assoc. cbn [app].
  rewrite (parse_string_loop_complete body d Hb rest) by (rewrite ?app_length; cbn [length]; lia).
  f_equal. f_equal. cbn [length]. rewrite ?app_length. cbn [length]. rewrite ?app_length. cbn [length]. lia.
Qed.

Theorem parse_string_at_sound pos inp s n : parse_string_at pos inp = Ok (s, n) ->
  rfc_string (firstn n inp) /\ (2 <= n <= length inp)%nat /\
  exists body, firstn n inp = c_quote :: body ++ [c_quote].
Proof.
  intros H. apply parse_string_at_strict in H as [Hs Hn]. split; [eapply sstring_rfc; eauto|].
  split; auto. destruct Hs as (body & -> & _). eauto.
Qed.
