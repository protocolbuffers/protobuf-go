(* bytes fields: all four base64 variants (standard / URL-safe alphabet, with / without
   padding) are accepted by unmarshalBytes and decode to the original bytes. *)
From Coq Require Import List Arith NArith Lia Bool.
From PB Require Import Base.PBytes Base.Base64P Json.JsonUtf8 Json.JsonGrammar Json.JsonNumModel
  Json.JsonLexModel Json.JsonEncModel Json.JsonScalarModel Json.JsonB64QuantumP.
Import ListNotations.
Open Scope N_scope.

Lemma b64_encode_no_nl url pad b : nonl (b64_encode_variant url pad b) = b64_encode_variant url pad b.
Proof.
  apply nonl_id. induction b as [|a|a b|a b c r IH] using list3_ind; destruct pad;
    cbn [b64_encode_variant b64_encode b64_encode_raw forallb] in *; rewrite ?b64_char_not_nl; auto.
Qed.

Lemma group_lt a b c : b2n a * 65536 + b2n b * 256 + b2n c < 16777216.
Proof. pose proof (b2n_lt a). pose proof (b2n_lt b). pose proof (b2n_lt c). lia. Qed.

(* every string that is an encoding of b once its CR and LF bytes are deleted decodes to b *)
Theorem b64_encode_decodes url pad b : forall s fuel,
  nonl s = b64_encode_variant url pad b -> (length s < fuel)%nat -> b64_decode_loop fuel url pad s = Some b.
Proof.
  induction b as [|a|a b|a b c r IH] using list3_ind; intros s fuel Hs Hf.
  - apply decode_done; auto. rewrite Hs. now destruct pad.
  - set (n := b2n a * 65536). rewrite <- (quantum_bytes2 a n eq_refl).
    destruct (sextets_lt n) as (H0 & H1 & _). { pose proof (b2n_lt a). lia. }
    apply (decode_end url pad s fuel [b64_char url (n / 262144); b64_char url ((n / 4096) mod 64)] _ 2); auto.
    + rewrite Hs. now destruct pad.
    + repeat constructor; now apply b64_val_char.
  - set (n := b2n a * 65536 + b2n b * 256). rewrite <- (quantum_bytes3 a b n eq_refl).
    destruct (sextets_lt n) as (H0 & H1 & H2 & _). { pose proof (b2n_lt a). pose proof (b2n_lt b). lia. }
    apply (decode_end url pad s fuel [b64_char url (n / 262144); b64_char url ((n / 4096) mod 64);
                                      b64_char url ((n / 64) mod 64)] _ 1); auto.
    + rewrite Hs. now destruct pad.
    + repeat constructor; now apply b64_val_char.
  - set (n := b2n a * 65536 + b2n b * 256 + b2n c).
    assert (Hs' : nonl s = [b64_char url (n / 262144); b64_char url ((n / 4096) mod 64);
                            b64_char url ((n / 64) mod 64); b64_char url (n mod 64)] ++ b64_encode_variant url pad r)
      by (rewrite Hs; now destruct pad).
    destruct (decode_full url pad s fuel _ _ _ Hs' (sextet_vals url n (group_lt a b c)) eq_refl Hf)
      as (rest & Hr & Hl & ->).
    rewrite (IH rest (pred fuel) Hr) by lia. cbn [option_map]. now rewrite (quantum_bytes4 a b c n eq_refl).
Qed.

Theorem b64_decode_variant url pad s : b64_decode url pad (b64_encode_variant url pad s) = Some s.
Proof. unfold b64_decode. apply b64_encode_decodes; [apply b64_encode_no_nl|lia]. Qed.

(* an unpadded text whose length is a multiple of 4 is also the padded text *)
Lemma b64_raw_mod url s :
  ((length (b64_encode_raw url s) mod 4 = 0)%nat -> b64_encode_raw url s = b64_encode url s) /\
  (length (b64_encode url s) mod 4 = 0)%nat.
Proof.
  induction s as [|a|a b|a b c r [IH1 IH2]] using list3_ind; cbn [b64_encode b64_encode_raw length].
  - auto.
  - split; [cbn; discriminate|reflexivity].
  - split; [cbn; discriminate|reflexivity].
  - change (S (S (S (S (length (b64_encode_raw url r)))))) with (4 + length (b64_encode_raw url r))%nat.
    change (S (S (S (S (length (b64_encode url r)))))) with (4 + length (b64_encode url r))%nat.
    rewrite !mod4_add. split; [|exact IH2]. intros H. rewrite IH1; auto.
Qed.

(* alphabets: a URL-safe text without '-' and '_' is the standard text *)
Definition has_url_char (t : list byte) : bool := existsb (fun b => is b c_minus || is b c_us) t.

Lemma b64_url_text_std pad s : has_url_char (b64_encode_variant true pad s) = false ->
  b64_encode_variant true pad s = b64_encode_variant false pad s.
Proof.
  unfold has_url_char.
  induction s as [|a|a b|a b c r IH] using list3_ind; destruct pad;
    cbn [b64_encode_variant b64_encode b64_encode_raw existsb] in *; auto; intros H;
    repeat (apply orb_false_iff in H as [Hc H]; rewrite (b64_char_url_std _ Hc); clear Hc);
    try reflexivity; try (now rewrite IH).
Qed.

Lemma b64_std_text_no_url pad s : has_url_char (b64_encode_variant false pad s) = false.
Proof.
  unfold has_url_char.
  induction s as [|a|a b|a b c r IH] using list3_ind; destruct pad;
    cbn [b64_encode_variant b64_encode b64_encode_raw existsb] in *; auto;
    rewrite !b64_char_std_not_url; try reflexivity; cbn [orb]; assumption.
Qed.

(* unmarshalBytes accepts each of the four encodings and returns the encoded bytes *)
Theorem bytes_base64_accepts_all_variants url pad b tok :
  t_kind tok = KString -> t_str tok = b64_encode_variant url pad b -> unmarshal_bytes tok = Some b.
Proof.
  intros Hk Hs. unfold unmarshal_bytes. rewrite Hk, Hs. fold (has_url_char (b64_encode_variant url pad b)).
  (* reduce to the case where the selected alphabet is the alphabet of the text *)
  assert (Hgen : forall u, has_url_char (b64_encode_variant u pad b) = u ->
            b64_decode u (Nat.eqb (Nat.modulo (length (b64_encode_variant u pad b)) 4) 0) (b64_encode_variant u pad b) = Some b).
  { intros u _. destruct pad.
    - cbn [b64_encode_variant]. rewrite (proj2 (b64_raw_mod u b)). cbn [Nat.eqb]. apply (b64_decode_variant u true).
    - cbn [b64_encode_variant]. destruct (Nat.eqb (Nat.modulo (length (b64_encode_raw u b)) 4) 0) eqn:E.
      + apply Nat.eqb_eq in E. rewrite (proj1 (b64_raw_mod u b) E). apply (b64_decode_variant u true).
      + apply (b64_decode_variant u false). }
  destruct url.
  - destruct (has_url_char (b64_encode_variant true pad b)) eqn:E.
    + apply Hgen. exact E.
    + rewrite (b64_url_text_std pad b E). apply Hgen. apply b64_std_text_no_url.
  - rewrite b64_std_text_no_url. apply Hgen. apply b64_std_text_no_url.
Qed.
