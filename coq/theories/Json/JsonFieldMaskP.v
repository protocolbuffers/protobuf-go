(* JsonFieldMaskP — string lemmas for the FieldMask mapping of protojson (C20): a comma-joined list of
   lower-camel paths is split back into the same list, and each reversible path is recovered. *)
From Coq Require Import List NArith Lia Bool.
From Coq Require Import ZifyBool ZifyNat ZifyN.
From PB Require Import Base.PBytes Json.RtSchema Json.JsonMsgModel Text.TextMsgScalarP.
Import ListNotations.
Open Scope N_scope.

Lemma upper_of_lower c : is_lower c = true -> 65 <= b2n (n2b (b2n c - 32)) <= 90.
Proof.
  unfold is_lower. intros H. pose proof (b2n_lt c). rewrite b2n_n2b by lia. lia.
Qed.

Lemma fm_camel_aux_chars (P : byte -> Prop) :
  (forall c, 65 <= b2n c <= 90 -> P c) ->
  forall s w, (forall c, In c s -> b2n c <> 95 -> P c) -> forall c, In c (fm_camel_aux w s) -> P c.
Proof.
  intros Hup s. induction s as [|x s IH]; intros w Hs c Hin; [destruct Hin|].
  cbn [fm_camel_aux] in Hin. destruct (b2n x =? 95) eqn:E.
  - apply (IH true); [|exact Hin]. intros c' Hc'. apply Hs. right. exact Hc'.
  - destruct Hin as [<-|Hin].
    + destruct (w && is_lower x) eqn:Ew.
      * apply andb_prop in Ew. destruct Ew as [_ El]. apply Hup, upper_of_lower, El.
      * apply Hs; [left; reflexivity|]. apply N.eqb_neq, E.
    + apply (IH false); [|exact Hin]. intros c' Hc'. apply Hs. right. exact Hc'.
Qed.

Lemma fm_camel_no_underscore s : existsb (fun c => b2n c =? 95) (fm_camel s) = false.
Proof.
  destruct (existsb (fun c => b2n c =? 95) (fm_camel s)) eqn:E; [|reflexivity].
  apply existsb_exists in E. destruct E as (c & Hin & Hc). apply N.eqb_eq in Hc. exfalso.
  revert Hc. apply (fm_camel_aux_chars (fun c => b2n c <> 95)) with (s := s) (w := false); [lia| |exact Hin].
  intros c' _ H. exact H.
Qed.

Lemma fullname_chars st s : fullname_valid_aux st s = true -> forall c, In c s -> b2n c <> 44.
Proof.
  revert st. induction s as [|x s IH]; intros st H c Hin; [destruct Hin|].
  cbn [fullname_valid_aux] in H. destruct Hin as [<-|Hin].
  - destruct st.
    + apply andb_prop in H. destruct H as [H _]. unfold is_letter, is_lower, is_upper in H. lia.
    + destruct (b2n x =? 46) eqn:E; [lia|]. apply andb_prop in H. destruct H as [H _].
      unfold is_letter_digit, is_letter, is_lower, is_upper in H. lia.
  - destruct st.
    + apply andb_prop in H. destruct H as [_ H]. apply (IH _ H), Hin.
    + destruct (b2n x =? 46); [apply (IH _ H), Hin|]. apply andb_prop in H. destruct H as [_ H]. apply (IH _ H), Hin.
Qed.

Lemma fm_camel_no_comma s : fullname_valid s = true -> forall c, In c (fm_camel s) -> b2n c <> 44.
Proof.
  intros H. apply fm_camel_aux_chars; [lia|]. intros c Hin _. apply (fullname_chars true s H), Hin.
Qed.

(* ---------- split / join ---------- *)
Lemma split_aux_app a rest cur : (forall c, In c a -> b2n c <> 44) ->
  split_comma_aux (a ++ rest) cur = split_comma_aux rest (rev a ++ cur).
Proof.
  revert cur. induction a as [|x a IH]; intros cur H; [reflexivity|].
  cbn [app split_comma_aux]. destruct (b2n x =? 44) eqn:E.
  - apply N.eqb_eq in E. exfalso. apply (H x); [left; reflexivity|exact E].
  - rewrite IH by (intros c Hc; apply H; right; exact Hc). cbn [rev]. rewrite <- app_assoc. reflexivity.
Qed.

Lemma split_join_aux : forall cs cur, cs <> [] -> Forall (fun a => forall c, In c a -> b2n c <> 44) cs ->
  split_comma_aux (join_comma cs) cur = match cs with c :: r => (rev cur ++ c) :: r | [] => [] end.
Proof.
  induction cs as [|a [|b r] IH]; intros cur Hne Hall; [congruence| |].
  - inversion Hall as [|? ? Ha _]; subst. cbn [join_comma].
    rewrite <- (app_nil_r a) at 1. rewrite split_aux_app by exact Ha. cbn [split_comma_aux].
    rewrite rev_app_distr, rev_involutive. reflexivity.
  - inversion Hall as [|? ? Ha Hall']; subst.
    change (join_comma (a :: b :: r)) with (a ++ x2c :: join_comma (b :: r)).
    rewrite split_aux_app by exact Ha. cbn [split_comma_aux]. change (b2n x2c =? 44) with true. cbn iota.
    rewrite rev_app_distr, rev_involutive. f_equal.
    rewrite (IH [] ltac:(discriminate) Hall'). reflexivity.
Qed.

Lemma split_join cs : cs <> [] -> Forall (fun a => forall c, In c a -> b2n c <> 44) cs ->
  split_comma (join_comma cs) = cs.
Proof.
  intros Hne Hall. unfold split_comma. rewrite (split_join_aux cs [] Hne Hall). destruct cs; [congruence|reflexivity].
Qed.

Lemma join_nonempty cs : cs <> [] -> Forall (fun a => a <> []) cs -> join_comma cs <> [].
Proof.
  intros Hne Hall. destruct cs as [|a [|b r]]; [congruence| |].
  - inversion Hall; subst. cbn [join_comma]. assumption.
  - cbn [join_comma]. intros H. apply app_eq_nil in H. destruct H as [_ H]. discriminate.
Qed.

(* ---------- one path ---------- *)
Lemma fm_path_facts p : fm_path_ok p = true ->
  fullname_valid p = true /\ fm_snake (fm_camel p) = p /\ fm_camel p <> [].
Proof.
  unfold fm_path_ok. intros H. apply andb_prop in H. destruct H as [Hv Hs]. apply bs_eqb_eq in Hs.
  split; [exact Hv|]. split; [exact Hs|]. intros E. rewrite E in Hs. cbn in Hs. subst p. discriminate.
Qed.
