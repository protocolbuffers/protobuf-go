(* Decoder completeness: every strict JSON text (JsonStrict.v) is read to EOF by the Decoder
   model, yielding exactly the tokens of its derivation. *)
From Coq Require Import List NArith ZArith Lia Bool.
From Coq Require Import ZifyBool ZifyNat ZifyN.
From PB Require Import Base.PBytes Json.JsonUtf8 Json.JsonGrammar Json.JsonNumModel Json.JsonNumP
  Json.JsonLexModel Json.JsonStrP Json.JsonLexP Json.JsonStrict.
Import ListNotations.
Open Scope N_scope.

(* parseNext on a known lexeme *)
Definition pn_result (st : dstate) (a : atok) (rest : list byte) : Prop :=
  exists tok st', parse_next st = Ok (tok, st') /\ atok_of tok = a /\ d_in st' = skip_ws rest /\
                  d_last st' = d_last st /\ d_stack st' = d_stack st.

Lemma mk_token_ok st k raw boo str rest : d_in (consume 0 st) = raw ++ rest ->
  exists tok st', mk_token k (length raw) boo str (consume 0 st) = (tok, st') /\ atok_of tok = (k, raw, boo, str) /\
                  d_in st' = skip_ws rest /\ d_last st' = d_last st /\ d_stack st' = d_stack st.
Proof.
  intros H. unfold mk_token. eexists _, _. split; [reflexivity|]. unfold atok_of. cbn [t_kind t_raw t_boo t_str].
  rewrite H, firstn_app_len. split; [reflexivity|].
  set (st1 := consume 0 st) in *.
  assert (Hl : d_last st1 = d_last st /\ d_stack st1 = d_stack st) by (subst st1; unfold consume; cbn; auto).
  unfold consume. cbn [d_in d_last d_stack]. rewrite H, skipn_app, Nat.sub_diag, skipn_all. cbn [skipn app].
  tauto.
Qed.

Lemma consume0_in st s : d_in st = s -> head_nonws s -> d_in (consume 0 st) = s.
Proof. intros H Hh. unfold consume. cbn [d_in skipn]. rewrite H. now apply skip_ws_nonws. Qed.

Lemma match_with_delim_app lit rest : delim_or_end rest = true -> match_with_delim lit (lit ++ rest) = length lit.
Proof.
  intros H. unfold match_with_delim. rewrite strip_prefix_app. destruct rest as [|c r]; auto.
  cbn [delim_or_end] in H. apply negb_true_iff in H. now rewrite H.
Qed.

Lemma pn_literal st lit k boo rest :
  (lit = lit_null /\ k = KNull /\ boo = false \/ lit = lit_true /\ k = KBool /\ boo = true \/
   lit = lit_false /\ k = KBool /\ boo = false) ->
  d_in st = lit ++ rest -> delim_or_end rest = true -> pn_result st (k, lit, boo, []) rest.
Proof.
  intros Hl Hin Hd.
  assert (Hc : d_in (consume 0 st) = lit ++ rest).
  { apply consume0_in; auto. destruct Hl as [(-> & _) | [(-> & _) | (-> & _)]]; reflexivity. }
  destruct (mk_token_ok st k lit boo [] rest Hc) as (tok & st' & Hmk & Ha & H1 & H2 & H3).
  exists tok, st'. split; [|auto]. unfold parse_next. rewrite Hc.
  pose proof (match_with_delim_app lit rest Hd) as Hm.
  destruct Hl as [(-> & -> & ->) | [(-> & -> & ->) | (-> & -> & ->)]];
    unfold lit_null, lit_true, lit_false in *; cbn [app length] in *; eval_is; cbv iota;
    rewrite Hm; rewrite Hmk; reflexivity.
Qed.

Lemma pn_number st s rest : rfc_number s -> d_in st = s ++ rest -> delim_or_end rest = true ->
  pn_result st (KNumber, s, false, []) rest.
Proof.
  intros Hn Hin Hd. destruct (rfc_number_head s Hn) as (b & r & Es & Hb).
  destruct (numhead_facts b Hb) as (Hws & Hn1 & Hn2 & Hn3 & Hnum).
  assert (Hc : d_in (consume 0 st) = s ++ rest).
  { apply consume0_in; auto. rewrite Es. exact Hws. }
  destruct (mk_token_ok st KNumber s false [] rest Hc) as (tok & st' & Hmk & Ha & H1 & H2 & H3).
  exists tok, st'. split; [|auto]. unfold parse_next. rewrite Hc.
  pose proof (parse_number_complete s rest Hn Hd) as Hp.
  rewrite Es in *. cbn [app] in *. rewrite Hn1, Hn2, Hn3, Hnum, Hp, Hmk. reflexivity.
Qed.

Lemma pn_string st s d rest : sstring s d -> d_in st = s ++ rest -> pn_result st (KString, s, false, d) rest.
Proof.
  intros Hs Hin.
  assert (Hc : d_in (consume 0 st) = s ++ rest).
  { apply consume0_in; auto. destruct Hs as (body & -> & _). reflexivity. }
  destruct (mk_token_ok st KString s false d rest Hc) as (tok & st' & Hmk & Ha & H1 & H2 & H3).
  exists tok, st'. split; [|auto]. unfold parse_next. rewrite Hc.
  rewrite (parse_string_at_complete s d rest _ Hs).
  destruct Hs as (body & -> & _). cbn [app]. eval_is. change (is_digit c_quote) with false. cbv iota.
  cbn [app] in Hmk. rewrite Hmk. reflexivity.
Qed.

Lemma pn_punct st k c rest :
  (k = KObjOpen /\ c = c_lbrace \/ k = KObjClose /\ c = c_rbrace \/ k = KArrOpen /\ c = c_lbrack \/
   k = KArrClose /\ c = c_rbrack \/ k = KComma /\ c = c_comma) ->
  d_in st = c :: rest -> pn_result st (k, [c], false, []) rest.
Proof.
  intros Hk Hin.
  assert (Hc : d_in (consume 0 st) = [c] ++ rest).
  { apply consume0_in; auto. destruct Hk as [(_ & ->) | [(_ & ->) | [(_ & ->) | [(_ & ->) | (_ & ->)]]]]; reflexivity. }
  destruct (mk_token_ok st k [c] false [] rest Hc) as (tok & st' & Hmk & Ha & H1 & H2 & H3).
  exists tok, st'. split; [|auto]. unfold parse_next. rewrite Hc. cbn [length app] in *.
  destruct Hk as [(-> & ->) | [(-> & ->) | [(-> & ->) | [(-> & ->) | (-> & ->)]]]]; eval_is;
    try change (is_digit c_lbrace) with false; try change (is_digit c_rbrace) with false;
    try change (is_digit c_lbrack) with false; try change (is_digit c_rbrack) with false;
    try change (is_digit c_comma) with false; cbv iota; rewrite Hmk; reflexivity.
Qed.

(* Read's switch on a known token *)
Definition rs_result (st : dstate) (a : atok) (inp : list byte) (last : kind) (stack : list kind) : Prop :=
  exists tok st', read_step st = Ok (tok, st') /\ atok_of tok = a /\ d_in st' = inp /\
                  d_last st' = last /\ d_stack st' = stack.

Lemma rs_do st k raw boo str rest k' stack' :
  pn_result st (k, raw, boo, str) rest -> rstep (d_last st) (d_stack st) k k' stack' -> k' <> KName ->
  rs_result st (k', raw, boo, str) (skip_ws rest) k' stack'.
Proof.
  intros (tok & st1 & Hp & Ha & Hi & Hl & Hs) Hr Hn. unfold atok_of in Ha. injection Ha as Hk <- <- <-.
  exists (set_kind k' tok), (rs_state k' stack' st1). split.
  - apply read_step_spec. exists tok, st1, k', stack'. rewrite Hl, Hs, Hk. repeat split; auto. contradiction.
  - unfold rs_state. rewrite (kind_eqb_false _ _ Hn). repeat split; auto.
Qed.

Lemma rs_scalar st k raw boo str rest : is_scalar k = true ->
  pn_result st (k, raw, boo, str) rest -> is_value_next st = true ->
  rs_result st (k, raw, boo, str) (skip_ws rest) k (d_stack st).
Proof. intros Hsc Hpn Hv. apply (rs_do st k); auto; [now apply RsScalar|intros ->; discriminate]. Qed.

(* the two kinds of container: opening kind and byte, closing kind and byte *)
Definition bracket (ko : kind) (co : byte) (kc : kind) (cc : byte) : Prop :=
  (ko = KArrOpen /\ co = c_lbrack /\ kc = KArrClose /\ cc = c_rbrack) \/
  (ko = KObjOpen /\ co = c_lbrace /\ kc = KObjClose /\ cc = c_rbrace).

Lemma bracket_facts ko co kc cc : bracket ko co kc cc ->
  ko <> KEOF /\ ko <> KComma /\ ko <> KName /\ kc <> KEOF /\ kc <> KComma /\ is_value_end kc = true /\
  is_ws co = false /\ is_ws cc = false /\ is_not_delim cc = false.
Proof. intros [(-> & -> & -> & ->) | (-> & -> & -> & ->)]; repeat split; discriminate. Qed.

Lemma rs_open st ko co kc cc rest : bracket ko co kc cc -> d_in st = co :: rest -> is_value_next st = true ->
  rs_result st (a_punct ko co) (skip_ws rest) ko (ko :: d_stack st).
Proof.
  intros Hb Hin Hv. apply (rs_do st ko); [apply pn_punct; unfold bracket in Hb; tauto|apply RsOpen; auto|].
  - destruct Hb as [(-> & _) | (-> & _)]; auto.
  - apply (bracket_facts _ _ _ _ Hb).
Qed.

Lemma rs_close st ko co kc cc stk rest : bracket ko co kc cc -> d_in st = cc :: rest -> d_stack st = ko :: stk ->
  d_last st <> KComma -> d_last st <> KName -> rs_result st (a_punct kc cc) (skip_ws rest) kc stk.
Proof.
  intros Hb Hin Hst Hl0 Hl1. apply (rs_do st kc); [apply pn_punct; unfold bracket in Hb; tauto| |].
  - destruct Hb as [(-> & _ & -> & _) | (-> & _ & -> & _)]; [now apply RsCloseArr|now apply RsCloseObj].
  - destruct Hb as [(_ & _ & -> & _) | (_ & _ & -> & _)]; discriminate.
Qed.

Lemma rs_comma st rest : d_in st = c_comma :: rest -> d_stack st <> [] -> is_value_end (d_last st) = true ->
  rs_result st (a_punct KComma c_comma) (skip_ws rest) KComma (d_stack st).
Proof. intros Hin Hst Hl. apply (rs_do st KComma); [apply pn_punct; tauto|now apply RsComma|discriminate]. Qed.

Lemma rs_name st k d w2 rest : sstring k d -> ws w2 -> d_in st = k ++ w2 ++ c_colon :: rest ->
  is_value_next st = false -> (d_last st = KObjOpen \/ d_last st = KComma) ->
  rs_result st (KName, k, false, d) (skip_ws rest) KName (d_stack st).
Proof.
  intros Hk Hw2 Hin Hv Hl0.
  destruct (pn_string st k d _ Hk Hin) as (tok & st1 & Hp & Ha & Hi & Hl & Hs).
  rewrite (skip_ws_app w2 _ Hw2), (skip_ws_head c_colon rest eq_refl) in Hi.
  unfold atok_of in Ha. injection Ha as Hkk <- <- <-.
  exists (set_kind KName tok), (rs_state KName (d_stack st) st1). split.
  - apply read_step_spec. exists tok, st1, KName, (d_stack st). rewrite Hl, Hs, Hkk. repeat split; eauto.
    now apply RsName.
  - unfold rs_state, consume. cbn [kind_eqb d_in set_last set_stack]. rewrite Hi. repeat split.
Qed.

Lemma rs_eof st : d_in st = [] -> d_stack st = [] -> exists tok st', read_step st = Ok (tok, st') /\ t_kind tok = KEOF.
Proof.
  intros Hin Hst. unfold read_step, parse_next, consume. cbn [d_in skipn]. rewrite Hin. cbn [skip_ws d_in].
  unfold mk_token. cbn [t_kind]. unfold consume. cbn [d_stack]. rewrite Hst. eexists _, _. split; reflexivity.
Qed.

Inductive steps : dstate -> list atok -> dstate -> Prop :=
| steps_nil st : steps st [] st
| steps_tok st tok st1 ks st' : read_step st = Ok (tok, st1) -> t_kind tok <> KEOF -> t_kind tok <> KComma ->
    steps st1 ks st' -> steps st (atok_of tok :: ks) st'
| steps_comma st tok st1 ks st' : read_step st = Ok (tok, st1) -> t_kind tok = KComma ->
    steps st1 ks st' -> steps st ks st'.

Lemma steps_app st ks1 st1 ks2 st2 : steps st ks1 st1 -> steps st1 ks2 st2 -> steps st (ks1 ++ ks2) st2.
Proof. induction 1; intros Hx; cbn [app]; eauto using steps. Qed.

Lemma steps_one st a inp last stack : rs_result st a inp last stack -> fst (fst (fst a)) <> KEOF -> fst (fst (fst a)) <> KComma ->
  exists st', steps st [a] st' /\ d_in st' = inp /\ d_last st' = last /\ d_stack st' = stack.
Proof.
  intros (tok & st' & Hr & Ha & H1 & H2 & H3) Hk1 Hk2. exists st'. split; auto. rewrite <- Ha in *.
  eapply steps_tok; eauto using steps.
Qed.

(* the claims proved by mutual induction over the strict grammar *)
Definition PV (v : list byte) (ks : list atok) : Prop :=
  head_nonws v /\
  forall st rest, d_in st = v ++ rest -> delim_or_end rest = true -> is_value_next st = true ->
    exists st', steps st ks st' /\ d_in st' = skip_ws rest /\ d_stack st' = d_stack st /\
                is_value_end (d_last st') = true.
Definition PC (ko : kind) (p : list byte) (ks : list atok) : Prop :=
  forall st rest stk, d_in st = skip_ws (p ++ rest) -> d_stack st = ko :: stk ->
    d_last st = ko -> delim_or_end rest = true ->
    exists st', steps st ks st' /\ d_in st' = skip_ws rest /\ d_stack st' = ko :: stk /\
                is_value_end (d_last st') = true.

Lemma PV_scalar k raw boo str : is_scalar k = true -> head_nonws raw ->
  (forall st rest, d_in st = raw ++ rest -> delim_or_end rest = true -> pn_result st (k, raw, boo, str) rest) ->
  PV raw [(k, raw, boo, str)].
Proof.
  intros Hsc Hh Hpn. split; auto. intros st rest Hin Hd Hv.
  destruct (steps_one st _ _ _ _ (rs_scalar st k raw boo str rest Hsc (Hpn st rest Hin Hd) Hv))
    as (st' & Hs & H1 & H2 & H3); try (destruct k; discriminate).
  exists st'. repeat split; auto. rewrite H2. destruct k; try discriminate; reflexivity.
Qed.

Lemma value_end_not k : is_value_end k = true -> k <> KComma /\ k <> KName.
Proof. destruct k; try discriminate; split; discriminate. Qed.

Lemma PV_empty ko co kc cc w : bracket ko co kc cc -> ws w ->
  PV (co :: w ++ [cc]) [a_punct ko co; a_punct kc cc].
Proof.
  intros Hb Hw. destruct (bracket_facts _ _ _ _ Hb) as (Ho1 & Ho2 & Ho3 & Hc1 & Hc2 & Hce & Hwo & Hwc & _).
  split; [exact Hwo|]. intros st rest Hin Hd Hv.
  cbn [app] in Hin. rewrite <- app_assoc in Hin. cbn [app] in Hin.
  destruct (steps_one st _ _ _ _ (rs_open st _ _ _ _ _ Hb Hin Hv)) as (st1 & Hs1 & Hi1 & Hl1 & Hk1); auto.
  rewrite (skip_ws_app w _ Hw), (skip_ws_head cc rest Hwc) in Hi1. rewrite <- Hl1 in Ho2, Ho3.
  destruct (steps_one st1 _ _ _ _ (rs_close st1 _ _ _ _ (d_stack st) rest Hb Hi1 Hk1 Ho2 Ho3))
    as (st2 & Hs2 & Hi2 & Hl2 & Hk2); auto.
  exists st2. split; [exact (steps_app _ _ _ _ _ Hs1 Hs2)|]. rewrite Hl2. auto.
Qed.

Lemma PV_full ko co kc cc p ks : bracket ko co kc cc -> PC ko p ks ->
  PV (co :: p ++ [cc]) (a_punct ko co :: ks ++ [a_punct kc cc]).
Proof.
  intros Hb IH. destruct (bracket_facts _ _ _ _ Hb) as (Ho1 & Ho2 & _ & Hc1 & Hc2 & Hce & Hwo & Hwc & Hdc).
  split; [exact Hwo|]. intros st rest Hin Hd Hv.
  cbn [app] in Hin. rewrite <- app_assoc in Hin. cbn [app] in Hin.
  destruct (steps_one st _ _ _ _ (rs_open st _ _ _ _ _ Hb Hin Hv)) as (st1 & Hs1 & Hi1 & Hl1 & Hk1); auto.
  destruct (IH st1 (cc :: rest) (d_stack st) Hi1 Hk1 Hl1) as (st2 & Hs2 & Hi2 & Hk2 & Hl2).
  { cbn [delim_or_end]. now rewrite Hdc. }
  rewrite (skip_ws_head cc rest Hwc) in Hi2.
  destruct (steps_one st2 _ _ _ _ (rs_close st2 _ _ _ _ (d_stack st) rest Hb Hi2 Hk2 (proj1 (value_end_not _ Hl2))
                                     (proj2 (value_end_not _ Hl2))))
    as (st3 & Hs3 & Hi3 & Hl3 & Hk3); auto.
  exists st3. split; [|rewrite Hl3; auto].
  change (a_punct ko co :: ks ++ [a_punct kc cc]) with ([a_punct ko co] ++ ks ++ [a_punct kc cc]).
  eauto using steps_app.
Qed.

Theorem strict_complete :
  (forall v ks, svalue v ks -> PV v ks) /\ (forall p ks, selems p ks -> PC KArrOpen p ks) /\
  (forall p ks, smembers p ks -> PC KObjOpen p ks).
Proof.
  apply strict_mutind.
  - apply PV_scalar; [reflexivity|reflexivity|]. intros. apply pn_literal; auto.
  - apply PV_scalar; [reflexivity|reflexivity|]. intros. apply pn_literal; auto.
  - apply PV_scalar; [reflexivity|reflexivity|]. intros. apply pn_literal; auto 10.
  - intros s Hn. apply PV_scalar; [reflexivity| |intros; now apply pn_number].
    destruct (rfc_number_head s Hn) as (b & r & -> & Hb). apply (numhead_facts b Hb).
  - intros s d Hs. apply PV_scalar; [reflexivity| |intros; now apply pn_string].
    destruct Hs as (body & -> & _). reflexivity.
  - intros w Hw. apply PV_empty; [left|]; auto.
  - intros p ks _ IH. apply PV_full; [left|]; auto.
  - intros w Hw. apply PV_empty; [right|]; auto.
  - intros p ks _ IH. apply PV_full; [right|]; auto.
  - (* first element *)
    intros w1 v w2 ks Hw1 _ [Hh IH] Hw2 st rest stk Hin Hst Hl Hd.
    rewrite <- !app_assoc, (skip_ws_value w1 v _ Hw1 Hh) in Hin.
    destruct (IH st (w2 ++ rest) Hin (delim_ws_app _ _ Hw2 Hd)) as (st' & Hs & Hi & Hk & Hle).
    { rewrite is_value_next_ext, Hst, Hl. reflexivity. }
    exists st'. rewrite (skip_ws_app w2 _ Hw2) in Hi. rewrite Hk, Hst. auto.
  - (* further element *)
    intros p w1 v w2 ks1 ks2 _ IHp Hw1 _ [Hh IHv] Hw2 st rest stk Hin Hst Hl Hd.
    repeat first [rewrite <- app_assoc in Hin | progress cbn [app] in Hin].
    destruct (IHp st (c_comma :: w1 ++ v ++ w2 ++ rest) stk Hin Hst Hl eq_refl) as (st1 & Hs1 & Hi1 & Hk1 & Hl1).
    rewrite (skip_ws_head c_comma _ eq_refl) in Hi1.
    destruct (rs_comma st1 _ Hi1 ltac:(rewrite Hk1; discriminate) Hl1) as (tok & st2 & Hr & Ha & Hi2 & Hl2 & Hk2).
    rewrite (skip_ws_value w1 v _ Hw1 Hh) in Hi2.
    destruct (IHv st2 (w2 ++ rest) Hi2 (delim_ws_app _ _ Hw2 Hd)) as (st3 & Hs3 & Hi3 & Hk3 & Hl3).
    { rewrite is_value_next_ext, Hk2, Hk1, Hl2. reflexivity. }
    exists st3. rewrite (skip_ws_app w2 _ Hw2) in Hi3. rewrite Hk3, Hk2, Hk1. split; auto.
    eapply steps_app; [exact Hs1|]. eapply steps_comma; eauto.
    assert (Hkk : t_kind tok = fst (fst (fst (atok_of tok)))) by reflexivity. now rewrite Ha in Hkk.
  - (* first member *)
    intros w1 k d w2 w3 v w4 ks Hw1 Hk Hw2 Hw3 _ [Hh IH] Hw4 st rest stk Hin Hst Hl Hd.
    assert (Hkh : head_nonws k) by (destruct Hk as (body & -> & _); reflexivity).
    repeat first [rewrite <- app_assoc in Hin | progress cbn [app] in Hin].
    rewrite (skip_ws_value w1 k _ Hw1 Hkh) in Hin.
    destruct (steps_one st _ _ _ _ (rs_name st k d w2 _ Hk Hw2 Hin ltac:(rewrite is_value_next_ext, Hst, Hl; reflexivity)
                                      (or_introl Hl))) as (st1 & Hs1 & Hi1 & Hl1 & Hk1); try discriminate.
    rewrite (skip_ws_value w3 v _ Hw3 Hh) in Hi1.
    destruct (IH st1 (w4 ++ rest) Hi1 (delim_ws_app _ _ Hw4 Hd)) as (st' & Hs & Hi & Hk' & Hle).
    { rewrite is_value_next_ext, Hk1, Hst, Hl1. reflexivity. }
    exists st'. rewrite (skip_ws_app w4 _ Hw4) in Hi. rewrite Hk', Hk1, Hst. split; auto.
    exact (steps_app _ _ _ _ _ Hs1 Hs).
  - (* further member *)
    intros p w1 k d w2 w3 v w4 ks1 ks2 _ IHp Hw1 Hk Hw2 Hw3 _ [Hh IHv] Hw4 st rest stk Hin Hst Hl Hd.
    assert (Hkh : head_nonws k) by (destruct Hk as (body & -> & _); reflexivity).
    repeat first [rewrite <- app_assoc in Hin | progress cbn [app] in Hin].
    destruct (IHp st (c_comma :: w1 ++ k ++ w2 ++ c_colon :: w3 ++ v ++ w4 ++ rest) stk) as (st1 & Hs1 & Hi1 & Hk1 & Hl1); auto.
    rewrite (skip_ws_head c_comma _ eq_refl) in Hi1.
    destruct (rs_comma st1 _ Hi1 ltac:(rewrite Hk1; discriminate) Hl1) as (tok & st2 & Hr & Ha & Hi2 & Hl2 & Hk2).
    rewrite (skip_ws_value w1 k _ Hw1 Hkh) in Hi2.
    destruct (steps_one st2 _ _ _ _ (rs_name st2 k d w2 _ Hk Hw2 Hi2
                ltac:(rewrite is_value_next_ext, Hk2, Hk1, Hl2; reflexivity) (or_intror Hl2)))
      as (st3 & Hs3 & Hi3 & Hl3 & Hk3); try discriminate.
    rewrite (skip_ws_value w3 v _ Hw3 Hh) in Hi3.
    destruct (IHv st3 (w4 ++ rest) Hi3 (delim_ws_app _ _ Hw4 Hd)) as (st4 & Hs4 & Hi4 & Hk4 & Hl4).
    { rewrite is_value_next_ext, Hk3, Hk2, Hk1, Hl3. reflexivity. }
    exists st4. rewrite (skip_ws_app w4 _ Hw4) in Hi4. rewrite Hk4, Hk3, Hk2, Hk1. split; auto.
    eapply steps_app; [exact Hs1|]. eapply steps_comma; eauto.
    { assert (Hkk : t_kind tok = fst (fst (fst (atok_of tok)))) by reflexivity. now rewrite Ha in Hkk. }
    exact (steps_app _ [_] _ _ _ Hs3 Hs4).
Qed.

(* from passes to read_all *)
Lemma read_comma_skip st tok st1 : read_step st = Ok (tok, st1) -> t_kind tok = KComma -> read st = read st1.
Proof.
  intros H Hk. unfold read at 1. rewrite H, Hk.
  assert (Hl : d_last st1 = KComma).
  { apply read_step_spec in H as (tk & sx & k' & stack' & _ & _ & _ & -> & ->). exact Hk. }
  unfold read. destruct (read_step st1) as [[tok2 st2]|] eqn:E; auto.
  pose proof (read_step_after_comma _ _ _ Hl E) as Hn. destruct (t_kind tok2); try contradiction; reflexivity.
Qed.

Lemma read_all_steps st ks st' : steps st ks st' ->
  forall tk st'', read_step st' = Ok (tk, st'') -> t_kind tk = KEOF ->
  forall fuel, (length ks < fuel)%nat ->
  exists toks, read_all_from fuel st = (toks, None) /\ map atok_of toks = ks.
Proof.
  induction 1 as [st|st tok st1 ks st' Hr Hk1 Hk2 Hs IH|st tok st1 ks st' Hr Hk Hs IH];
    intros tk st'' He Hke fuel Hf; (destruct fuel as [|f]; [lia|]).
  - exists []. cbn [read_all_from]. unfold read. rewrite He, Hke. cbv iota. rewrite ?Hke. split; reflexivity.
  - cbn [length] in Hf. destruct (IH tk st'' He Hke f ltac:(lia)) as (toks & Ht & Hm).
    exists (tok :: toks). cbn [read_all_from]. unfold read. rewrite Hr.
    (* any kind but EOF and comma: Read returns the token and read_all_from keeps it *)
    destruct (t_kind tok) eqn:E; try contradiction; cbv iota; rewrite ?E; cbv iota;
      rewrite Ht; cbn [map]; rewrite Hm; split; reflexivity.
  - destruct (IH tk st'' He Hke (S f) Hf) as (toks & Ht & Hm). exists toks. split; auto.
    cbn [read_all_from] in *. now rewrite (read_comma_skip _ _ _ Hr Hk).
Qed.

Lemma steps_first_consume0 st ks st' : steps (consume 0 st) ks st' -> ks <> [] -> steps st ks st'.
Proof.
  assert (Hrs : read_step (consume 0 st) = read_step st).
  { unfold read_step, parse_next. f_equal.
    assert (consume 0 (consume 0 st) = consume 0 st) as ->; auto.
    unfold consume. cbn [d_in d_last d_stack d_pos skipn].
    rewrite skip_ws_idem. f_equal. lia. }
  intros H Hne. inversion H; subst; [contradiction| |]; rewrite Hrs in *; eauto using steps.
Qed.

(* token counts *)
Lemma strict_count :
  (forall v ks, svalue v ks -> (length ks <= length v)%nat) /\
  (forall p ks, selems p ks -> (length ks <= length p)%nat) /\
  (forall p ks, smembers p ks -> (length ks < length p)%nat).
Proof.
  apply strict_mutind; intros; cbn [length]; rewrite ?app_length; cbn [length]; rewrite ?app_length; cbn [length];
    try (unfold lit_null, lit_true, lit_false; cbn [length]); try lia.
  - destruct (rfc_number_head s H) as (b & r & -> & _). cbn [length]. lia.
  - destruct H as (body & -> & _). cbn [length]. lia.
  - destruct H0 as (body & -> & _). cbn [length]. rewrite ?app_length. cbn [length]. lia.
  - destruct H2 as (body & -> & _). cbn [length]. rewrite ?app_length. cbn [length]. lia.
Qed.

Lemma svalue_nonempty v ks : svalue v ks -> ks <> [].
Proof. destruct 1; discriminate. Qed.

(* every strict JSON text is read to EOF, yielding the tokens of its derivation *)
Theorem lexer_accepts_all_strict_json s ks : stext s ks ->
  exists toks, read_all s = (toks, None) /\ map atok_of toks = ks /\ toks <> [].
Proof.
  intros (w1 & v & w2 & -> & Hw1 & Hv & Hw2).
  destruct (proj1 strict_complete v ks Hv) as [Hh HV].
  set (st0 := consume 0 (d_init (w1 ++ v ++ w2))).
  assert (Hin0 : d_in st0 = v ++ w2 ++ []).
  { subst st0. unfold consume, d_init. cbn [d_in skipn]. rewrite app_nil_r. now apply skip_ws_value. }
  destruct (HV st0 (w2 ++ []) Hin0) as (st' & Hs & Hi & Hk & Hl).
  { apply delim_ws_app; auto. } { reflexivity. }
  rewrite (skip_ws_app w2 [] Hw2) in Hi. cbn [skip_ws] in Hi.
  destruct (rs_eof st' Hi Hk) as (tk & st'' & He & Hke).
  pose proof (steps_first_consume0 _ _ _ Hs (svalue_nonempty _ _ Hv)) as Hs0.
  destruct (read_all_steps _ _ _ Hs0 tk st'' He Hke (S (length (w1 ++ v ++ w2)))) as (toks & Ht & Hm).
  { pose proof (proj1 strict_count v ks Hv). rewrite !app_length. lia. }
  exists toks. repeat split; auto. intros ->. cbn [map] in Hm. symmetry in Hm. now apply (svalue_nonempty _ _ Hv).
Qed.

(* On the domain of inputs whose JSON readings have no unpaired surrogate escapes (every reading
   as a JSON text is also a strict one), the Decoder accepts exactly the JSON texts. *)
Theorem lexer_accepts_iff_json s : (json_text s -> exists ks, stext s ks) ->
  ((exists toks, read_all s = (toks, None) /\ toks <> []) <-> json_text s).
Proof.
  intros Hdom. split.
  - intros (toks & H & Hne). eapply lexer_accepts_only_json; eauto.
  - intros Hj. destruct (Hdom Hj) as (ks & Hs). destruct (lexer_accepts_all_strict_json s ks Hs) as (toks & H & _ & Hne).
    eauto.
Qed.
