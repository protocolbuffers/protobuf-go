(* The Decoder's language, exactly: it reads an input to EOF (with at least one token) iff the
   input is a strict JSON text, and the tokens it yields are those of the derivation. *)
From Coq Require Import List NArith ZArith Lia Bool.
From PB Require Import Base.PBytes Json.JsonUtf8 Json.JsonGrammar Json.JsonNumModel
  Json.JsonLexModel Json.JsonStrict Json.JsonLexCompleteP.
From PB Require Json.JsonLexStrictP.
Import ListNotations.

Theorem lexer_tokens_are_derivation s toks :
  read_all s = (toks, None) -> toks <> [] -> stext s (map atok_of toks).
Proof.
  intros H Hne.
  destruct (JsonLexStrictP.lexer_accepts_only_strict_json s toks H Hne) as (ks & Hs).
  destruct (lexer_accepts_all_strict_json s ks Hs) as (toks' & H' & Hm & _).
  rewrite H in H'. injection H' as <-. now rewrite Hm.
Qed.

Theorem lexer_accepts_exactly_strict_json s :
  (exists toks, read_all s = (toks, None) /\ toks <> []) <-> (exists ks, stext s ks).
Proof.
  split.
  - intros (toks & H & Hne). eauto using lexer_tokens_are_derivation.
  - intros (ks & Hs). destruct (lexer_accepts_all_strict_json s ks Hs) as (toks & H & _ & Hne). eauto.
Qed.
