(* Proofs about the encoder's strings: appendString writes a strict string (JsonStrict.v) that
   decodes to its input, so parseString reads it back. *)
From Coq Require Import List NArith ZArith Lia Bool.
From Coq Require Import ZifyBool ZifyNat ZifyN.
From PB Require Import Base.PBytes Json.JsonUtf8 Json.JsonGrammar Json.JsonNumModel Json.JsonNumP
  Json.JsonLexModel Json.JsonStrP Json.JsonEncModel Json.JsonStrict.
Import ListNotations.
Open Scope N_scope.

Lemma hex_val_hex_digit n : n < 16 -> hex_val (hex_digit n) = Some n.
Proof.
  intros H. unfold hex_digit, hex_val, is_digit, in_range.
  destruct (n <? 10) eqn:E.
  - rewrite b2n_n2b by lia. replace ((48 <=? 48 + n) && (48 + n <=? 57)) with true by lia. f_equal. lia.
  - rewrite b2n_n2b by lia. replace ((48 <=? 87 + n) && (87 + n <=? 57)) with false by lia.
    replace ((97 <=? 87 + n) && (87 + n <=? 102)) with true by lia. f_equal. lia.
Qed.

(* the \u00XY escape of a byte *)
Lemma hex4_byte r : r < 256 -> hex4 c_0 c_0 (hex_digit (r / 16)) (hex_digit (r mod 16)) = Some r.
Proof.
  intros H. unfold hex4. change (hex_val c_0) with (Some 0). rewrite !hex_val_hex_digit by lia. f_equal. lia.
Qed.

(* the escaped form is a strict string that decodes to the input *)
Lemma escape_loop_schars fuel : forall inp t, escape_loop fuel inp = (t, true) -> schars t inp.
Proof.
  induction fuel as [|f IH]; intros inp t; cbn [escape_loop]; [discriminate|].
  destruct inp as [|b r0]. { intros [= <-]. constructor. }
  destruct (decode_rune (b :: r0)) as [rn n] eqn:Ed.
  destruct (is_bad_rune (rn, n)) eqn:Ebad; [discriminate|]. cbn [fst snd].
  destruct (escape_loop f (skipn n (b :: r0))) as [t' ok] eqn:Erec.
  destruct ((rn <? 32) || is b c_quote || is b c_bslash) eqn:Esp.
  - destruct (decode_rune_special _ _ _ _ Ed Ebad Esp) as (-> & Hrn & Hlt). cbn [skipn] in Erec.
    intros [= <- ->]. specialize (IH _ _ Erec).
    assert (Hesc : forall e, is_simple_esc e = true -> simple_esc_val e = b -> schars (c_bslash :: [e] ++ t') (b :: r0)).
    { intros e He <-. cbn [app]. now apply SCesc. }
    destruct (is b c_quote || is b c_bslash) eqn:Eqb.
    { apply Hesc. { unfold is_simple_esc. rewrite <- !orb_assoc, orb_assoc, Eqb. reflexivity. }
      apply orb_true_iff in Eqb as [E|E]; apply is_true in E; subst; reflexivity. }
    destruct (rn =? 8) eqn:E8. { apply Hesc; [reflexivity|]. apply b2n_inj. cbn. lia. }
    destruct (rn =? 12) eqn:E12. { apply Hesc; [reflexivity|]. apply b2n_inj. cbn. lia. }
    destruct (rn =? 10) eqn:E10. { apply Hesc; [reflexivity|]. apply b2n_inj. cbn. lia. }
    destruct (rn =? 13) eqn:E13. { apply Hesc; [reflexivity|]. apply b2n_inj. cbn. lia. }
    destruct (rn =? 9) eqn:E9. { apply Hesc; [reflexivity|]. apply b2n_inj. cbn. lia. }
    apply orb_false_iff in Eqb as [E1 E2]. rewrite E1, E2, !orb_false_r in Esp. cbn [app].
    assert (Hs : is_surrogate rn = false) by (unfold is_surrogate; lia).
    pose proof (SCuni _ _ _ _ rn t' r0 (hex4_byte rn ltac:(lia)) Hs IH) as H.
    unfold encode_rune in H. replace (rn <? 128) with true in H by lia. cbn [app] in H.
    assert (Hb : n2b rn = b) by (rewrite Hrn; apply n2b_b2n). rewrite Hb in H. exact H.
  - intros [= <- ->]. specialize (IH _ _ Erec). apply orb_false_iff in Esp as [Esp Eb].
    apply orb_false_iff in Esp as [E32 Eq].
    destruct (decode_rune_plain _ _ _ _ Ed Ebad E32 Eq Eb).
    rewrite <- (firstn_skipn n (b :: r0)) at 2. now apply SCplain.
Qed.

Lemma append_string_sstring s out : append_string s = (out, true) -> sstring out s.
Proof.
  unfold append_string, escape_string. destruct (escape_loop (S (length s)) s) as [t ok] eqn:E.
  destruct ok; [|discriminate]. intros [= <-]. exists t. split; auto. eapply escape_loop_schars; eauto.
Qed.

Theorem string_escape_roundtrip s out rest pos :
  append_string s = (out, true) -> parse_string_at pos (out ++ rest) = Ok (s, length out).
Proof. intros H. now apply parse_string_at_complete, append_string_sstring. Qed.
