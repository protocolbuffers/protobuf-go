(* Decoder.Read is parseNext followed by a switch on the token's kind that consults and
   updates (lastToken.kind, openStack).  [rstep] is that switch on kinds alone, and
   [read_step_spec] says that [read_step] is exactly parseNext followed by [rstep]. *)
From Coq Require Import List NArith Bool.
From PB Require Import Base.PBytes Json.JsonUtf8 Json.JsonGrammar Json.JsonNumModel Json.JsonNumP Json.JsonLexModel.
Import ListNotations.

Lemma kind_eqb_eq a b : kind_eqb a b = true -> a = b.
Proof. destruct a, b; cbn; congruence. Qed.

Definition value_next (last : kind) (stack : list kind) : bool :=
  is_value_next {| d_last := last; d_stack := stack; d_pos := 0; d_in := [] |}.
Lemma is_value_next_ext st : is_value_next st = value_next (d_last st) (d_stack st).
Proof. reflexivity. Qed.

(* with last token kind [last] and open stack [stack], a token of kind [k] is accepted, is
   reported with kind [k'] (a string in key position becomes a Name) and leaves [stack'] *)
Inductive rstep (last : kind) (stack : list kind) : kind -> kind -> list kind -> Prop :=
| RsEOF : stack = [] -> rstep last stack KEOF KEOF []
| RsScalar k : is_scalar k = true -> value_next last stack = true -> rstep last stack k k stack
| RsName : value_next last stack = false -> last = KObjOpen \/ last = KComma -> rstep last stack KString KName stack
| RsOpen k : k = KObjOpen \/ k = KArrOpen -> value_next last stack = true -> rstep last stack k k (k :: stack)
| RsCloseObj rest : stack = KObjOpen :: rest -> last <> KName -> last <> KComma ->
    rstep last stack KObjClose KObjClose rest
| RsCloseArr rest : stack = KArrOpen :: rest -> last <> KComma -> rstep last stack KArrClose KArrClose rest
| RsComma : stack <> [] -> is_value_end last = true -> rstep last stack KComma KComma stack.

(* the state after the switch; a Name also consumes the colon *)
Definition rs_state (k' : kind) (stack' : list kind) (st1 : dstate) : dstate :=
  set_last k' (set_stack stack' (if kind_eqb k' KName then consume 1 st1 else st1)).

Lemma kind_eqb_false a b : a <> b -> kind_eqb a b = false.
Proof. destruct a, b; try reflexivity; contradiction. Qed.

Theorem read_step_spec st tok st' : read_step st = Ok (tok, st') <->
  exists tk st1 k' stack', parse_next st = Ok (tk, st1) /\
    rstep (d_last st1) (d_stack st1) (t_kind tk) k' stack' /\
    (k' = KName -> exists r, d_in st1 = c_colon :: r) /\
    tok = set_kind k' tk /\ st' = rs_state k' stack' st1.
Proof.
  unfold read_step. split.
  - destruct (parse_next st) as [[tk st1]|]; [|discriminate]. intros H. exists tk, st1.
    destruct tk as [k pos raw boo str], st1 as [last stack p inp]. cbv zeta in H.
    change (is_value_next _) with (value_next last stack) in H. cbn [t_kind d_last d_stack d_in] in *.
    destruct k; try discriminate.
    + destruct stack; [|discriminate]. injection H as <- <-. exists KEOF, [].
      repeat split; try discriminate. now constructor.
    + destruct (value_next last stack) eqn:Ev; [|discriminate]. injection H as <- <-. exists KNull, stack.
      repeat split; try discriminate. now constructor.
    + destruct (value_next last stack) eqn:Ev; [|discriminate]. injection H as <- <-. exists KBool, stack.
      repeat split; try discriminate. now constructor.
    + destruct (value_next last stack) eqn:Ev; [|discriminate]. injection H as <- <-. exists KNumber, stack.
      repeat split; try discriminate. now constructor.
    + destruct (value_next last stack) eqn:Ev.
      { injection H as <- <-. exists KString, stack. repeat split; try discriminate. now constructor. }
      destruct (kind_eqb last KObjOpen || kind_eqb last KComma) eqn:El; [|discriminate]. cbn [negb] in H.
      destruct inp as [|c r]; [discriminate|]. destruct (is c c_colon) eqn:Ec; [|discriminate].
      apply is_true in Ec. subst c. injection H as <- <-. exists KName, stack.
      split; [reflexivity|]. split; [|split; [eauto|split; reflexivity]].
      apply RsName; auto. apply orb_true_iff in El as [E|E]; apply kind_eqb_eq in E; auto.
    + destruct (value_next last stack) eqn:Ev; [|discriminate]. injection H as <- <-. exists KObjOpen, (KObjOpen :: stack).
      repeat split; try discriminate. constructor; auto.
    + destruct stack as [|[] rest]; try discriminate.
      destruct (kind_eqb last KName || kind_eqb last KComma) eqn:El; [discriminate|].
      injection H as <- <-. exists KObjClose, rest. repeat split; try discriminate.
      apply orb_false_iff in El as [E1 E2]. apply RsCloseObj; auto; intros ->; discriminate.
    + destruct (value_next last stack) eqn:Ev; [|discriminate]. injection H as <- <-. exists KArrOpen, (KArrOpen :: stack).
      repeat split; try discriminate. constructor; auto.
    + destruct stack as [|[] rest]; try discriminate.
      destruct (kind_eqb last KComma) eqn:El; [discriminate|].
      injection H as <- <-. exists KArrClose, rest. repeat split; try discriminate.
      apply RsCloseArr; auto; intros ->; discriminate.
    + destruct stack as [|k0 rest] eqn:Es; [discriminate|]. destruct (is_value_end last) eqn:El; [|discriminate].
      injection H as <- <-. exists KComma, (k0 :: rest). repeat split; try discriminate. now constructor.
  - intros (tk & st1 & k' & stack' & -> & Hr & Hc & -> & ->).
    destruct tk as [k pos raw boo str], st1 as [last stack p inp]. cbv zeta.
    change (is_value_next _) with (value_next last stack). cbn [t_kind d_last d_stack d_in] in *.
    destruct Hr as [Hs|k Hk Hv|Hv Hl|k Hk Hv|rest Hs H1 H2|rest Hs H1|Hs Hl].
    + subst stack. reflexivity.
    + destruct k; try discriminate; rewrite Hv; reflexivity.
    + rewrite Hv. destruct (Hc eq_refl) as (r & ->).
      replace (kind_eqb last KObjOpen || kind_eqb last KComma) with true by (destruct Hl as [-> | ->]; reflexivity).
      reflexivity.
    + destruct Hk as [-> | ->]; rewrite Hv; reflexivity.
    + subst stack. now rewrite (kind_eqb_false _ _ H1), (kind_eqb_false _ _ H2).
    + subst stack. now rewrite (kind_eqb_false _ _ H1).
    + rewrite Hl. destruct stack; [contradiction|reflexivity].
Qed.

(* what the reported kind says about the step *)
Lemma rstep_kind last stack k k' stack' : rstep last stack k k' stack' ->
  (k' = k /\ k <> KName /\ k <> KInvalid) \/ (k = KString /\ k' = KName).
Proof.
  destruct 1 as [?|k Hk ?|? ?|k [-> | ->] ?|? ? ? ?|? ? ?|? ?]; auto; left; repeat split; try discriminate.
  all: intros ->; discriminate.
Qed.

Lemma rstep_name last stack k stack' : rstep last stack k KName stack' ->
  k = KString /\ stack' = stack /\ value_next last stack = false /\ (last = KObjOpen \/ last = KComma).
Proof.
  inversion 1 as [?|k0 Hk ?|? ?|k0 [Hk | Hk] ?|? ? ? ?|? ? ?|? ?]; subst; try discriminate. auto.
Qed.

Lemma rstep_eof last stack k stack' : rstep last stack k KEOF stack' -> k = KEOF /\ stack = [].
Proof.
  inversion 1 as [?|k0 Hk ?|? ?|k0 [Hk | Hk] ?|? ? ? ?|? ? ?|? ?]; subst; try discriminate. auto.
Qed.

Lemma rstep_comma last stack k k' stack' : rstep last stack k k' stack' -> k' = KComma ->
  is_value_end last = true /\ stack' <> [].
Proof.
  destruct 1 as [?|k Hk ?|? ?|k [-> | ->] ?|? ? ? ?|? ? ?|? ?]; try discriminate; auto.
  intros ->. discriminate.
Qed.
