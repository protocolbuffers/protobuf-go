(* RtCommonP -- what the prototext (C24) and protojson (C20) round-trip proofs share below the
   format: association-list and field-order facts, the order in which sorted map entries are put
   back, the list of (number, values) pairs a field loop stores, and the invariant of such a loop
   over any decoder state that has a field store, a set of seen numbers and a set of seen oneofs. *)
From Coq Require Import List Arith NArith ZArith Lia Bool Permutation.
From PB Require Import Base.PBytes Base.ListP Wire.WireModel Msg.MsgSchema Msg.MsgValue Msg.MsgUtf8 Msg.MsgEnc Msg.MsgDec Msg.MsgValid Msg.MsgAssocP.
From PB Require Import Json.RtSchema Text.TextMsgModel Text.TextMsgValid Text.TextMsgScalarP.
From PB Require Export Msg.MsgStoreP.
Import ListNotations.
Open Scope N_scope.

Lemma existsb_Neqb_false x l : ~ In x l -> existsb (N.eqb x) l = false.
Proof. intros H. destruct (existsb (N.eqb x) l) eqn:E; [|reflexivity]. now apply list_existsb_Neqb_In in E. Qed.

Lemma nodupb_NoDup {A} (eqb : A -> A -> bool) (f : list A -> bool) :
  (forall x, eqb x x = true) -> (forall x r, f (x :: r) = negb (existsb (eqb x) r) && f r) ->
  forall l, f l = true -> NoDup l.
Proof.
  intros Hrefl Hf. induction l as [|x r IH]; intros H; [constructor|].
  rewrite Hf in H. apply andb_prop in H as [H1 H2]. constructor; [|apply IH, H2].
  intros Hin. apply negb_true_iff in H1.
  assert (existsb (eqb x) r = true); [|congruence].
  apply existsb_exists. exists x. split; [exact Hin|apply Hrefl].
Qed.

Lemma n_nodup_NoDup l : n_nodup l = true -> NoDup l.
Proof. apply (nodupb_NoDup N.eqb); [apply N.eqb_refl|reflexivity]. Qed.

Lemma bs_nodup_NoDup l : bs_nodup l = true -> NoDup l.
Proof. apply (nodupb_NoDup bs_eqb); [apply bs_eqb_refl|reflexivity]. Qed.

Lemma msg_fget_of_in fs k vs : NoDup (msg_keys fs) -> In (k, vs) fs -> msg_fget fs k = vs.
Proof.
  induction fs as [|[k0 v0] r IH]; intros Hnd Hin; [contradiction|].
  cbn [msg_keys map fst] in Hnd. inversion Hnd as [|? ? Hn Hnd']; subst.
  cbn [msg_fget]. destruct Hin as [E|Hin].
  - inversion E; subst. rewrite N.eqb_refl. reflexivity.
  - destruct (k =? k0) eqn:E.
    + apply N.eqb_eq in E. subst k0. exfalso. apply Hn. change k with (fst (k, vs)). apply in_map, Hin.
    + apply IH; assumption.
Qed.

(* optional, implicit-presence and required fields hold one value *)
Definition is_sing (fd : fdesc) : bool :=
  match f_card fd with CRep | CPacked | CMap _ _ _ => false | _ => true end.

Definition sp (p : N * list value) : N * list value := (fst p, map strip_unknown (snd p)).

Lemma msg_sorted_map_sp lo fs : msg_sorted lo fs -> msg_sorted lo (map sp fs).
Proof.
  revert lo. induction fs as [|[k vs] r IH]; intros lo H; [exact H|].
  cbn [map sp fst snd msg_sorted] in *. destruct H as [H1 H2]. split; [exact H1|apply IH, H2].
Qed.

Lemma msg_keys_map_sp fs : msg_keys (map sp fs) = msg_keys fs.
Proof. unfold msg_keys. rewrite map_map. apply map_ext. intros [k vs]. reflexivity. Qed.

Lemma NoDup_keys_pairs (l : fields) : NoDup (msg_keys l) -> NoDup l.
Proof. apply NoDup_map_inv. Qed.

Lemma ins_by_name_perm p l : Permutation (ins_by_name p l) (p :: l).
Proof.
  induction l as [|q r IH]; cbn [ins_by_name]; [reflexivity|].
  destruct (msg_bytes_cmp (ext_full (snd p)) (ext_full (snd q))); try reflexivity;
    (rewrite IH; apply perm_swap).
Qed.

Lemma sort_by_name_perm l : Permutation (sort_by_name l) l.
Proof.
  induction l as [|p r IH]; cbn [sort_by_name]; [reflexivity|].
  rewrite ins_by_name_perm. apply perm_skip, IH.
Qed.

Lemma rt_field_order_perm fps : Permutation (rt_field_order fps) fps.
Proof.
  unfold rt_field_order. rewrite sort_by_name_perm.
  rewrite Permutation_app_comm. apply (list_filter_split_perm (fun p => f_ext (fst p))).
Qed.

(* every entry of [pre] has a key below [k]: the store while sorted entries arrive *)
Definition keys_below (k : scalar) (pre : list value) : Prop :=
  Forall (fun e' => match e' with VEntry k' _ => msg_scmp k k' = Gt | _ => False end) pre.

Definition key_gt_all (pre : list value) (e : value) : Prop :=
  match e with VEntry k _ => keys_below k pre | _ => False end.

(* once the entry with key k is stored, the entries still to come (sorted after k) have keys above
   everything stored *)
Lemma key_gt_all_snoc pre k v vs :
  Forall (key_gt_all pre) vs -> msg_keys_after k vs = true -> Forall (key_gt_all (pre ++ [VEntry k v])) vs.
Proof.
  intros Hgt Hafter. unfold msg_keys_after in Hafter. rewrite forallb_forall in Hafter.
  rewrite Forall_forall in Hgt |- *. intros e He. specialize (Hgt e He). specialize (Hafter e He).
  destruct e as [|?|k2 v2]; try discriminate. cbn [key_gt_all] in *.
  apply Forall_app. split; [exact Hgt|]. constructor; [|constructor].
  destruct (msg_scmp k2 k); try discriminate. reflexivity.
Qed.

Lemma has_key_false pre k :
  keys_below k pre ->
  existsb (fun e => match e with
                    | VEntry k0 _ => match msg_scmp k k0 with Eq => true | _ => false end
                    | _ => false end) pre = false.
Proof.
  induction pre as [|e pre IH]; intros H; [reflexivity|].
  inversion H as [|? ? He Hpre]; subst. cbn [existsb].
  destruct e as [|?|k' v']; try contradiction. rewrite He. cbn [orb]. apply IH, Hpre.
Qed.

(* looking a declared field up by one of its names, unique in the table, finds it *)
Lemma find_named (sel : fname -> list byte) ext (fps : list fpair) p :
  NoDup (map (fun p => sel (snd p)) fps) -> In p fps -> f_ext (fst p) = ext ->
  find (fun q => Bool.eqb (f_ext (fst q)) ext && bs_eqb (sel (snd q)) (sel (snd p))) fps = Some p.
Proof.
  intros Hnd Hp He. apply find_unique; [exact Hp|now rewrite He, eqb_reflx, bs_eqb_refl|].
  intros q Hq Hf. apply andb_prop in Hf as [_ Hn]. apply bs_eqb_eq in Hn.
  apply (list_nodup_map_inj (fun p => sel (snd p)) fps); assumption.
Qed.

Lemma rt_find_some fps k q : rt_find fps k = Some q -> In q fps /\ fp_num q = k.
Proof.
  induction fps as [|p r IH]; cbn [rt_find]; [discriminate|].
  destruct (f_num (fst p) =? k) eqn:E.
  - intros H. inversion H; subst. split; [left; reflexivity|]. apply N.eqb_eq in E. exact E.
  - intros H. destruct (IH H) as [H1 H2]. split; [right; exact H1|exact H2].
Qed.

Lemma rt_find_in fps p : NoDup (map fp_num fps) -> In p fps -> rt_find fps (fp_num p) = Some p.
Proof.
  induction fps as [|q r IH]; intros Hnd Hin; [contradiction|].
  cbn [map] in Hnd. inversion Hnd as [|? ? Hn Hnd']; subst. cbn [rt_find].
  destruct Hin as [->|Hin].
  - unfold fp_num. rewrite N.eqb_refl. reflexivity.
  - destruct (f_num (fst q) =? fp_num p) eqn:E; [|apply IH; assumption].
    apply N.eqb_eq in E. exfalso. apply Hn. unfold fp_num at 1. rewrite E. apply in_map, Hin.
Qed.

(* a store whose chunks are each valid for the field found under their number *)
Lemma chunks_by_find fps (V : fpair -> list value -> bool) fs :
  forallb (fun c => match rt_find fps (fst c) with Some q => V q (snd c) | None => false end) fs = true ->
  forall k vs, In (k, vs) fs -> exists p, In p fps /\ fp_num p = k /\ V p vs = true.
Proof.
  intros H k vs Hin. rewrite forallb_forall in H. specialize (H _ Hin). cbn [fst snd] in H.
  destruct (rt_find fps k) as [q|] eqn:E; [|discriminate].
  destruct (rt_find_some _ _ _ E) as [H1 H2]. exists q. repeat split; assumption.
Qed.

Lemma oneof_fresh fps fs (Hone : rt_oneofs_ok fps fs = true) p q i :
  In p fps -> In q fps -> fp_num q <> fp_num p ->
  f_oneof (fst p) = Some i -> f_oneof (fst q) = Some i ->
  msg_fget fs (fp_num p) <> [] -> msg_fget fs (fp_num q) <> [] -> False.
Proof.
  intros Hp Hq Hne Hop Hoq Hpp Hpq. unfold rt_oneofs_ok in Hone. rewrite forallb_forall in Hone.
  specialize (Hone p Hp). rewrite Hop in Hone.
  unfold has_num, fp_num in *.
  destruct (msg_fget fs (f_num (fst p))) eqn:E1; [congruence|]. cbn [negb orb] in Hone.
  rewrite forallb_forall in Hone. specialize (Hone q Hq). rewrite Hoq, N.eqb_refl in Hone.
  destruct (msg_fget fs (f_num (fst q))) eqn:E2; [congruence|]. cbn [negb orb] in Hone.
  repeat rewrite orb_false_r in Hone. apply N.eqb_eq in Hone. contradiction.
Qed.

Section Pairs.
  Variable fs : fields.

  Definition pairs (order : list fpair) : fields :=
    flat_map (fun p => match msg_fget fs (fp_num p) with [] => [] | vs => [(fp_num p, map strip_unknown vs)] end) order.

  Lemma pairs_in order k vs : In (k, vs) (pairs order) <->
    exists p, In p order /\ fp_num p = k /\ msg_fget fs k <> [] /\ vs = map strip_unknown (msg_fget fs k).
  Proof.
    unfold pairs. rewrite in_flat_map. split; intros (p & Hp & H); exists p; (split; [exact Hp|]).
    - destruct (msg_fget fs (fp_num p)) eqn:E; [destruct H|]. destruct H as [[= <- <-]|[]].
      rewrite E. repeat split. discriminate.
    - destruct H as (<- & Hne & ->). destruct (msg_fget fs (fp_num p)); [congruence|left; reflexivity].
  Qed.

  Lemma pairs_keys_sub order k : In k (msg_keys (pairs order)) -> In k (map fp_num order).
  Proof.
    intros H. apply in_map_iff in H. destruct H as ([k' vs] & <- & H).
    apply pairs_in in H. destruct H as (p & Hp & <- & _). exact (in_map fp_num order p Hp).
  Qed.

  Lemma pairs_keys_nodup order : NoDup (map fp_num order) -> NoDup (msg_keys (pairs order)).
  Proof.
    induction order as [|p order IH]; intros H; [constructor|].
    cbn [map] in H. inversion H as [|? ? Hn Hnd']; subst.
    cbn [pairs flat_map]. fold (pairs order). unfold msg_keys. rewrite map_app.
    destruct (msg_fget fs (fp_num p)); cbn [map app fst]; [apply IH, Hnd'|].
    constructor; [|apply IH, Hnd']. intros Hin. apply Hn, pairs_keys_sub, Hin.
  Qed.
End Pairs.

(* re-inserting the present fields, in any order, gives the stripped store *)
Lemma ins_all_pairs_eq fps fs order :
  NoDup (map fp_num fps) -> (forall p, In p fps -> 1 <= fp_num p) -> msg_sorted 0 fs ->
  (forall k vs, In (k, vs) fs -> vs <> [] /\ exists p, In p fps /\ fp_num p = k) ->
  Permutation order fps ->
  msg_ins_all (pairs fs order) [] = map sp fs.
Proof.
  intros Hnd Hpos Hsorted Hch Hperm.
  assert (Hnd' : NoDup (map fp_num order)).
  { eapply Permutation_NoDup; [apply Permutation_map, Permutation_sym, Hperm|exact Hnd]. }
  destruct (msg_ins_all_props (pairs fs order) [] 0) as [Hs Hp].
  - cbn [msg_keys map]. rewrite app_nil_r. apply pairs_keys_nodup, Hnd'.
  - exact I.
  - intros k Hk. apply pairs_keys_sub in Hk. apply in_map_iff in Hk. destruct Hk as (p & <- & Hp).
    assert (1 <= fp_num p) by (apply Hpos; eapply Permutation_in; eassumption). lia.
  - rewrite app_nil_r in Hp.
    apply (msg_sorted_perm_eq _ _ 0 0 Hs (msg_sorted_map_sp _ _ Hsorted)).
    rewrite Hp. apply NoDup_Permutation.
    + apply NoDup_keys_pairs, pairs_keys_nodup, Hnd'.
    + apply NoDup_keys_pairs. rewrite msg_keys_map_sp. eapply msg_sorted_nodup, Hsorted.
    + intros [k vs]. rewrite pairs_in. split.
      * intros (p & Hp' & Hk & Hne & ->).
        apply in_map_iff. exists (k, msg_fget fs k). split; [reflexivity|]. apply msg_fget_in, Hne.
      * intros Hin. apply in_map_iff in Hin. destruct Hin as ([k' vs'] & E & Hin). unfold sp in E. cbn [fst snd] in E.
        inversion E; subst k vs. destruct (Hch _ _ Hin) as (Hne & p & Hp' & Hk).
        assert (Hget : msg_fget fs k' = vs') by (apply msg_fget_of_in; [eapply msg_sorted_nodup, Hsorted|exact Hin]).
        exists p. split; [eapply Permutation_in; [apply Permutation_sym, Hperm|exact Hp']|].
        split; [exact Hk|]. rewrite Hget. split; [exact Hne|reflexivity].
Qed.

(* the value stored under the number of a declared field satisfies what every stored chunk satisfies *)
Lemma chunk_of_field fps fs (P : fpair -> list value -> Prop) :
  NoDup (map fp_num fps) ->
  (forall k vs, In (k, vs) fs -> exists p, In p fps /\ fp_num p = k /\ P p vs) ->
  forall p, In p fps -> msg_fget fs (fp_num p) <> [] -> P p (msg_fget fs (fp_num p)).
Proof.
  intros Hnd Hchunks p Hin Hne. destruct (Hchunks _ _ (msg_fget_in fs _ Hne)) as (q & Hq & Hk & Hv).
  assert (q = p) by (eapply (list_nodup_map_inj fp_num fps); eassumption). subst q. exact Hv.
Qed.

(* a singular field whose oneof is not yet set marks it *)
Lemma oneof_mark_fresh (oo : option N) (ones : list N) : (forall i, oo = Some i -> ~ In i ones) ->
  match oo with
  | Some i => if existsb (N.eqb i) ones then None else Some (i :: ones)
  | None => Some ones
  end = Some (match oo with Some i => i :: ones | None => ones end).
Proof. intros H. destruct oo as [i|]; [|reflexivity]. rewrite existsb_Neqb_false; [reflexivity|]. now apply H. Qed.

(* a sorted store whose keys are 1 and 2 only is its entry under 1 followed by its entry under 2 *)
Lemma two_key_fs (P1 P2 : list value -> Prop) fs :
  msg_sorted 0 fs ->
  (forall k vs, In (k, vs) fs -> vs <> [] /\ ((k = 1 /\ P1 vs) \/ (k = 2 /\ P2 vs))) ->
  (msg_fget fs 1 = [] \/ P1 (msg_fget fs 1)) /\ (msg_fget fs 2 = [] \/ P2 (msg_fget fs 2)) /\
  fs = (match msg_fget fs 1 with [] => [] | vs => [(1, vs)] end)
       ++ (match msg_fget fs 2 with [] => [] | vs => [(2, vs)] end).
Proof.
  intros Hs He. destruct fs as [|[k1 v1] [|[k2 v2] [|[k3 v3] r]]].
  - cbn [msg_fget]. auto.
  - destruct (He _ _ (or_introl eq_refl)) as (Hne & [[-> H]|[-> H]]); cbn [msg_fget N.eqb Pos.eqb app];
      (destruct v1; [congruence|]); auto.
  - destruct (He _ _ (or_introl eq_refl)) as (Hne1 & Hk1).
    destruct (He _ _ (or_intror (or_introl eq_refl))) as (Hne2 & Hk2).
    cbn [msg_sorted fst] in Hs. destruct Hs as (_ & Hlt & _).
    destruct Hk1 as [[-> H1]|[-> H1]], Hk2 as [[-> H2]|[-> H2]]; try (exfalso; clear - Hlt; lia).
    cbn [msg_fget N.eqb Pos.eqb app]. destruct v1; [congruence|]. destruct v2; [congruence|]. auto.
  - exfalso.
    assert (H1 : k1 = 1 \/ k1 = 2) by (destruct (He _ _ (or_introl eq_refl)) as (_ & [[K _]|[K _]]); auto).
    assert (H2 : k2 = 1 \/ k2 = 2) by (destruct (He _ _ (or_intror (or_introl eq_refl))) as (_ & [[K _]|[K _]]); auto).
    assert (H3 : k3 = 1 \/ k3 = 2) by (destruct (He _ _ (or_intror (or_intror (or_introl eq_refl)))) as (_ & [[K _]|[K _]]); auto).
    cbn [msg_sorted fst] in Hs. destruct Hs as (_ & Hl1 & Hl2 & _). clear - H1 H2 H3 Hl1 Hl2. lia.
Qed.

Section FieldLoop.
  Variable fps : list fpair.
  Variable fs : fields.
  Hypothesis Hone : rt_oneofs_ok fps fs = true.
  Context {St : Type} (st_fs : St -> fields) (st_seen st_oneofs : St -> list N).

  (* after the fields [done]: only they are stored or seen, and a seen oneof belongs to one of them
     that is present in [fs] *)
  Definition loop_inv (done : list fpair) (st : St) : Prop :=
    (forall k, msg_fget (st_fs st) k <> [] -> In k (map fp_num done)) /\
    (forall k, In k (st_seen st) -> In k (map fp_num done)) /\
    (forall i, In i (st_oneofs st) ->
       exists q, In q done /\ f_oneof (fst q) = Some i /\ msg_fget fs (fp_num q) <> []).

  (* in a loop over [done ++ p :: order], the next field p is declared and finds its slot, its number
     and its oneof untouched *)
  Lemma loop_inv_fresh done p order st :
    loop_inv done st -> NoDup (map fp_num (done ++ p :: order)) -> (forall q, In q (done ++ p :: order) -> In q fps) ->
    In p fps /\ msg_fget (st_fs st) (fp_num p) = [] /\ ~ In (fp_num p) (st_seen st) /\
    (forall i, f_oneof (fst p) = Some i -> msg_fget fs (fp_num p) <> [] -> ~ In i (st_oneofs st)).
  Proof.
    intros (I1 & I2 & I3) Hnodup Hsub.
    assert (Hp : In p fps) by (apply Hsub, in_or_app; right; left; reflexivity).
    assert (Hnew : ~ In (fp_num p) (map fp_num done)).
    { rewrite map_app in Hnodup. cbn [map] in Hnodup. apply NoDup_remove_2 in Hnodup.
      intros Hin. apply Hnodup, in_or_app. left. exact Hin. }
    split; [exact Hp|]. split; [|split].
    - destruct (msg_fget (st_fs st) (fp_num p)) eqn:E; [reflexivity|].
      exfalso. apply Hnew, I1. rewrite E. discriminate.
    - intros Hin. apply Hnew, I2, Hin.
    - intros i Hoi Hpres Hin. destruct (I3 i Hin) as (q & Hq & Hoq & Hpq).
      apply (oneof_fresh fps fs Hone p q i); try assumption; [apply Hsub, in_or_app; left; exact Hq|].
      intros E. apply Hnew. rewrite <- E. apply in_map, Hq.
  Qed.

  (* the state both decoders reach after the field p: its values stored, its number possibly seen,
     its oneof marked when p is singular and present *)
  Lemma loop_inv_after done st p st' :
    loop_inv done st ->
    st_fs st' = match msg_fget fs (fp_num p) with
                | [] => st_fs st
                | vs => msg_fset (st_fs st) (fp_num p) (map strip_unknown vs)
                end ->
    (forall k, In k (st_seen st') -> k = fp_num p \/ In k (st_seen st)) ->
    st_oneofs st' = match msg_fget fs (fp_num p) with
                    | [] => st_oneofs st
                    | _ => if is_sing (fst p)
                           then match f_oneof (fst p) with Some i => i :: st_oneofs st | None => st_oneofs st end
                           else st_oneofs st
                    end ->
    loop_inv (done ++ [p]) st'.
  Proof.
    intros (I1 & I2 & I3) Efs Hseen Eones. split; [|split].
    - intros k Hk. rewrite map_app. apply in_or_app.
      destruct (N.eq_dec k (fp_num p)) as [->|Hne]; [right; left; reflexivity|].
      left. apply I1. rewrite Efs in Hk. destruct (msg_fget fs (fp_num p)); [exact Hk|].
      now rewrite msg_fget_fset_other in Hk.
    - intros k Hk. rewrite map_app. apply in_or_app.
      destruct (Hseen k Hk) as [->|Hk']; [right; left; reflexivity|left; apply I2, Hk'].
    - intros i Hi. rewrite Eones in Hi.
      assert (Hold : In i (st_oneofs st) -> exists q, In q (done ++ [p]) /\ f_oneof (fst q) = Some i /\ msg_fget fs (fp_num q) <> []).
      { intros Hi'. destruct (I3 i Hi') as (q & Hq & Hoq & Hpq). exists q. split; [apply in_or_app; left; exact Hq|]. split; assumption. }
      destruct (msg_fget fs (fp_num p)) eqn:Evs; [exact (Hold Hi)|].
      destruct (is_sing (fst p)); [|exact (Hold Hi)].
      destruct (f_oneof (fst p)) as [j|] eqn:Eo; [|exact (Hold Hi)].
      destruct Hi as [<-|Hi]; [|exact (Hold Hi)].
      exists p. split; [apply in_or_app; right; left; reflexivity|]. split; [exact Eo|rewrite Evs; discriminate].
  Qed.

  Lemma loop_inv_init st : st_fs st = [] -> st_seen st = [] -> st_oneofs st = [] -> loop_inv [] st.
  Proof.
    intros E1 E2 E3. unfold loop_inv. rewrite E1, E2, E3.
    split; [intros k Hk; exact (Hk eq_refl)|]. split; [intros k []|intros i []].
  Qed.

  (* the store after the loop *)
  Variable step : St -> fpair -> St.
  Hypothesis step_fs : forall st p,
    st_fs (step st p) = msg_ins_all (pairs fs [p]) (st_fs st).

  Lemma fold_step_fs : forall order st,
    st_fs (fold_left step order st) = msg_ins_all (pairs fs order) (st_fs st).
  Proof.
    induction order as [|p order IH]; intros st; [reflexivity|].
    cbn [fold_left]. rewrite IH, step_fs. cbn [pairs flat_map]. rewrite app_nil_r, <- msg_ins_all_app. reflexivity.
  Qed.
End FieldLoop.

Lemma rt_msg_facts S nm tid : rt_schema_ok S nm = true -> (tid < length S)%nat ->
  let fps := rt_fields S nm tid in
  NoDup (map fp_num fps) /\
  (forall p, In p fps -> 1 <= fp_num p) /\
  (forall p, In p fps -> f_kind (fst p) = KS SkEnum -> enum_ok (nm_enum nm (snd p)) = true) /\
  mn_full (nm_msg nm tid) <> [].
Proof.
  intros H Hlt fps. unfold rt_schema_ok in H. apply andb_prop in H as [_ H].
  rewrite forallb_forall in H. specialize (H tid ltac:(apply in_seq; lia)).
  unfold rt_msg_ok in H. fold fps in H.
  apply andb_prop in H as [H Hfull]. apply andb_prop in H as [H Hf].
  apply andb_prop in H as [_ Hnd]. rewrite forallb_forall in Hf.
  split; [apply n_nodup_NoDup, Hnd|].
  split. { intros p Hp. specialize (Hf p Hp). unfold rt_field_ok in Hf. apply andb_prop in Hf as [Hf _]. lia. }
  split. { intros p Hp Hk. specialize (Hf p Hp). unfold rt_field_ok in Hf. apply andb_prop in Hf as [_ Hf].
           rewrite Hk in Hf. exact Hf. }
  destruct (mn_full (nm_msg nm tid)); discriminate.
Qed.
