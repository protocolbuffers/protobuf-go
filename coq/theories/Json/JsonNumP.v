(* Proofs about numbers: parseNumber = RFC 8259 number recogniser + delimiter rule;
   the recogniser is sound and (for delimited numbers) complete for the inductive grammar. *)
From Coq Require Import List NArith ZArith Lia Bool.
From Coq Require Import ZifyBool ZifyNat ZifyN.
From PB Require Import Base.PBytes Json.JsonUtf8 Json.JsonGrammar Json.JsonNumModel.
From PB Require Export Base.PBytesP.
Import ListNotations.
Open Scope N_scope.

Lemma is_true b c : is b c = true -> b = c.
Proof. unfold is. apply Byte.byte_dec_bl. Qed.
Lemma is_refl b : is b b = true.
Proof. unfold is. apply Byte.byte_dec_lb. reflexivity. Qed.
Lemma is_false b c : is b c = false -> b <> c.
Proof. intros H E. subst. rewrite is_refl in H. discriminate. Qed.

Lemma is_digit_b2n b : is_digit b = true <-> 48 <= b2n b <= 57.
Proof. unfold is_digit, in_range. lia. Qed.
Lemma is_digit19_digit b : is_digit19 b = true -> is_digit b = true.
Proof. unfold is_digit19, is_digit, in_range. lia. Qed.

Lemma is_b2n_false b c : b2n b <> b2n c -> is b c = false.
Proof. intros H. destruct (is b c) eqn:E; auto. apply is_true in E. subst. contradiction. Qed.

(* decide every comparison of two concrete bytes in the goal *)
Ltac eval_is :=
  repeat match goal with
         | |- context [is ?a ?b] =>
           let v := eval vm_compute in (is a b) in
           match v with true => change (is a b) with true | false => change (is a b) with false end
         end.

Definition not_digit_head (t : list byte) : Prop :=
  match t with b :: _ => is_digit b = false | [] => True end.

Lemma span_digits_spec s d t : span_digits s = (d, t) ->
  s = d ++ t /\ forallb is_digit d = true /\ not_digit_head t.
Proof.
  revert d t. induction s as [|b r IH]; intros d t H; cbn [span_digits] in H.
  - injection H as <- <-. cbn. auto.
  - destruct (is_digit b) eqn:E.
    + destruct (span_digits r) as [d' t'] eqn:E2. injection H as <- <-.
      destruct (IH d' t' eq_refl) as (-> & Hd & Ht). repeat split; auto. cbn [forallb]. now rewrite E.
    + injection H as <- <-. repeat split; auto.
Qed.

Lemma span_digits_app d t : forallb is_digit d = true -> not_digit_head t -> span_digits (d ++ t) = (d, t).
Proof.
  induction d as [|b d IH]; cbn [app span_digits forallb]; intros Hd Ht.
  - destruct t; auto. cbn [not_digit_head] in Ht. cbn [span_digits]. now rewrite Ht.
  - apply andb_true_iff in Hd as [Hb Hd]. rewrite Hb, IH; auto.
Qed.

Lemma span_digits_length s : length s = (length (fst (span_digits s)) + length (snd (span_digits s)))%nat.
Proof.
  destruct (span_digits s) as [d t] eqn:E. apply span_digits_spec in E as (-> & _ & _).
  cbn. now rewrite app_length.
Qed.

Definition delim_or_end (r : list byte) : bool :=
  match r with b :: _ => negb (is_not_delim b) | [] => true end.

Lemma digit_not_delim b : is_digit b = true -> is_not_delim b = true.
Proof. unfold is_not_delim. intros ->. now rewrite !orb_true_r. Qed.

Lemma delim_not_digit_head r : delim_or_end r = true -> not_digit_head r.
Proof.
  destruct r as [|b r]; cbn [delim_or_end not_digit_head]; auto. intros H. destruct (is_digit b) eqn:E; auto.
  apply digit_not_delim in E. rewrite E in H. discriminate.
Qed.

(* parseNumber = recogniser + delimiter rule *)
Lemma strip_digits1_spec s r : strip_digits1 s = Some r ->
  exists d, s = d ++ r /\ d <> [] /\ forallb is_digit d = true /\ not_digit_head r.
Proof.
  unfold strip_digits1. destruct (span_digits s) as [d t] eqn:E.
  apply span_digits_spec in E as (-> & Hd & Ht).
  destruct d as [|b d]; [discriminate|]. intros [= <-]. exists (b :: d). repeat split; auto. discriminate.
Qed.

Lemma pn_int_strip s :
  pn_int s = match strip_int s with Some r => Some (length s - length r, r)%nat | None => None end.
Proof.
  destruct s as [|b0 r0]; cbn [pn_int strip_int]; auto.
  destruct (is b0 c_0). { cbn [length]. f_equal. f_equal. lia. }
  destruct (is_digit19 b0); auto.
  pose proof (span_digits_length r0) as HL. destruct (span_digits r0) as [d t]. cbn [fst snd length] in *.
  f_equal. f_equal. lia.
Qed.

Lemma strip_int_length s r : strip_int s = Some r -> (length r < length s)%nat.
Proof.
  destruct s as [|b0 r0]; cbn [strip_int]; [discriminate|].
  destruct (is b0 c_0). { intros [= <-]. cbn. lia. }
  destruct (is_digit19 b0); [|discriminate]. intros [= <-].
  pose proof (span_digits_length r0). cbn [length]. lia.
Qed.

Lemma pn_frac_some s r : strip_frac s = Some r ->
  pn_frac s = ((length s - length r)%nat, r) /\ (length r <= length s)%nat.
Proof.
  destruct s as [|b1 s1]; cbn [strip_frac pn_frac].
  { intros [= <-]. auto. }
  destruct (is b1 c_dot) eqn:E1.
  - intros H. unfold strip_digits1 in H.
    destruct s1 as [|b2 r2]; cbn [span_digits] in H; [discriminate|].
    destruct (is_digit b2) eqn:E2; [|discriminate]. cbn [andb].
    pose proof (span_digits_length r2) as HL. destruct (span_digits r2) as [d t]. cbn [fst snd] in HL.
    injection H as <-. cbn [length]. clear - HL. split; [f_equal|]; lia.
  - intros [= <-]. cbn [andb]. destruct s1; split; auto; f_equal; lia.
Qed.

Definition dot_head (s : list byte) : Prop := match s with b :: _ => b = c_dot | [] => False end.

Lemma pn_frac_none s : strip_frac s = None -> pn_frac s = (0%nat, s) /\ dot_head s.
Proof.
  destruct s as [|b1 s1]; cbn [strip_frac pn_frac]; [discriminate|].
  destruct (is b1 c_dot) eqn:E1; [|discriminate].
  intros H. unfold strip_digits1 in H. apply is_true in E1. subst b1.
  destruct s1 as [|b2 r2]; [cbn; auto|].
  cbn [span_digits] in H. destruct (is_digit b2) eqn:E2.
  - destruct (span_digits r2). discriminate.
  - rewrite andb_false_r. cbn. auto.
Qed.

Lemma pn_exp_dot s : dot_head s -> pn_exp s = Some (0%nat, s) /\ delim_or_end s = false.
Proof.
  destruct s as [|b1 s1]; cbn [dot_head]; [tauto|]. intros ->. split.
  - destruct s1; reflexivity.
  - reflexivity.
Qed.

Lemma pn_exp_some s r : strip_exp s = Some r ->
  pn_exp s = Some ((length s - length r)%nat, r) /\ (length r <= length s)%nat.
Proof.
  destruct s as [|b1 s1]; cbn [strip_exp pn_exp].
  { intros [= <-]. auto. }
  destruct (is b1 c_e || is b1 c_E) eqn:E1.
  - destruct s1 as [|b2 r2]; [discriminate|].
    destruct (is b2 c_plus || is b2 c_minus) eqn:E2; intros H; unfold strip_digits1 in H.
    + destruct r2 as [|b3 r3]; cbn [span_digits] in H; [discriminate|].
      destruct (is_digit b3) eqn:E3; [|discriminate]. cbn [span_digits]. rewrite E3.
      pose proof (span_digits_length r3) as HL. destruct (span_digits r3) as [d t]. cbn [fst snd] in HL.
      injection H as <-. cbn [length]. clear - HL. split; [do 2 f_equal|]; lia.
    + cbn [span_digits] in H. destruct (is_digit b2) eqn:E3; [|discriminate]. cbn [span_digits]. rewrite E3.
      pose proof (span_digits_length r2) as HL. destruct (span_digits r2) as [d t]. cbn [fst snd] in HL.
      injection H as <-. cbn [length]. clear - HL. split; [do 2 f_equal|]; lia.
  - intros [= <-]. destruct s1; split; auto; do 2 f_equal; lia.
Qed.

Lemma e_not_delim b : (is b c_e || is b c_E) = true -> is_not_delim b = true.
Proof. intros H. apply orb_true_iff in H as [H|H]; apply is_true in H; subst; reflexivity. Qed.

Lemma pn_exp_none s : strip_exp s = None ->
  pn_exp s = None \/ (pn_exp s = Some (0%nat, s) /\ delim_or_end s = false).
Proof.
  destruct s as [|b1 s1]; cbn [strip_exp pn_exp]; [discriminate|].
  destruct (is b1 c_e || is b1 c_E) eqn:E1; [|discriminate].
  destruct s1 as [|b2 r2].
  { intros _. right. split; auto. cbn [delim_or_end]. now rewrite (e_not_delim _ E1). }
  destruct (is b2 c_plus || is b2 c_minus) eqn:E2; intros H; unfold strip_digits1 in H; left.
  - destruct r2 as [|b3 r3]; auto. cbn [span_digits] in H.
    destruct (is_digit b3) eqn:E3; auto. destruct (span_digits r3). discriminate.
  - cbn [span_digits] in H. destruct (is_digit b2) eqn:E3; auto. destruct (span_digits r2). discriminate.
Qed.

(* parseNumber after the sign, stage by stage; [n] counts the bytes consumed so far *)
Definition tail_fin (n : nat) (s : list byte) : option nat :=
  match s with b :: _ => if is_not_delim b then None else Some n | [] => Some n end.
Definition tail_exp (n : nat) (s : list byte) : option nat :=
  match pn_exp s with None => None | Some (ne, t) => tail_fin (n + ne) t end.
Definition tail_frac (n : nat) (s : list byte) : option nat :=
  let '(nf, t) := pn_frac s in tail_exp (n + nf) t.
Definition tail_int (n : nat) (s : list byte) : option nat :=
  match pn_int s with None => None | Some (ni, t) => tail_frac (n + ni) t end.

Lemma parse_number_tails input :
  parse_number input =
  match input with
  | [] => None
  | b :: r => if is b c_minus then tail_int 1 r else tail_int 0 input
  end.
Proof. destruct input as [|b r]; [reflexivity|]. unfold parse_number. destruct (is b c_minus); reflexivity. Qed.

Lemma tail_fin_delim n r : tail_fin n r = if delim_or_end r then Some n else None.
Proof. destruct r as [|b r]; cbn [tail_fin delim_or_end]; auto. destruct (is_not_delim b); auto. Qed.

Lemma tail_int_strip (neg : nat) s :
  tail_int neg s =
  match strip_int s with
  | Some s1 => match strip_frac s1 with
               | Some s2 => match strip_exp s2 with
                            | Some r => if delim_or_end r then Some (neg + (length s - length r))%nat else None
                            | None => None end
               | None => None end
  | None => None
  end.
Proof.
  unfold tail_int. rewrite pn_int_strip. destruct (strip_int s) as [s1|] eqn:E0; auto.
  apply strip_int_length in E0. unfold tail_frac.
  destruct (strip_frac s1) as [s2|] eqn:E1.
  - apply pn_frac_some in E1 as [-> L1]. unfold tail_exp.
    destruct (strip_exp s2) as [r|] eqn:E2.
    + apply pn_exp_some in E2 as [-> L2]. rewrite tail_fin_delim.
      destruct (delim_or_end r); auto. f_equal. lia.
    + apply pn_exp_none in E2 as [-> | [-> Hd]]; auto. rewrite tail_fin_delim, Hd. reflexivity.
  - apply pn_frac_none in E1 as [-> Hdot]. unfold tail_exp. apply pn_exp_dot in Hdot as [-> Hd].
    rewrite tail_fin_delim, Hd. reflexivity.
Qed.

Theorem parse_number_strip input :
  parse_number input =
  match strip_number input with
  | Some r => if delim_or_end r then Some (length input - length r)%nat else None
  | None => None
  end.
Proof.
  rewrite parse_number_tails. unfold strip_number. destruct input as [|b r0]; [reflexivity|].
  destruct (is b c_minus) eqn:E; rewrite tail_int_strip.
  - destruct (strip_int r0) as [s1|] eqn:E0; auto. pose proof (strip_int_length _ _ E0).
    destruct (strip_frac s1) as [s2|] eqn:E1; auto. pose proof (proj2 (pn_frac_some _ _ E1)).
    destruct (strip_exp s2) as [r|] eqn:E2; auto. pose proof (proj2 (pn_exp_some _ _ E2)).
    destruct (delim_or_end r); auto. f_equal. cbn [length]. lia.
  - destruct (strip_int (b :: r0)) as [s1|] eqn:E0; auto.
    destruct (strip_frac s1) as [s2|] eqn:E1; auto.
Qed.

(* the recogniser is sound for the inductive grammar *)
Lemma strip_int_sound s r : strip_int s = Some r ->
  exists i, s = i ++ r /\ rfc_int i /\ (i = [c_0] \/ not_digit_head r).
Proof.
  destruct s as [|b0 r0]; cbn [strip_int]; [discriminate|].
  destruct (is b0 c_0) eqn:E0.
  - intros [= <-]. apply is_true in E0. subst. exists [c_0]. repeat split; auto. constructor.
  - destruct (is_digit19 b0) eqn:E1; [|discriminate]. intros [= <-].
    destruct (span_digits r0) as [d t] eqn:E2. apply span_digits_spec in E2 as (-> & Hd & Ht).
    exists (b0 :: d). cbn [snd]. repeat split; auto. now constructor.
Qed.

Lemma strip_frac_sound s r : strip_frac s = Some r -> exists f, s = f ++ r /\ rfc_frac f.
Proof.
  destruct s as [|b1 s1]; cbn [strip_frac].
  { intros [= <-]. exists []. split; auto. constructor. }
  destruct (is b1 c_dot) eqn:E1.
  - apply is_true in E1. subst. intros H. apply strip_digits1_spec in H as (d & -> & Hne & Hd & _).
    exists (c_dot :: d). split; auto. constructor. split; auto.
  - intros [= <-]. exists []. split; auto. constructor.
Qed.

Lemma strip_exp_sound s r : strip_exp s = Some r -> exists e, s = e ++ r /\ rfc_exp e.
Proof.
  destruct s as [|b1 s1]; cbn [strip_exp].
  { intros [= <-]. exists []. split; auto. constructor. }
  destruct (is b1 c_e || is b1 c_E) eqn:E1.
  - assert (He : b1 = c_e \/ b1 = c_E).
    { apply orb_true_iff in E1 as [H|H]; apply is_true in H; auto. }
    destruct s1 as [|b2 r2]; [discriminate|].
    destruct (is b2 c_plus || is b2 c_minus) eqn:E2; intros H;
      apply strip_digits1_spec in H as (d & Hs & Hne & Hd & _).
    + subst r2. exists (b1 :: [b2] ++ d). split; auto. constructor; auto; [|split; auto].
      apply orb_true_iff in E2 as [H|H]; apply is_true in H; subst; auto.
    + exists (b1 :: [] ++ d). cbn [app]. rewrite Hs. split; auto.
      apply (exp_some b1 [] d); auto. split; auto.
  - intros [= <-]. exists []. split; auto. constructor.
Qed.

Theorem strip_number_sound s r : strip_number s = Some r ->
  exists num, s = num ++ r /\ rfc_number num.
Proof.
  unfold strip_number.
  set (s0 := match s with b :: r0 => if is b c_minus then r0 else s | [] => s end).
  assert (Hm : exists m, s = m ++ s0 /\ (m = [] \/ m = [c_minus])).
  { subst s0. destruct s as [|b r0]. { exists []. auto. }
    destruct (is b c_minus) eqn:E. { apply is_true in E. subst. exists [c_minus]. auto. }
    exists []. auto. }
  destruct Hm as (m & Hs & Hm).
  destruct (strip_int s0) as [s1|] eqn:E0; [|discriminate].
  destruct (strip_frac s1) as [s2|] eqn:E1; [|discriminate].
  intros E2.
  apply strip_int_sound in E0 as (i & -> & Hi & _).
  apply strip_frac_sound in E1 as (f & -> & Hf).
  apply strip_exp_sound in E2 as (e & -> & He).
  exists (m ++ i ++ f ++ e). split.
  - rewrite Hs. now rewrite <- !app_assoc.
  - now constructor.
Qed.

Theorem parse_number_sound input n : parse_number input = Some n ->
  rfc_number (firstn n input) /\ delim_or_end (skipn n input) = true /\ (0 < n <= length input)%nat.
Proof.
  rewrite parse_number_strip. destruct (strip_number input) as [r|] eqn:E; [|discriminate].
  destruct (delim_or_end r) eqn:D; [|discriminate]. intros [= <-].
  apply strip_number_sound in E as (num & -> & Hn).
  rewrite app_length. replace (length num + length r - length r)%nat with (length num) by lia.
  rewrite firstn_app, Nat.sub_diag, firstn_all, firstn_O, app_nil_r.
  rewrite skipn_app, Nat.sub_diag, skipn_all. cbn [skipn app]. repeat split; auto; try lia.
  inversion Hn as [m i f e Hm Hi Hf He]. inversion Hi; subst; rewrite !app_length; cbn [length]; lia.
Qed.

(* and complete for numbers followed by a delimiter (or the end) *)
Lemma strip_digits1_app d r : d <> [] -> forallb is_digit d = true -> not_digit_head r ->
  strip_digits1 (d ++ r) = Some r.
Proof.
  intros Hne Hd Hr. unfold strip_digits1. rewrite span_digits_app; auto. destruct d; auto. contradiction.
Qed.

Definition no_dot_head (t : list byte) : Prop := match t with b :: _ => is b c_dot = false | [] => True end.

Lemma delim_heads r : delim_or_end r = true ->
  no_dot_head r /\ match r with b :: _ => (is b c_e || is b c_E) = false | [] => True end.
Proof.
  destruct r as [|b r]; [cbn; auto|]. cbn [delim_or_end no_dot_head]. intros H. split.
  - destruct (is b c_dot) eqn:E; auto. apply is_true in E. subst. discriminate.
  - destruct (is b c_e || is b c_E) eqn:E; auto. apply e_not_delim in E. rewrite E in H. discriminate.
Qed.

Lemma strip_exp_complete e r : rfc_exp e -> delim_or_end r = true -> strip_exp (e ++ r) = Some r.
Proof.
  intros He Hr. pose proof (delim_not_digit_head _ Hr) as Hnd. destruct (delim_heads _ Hr) as [_ HeE].
  destruct He as [|e0 sg d He0 Hsg [Hne Hd]].
  - cbn [app]. destruct r as [|b r]; auto. cbn [strip_exp]. now rewrite HeE.
  - cbn [app strip_exp].
    replace (is e0 c_e || is e0 c_E) with true by (destruct He0; subst; reflexivity).
    destruct Hsg as [-> | [-> | ->]]; cbn [app].
    + destruct d as [|b0 d]; [contradiction|]. cbn [app].
      cbn [forallb] in Hd. apply andb_true_iff in Hd as [Hb0 Hd].
      replace (is b0 c_plus || is b0 c_minus) with false.
      2:{ symmetry. apply orb_false_iff. split.
          - destruct (is b0 c_plus) eqn:E; auto. apply is_true in E. subst. discriminate.
          - destruct (is b0 c_minus) eqn:E; auto. apply is_true in E. subst. discriminate. }
      apply (strip_digits1_app (b0 :: d)); auto; try discriminate. cbn [forallb]. now rewrite Hb0.
    + replace (is c_plus c_plus || is c_plus c_minus) with true by reflexivity.
      apply strip_digits1_app; auto.
    + replace (is c_minus c_plus || is c_minus c_minus) with true by reflexivity.
      apply strip_digits1_app; auto.
Qed.

(* what follows the fraction starts neither with a digit nor with a dot *)
Lemma rfc_exp_heads e r : rfc_exp e -> delim_or_end r = true -> not_digit_head (e ++ r) /\ no_dot_head (e ++ r).
Proof.
  intros He Hr. destruct He as [|e0 sg d He0 _ _].
  - split; [now apply delim_not_digit_head|now apply delim_heads].
  - cbn [app not_digit_head no_dot_head]. destruct He0; subst; split; reflexivity.
Qed.

Lemma strip_frac_complete f t : rfc_frac f -> not_digit_head t -> no_dot_head t ->
  strip_frac (f ++ t) = Some t /\ not_digit_head (f ++ t).
Proof.
  intros Hf Hnd Hdot. destruct Hf as [|d [Hne Hd]].
  - split; auto. cbn [app]. destruct t as [|b t]; auto. cbn [strip_frac]. cbn [no_dot_head] in Hdot. now rewrite Hdot.
  - split; [|reflexivity]. cbn [app strip_frac]. rewrite is_refl. apply strip_digits1_app; auto.
Qed.

Lemma strip_int_complete i t : rfc_int i -> not_digit_head t -> strip_int (i ++ t) = Some t.
Proof.
  intros Hi Ht. destruct Hi as [|b d Hb Hd]; [reflexivity|].
  cbn [app strip_int]. replace (is b c_0) with false.
  2:{ symmetry. destruct (is b c_0) eqn:E; auto. apply is_true in E. subst. discriminate. }
  rewrite Hb, span_digits_app; auto.
Qed.

Lemma head_not_minus i t : rfc_int i ->
  match i ++ t with b :: r0 => if is b c_minus then r0 else i ++ t | [] => i ++ t end = i ++ t.
Proof.
  destruct 1 as [|b d Hb Hd]; [reflexivity|]. cbn [app].
  destruct (is b c_minus) eqn:E; auto. apply is_true in E. subst. discriminate.
Qed.

Theorem strip_number_complete num r : rfc_number num -> delim_or_end r = true ->
  strip_number (num ++ r) = Some r.
Proof.
  intros Hn Hr. destruct Hn as [m i f e Hm Hi Hf He].
  destruct (rfc_exp_heads e r He Hr) as [Hend Hdot].
  destruct (strip_frac_complete f _ Hf Hend Hdot) as [Hfrac Hfe].
  pose proof (strip_int_complete i _ Hi Hfe) as Hint.
  unfold strip_number. rewrite <- !app_assoc.
  destruct Hm as [-> | ->]; cbn [app].
  - rewrite (head_not_minus _ _ Hi), Hint, Hfrac. now apply strip_exp_complete.
  - rewrite is_refl, Hint, Hfrac. now apply strip_exp_complete.
Qed.

Theorem parse_number_complete num r : rfc_number num -> delim_or_end r = true ->
  parse_number (num ++ r) = Some (length num).
Proof.
  intros Hn Hr. rewrite parse_number_strip, (strip_number_complete _ _ Hn Hr), Hr.
  f_equal. rewrite app_length. lia.
Qed.

Theorem is_rfc_number_iff s : is_rfc_number s = true <-> rfc_number s.
Proof.
  unfold is_rfc_number. split.
  - destruct (strip_number s) as [[|]|] eqn:E; try discriminate. intros _.
    apply strip_number_sound in E as (num & -> & H). now rewrite app_nil_r.
  - intros H. rewrite <- (app_nil_r s), (strip_number_complete s [] H eq_refl). reflexivity.
Qed.

Lemma rfc_number_head s : rfc_number s -> exists b r, s = b :: r /\ (is_digit b = true \/ b = c_minus).
Proof.
  intros [m i f e Hm Hi _ _]. destruct Hm as [-> | ->]; [|exists c_minus; eexists; split; [reflexivity|auto]].
  destruct Hi as [|b d Hb _]; cbn [app]; eexists _, _; (split; [reflexivity|left]); [reflexivity|].
  now apply is_digit19_digit.
Qed.
Lemma numhead_facts b : is_digit b = true \/ b = c_minus ->
  is_ws b = false /\ is b "n"%byte = false /\ is b "t"%byte = false /\ is b "f"%byte = false /\
  (is b c_minus || is_digit b) = true.
Proof.
  intros [H | ->]; [|repeat split; reflexivity].
  pose proof H as H'. apply is_digit_b2n in H'. unfold is_ws.
  rewrite H, orb_true_r. rewrite !is_b2n_false by (cbn; lia). repeat split.
Qed.
