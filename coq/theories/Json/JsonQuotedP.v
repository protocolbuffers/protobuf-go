(* Quoted numbers: unmarshalInt / unmarshalUint accept a string token exactly when its content
   is one JSON number literal (no surrounding whitespace) whose value is an integer of the
   type; together with the bare-number case this is int_decode_exact at the protojson layer. *)
From Coq Require Import List NArith ZArith Lia Bool.
From Coq Require Import ZifyBool ZifyNat ZifyN.
From PB Require Import Base.PBytes Json.JsonUtf8 Json.JsonGrammar Json.JsonNumModel Json.JsonNumP Json.JsonIntP
  Json.JsonLexModel Json.JsonStrP Json.JsonLexP Json.JsonEncModel Json.JsonEncP Json.JsonStrict
  Json.JsonScalarModel Json.JsonScalarP.
Import ListNotations.
Open Scope N_scope.

(* printable ASCII other than space *)
Definition asc (b : byte) : Prop := 33 <= b2n b < 127.
Lemma asc_facts b : asc b -> b2n b < 128 /\ is_unicode_space (b2n b) = false.
Proof. unfold asc, is_unicode_space. intros H. split; lia. Qed.

Lemma digits_asc d : forallb is_digit d = true -> Forall asc d.
Proof.
  rewrite forallb_forall. intros H. apply Forall_forall. intros b Hb. specialize (H b Hb).
  apply is_digit_b2n in H. unfold asc. lia.
Qed.
Lemma rfc_number_asc s : rfc_number s -> Forall asc s.
Proof.
  assert (Hc : forall c, (c = c_minus \/ c = c_plus \/ c = c_dot \/ c = c_e \/ c = c_E \/ c = c_0) -> asc c).
  { intros c [->|[->|[->|[->|[->| ->]]]]]; unfold asc; cbn; lia. }
  intros [m i f e Hm Hi Hf He]. repeat (apply Forall_app; split).
  - destruct Hm as [-> | ->]; auto.
  - destruct Hi as [|b d Hb Hd]; [auto 10|]. constructor; [|now apply digits_asc].
    apply is_digit19_digit, is_digit_b2n in Hb. unfold asc. lia.
  - destruct Hf as [|d [_ Hd]]; auto. constructor; auto using digits_asc.
  - destruct He as [|e0 sg d He0 Hsg [_ Hd]]; auto. constructor; [destruct He0; subst; auto 10|].
    apply Forall_app. split; [|now apply digits_asc].
    destruct Hsg as [-> | [-> | ->]]; auto 10.
Qed.

Lemma last_rune_asc s : Forall asc s -> forall fuel cur, is_unicode_space cur = false ->
  is_unicode_space (last_rune_fuel fuel cur s) = false.
Proof.
  induction 1 as [|b r Hb Hr IH]; intros fuel cur Hc; destruct fuel; cbn [last_rune_fuel]; auto.
  destruct (asc_facts b Hb) as [H128 Hsp]. rewrite (decode_rune_ascii b r H128). cbn [fst snd skipn]. auto.
Qed.
Lemma trim_space_asc s : Forall asc s -> trim_space_changes s = false.
Proof.
  intros H. unfold trim_space_changes. destruct s as [|b r]; auto.
  destruct (asc_facts b (Forall_inv H)) as [H128 Hsp].
  rewrite (decode_rune_ascii b r H128). cbn [fst]. rewrite Hsp. cbn [orb]. apply last_rune_asc; auto.
Qed.

Definition number_token (s : list byte) : token :=
  {| t_kind := KNumber; t_pos := 0; t_raw := s; t_boo := false; t_str := [] |}.

Lemma read_top_number s : rfc_number s ->
  exists st', read (d_init s) = Ok (number_token s, st') /\
              exists tk st'', read st' = Ok (tk, st'') /\ t_kind tk = KEOF.
Proof.
  intros Hn. destruct (rfc_number_head s Hn) as (b & r & Es & Hb).
  destruct (numhead_facts b Hb) as (Hws & Hn1 & Hn2 & Hn3 & Hnum).
  pose proof (parse_number_complete s [] Hn eq_refl) as Hpn. rewrite app_nil_r in Hpn.
  set (st1 := {| d_last := KInvalid; d_stack := []; d_pos := length s; d_in := [] |}).
  assert (Hpnx : parse_next (d_init s) = Ok (number_token s, st1)).
  { subst st1. subst s. unfold parse_next, consume, d_init. cbn [d_in d_last d_stack d_pos skipn skip_ws].
    rewrite Hws. cbn [d_in d_pos]. rewrite Hn1, Hn2, Hn3, Hnum, Hpn.
    unfold mk_token, consume. cbn [d_in d_last d_stack d_pos]. rewrite firstn_all, skipn_all. cbn [skip_ws].
    unfold number_token. f_equal. f_equal; f_equal; cbn [length]; lia. }
  exists (set_last KNumber st1). split.
  - unfold read, read_step. rewrite Hpnx. reflexivity.
  - eexists _, _. split; [unfold read, read_step, parse_next, consume; cbn; reflexivity|reflexivity].
Qed.

Theorem quoted_number_accepts s : rfc_number s -> quoted_number_token s = Some (number_token s).
Proof.
  intros Hn. unfold quoted_number_token. rewrite (trim_space_asc _ (rfc_number_asc s Hn)).
  destruct (read_top_number s Hn) as (st' & -> & tk & st'' & -> & Hk). rewrite Hk. reflexivity.
Qed.

(* a quoted number has no whitespace around it (strings.TrimSpace must not change the length) *)
Lemma last_rune_ascii s : Forall (fun b => b2n b < 128) s -> s <> [] ->
  forall fuel cur, (length s <= fuel)%nat -> last_rune_fuel fuel cur s = b2n (last s x00).
Proof.
  induction 1 as [|b r Hb Hr IH]; intros Hne fuel cur Hf; [contradiction|].
  destruct fuel as [|f]; [cbn [length] in Hf; lia|]. cbn [last_rune_fuel].
  rewrite (decode_rune_ascii b r Hb). cbn [fst snd skipn].
  destruct r as [|c r']. { destruct f; reflexivity. }
  rewrite IH; [reflexivity|discriminate|cbn [length] in *; lia].
Qed.

Lemma ws_byte_space b : is_ws b = true -> b2n b < 128 /\ is_unicode_space (b2n b) = true.
Proof.
  unfold is_ws. rewrite !orb_true_iff. intros [[[H|H]|H]|H]; apply is_true in H; subst; split; reflexivity || (cbn; lia).
Qed.

Theorem quoted_number_exact s t : quoted_number_token s = Some t -> t_kind t = KNumber ->
  t_raw t = s /\ rfc_number s.
Proof.
  intros Hq Hk. destruct (quoted_number_token_spec s t Hq Hk) as (w1 & w2 & Hw1 & Hw2 & Hs & Hn).
  unfold quoted_number_token in Hq. destruct (trim_space_changes s) eqn:Et; [discriminate|].
  assert (H1 : w1 = []).
  { destruct w1 as [|b w1']; auto. exfalso. unfold ws in Hw1. cbn [forallb] in Hw1.
    apply andb_true_iff in Hw1 as [Hb _]. destruct (ws_byte_space b Hb) as [H128 Hsp].
    rewrite Hs in Et. cbn [app] in Et. unfold trim_space_changes in Et.
    rewrite (decode_rune_ascii b _ H128) in Et. cbn [fst] in Et. rewrite Hsp in Et. cbn [orb] in Et. discriminate. }
  subst w1. cbn [app] in Hs.
  assert (H2 : w2 = []).
  { destruct (rev w2) as [|b w2'] eqn:Er. { apply (f_equal (@rev byte)) in Er. now rewrite rev_involutive in Er. }
    exfalso. assert (Ew : w2 = rev w2' ++ [b]) by (rewrite <- (rev_involutive w2), Er; reflexivity).
    assert (Hb : is_ws b = true).
    { unfold ws in Hw2. rewrite Ew, forallb_app in Hw2. apply andb_true_iff in Hw2 as [_ Hb]. cbn [forallb] in Hb.
      now rewrite andb_true_r in Hb. }
    destruct (ws_byte_space b Hb) as [H128 Hsp].
    assert (Hall : Forall (fun c => b2n c < 128) s).
    { rewrite Hs. apply Forall_app. split.
      - eapply Forall_impl; [|apply (rfc_number_asc _ Hn)]. intros c Hc. unfold asc in Hc. lia.
      - unfold ws in Hw2. rewrite forallb_forall in Hw2. apply Forall_forall. intros c Hc.
        apply (ws_byte_space c (Hw2 c Hc)). }
    assert (Hlast : last s x00 = b) by (rewrite Hs, Ew, app_assoc; apply last_last).
    destruct s as [|c0 s'] eqn:Es;
      [apply (f_equal (@length byte)) in Hs; rewrite Ew, !app_length in Hs; cbn [length] in Hs; lia|].
    unfold trim_space_changes in Et. rewrite <- Es in *.
    rewrite (last_rune_ascii s Hall ltac:(rewrite Es; discriminate) (length s) 0 (le_n _)) in Et.
    rewrite Hlast, Hsp, orb_true_r in Et. discriminate. }
  subst w2. rewrite app_nil_r in Hs. subst s. auto.
Qed.

(* int_decode_exact at the protojson layer *)
Definition int_literal_of (tok : token) : option (list byte) :=
  match t_kind tok with KNumber => Some (t_raw tok) | KString => Some (t_str tok) | _ => None end.

Theorem unmarshal_int_exact_except_F6 bits tok v : 1 <= bits <= 64 -> lexeme (t_kind tok) (t_raw tok) ->
  (forall lit, int_literal_of tok = Some lit -> f6_class lit = false) ->
  (unmarshal_int bits tok = Some v <->
   exists lit, int_literal_of tok = Some lit /\ rfc_number lit /\ lit_is_int lit v /\ int_in_range bits true v).
Proof.
  intros Hb Hlex Hf6. unfold unmarshal_int, int_literal_of in *. destruct (t_kind tok) eqn:Ek;
    try (split; [discriminate|intros (lit & H & _); discriminate]).
  - cbn [lexeme] in Hlex. unfold tok_int. rewrite Ek. split.
    + intros H. exists (t_raw tok). destruct (token_int_sound bits _ v ltac:(lia) Hlex H). auto.
    + intros (lit & [= <-] & Hn & Hl & Hr). apply token_int_complete; auto.
  - split.
    + destruct (quoted_number_token (t_str tok)) as [t|] eqn:Eq; [|discriminate].
      unfold tok_int. destruct (t_kind t) eqn:Ekt; try discriminate. intros H.
      destruct (quoted_number_exact _ _ Eq Ekt) as [Hraw Hn]. rewrite Hraw in H.
      exists (t_str tok). destruct (token_int_sound bits _ v ltac:(lia) Hn H). auto.
    + intros (lit & [= <-] & Hn & Hl & Hr). rewrite (quoted_number_accepts _ Hn).
      unfold tok_int, number_token. cbn [t_kind t_raw]. apply token_int_complete; auto.
Qed.

Theorem unmarshal_uint_exact_except_F6 bits tok v : bits <= 64 -> lexeme (t_kind tok) (t_raw tok) ->
  (forall lit, int_literal_of tok = Some lit -> f6_class lit = false) ->
  (unmarshal_uint bits tok = Some v <->
   exists lit, int_literal_of tok = Some lit /\ rfc_number lit /\ lit_is_int lit (Z.of_N v) /\
               int_in_range bits false (Z.of_N v)).
Proof.
  intros Hb Hlex Hf6. unfold unmarshal_uint, int_literal_of in *. destruct (t_kind tok) eqn:Ek;
    try (split; [discriminate|intros (lit & H & _); discriminate]).
  - cbn [lexeme] in Hlex. unfold tok_uint. rewrite Ek. split.
    + intros H. exists (t_raw tok). destruct (token_uint_sound bits _ v Hlex H). auto.
    + intros (lit & [= <-] & Hn & Hl & Hr). rewrite (token_uint_complete bits _ (Z.of_N v)); auto. f_equal. lia.
  - split.
    + destruct (quoted_number_token (t_str tok)) as [t|] eqn:Eq; [|discriminate].
      unfold tok_uint. destruct (t_kind t) eqn:Ekt; try discriminate. intros H.
      destruct (quoted_number_exact _ _ Eq Ekt) as [Hraw Hn]. rewrite Hraw in H.
      exists (t_str tok). destruct (token_uint_sound bits _ v Hn H). auto.
    + intros (lit & [= <-] & Hn & Hl & Hr). rewrite (quoted_number_accepts _ Hn).
      unfold tok_uint, number_token. cbn [t_kind t_raw].
      rewrite (token_uint_complete bits _ (Z.of_N v)); auto. f_equal. lia.
Qed.
