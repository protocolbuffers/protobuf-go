(* The executable recogniser [is_json] accepts every member of the inductive grammar. *)
From Coq Require Import List NArith ZArith Lia Bool.
From Coq Require Import ZifyBool ZifyNat ZifyN.
From PB Require Import Base.PBytes Json.JsonUtf8 Json.JsonGrammar Json.JsonNumModel Json.JsonNumP Json.JsonBytesP
  Json.JsonGrammarP.
Import ListNotations.
Open Scope N_scope.

Lemma strip_chars_complete body : jchars body ->
  forall r fuel, (length body < fuel)%nat -> strip_chars fuel (body ++ c_quote :: r) = Some r.
Proof.
  induction 1 as [|c rest0 Hc Hu Hs IH|e rest0 He Hs IH|h1 h2 h3 h4 rest0 H1 H2 H3 H4 Hs IH];
    intros r fuel Hf; (destruct fuel as [|f]; [lia|]).
  - cbn [app strip_chars]. eval_is. reflexivity.
  - destruct (rfc3629_shape c Hc) as (b & c' & -> & Hlen & Hb).
    rewrite <- app_assoc. cbn [app strip_chars].
    assert (Hq : is b c_quote = false /\ is b c_bslash = false).
    { destruct Hb as [[-> _] | [_ Hb]].
      - cbn [unescaped] in Hu. apply andb_true_iff in Hu as [Hu Hu3]. apply andb_true_iff in Hu as [_ Hu2].
        apply negb_true_iff in Hu2, Hu3. auto.
      - inversion Hb; subst. split; apply is_b2n_false; cbn; lia. }
    destruct Hq as [-> ->].
    change (b :: c' ++ rest0 ++ c_quote :: r) with ((b :: c') ++ rest0 ++ c_quote :: r).
    rewrite Hlen, take_app, Hc, Hu. cbn [andb].
    apply IH. rewrite app_length in Hf. cbn [length] in *. lia.
  - cbn [app strip_chars]. eval_is. rewrite He. apply IH. cbn [length] in Hf. lia.
  - cbn [app strip_chars]. eval_is. change (is_simple_esc c_u) with false. cbv iota.
    rewrite H1, H2, H3, H4. cbn [andb]. apply IH. cbn [length] in Hf. lia.
Qed.

Lemma strip_string_complete k r : rfc_string k -> strip_string (k ++ r) = Some r.
Proof.
  intros (body & -> & Hb). cbn [app strip_string]. eval_is.
  rewrite <- app_assoc. cbn [app]. apply strip_chars_complete; auto; try (rewrite app_length; cbn [length]; lia).
Qed.

Lemma strip_mono f :
  (forall s r, strip_value f s = Some r -> forall f', (f <= f')%nat -> strip_value f' s = Some r) /\
  (forall s r, strip_elems f s = Some r -> forall f', (f <= f')%nat -> strip_elems f' s = Some r) /\
  (forall s r, strip_members f s = Some r -> forall f', (f <= f')%nat -> strip_members f' s = Some r).
Proof.
  induction f as [|f (IHv & IHe & IHm)]; [repeat split; intros; discriminate|].
  split; [|split]; intros s r H f' Hf; (destruct f' as [|f']; [lia|]); assert (Hle : (f <= f')%nat) by lia.
  - cbn [strip_value] in *. destruct s as [|b s1]; [discriminate|].
    destruct (is b c_lbrack).
    { destruct (skip_ws s1) as [|b1 r1]; [discriminate|]. destruct (is b1 c_rbrack); auto; try (eapply IHe; eauto). }
    destruct (is b c_lbrace).
    { destruct (skip_ws s1) as [|b1 r1]; [discriminate|]. destruct (is b1 c_rbrace); auto; try (eapply IHm; eauto). }
    exact H.
  - cbn [strip_elems] in *. destruct (strip_value f s) as [r0|] eqn:Ev; [|discriminate].
    rewrite (IHv _ _ Ev f' Hle). destruct (skip_ws r0) as [|b r1]; [discriminate|].
    destruct (is b c_comma); [eapply IHe; eauto|exact H].
  - cbn [strip_members] in *. destruct (strip_string s) as [r0|]; [|discriminate].
    destruct (skip_ws r0) as [|b r1]; [discriminate|]. destruct (is b c_colon); [|discriminate].
    destruct (strip_value f (skip_ws r1)) as [r2|] eqn:Ev; [|discriminate].
    rewrite (IHv _ _ Ev f' Hle). destruct (skip_ws r2) as [|b2 r3]; [discriminate|].
    destruct (is b2 c_comma); [eapply IHm; eauto|exact H].
Qed.

Scheme jvalue_mind := Minimality for jvalue Sort Prop
  with jelems_mind := Minimality for jelems Sort Prop
  with jmembers_mind := Minimality for jmembers Sort Prop.
Combined Scheme json_mutind from jvalue_mind, jelems_mind, jmembers_mind.

Definition econt (k : nat) (rest : list byte) : option (list byte) :=
  match rest with
  | b :: r1 => if is b c_comma then strip_elems k (skip_ws r1) else if is b c_rbrack then Some r1 else None
  | [] => None
  end.
Definition mcont (k : nat) (rest : list byte) : option (list byte) :=
  match rest with
  | b :: r1 => if is b c_comma then strip_members k (skip_ws r1) else if is b c_rbrace then Some r1 else None
  | [] => None
  end.

Definition head_ok (v : list byte) : Prop :=
  match v with b :: _ => is_ws b = false /\ is b c_rbrack = false /\ is b c_rbrace = false | [] => False end.
Lemma head_ok_nonws v : head_ok v -> head_nonws v.
Proof. destruct v; cbn; tauto. Qed.
Definition starts_ok (p : list byte) : Prop := exists w v t, ws w /\ head_ok v /\ p = w ++ v ++ t.
Lemma starts_ok_skip p rest : starts_ok p ->
  exists b t, skip_ws (p ++ rest) = b :: t /\ is b c_rbrack = false /\ is b c_rbrace = false.
Proof.
  intros (w & v & t & Hw & Hv & ->). rewrite <- !app_assoc, skip_ws_app by auto.
  destruct v as [|b v']; [contradiction|]. destruct Hv as (H1 & H2 & H3). cbn [app]. rewrite skip_ws_head by auto. eauto.
Qed.
Lemma starts_ok_app p t : starts_ok p -> starts_ok (p ++ t).
Proof.
  intros (w & v & t0 & Hw & Hv & ->). exists w, v, (t0 ++ t). repeat split; auto. now rewrite <- !app_assoc.
Qed.

(* Fuel.  strip_value/strip_elems/strip_members spend one unit per nesting level and one per
   element or member, and each of these consumes at least one byte, so a fuel of the length of
   the input would do; the factor 2 (and [is_json]'s 2 * length s + 2) leaves the slack that lets
   every bound below be closed by lia without counting brackets and commas exactly.  In CE/CM
   [k] is the fuel with which the continuation after the list ([econt]/[mcont]) succeeds. *)
Definition CV (v : list byte) : Prop :=
  head_ok v /\ forall r fuel, (2 * length v <= fuel)%nat -> delim_or_end r = true -> strip_value fuel (v ++ r) = Some r.
(* a list of items followed by [rest]: whatever the continuation yields with fuel k *)
Definition CE (p : list byte) : Prop :=
  starts_ok p /\ forall rest r k fuel, head_nonws rest -> delim_or_end rest = true -> econt k rest = Some r ->
    (2 * length p + k + 2 <= fuel)%nat -> strip_elems fuel (skip_ws (p ++ rest)) = Some r.
Definition CM (p : list byte) : Prop :=
  starts_ok p /\ forall rest r k fuel, head_nonws rest -> delim_or_end rest = true -> mcont k rest = Some r ->
    (2 * length p + k + 2 <= fuel)%nat -> strip_members fuel (skip_ws (p ++ rest)) = Some r.

Lemma econt_mono k rest r k' : econt k rest = Some r -> (k <= k')%nat -> econt k' rest = Some r.
Proof.
  destruct rest as [|b r1]; [discriminate|]. cbn [econt]. destruct (is b c_comma); auto.
  intros H Hk. exact (proj1 (proj2 (strip_mono k)) _ _ H k' Hk).
Qed.
Lemma mcont_mono k rest r k' : mcont k rest = Some r -> (k <= k')%nat -> mcont k' rest = Some r.
Proof.
  destruct rest as [|b r1]; [discriminate|]. cbn [mcont]. destruct (is b c_comma); auto.
  intros H Hk. exact (proj2 (proj2 (strip_mono k)) _ _ H k' Hk).
Qed.

(* one element, one member, at the head of the input *)
Lemma elem_step v w2 rest r k f : CV v -> ws w2 -> head_nonws rest -> delim_or_end rest = true ->
  econt k rest = Some r -> (2 * length v <= f)%nat -> (k <= f)%nat -> strip_elems (S f) (v ++ w2 ++ rest) = Some r.
Proof.
  intros [_ IH] Hw2 Hr Hd Hk Hf Hkf. cbn [strip_elems]. rewrite (IH (w2 ++ rest)) by auto using delim_ws_app.
  rewrite skip_ws_app, (skip_ws_nonws rest Hr) by auto. exact (econt_mono _ _ _ _ Hk Hkf).
Qed.
Lemma member_step key w2 w3 v w4 rest r k f : rfc_string key -> ws w2 -> ws w3 -> CV v -> ws w4 ->
  head_nonws rest -> delim_or_end rest = true -> mcont k rest = Some r -> (2 * length v <= f)%nat -> (k <= f)%nat ->
  strip_members (S f) (key ++ w2 ++ c_colon :: w3 ++ v ++ w4 ++ rest) = Some r.
Proof.
  intros Hk Hw2 Hw3 [Hh IH] Hw4 Hr Hd Hc Hf Hkf. cbn [strip_members]. rewrite (strip_string_complete key _ Hk).
  rewrite skip_ws_app, skip_ws_head by auto. eval_is. cbv iota.
  rewrite (skip_ws_value w3 v _ Hw3 (head_ok_nonws _ Hh)), (IH (w4 ++ rest)) by auto using delim_ws_app.
  rewrite skip_ws_app, (skip_ws_nonws rest Hr) by auto. exact (mcont_mono _ _ _ _ Hc Hkf).
Qed.

Lemma CV_literal lit : (lit = lit_null \/ lit = lit_true \/ lit = lit_false) -> CV lit.
Proof.
  intros H. split; [destruct H as [->|[->| ->]]; repeat split|].
  intros r fuel Hf _. destruct fuel as [|f].
  { destruct H as [->|[->| ->]]; unfold lit_null, lit_true, lit_false in Hf; cbn [length] in Hf; lia. }
  pose proof (strip_prefix_app lit r) as Hp.
  destruct H as [->|[->| ->]]; unfold lit_null, lit_true, lit_false in *; cbn [app strip_value] in *; eval_is; cbv iota; exact Hp.
Qed.

Lemma numhead_more b : is_digit b = true \/ b = c_minus ->
  is b c_lbrack = false /\ is b c_lbrace = false /\ is b c_quote = false /\ is b c_rbrack = false /\ is b c_rbrace = false.
Proof.
  intros [H | ->]; [|repeat split; reflexivity]. apply is_digit_b2n in H.
  rewrite !is_b2n_false by (cbn; lia). repeat split.
Qed.

Lemma ws_head_delim w rest : ws w -> delim_or_end rest = true -> delim_or_end (w ++ rest) = true.
Proof. apply delim_ws_app. Qed.

Theorem grammar_accepted : (forall v, jvalue v -> CV v) /\ (forall p, jelems p -> CE p) /\ (forall p, jmembers p -> CM p).
Proof.
  apply json_mutind.
  - apply CV_literal; auto.
  - apply CV_literal; auto.
  - apply CV_literal; auto.
  - (* number *)
    intros s Hn. destruct (rfc_number_head s Hn) as (b & r0 & Es & Hb).
    destruct (numhead_facts b Hb) as (Hws & Hn1 & Hn2 & Hn3 & _).
    destruct (numhead_more b Hb) as (H1 & H2 & H3 & H4 & H5).
    split; [rewrite Es; repeat split; auto|].
    intros r fuel Hf Hd. destruct fuel as [|f]; [rewrite Es in Hf; cbn [length] in Hf; clear - Hf; lia|].
    pose proof (strip_number_complete s r Hn Hd) as Hp. rewrite Es in *. cbn [app strip_value] in *.
    rewrite H1, H2, H3, Hn1, Hn2, Hn3. exact Hp.
  - (* string *)
    intros s Hs. pose proof (strip_string_complete s) as Hp. destruct Hs as (body & Es & Hb).
    assert (Hrfc : rfc_string s) by (exists body; auto).
    split; [rewrite Es; repeat split|].
    intros r fuel Hf _. destruct fuel as [|f]; [rewrite Es in Hf; cbn [length] in Hf; clear - Hf; lia|].
    specialize (Hp r Hrfc). rewrite Es in *. cbn [app strip_value] in *. eval_is. cbv iota. exact Hp.
  - (* [] *)
    intros w Hw. split; [repeat split|]. intros r fuel Hf _.
    destruct fuel as [|f]; [cbn [length] in Hf; lia|]. cbn [app strip_value]. eval_is. cbv iota.
    rewrite <- app_assoc, skip_ws_app by auto. cbn [app]. rewrite skip_ws_head by reflexivity. eval_is. reflexivity.
  - (* [ elems ] *)
    intros p _ [Hst IH]. split; [repeat split|]. intros r fuel Hf _.
    destruct fuel as [|f]; [cbn [length] in Hf; lia|]. cbn [app strip_value]. eval_is. cbv iota.
    rewrite <- app_assoc. cbn [app].
    destruct (starts_ok_skip p (c_rbrack :: r) Hst) as (b & t & Hsk & Hb1 & _). rewrite Hsk, Hb1, <- Hsk.
    cbn [length] in Hf. rewrite app_length in Hf. cbn [length] in Hf.
    apply (IH _ r 0%nat); [reflexivity..|lia].
  - (* {} *)
    intros w Hw. split; [repeat split|]. intros r fuel Hf _.
    destruct fuel as [|f]; [cbn [length] in Hf; lia|]. cbn [app strip_value]. eval_is. cbv iota.
    rewrite <- app_assoc, skip_ws_app by auto. cbn [app]. rewrite skip_ws_head by reflexivity. eval_is. reflexivity.
  - (* { members } *)
    intros p _ [Hst IH]. split; [repeat split|]. intros r fuel Hf _.
    destruct fuel as [|f]; [cbn [length] in Hf; lia|]. cbn [app strip_value]. eval_is. cbv iota.
    rewrite <- app_assoc. cbn [app].
    destruct (starts_ok_skip p (c_rbrace :: r) Hst) as (b & t & Hsk & _ & Hb1). rewrite Hsk, Hb1, <- Hsk.
    cbn [length] in Hf. rewrite app_length in Hf. cbn [length] in Hf.
    apply (IH _ r 0%nat); [reflexivity..|lia].
  - (* first element *)
    intros w1 v w2 Hw1 _ HV Hw2. split; [exists w1, v, w2; split; [auto|split; [apply HV|auto]]|].
    intros rest r k fuel Hr Hd Hk Hf. rewrite <- !app_assoc, (skip_ws_value w1 v _ Hw1 (head_ok_nonws _ (proj1 HV))).
    rewrite !app_length in Hf. destruct fuel as [|f]; [lia|]. apply (elem_step v w2 rest r k); auto; lia.
  - (* further element *)
    intros p w1 v w2 _ [Hst IHp] Hw1 _ HV Hw2.
    split; [now apply starts_ok_app|].
    intros rest r k fuel Hr Hd Hk Hf. rewrite app_length in Hf. cbn [length] in Hf. rewrite !app_length in Hf.
    replace ((p ++ c_comma :: w1 ++ v ++ w2) ++ rest) with (p ++ c_comma :: w1 ++ v ++ w2 ++ rest) by app_eq.
    apply (IHp _ r (S (2 * length v + k))); try reflexivity; [|lia].
    cbn [econt]. eval_is. cbv iota. rewrite (skip_ws_value w1 v _ Hw1 (head_ok_nonws _ (proj1 HV))).
    apply (elem_step v w2 rest r k); auto; lia.
  - (* first member *)
    intros w1 key w2 w3 v w4 Hw1 Hk Hw2 Hw3 _ HV Hw4.
    assert (Hkh : head_ok key) by (destruct Hk as (body & -> & _); repeat split).
    split; [exists w1, key, (w2 ++ c_colon :: w3 ++ v ++ w4); auto|].
    intros rest r k fuel Hr Hd Hc Hf.
    replace ((w1 ++ key ++ w2 ++ c_colon :: w3 ++ v ++ w4) ++ rest)
      with (w1 ++ key ++ w2 ++ c_colon :: w3 ++ v ++ w4 ++ rest) by app_eq.
    rewrite (skip_ws_value w1 key _ Hw1 (head_ok_nonws _ Hkh)).
    rewrite !app_length in Hf. cbn [length] in Hf. rewrite !app_length in Hf.
    destruct fuel as [|f]; [lia|]. apply (member_step key w2 w3 v w4 rest r k); auto; lia.
  - (* further member *)
    intros p w1 key w2 w3 v w4 _ [Hst IHp] Hw1 Hk Hw2 Hw3 _ HV Hw4.
    assert (Hkh : head_ok key) by (destruct Hk as (body & -> & _); repeat split).
    split; [now apply starts_ok_app|].
    intros rest r k fuel Hr Hd Hc Hf.
    rewrite app_length in Hf. cbn [length] in Hf. rewrite !app_length in Hf. cbn [length] in Hf. rewrite !app_length in Hf.
    replace ((p ++ c_comma :: w1 ++ key ++ w2 ++ c_colon :: w3 ++ v ++ w4) ++ rest)
      with (p ++ c_comma :: w1 ++ key ++ w2 ++ c_colon :: w3 ++ v ++ w4 ++ rest) by app_eq.
    apply (IHp _ r (S (2 * length v + k))); try reflexivity; [|lia].
    cbn [mcont]. eval_is. cbv iota. rewrite (skip_ws_value w1 key _ Hw1 (head_ok_nonws _ Hkh)).
    apply (member_step key w2 w3 v w4 rest r k); auto; lia.
Qed.

Theorem is_json_complete s : json_text s -> is_json s = true.
Proof.
  intros (w1 & v & w2 & -> & Hw1 & Hv & Hw2). destruct (proj1 grammar_accepted v Hv) as [Hh HV].
  unfold is_json. rewrite (skip_ws_value w1 v _ Hw1 (head_ok_nonws _ Hh)).
  assert (Hd : delim_or_end w2 = true) by (rewrite <- (app_nil_r w2); now apply delim_ws_app).
  rewrite HV; [|rewrite !app_length; lia|exact Hd].
  rewrite <- (app_nil_r w2), skip_ws_app by auto. reflexivity.
Qed.

Theorem is_json_iff s : is_json s = true <-> json_text s.
Proof. split; [apply is_json_sound|apply is_json_complete]. Qed.
