(* bytes fields: exactly which strings unmarshalBytes accepts (the decoder skips CR and LF
   anywhere, see b64_quantum; the statement here is for strings without them). *)
From Coq Require Import List Arith NArith Lia Bool.
From PB Require Import Base.PBytes Base.Base64P Json.JsonUtf8 Json.JsonGrammar Json.JsonNumModel
  Json.JsonLexModel Json.JsonEncModel Json.JsonScalarModel Json.JsonB64QuantumP Json.JsonB64VarP.
Import ListNotations.
Open Scope N_scope.

(* a base64 text of the given alphabet / padding convention and the bytes it denotes:
   full quanta of four alphabet characters, then optionally a final quantum of two or three
   characters (completed by '=' signs iff padding is in force); trailing bits are ignored *)
Definition pad_tail (pad : bool) (n : nat) : list byte := if pad then repeat c_pad n else [].
Inductive b64_text (url pad : bool) : list byte -> list byte -> Prop :=
| BT_nil : b64_text url pad [] []
| BT_full c0 c1 c2 c3 v0 v1 v2 v3 rest b :
    b64_val url c0 = Some v0 -> b64_val url c1 = Some v1 -> b64_val url c2 = Some v2 -> b64_val url c3 = Some v3 ->
    b64_text url pad rest b ->
    b64_text url pad (c0 :: c1 :: c2 :: c3 :: rest) (b64_quantum_bytes [v0; v1; v2; v3] ++ b)
| BT_2 c0 c1 v0 v1 : b64_val url c0 = Some v0 -> b64_val url c1 = Some v1 ->
    b64_text url pad (c0 :: c1 :: pad_tail pad 2) (b64_quantum_bytes [v0; v1])
| BT_3 c0 c1 c2 v0 v1 v2 : b64_val url c0 = Some v0 -> b64_val url c1 = Some v1 -> b64_val url c2 = Some v2 ->
    b64_text url pad (c0 :: c1 :: c2 :: pad_tail pad 1) (b64_quantum_bytes [v0; v1; v2]).

Definition no_nl (s : list byte) : Prop := forallb (fun c => negb (is_nl c)) s = true.

Theorem b64_text_decodes url pad t b : b64_text url pad t b ->
  forall s fuel, nonl s = t -> (length s < fuel)%nat -> b64_decode_loop fuel url pad s = Some b.
Proof.
  induction 1 as [|c0 c1 c2 c3 v0 v1 v2 v3 rest0 b H0 H1 H2 H3 Ht IH|c0 c1 v0 v1 H0 H1|c0 c1 c2 v0 v1 v2 H0 H1 H2];
    intros s fuel Hs Hf.
  - now apply decode_done.
  - destruct (decode_full url pad s fuel [c0; c1; c2; c3] [v0; v1; v2; v3] rest0 Hs) as (rest & Hr & Hl & ->); auto.
    { repeat constructor; auto. }
    rewrite (IH rest (pred fuel) Hr) by lia. reflexivity.
  - apply (decode_end url pad s fuel [c0; c1] [v0; v1] 2); auto. repeat constructor; auto.
  - apply (decode_end url pad s fuel [c0; c1; c2] [v0; v1; v2] 1); auto. repeat constructor; auto.
Qed.

Theorem b64_decodes_text url pad : forall fuel s b,
  b64_decode_loop fuel url pad s = Some b -> b64_text url pad (nonl s) b.
Proof.
  induction fuel as [|f IH]; intros s b; cbn [b64_decode_loop]; [discriminate|].
  destruct (b64_quantum (S (S (length s))) url pad 0 [] s) as [| |vs rest] eqn:Eq; try discriminate.
  - intros [= <-]. rewrite (quantum_done _ _ _ _ Eq). constructor.
  - destruct (b64_decode_loop f url pad rest) as [t|] eqn:Et; [|discriminate]. intros [= <-].
    destruct (quantum_fwd _ _ _ _ _ _ _ _ Eq eq_refl ltac:(lia)) as (cs & vs' & Hv & Evs & Hcase).
    cbn [rev app] in Evs. subst vs'. pose proof (vals_length _ _ _ Hv) as Hlen.
    destruct Hcase as [(H1 & H2 & _) | (-> & H1 & H2)].
    + rewrite H2. destruct Hv as [|c0 v0 cs vs Hv0 Hv]; [discriminate|]. destruct Hv as [|c1 v1 cs vs Hv1 Hv]; [discriminate|].
      destruct Hv as [|c2 v2 cs vs Hv2 Hv]; [discriminate|]. destruct Hv as [|c3 v3 cs vs Hv3 Hv]; [discriminate|].
      destruct Hv; [|cbn [length] in H1; lia]. cbn [app]. apply BT_full; auto.
    + assert (t = []) as -> by (destruct f; cbn in Et; congruence). rewrite app_nil_r, H2.
      destruct Hv as [|c0 v0 cs vs Hv0 Hv]; [cbn [length] in H1; lia|].
      destruct Hv as [|c1 v1 cs vs Hv1 Hv]; [cbn [length] in H1; lia|].
      destruct Hv as [|c2 v2 cs vs Hv2 Hv].
      * cbn [app length Nat.sub]. now apply BT_2.
      * destruct Hv; [|cbn [length] in H1; lia]. cbn [app length Nat.sub]. now apply BT_3.
Qed.

(* the selection of the variant looks at the string as given, CR and LF included *)
Lemma bytes_base64_accepts tok b : t_kind tok = KString ->
  (unmarshal_bytes tok = Some b <->
   b64_text (has_url_char (t_str tok)) (Nat.eqb (Nat.modulo (length (t_str tok)) 4) 0) (nonl (t_str tok)) b).
Proof.
  intros Hk. unfold unmarshal_bytes. rewrite Hk. fold (has_url_char (t_str tok)). unfold b64_decode. split.
  - apply b64_decodes_text.
  - intros H. apply (b64_text_decodes _ _ _ _ H); auto.
Qed.

(* unmarshalBytes accepts exactly the base64 texts of the variant it selects: URL-safe alphabet
   iff the string contains '-' or '_', padded iff its length is a multiple of four *)
Theorem bytes_base64_accepts_iff tok b : t_kind tok = KString -> no_nl (t_str tok) ->
  (unmarshal_bytes tok = Some b <->
   b64_text (has_url_char (t_str tok)) (Nat.eqb (Nat.modulo (length (t_str tok)) 4) 0) (t_str tok) b).
Proof. intros Hk Hnl. rewrite (bytes_base64_accepts tok b Hk), (nonl_id _ Hnl). reflexivity. Qed.

(* in particular: a character outside the selected alphabet, or a length of 1 modulo 4,
   or misplaced / missing padding, is rejected *)
Lemma b64_text_chars url pad s b : b64_text url pad s b ->
  Forall (fun c => b64_val url c <> None \/ (pad = true /\ c = c_pad)) s.
Proof.
  assert (Htail : forall n, Forall (fun c => b64_val url c <> None \/ (pad = true /\ c = c_pad)) (pad_tail pad n)).
  { intros n. destruct pad; cbn [pad_tail]; [|constructor]. induction n; cbn [repeat]; constructor; auto. }
  induction 1; repeat (apply Forall_cons; [left; congruence|]); auto.
Qed.
Lemma b64_text_length url s b : b64_text url true s b -> (length s mod 4 = 0)%nat.
Proof.
  induction 1; cbn [length pad_tail repeat]; auto.
  change (S (S (S (S (length rest))))) with (4 + length rest)%nat. now rewrite mod4_add.
Qed.
Lemma b64_text_length_raw url s b : b64_text url false s b -> (length s mod 4 <> 1)%nat.
Proof.
  induction 1; cbn [length pad_tail]; try (cbn; lia).
  change (S (S (S (S (length rest))))) with (4 + length rest)%nat. now rewrite mod4_add.
Qed.
