(* bytes fields: the exact set of accepted strings, including CR/LF (which encoding/base64
   skips anywhere): s is accepted with result b iff s without its CR/LF bytes is a base64 text
   denoting b in the selected variant. *)
From Coq Require Import List NArith Bool.
From PB Require Import Base.PBytes Json.JsonLexModel Json.JsonScalarModel Json.JsonB64QuantumP Json.JsonB64VarP
  Json.JsonB64IffP.
Import ListNotations.
Open Scope N_scope.

Fixpoint strip_nl (s : list byte) : list byte :=
  match s with [] => [] | c :: r => if is_nl c then strip_nl r else c :: strip_nl r end.

Lemma strip_nl_nonl s : strip_nl s = nonl s.
Proof.
  induction s as [|c r IH]; auto. cbn [strip_nl]. destruct (is_nl c) eqn:E.
  - now rewrite (nonl_nl _ _ E).
  - now rewrite (nonl_keep _ _ E), IH.
Qed.

(* unmarshalBytes accepts exactly the strings that, after deleting CR and LF, are base64 texts
   of the variant it selects (the selection looks at the string as given, CR/LF included) *)
Theorem bytes_base64_accepts_iff_nl tok b : t_kind tok = KString ->
  (unmarshal_bytes tok = Some b <->
   b64_text (has_url_char (t_str tok)) (Nat.eqb (Nat.modulo (length (t_str tok)) 4) 0) (strip_nl (t_str tok)) b).
Proof. rewrite strip_nl_nonl. apply bytes_base64_accepts. Qed.
