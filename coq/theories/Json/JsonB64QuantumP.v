(* encoding/base64 as unmarshalBytes uses it: the two alphabets, the bytes of a quantum, and what
   b64_quantum and b64_decode_loop do on a string, said in terms of the string without its CR and
   LF bytes ([nonl]), which the decoder skips anywhere. *)
From Coq Require Import List Arith NArith Lia Bool ZifyBool.
From PB Require Import Base.PBytes Base.Base64P Json.JsonUtf8 Json.JsonGrammar Json.JsonNumModel
  Json.JsonLexModel Json.JsonEncModel Json.JsonScalarModel.
Import ListNotations.
Open Scope N_scope.

Lemma b64_val_char url v : v < 64 -> b64_val url (b64_char url v) = Some v.
Proof.
  intros H. unfold b64_char, b64_val, is_digit, in_range.
  destruct (v <? 26) eqn:E1.
  { rewrite b2n_n2b by lia. replace ((65 <=? 65 + v) && (65 + v <=? 90)) with true by lia. f_equal. lia. }
  destruct (v <? 52) eqn:E2.
  { rewrite b2n_n2b by lia. replace ((65 <=? 71 + v) && (71 + v <=? 90)) with false by lia.
    replace ((97 <=? 71 + v) && (71 + v <=? 122)) with true by lia. f_equal. lia. }
  destruct (v <? 62) eqn:E3.
  { rewrite b2n_n2b by lia. replace ((65 <=? v - 4) && (v - 4 <=? 90)) with false by lia.
    replace ((97 <=? v - 4) && (v - 4 <=? 122)) with false by lia.
    replace ((48 <=? v - 4) && (v - 4 <=? 57)) with true by lia. f_equal. lia. }
  destruct (v =? 62) eqn:E4.
  { destruct url; cbn; f_equal; lia. }
  assert (v = 63) by lia. subst. destruct url; reflexivity.
Qed.

Lemma is_n2b_false n c : n < 256 -> n <> b2n c -> is (n2b n) c = false.
Proof.
  intros H1 H2. destruct (is (n2b n) c) eqn:E; auto. apply Byte.byte_dec_bl in E. subst c.
  now rewrite b2n_n2b in H2.
Qed.

Lemma b64_char_std_not_url v : (is (b64_char false v) c_minus || is (b64_char false v) c_us) = false.
Proof.
  unfold b64_char.
  assert (Hm : b2n c_minus = 45) by reflexivity. assert (Hu : b2n c_us = 95) by reflexivity.
  destruct (v <? 26) eqn:E1. { rewrite !is_n2b_false; auto; lia. }
  destruct (v <? 52) eqn:E2. { rewrite !is_n2b_false; auto; lia. }
  destruct (v <? 62) eqn:E3. { rewrite !is_n2b_false; auto; lia. }
  destruct (v =? 62); reflexivity.
Qed.

Lemma b64_char_url_std v :
  (is (b64_char true v) c_minus || is (b64_char true v) c_us) = false -> b64_char true v = b64_char false v.
Proof.
  unfold b64_char. destruct (v <? 26); auto. destruct (v <? 52); auto. destruct (v <? 62); auto.
  destruct (v =? 62); cbn; discriminate.
Qed.

Lemma b64_char_not_nl url v : is_nl (b64_char url v) = false.
Proof.
  assert (Hl : b2n c_lf = 10) by reflexivity. assert (Hc : b2n c_cr = 13) by reflexivity.
  unfold is_nl, b64_char.
  destruct (v <? 26) eqn:E1. { rewrite !is_n2b_false; auto; lia. }
  destruct (v <? 52) eqn:E2. { rewrite !is_n2b_false; auto; lia. }
  destruct (v <? 62) eqn:E3. { rewrite !is_n2b_false; auto; lia. }
  destruct (v =? 62), url; reflexivity.
Qed.

Lemma val_not_nl url c v : b64_val url c = Some v -> is_nl c = false.
Proof.
  intros H. destruct (is_nl c) eqn:E; auto. unfold is_nl in E. apply orb_true_iff in E as [E|E];
    apply Byte.byte_dec_bl in E; subst; destruct url; discriminate.
Qed.
Lemma nl_val_none url c : is_nl c = true -> b64_val url c = None.
Proof. intros H. destruct (b64_val url c) eqn:E; auto. apply val_not_nl in E. congruence. Qed.
Lemma val_pad url : b64_val url c_pad = None.
Proof. destruct url; reflexivity. Qed.

Definition vals (url : bool) (cs : list byte) (vs : list N) : Prop :=
  Forall2 (fun c v => b64_val url c = Some v) cs vs.

Lemma vals_length url cs vs : vals url cs vs -> length cs = length vs.
Proof. induction 1; cbn [length]; auto. Qed.

Lemma sextet_vals url n : n < 16777216 ->
  vals url [b64_char url (n / 262144); b64_char url ((n / 4096) mod 64); b64_char url ((n / 64) mod 64);
            b64_char url (n mod 64)] [n / 262144; (n / 4096) mod 64; (n / 64) mod 64; n mod 64].
Proof. intros H. destruct (sextets_lt n H) as (H0 & H1 & H2 & H3). repeat constructor; now apply b64_val_char. Qed.

Lemma quantum_bytes4 a b c n : n = b2n a * 65536 + b2n b * 256 + b2n c ->
  b64_quantum_bytes [n / 262144; (n / 4096) mod 64; (n / 64) mod 64; n mod 64] = [a; b; c].
Proof.
  intros En. unfold b64_quantum_bytes. cbn [nth length Nat.sub firstn]. rewrite sextets_sum.
  destruct (octets _ _ _ n (b2n_lt a) (b2n_lt b) (b2n_lt c) En) as (_ & -> & -> & ->). now rewrite !n2b_b2n.
Qed.

Lemma quantum_bytes3 a b n : n = b2n a * 65536 + b2n b * 256 ->
  b64_quantum_bytes [n / 262144; (n / 4096) mod 64; (n / 64) mod 64] = [a; b].
Proof.
  intros En. rewrite <- (N.add_0_r (_ + _)) in En.
  unfold b64_quantum_bytes. cbn [nth length Nat.sub firstn].
  pose proof (sextets_sum n) as Hs. rewrite (proj1 (sextets_low _ _ _ n En) eq_refl) in Hs. rewrite Hs.
  destruct (octets _ _ 0 n (b2n_lt a) (b2n_lt b) eq_refl En) as (_ & -> & -> & _). now rewrite !n2b_b2n.
Qed.

Lemma quantum_bytes2 a n : n = b2n a * 65536 ->
  b64_quantum_bytes [n / 262144; (n / 4096) mod 64] = [a].
Proof.
  intros En. assert (En' : n = b2n a * 65536 + 0 * 256 + 0) by lia. clear En. rename En' into En.
  unfold b64_quantum_bytes. cbn [nth length Nat.sub firstn].
  pose proof (sextets_sum n) as Hs. destruct (sextets_low _ _ _ n En) as [L0 L1].
  rewrite (L0 eq_refl), (L1 eq_refl eq_refl) in Hs. rewrite Hs.
  destruct (octets _ 0 0 n (b2n_lt a) eq_refl eq_refl En) as (_ & -> & _). now rewrite n2b_b2n.
Qed.

Definition nonl (s : list byte) : list byte := filter (fun c => negb (is_nl c)) s.

Lemma nonl_nl c r : is_nl c = true -> nonl (c :: r) = nonl r.
Proof. intros H. unfold nonl. cbn [filter]. now rewrite H. Qed.
Lemma nonl_keep c r : is_nl c = false -> nonl (c :: r) = c :: nonl r.
Proof. intros H. unfold nonl. cbn [filter]. now rewrite H. Qed.
Lemma nonl_id s : forallb (fun c => negb (is_nl c)) s = true -> nonl s = s.
Proof.
  induction s as [|c s IH]; auto. cbn [forallb]. rewrite andb_true_iff, negb_true_iff. intros [H1 H2].
  rewrite (nonl_keep _ _ H1). now rewrite IH.
Qed.

Lemma nonl_skip r : nonl (skip_nl r) = nonl r.
Proof. induction r as [|c r IH]; auto. cbn [skip_nl]. destruct (is_nl c) eqn:E; auto. now rewrite (nonl_nl _ _ E). Qed.
Lemma skip_nl_head r : match skip_nl r with c :: _ => is_nl c = false | [] => True end.
Proof. induction r as [|c r IH]; cbn [skip_nl]; auto. destruct (is_nl c) eqn:E; auto. Qed.
Lemma nonl_nil_skip r : nonl r = [] -> skip_nl r = [].
Proof.
  intros H. rewrite <- nonl_skip in H. pose proof (skip_nl_head r) as Hh. destruct (skip_nl r) as [|c t]; auto.
  rewrite (nonl_keep _ _ Hh) in H. discriminate.
Qed.
Lemma nonl_cons_skip r c t : nonl r = c :: t -> exists r2, skip_nl r = c :: r2 /\ nonl r2 = t.
Proof.
  intros H. rewrite <- nonl_skip in H. pose proof (skip_nl_head r) as Hh. destruct (skip_nl r) as [|c' t']; [discriminate|].
  rewrite (nonl_keep _ _ Hh) in H. injection H as -> <-. eauto.
Qed.

Lemma quantum_not_done fuel url pad : forall j acc src, (0 < j)%nat -> b64_quantum fuel url pad j acc src <> QDone.
Proof.
  induction fuel as [|f IH]; intros j acc src Hj; cbn [b64_quantum]; [discriminate|].
  destruct (Nat.eqb j 4); [discriminate|].
  destruct src as [|c r].
  - destruct (Nat.eqb j 0) eqn:E; [apply Nat.eqb_eq in E; lia|]. destruct (Nat.eqb j 1 || pad); discriminate.
  - destruct (b64_val url c); [apply IH; lia|]. destruct (is_nl c); [now apply IH|].
    destruct (negb pad || negb (is c c_pad)); [discriminate|].
    destruct j as [|[|[|[|j]]]]; try discriminate.
    + destruct (skip_nl r) as [|c2 r2]; [discriminate|]. destruct (is c2 c_pad); [|discriminate].
      destruct (skip_nl r2); discriminate.
    + destruct (skip_nl r); discriminate.
Qed.

Lemma quantum_done fuel url pad : forall src, b64_quantum fuel url pad 0 [] src = QDone -> nonl src = [].
Proof.
  induction fuel as [|f IH]; intros src; cbn [b64_quantum Nat.eqb]; [discriminate|].
  destruct src as [|c r]; [reflexivity|].
  destruct (b64_val url c) eqn:Ev.
  - intros H. exfalso. revert H. apply quantum_not_done. lia.
  - destruct (is_nl c) eqn:En. { intros H. rewrite (nonl_nl _ _ En). eauto. }
    destruct (negb pad || negb (is c c_pad)); discriminate.
Qed.

(* [if pad then repeat c_pad n else []] is the run of '=' that completes a short final quantum,
   [pad_tail pad n] in JsonB64IffP.v *)
Lemma quantum_fwd fuel url pad : forall j acc src vs rest,
  b64_quantum fuel url pad j acc src = QOk vs rest -> length acc = j -> (j <= 4)%nat ->
  exists cs vs', vals url cs vs' /\ vs = rev acc ++ vs' /\
    ((length vs = 4%nat /\ nonl src = cs ++ nonl rest /\ (length rest <= length src)%nat /\
      ((j < 4)%nat -> (length rest < length src)%nat)) \/
     (rest = [] /\ (length vs = 2 \/ length vs = 3)%nat /\
      nonl src = cs ++ (if pad then repeat c_pad (4 - length vs) else []))).
Proof.
  induction fuel as [|f IH]; intros j acc src vs rest; cbn [b64_quantum]; [discriminate|].
  intros H Hacc Hj. destruct (Nat.eqb j 4) eqn:E4.
  { apply Nat.eqb_eq in E4. injection H as <- <-. exists [], []. split; [constructor|]. split; [now rewrite app_nil_r|].
    left. rewrite rev_length. repeat split; auto; lia. }
  apply Nat.eqb_neq in E4. destruct src as [|c r].
  { destruct (Nat.eqb j 0) eqn:E0; [discriminate|]. apply Nat.eqb_neq in E0. destruct (Nat.eqb j 1 || pad) eqn:E1; [discriminate|].
    apply orb_false_iff in E1 as [E1 ->]. apply Nat.eqb_neq in E1. injection H as <- <-.
    exists [], []. split; [constructor|]. split; [now rewrite app_nil_r|]. right. rewrite rev_length.
    split; auto. split; [|reflexivity].
    lia. }
  destruct (b64_val url c) as [v|] eqn:Ev.
  - destruct (IH _ _ _ _ _ H ltac:(cbn [length]; lia) ltac:(lia)) as (cs & vs' & Hv & Evs & Hcase).
    exists (c :: cs), (v :: vs'). split; [constructor; auto|]. split; [rewrite Evs; cbn [rev]; now rewrite <- app_assoc|].
    rewrite (nonl_keep _ _ (val_not_nl _ _ _ Ev)).
    destruct Hcase as [(H1 & H2 & H3 & H4) | (H1 & H2 & H3)]; [left|right].
    + rewrite H2. cbn [length app]. repeat split; auto; lia.
    + rewrite H3. auto.
  - destruct (is_nl c) eqn:En.
    { destruct (IH _ _ _ _ _ H Hacc Hj) as (cs & vs' & Hv & Evs & Hcase). exists cs, vs'. split; auto. split; auto.
      rewrite (nonl_nl _ _ En). cbn [length].
      destruct Hcase as [(H1 & H2 & H3 & H4) | Hc]; [left; repeat split; auto; lia|right; auto]. }
    destruct (negb pad || negb (is c c_pad)) eqn:Ep; [discriminate|]. apply orb_false_iff in Ep as [Ep1 Ep2].
    apply negb_false_iff in Ep1, Ep2. apply Byte.byte_dec_bl in Ep2. subst pad c.
    rewrite (nonl_keep _ _ En).
    destruct j as [|[|[|[|j]]]]; try discriminate.
    + destruct (skip_nl r) as [|c2 r2] eqn:Es; [discriminate|]. destruct (is c2 c_pad) eqn:E2; [|discriminate].
      apply Byte.byte_dec_bl in E2. subst c2. destruct (skip_nl r2) eqn:Es2; [|discriminate]. injection H as <- <-.
      exists [], []. split; [constructor|]. split; [now rewrite app_nil_r|]. right. rewrite rev_length, Hacc.
      split; auto. split; auto. cbn [app repeat Nat.sub]. rewrite <- (nonl_skip r), Es, (nonl_keep _ _ En).
      rewrite <- (nonl_skip r2), Es2. reflexivity.
    + destruct (skip_nl r) eqn:Es; [|discriminate]. injection H as <- <-.
      exists [], []. split; [constructor|]. split; [now rewrite app_nil_r|]. right. rewrite rev_length, Hacc.
      split; auto. split; auto. cbn [app repeat Nat.sub]. rewrite <- (nonl_skip r), Es. reflexivity.
Qed.

Lemma quantum_bwd4 url pad : forall src j acc cs vs' t' fuel,
  nonl src = cs ++ t' -> vals url cs vs' -> (j + length cs = 4)%nat -> (length src < fuel)%nat ->
  exists rest, b64_quantum fuel url pad j acc src = QOk (rev acc ++ vs') rest /\ nonl rest = t' /\
               (length rest <= length src)%nat /\ ((j < 4)%nat -> (length rest < length src)%nat).
Proof.
  induction src as [|c r IH]; intros j acc cs vs' t' fuel Hs Hv Hj Hf; (destruct fuel as [|f]; [lia|]); cbn [b64_quantum].
  - destruct cs; [|discriminate]. inversion Hv; subst. cbn [length] in Hj.
    replace j with 4%nat by lia. cbn [Nat.eqb]. exists []. rewrite app_nil_r. repeat split; auto; lia.
  - destruct (Nat.eqb j 4) eqn:E4.
    { apply Nat.eqb_eq in E4. subst j. destruct cs; [|cbn [length] in Hj; lia]. inversion Hv; subst.
      exists (c :: r). rewrite app_nil_r. repeat split; auto; lia. }
    apply Nat.eqb_neq in E4. destruct (is_nl c) eqn:En.
    + rewrite (nonl_nl _ _ En) in Hs. rewrite (nl_val_none url c En).
      destruct (IH j acc cs vs' t' f Hs Hv Hj ltac:(cbn [length] in Hf; lia)) as (rest & Hq & H1 & H2 & H3).
      exists rest. cbn [length]. repeat split; auto; lia.
    + rewrite (nonl_keep _ _ En) in Hs. destruct cs as [|c' cs']; [cbn [length] in Hj; lia|]. cbn [app] in Hs. injection Hs as <- Hs.
      inversion Hv as [|? v ? vs'' Hc Hv']; subst. rewrite Hc.
      destruct (IH (S j) (v :: acc) cs' vs'' t' f Hs Hv' ltac:(cbn [length] in Hj; lia) ltac:(cbn [length] in Hf; lia))
        as (rest & Hq & H1 & H2 & H3).
      exists rest. cbn [rev] in Hq. rewrite <- app_assoc in Hq. cbn [length]. repeat split; auto; lia.
Qed.

Lemma quantum_bwd_end url (pad : bool) : forall src j acc cs vs' n fuel,
  nonl src = cs ++ (if pad then repeat c_pad n else []) -> vals url cs vs' -> (j + length cs + n = 4)%nat ->
  (n = 1 \/ n = 2)%nat -> (length src < fuel)%nat ->
  b64_quantum fuel url pad j acc src = QOk (rev acc ++ vs') [].
Proof.
  induction src as [|c r IH]; intros j acc cs vs' n fuel Hs Hv Hj Hn Hf; (destruct fuel as [|f]; [lia|]); cbn [b64_quantum].
  - destruct cs; [|discriminate]. inversion Hv; subst. cbn [length app] in *.
    destruct pad; [destruct Hn as [-> | ->]; discriminate|].
    replace (Nat.eqb j 4) with false by (symmetry; apply Nat.eqb_neq; lia).
    replace (Nat.eqb j 0) with false by (symmetry; apply Nat.eqb_neq; lia).
    replace (Nat.eqb j 1) with false by (symmetry; apply Nat.eqb_neq; lia). cbn [orb]. now rewrite app_nil_r.
  - replace (Nat.eqb j 4) with false by (symmetry; apply Nat.eqb_neq; lia).
    destruct (is_nl c) eqn:En.
    + rewrite (nonl_nl _ _ En) in Hs. rewrite (nl_val_none url c En). apply (IH j acc cs vs' n f); auto. cbn [length] in Hf. lia.
    + rewrite (nonl_keep _ _ En) in Hs. destruct cs as [|c' cs'].
      * inversion Hv; subst. cbn [app length] in *. rewrite app_nil_r.
        destruct pad; [|discriminate].
        destruct Hn as [-> | ->]; cbn [repeat] in Hs; injection Hs as -> Hs; rewrite val_pad; change (is_nl c_pad) with false;
          change (is c_pad c_pad) with true; cbn [negb orb].
        -- replace j with 3%nat by lia. now rewrite (nonl_nil_skip r Hs).
        -- replace j with 2%nat by lia. destruct (nonl_cons_skip r _ _ Hs) as (r2 & -> & Hs2).
           change (is c_pad c_pad) with true. cbv iota. now rewrite (nonl_nil_skip r2 Hs2).
      * cbn [app] in Hs. injection Hs as <- Hs. inversion Hv as [|? v ? vs'' Hc Hv']; subst. rewrite Hc.
        rewrite (IH (S j) (v :: acc) cs' vs'' n f Hs Hv' ltac:(cbn [length] in Hj; lia) Hn ltac:(cbn [length] in Hf; lia)).
        cbn [rev]. now rewrite <- app_assoc.
Qed.

Lemma quantum_bwd_done url pad : forall src fuel, nonl src = [] -> (length src < fuel)%nat ->
  b64_quantum fuel url pad 0 [] src = QDone.
Proof.
  induction src as [|c r IH]; intros fuel Hs Hf; (destruct fuel as [|f]; [lia|]); cbn [b64_quantum Nat.eqb]; auto.
  destruct (is_nl c) eqn:En; [|rewrite (nonl_keep _ _ En) in Hs; discriminate].
  rewrite (nonl_nl _ _ En) in Hs. rewrite (nl_val_none url c En). apply IH; auto. cbn [length] in Hf. lia.
Qed.

Lemma decode_done url pad s fuel : nonl s = [] -> (length s < fuel)%nat -> b64_decode_loop fuel url pad s = Some [].
Proof.
  intros Hs Hf. destruct fuel as [|fuel]; [lia|]. cbn [b64_decode_loop].
  now rewrite (quantum_bwd_done url pad s (S (S (length s))) Hs ltac:(lia)).
Qed.

Lemma decode_full url pad s fuel cs vs t : nonl s = cs ++ t -> vals url cs vs -> length cs = 4%nat ->
  (length s < fuel)%nat ->
  exists rest, nonl rest = t /\ (length rest < length s)%nat /\
    b64_decode_loop fuel url pad s =
    option_map (app (b64_quantum_bytes vs)) (b64_decode_loop (pred fuel) url pad rest).
Proof.
  intros Hs Hv Hl Hf. destruct fuel as [|fuel]; [lia|]. cbn [b64_decode_loop pred].
  destruct (quantum_bwd4 url pad s 0 [] cs vs t (S (S (length s))) Hs Hv) as (rest & -> & Hr & _ & Hlt); try lia.
  exists rest. split; [exact Hr|]. split; [apply Hlt; lia|]. reflexivity.
Qed.

Lemma decode_end url (pad : bool) s fuel cs vs n : nonl s = cs ++ (if pad then repeat c_pad n else []) -> vals url cs vs ->
  (length cs + n = 4)%nat -> (n = 1 \/ n = 2)%nat -> (length s < fuel)%nat ->
  b64_decode_loop fuel url pad s = Some (b64_quantum_bytes vs).
Proof.
  intros Hs Hv Hl Hn Hf. destruct fuel as [|fuel]; [lia|]. cbn [b64_decode_loop].
  rewrite (quantum_bwd_end url pad s 0 [] cs vs n (S (S (length s))) Hs Hv); try lia.
  cbn [rev app]. destruct fuel as [|fuel].
  { destruct s; [|cbn [length] in Hf; lia]. destruct cs; [cbn [length] in Hl; lia|discriminate]. }
  cbn [b64_decode_loop length b64_quantum Nat.eqb]. now rewrite app_nil_r.
Qed.
