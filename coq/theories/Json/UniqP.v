(* Proofs about Json/UniqModel.v (property C26): set.Ints refines a finite set; the protojson and
   prototext field loops reject a repeated field number and a second member of a oneof, bound the
   nesting by RecursionLimit and never panic; unmarshalAny of prototext and finding FL3. *)
From Coq Require Import List NArith Bool Arith Lia FinFun.
From Coq Require Import ZifyBool ZifyNat ZifyN.
Require Import PB.Base.PBytesP PB.Json.UniqModel.
Import ListNotations.

(* ================================================================ set.Ints *)

Lemma shl64_one n : (n < 64)%N -> shl64 1 n = (2 ^ n)%N.
Proof.
  intros H. unfold shl64. replace (n <? 64)%N with true by lia.
  rewrite N.shiftl_1_l. apply N.mod_small. unfold two64.
  change 18446744073709551616%N with (2 ^ 64)%N. apply N.pow_lt_mono_r; lia.
Qed.

Lemma lo_has_testbit bs n : (n < 64)%N -> lo_has bs n = N.testbit bs n.
Proof.
  intros H. unfold lo_has. rewrite shl64_one by assumption. rewrite land_pow2.
  destruct (N.testbit bs n); [|reflexivity].
  apply N.ltb_lt. apply N.neq_0_lt_0. apply N.pow_nonzero. lia.
Qed.

Lemma lo_set_testbit bs n m : (n < 64)%N -> N.testbit (lo_set bs n) m = N.testbit bs m || (n =? m)%N.
Proof. intros H. unfold lo_set. rewrite shl64_one by assumption. now rewrite N.lor_spec, N.pow2_bits_eqb. Qed.

Lemma lo_clear_testbit bs n m : (n < 64)%N -> N.testbit (lo_clear bs n) m = N.testbit bs m && negb (n =? m)%N.
Proof. intros H. unfold lo_clear. rewrite shl64_one by assumption. now rewrite N.ldiff_spec, N.pow2_bits_eqb. Qed.

Lemma idx64_in n : In n idx64 <-> (n < 64)%N.
Proof.
  unfold idx64. rewrite in_map_iff. split.
  - intros (k & <- & H). apply in_seq in H. lia.
  - intros H. exists (N.to_nat n). split; [apply N2Nat.id|]. apply in_seq. lia.
Qed.
Lemma idx64_nodup : NoDup idx64.
Proof. unfold idx64. apply FinFun.Injective_map_NoDup; [intros a b; apply Nat2N.inj|apply seq_NoDup]. Qed.

(* two predicates that differ at exactly one point of a duplicate-free list *)
Lemma filter_add_one (f g : N -> bool) n l :
  NoDup l -> In n l -> f n = false -> (forall m, g m = f m || (n =? m)%N) ->
  length (filter g l) = S (length (filter f l)).
Proof.
  intros ND. induction ND as [|x l NI ND IH]; intros I Fn G; [destruct I|].
  cbn [filter]. rewrite G. destruct I as [->|I].
  - rewrite Fn, N.eqb_refl. cbn [orb length]. f_equal.
    f_equal. apply filter_ext_in. intros m Hm. rewrite G.
    destruct (N.eqb_spec n m); [subst; contradiction|apply orb_false_r].
  - destruct (N.eqb_spec n x); [subst; contradiction|]. rewrite orb_false_r.
    destruct (f x); cbn [length]; rewrite IH; auto.
Qed.

Lemma popcount_set bs n : (n < 64)%N -> N.testbit bs n = false ->
  popcount64 (lo_set bs n) = S (popcount64 bs).
Proof.
  intros H T. unfold popcount64. apply filter_add_one with (n := n).
  - apply idx64_nodup. - now apply idx64_in. - exact T. - intros m. now apply lo_set_testbit.
Qed.
Lemma popcount_ext a b : (forall m, N.testbit a m = N.testbit b m) -> popcount64 a = popcount64 b.
Proof. intros H. unfold popcount64. f_equal. apply filter_ext. exact H. Qed.
Lemma popcount_clear bs n : (n < 64)%N -> N.testbit bs n = true ->
  S (popcount64 (lo_clear bs n)) = popcount64 bs.
Proof.
  intros H T. unfold popcount64. symmetry. apply filter_add_one with (n := n).
  - apply idx64_nodup. - now apply idx64_in.
  - rewrite lo_clear_testbit by assumption. now rewrite N.eqb_refl, andb_false_r.
  - intros m. rewrite lo_clear_testbit by assumption.
    destruct (N.eqb_spec n m); [subst; rewrite T; reflexivity|]. cbn. now rewrite andb_true_r, orb_false_r.
Qed.

(* ---- the abstraction relation between an Ints value and a duplicate-free list of numbers *)
Definition small (x : N) : bool := (x <? 64)%N.
Definition big (x : N) : bool := (64 <=? x)%N.

Record inv (s : ints) (a : list N) : Prop := {
  inv_nodup : NoDup a;
  inv_lo : forall m, N.testbit (lo s) m = small m && mem m a;
  inv_cnt : popcount64 (lo s) = length (filter small a);
  inv_hi : match hi s with None => filter big a = [] | Some l => l = filter big a end
}.

Lemma mem_in n l : mem n l = true <-> In n l.
Proof. exact (list_existsb_Neqb_In n l). Qed.
Lemma mem_false n l : mem n l = false <-> ~ In n l.
Proof. rewrite <- mem_in. destruct (mem n l); split; intros; try congruence; tauto. Qed.
Lemma mem_filter_big n a : big n = true -> mem n (filter big a) = mem n a.
Proof.
  intros B. destruct (mem n a) eqn:E.
  - apply mem_in. apply filter_In. split; [now apply mem_in|assumption].
  - apply mem_false. intros I. apply filter_In in I. apply mem_false in E. tauto.
Qed.

Lemma inv_empty : inv ints_empty [].
Proof.
  split.
  - constructor.
  - intros m. unfold ints_empty. cbn [lo]. rewrite N.bits_0. cbn [mem existsb]. now rewrite andb_false_r.
  - reflexivity.
  - reflexivity.
Qed.

Lemma inv_has s a n : inv s a -> ints_has s n = mem n a.
Proof.
  intros I. unfold ints_has. destruct (n <? 64)%N eqn:E.
  - rewrite lo_has_testbit by lia. rewrite (inv_lo _ _ I). unfold small. now rewrite E.
  - assert (B : big n = true) by (unfold big; lia).
    pose proof (inv_hi _ _ I) as H. unfold map_has. destruct (hi s) as [l|].
    + subst l. now apply mem_filter_big.
    + rewrite <- (mem_filter_big n a B). now rewrite H.
Qed.

Lemma length_partition a : length a = length (filter small a) + length (filter big a).
Proof.
  induction a as [|x a IH]; [reflexivity|]. cbn [filter length].
  assert (B : big x = negb (small x)) by (unfold small, big; lia).
  rewrite B. destruct (small x); cbn [negb length]; lia.
Qed.

Lemma inv_len s a : inv s a -> ints_len s = length a.
Proof.
  intros I. unfold ints_len, lo_len. rewrite (inv_cnt _ _ I), (length_partition a). f_equal.
  pose proof (inv_hi _ _ I) as H. unfold map_len. destruct (hi s) as [l|]; [now subst|now rewrite H].
Qed.

Lemma inv_set s a n : inv s a -> exists s', ints_set s n = Some s' /\ inv s' (spec_set a n).
Proof.
  intros I. unfold ints_set, spec_set. destruct (n <? 64)%N eqn:E.
  - eexists. split; [reflexivity|].
    assert (T : N.testbit (lo s) n = mem n a) by (rewrite (inv_lo _ _ I); unfold small; now rewrite E).
    destruct (mem n a) eqn:M.
    + (* already present: the word is unchanged bit for bit *)
      assert (X : forall m, N.testbit (lo_set (lo s) n) m = N.testbit (lo s) m).
      { intros m. rewrite lo_set_testbit by lia. destruct (N.eqb_spec n m); [subst; rewrite T; reflexivity|apply orb_false_r]. }
      split; cbn [lo hi].
      * apply (inv_nodup _ _ I).
      * intros m. rewrite X. apply (inv_lo _ _ I).
      * rewrite (popcount_ext _ _ X). apply (inv_cnt _ _ I).
      * apply (inv_hi _ _ I).
    + split; cbn [lo hi].
      * constructor; [now apply mem_false|apply (inv_nodup _ _ I)].
      * intros m. rewrite lo_set_testbit by lia. rewrite (inv_lo _ _ I). cbn [mem existsb].
        fold (mem m a). rewrite (N.eqb_sym m n).
        destruct (N.eqb_spec n m); [subst; unfold small; rewrite E; cbn; now rewrite orb_true_r|].
        cbn. now rewrite orb_false_r.
      * rewrite popcount_set by (try lia; assumption). cbn [filter]. unfold small at 1. rewrite E. cbn [length].
        f_equal. apply (inv_cnt _ _ I).
      * cbn [filter]. replace (big n) with false by (unfold big; lia). apply (inv_hi _ _ I).
  - assert (B : big n = true) by (unfold big; lia).
    pose proof (inv_hi _ _ I) as H.
    set (l0 := match hi s with None => [] | Some l => l end).
    assert (L0 : l0 = filter big a) by (unfold l0; destruct (hi s); [assumption|now rewrite H]).
    replace (match hi s with None => Some [] | Some l => Some l end) with (Some l0) by (unfold l0; now destruct (hi s)).
    cbn [map_store]. eexists. split; [reflexivity|].
    assert (M : mem n l0 = mem n a) by (rewrite L0; now apply mem_filter_big).
    rewrite M. destruct (mem n a) eqn:MA; split; cbn [lo hi]; try apply I.
    + exact L0.
    + constructor; [now apply mem_false|apply (inv_nodup _ _ I)].
    + intros m. rewrite (inv_lo _ _ I). cbn [mem existsb]. fold (mem m a).
      destruct (N.eqb_spec m n); [subst; unfold small; rewrite E; reflexivity|reflexivity].
    + cbn [filter]. unfold small at 1. rewrite E. apply (inv_cnt _ _ I).
    + cbn [filter]. rewrite B. now rewrite L0.
Qed.
Lemma filter_filter_comm {A} (f g : A -> bool) l : filter f (filter g l) = filter g (filter f l).
Proof.
  induction l as [|x l IH]; [reflexivity|]. cbn [filter].
  destruct (g x) eqn:G, (f x) eqn:F; cbn [filter]; rewrite ?G, ?F, IH; reflexivity.
Qed.

Lemma filter_remove_absent n a : ~ In n a -> filter (fun x => negb (n =? x)%N) a = a.
Proof.
  intros H. induction a as [|x a IH]; [reflexivity|]. cbn [filter].
  destruct (N.eqb_spec n x); [subst; exfalso; apply H; now left|].
  cbn [negb]. f_equal. apply IH. intros I. apply H. now right.
Qed.

Lemma filter_remove_length n a : NoDup a -> In n a ->
  S (length (filter (fun x => negb (n =? x)%N) a)) = length a.
Proof.
  intros ND. induction ND as [|x a NI ND IH]; intros I; [destruct I|].
  cbn [filter length]. destruct I as [->|I].
  - rewrite N.eqb_refl. cbn [negb]. f_equal. f_equal. now apply filter_remove_absent.
  - destruct (N.eqb_spec n x); [subst; contradiction|]. cbn [negb length]. f_equal. now apply IH.
Qed.

Lemma inv_clear s a n : inv s a -> inv (ints_clear s n) (spec_clear a n).
Proof.
  intros I. unfold ints_clear, spec_clear.
  set (rm := fun x => negb (n =? x)%N).
  assert (MEM : forall m, mem m (filter rm a) = mem m a && negb (n =? m)%N).
  { intros m. destruct (mem m (filter rm a)) eqn:E.
    - apply mem_in in E. apply filter_In in E. destruct E as [E1 E2]. apply mem_in in E1.
      unfold rm in E2. now rewrite E1, E2.
    - apply mem_false in E. destruct (mem m a) eqn:E1; [|reflexivity]. apply mem_in in E1.
      destruct (N.eqb_spec n m); [reflexivity|]. exfalso. apply E. apply filter_In. split; [assumption|].
      unfold rm. now apply negb_true_iff, N.eqb_neq. }
  destruct (n <? 64)%N eqn:E.
  - assert (T : N.testbit (lo s) n = mem n a) by (rewrite (inv_lo _ _ I); unfold small; now rewrite E).
    split; cbn [lo hi].
    + apply NoDup_filter. apply (inv_nodup _ _ I).
    + intros m. rewrite lo_clear_testbit by lia. rewrite (inv_lo _ _ I), MEM. now rewrite andb_assoc.
    + rewrite filter_filter_comm. fold rm.
      destruct (mem n a) eqn:M.
      * pose proof (popcount_clear (lo s) n ltac:(lia) T) as P.
        assert (In n (filter small a)) by (apply filter_In; split; [now apply mem_in|unfold small; assumption]).
        pose proof (filter_remove_length n (filter small a) (NoDup_filter _ (inv_nodup _ _ I)) H) as Q.
        fold rm in Q. rewrite <- (inv_cnt _ _ I) in Q. lia.
      * unfold rm. rewrite filter_remove_absent.
        -- rewrite <- (inv_cnt _ _ I). apply popcount_ext. intros m. rewrite lo_clear_testbit by lia.
           destruct (N.eqb_spec n m); [subst; rewrite T; reflexivity|apply andb_true_r].
        -- intros J. apply filter_In in J. apply mem_false in M. tauto.
    + pose proof (inv_hi _ _ I) as H. rewrite filter_filter_comm. fold rm.
      assert (R : filter rm (filter big a) = filter big a).
      { apply filter_remove_absent. intros J. apply filter_In in J. unfold big in J. lia. }
      rewrite R. exact H.
  - split; cbn [lo hi].
    + apply NoDup_filter. apply (inv_nodup _ _ I).
    + intros m. rewrite (inv_lo _ _ I), MEM.
      destruct (small m) eqn:S; [|reflexivity]. cbn [andb].
      destruct (N.eqb_spec n m); [unfold small in S; lia|now rewrite andb_true_r].
    + rewrite filter_filter_comm. unfold rm. rewrite filter_remove_absent; [apply (inv_cnt _ _ I)|].
      intros J. apply filter_In in J. unfold small in J. lia.
    + pose proof (inv_hi _ _ I) as H. rewrite (filter_filter_comm big). fold rm.
      destruct (hi s) as [l|]; [now subst|]. now rewrite H.
Qed.

(* Has / Set / Clear / Len of the bitmap+map representation refine a finite set of numbers,
   for every op history; no history panics *)
Theorem ints_refines_set ops :
  exists s, ints_run ops ints_empty = Some s /\
    NoDup (spec_run ops []) /\
    (forall n, ints_has s n = mem n (spec_run ops [])) /\
    ints_len s = length (spec_run ops []).
Proof.
  assert (G : forall ops s a, inv s a -> exists s', ints_run ops s = Some s' /\ inv s' (spec_run ops a)).
  { induction ops0 as [|[n|n] r IH]; intros s a I; cbn [ints_run spec_run].
    - eauto.
    - destruct (inv_set s a n I) as (s' & -> & I'). now apply IH.
    - apply IH. now apply inv_clear. }
  destruct (G ops _ _ inv_empty) as (s & R & I). exists s. split; [assumption|]. split; [apply I|]. split.
  - intros n. now apply inv_has.
  - now apply inv_len.
Qed.
(* ================================================================ the decoder loops *)

Lemma ints_set_total s n : exists s', ints_set s n = Some s'.
Proof.
  unfold ints_set. destruct (n <? 64)%N; [eauto|].
  destruct (hi s); cbn [map_store]; eauto.
Qed.

Lemma has_set_same s n s' : ints_set s n = Some s' -> ints_has s' n = true.
Proof.
  unfold ints_set, ints_has. destruct (n <? 64)%N eqn:E.
  - intros [= <-]. cbn [lo]. rewrite lo_has_testbit by lia. rewrite lo_set_testbit by lia.
    now rewrite N.eqb_refl, orb_true_r.
  - destruct (hi s) as [l|]; cbn [map_store]; intros [= <-]; cbn [hi map_has].
    + destruct (mem n l) eqn:M; [assumption|]. cbn [mem existsb]. now rewrite N.eqb_refl.
    + cbn [mem existsb]. now rewrite N.eqb_refl.
Qed.

Lemma has_set_mono s n s' m : ints_set s n = Some s' -> ints_has s m = true -> ints_has s' m = true.
Proof.
  unfold ints_set, ints_has. destruct (n <? 64)%N eqn:E.
  - intros [= <-]. cbn [lo hi]. destruct (m <? 64)%N eqn:F; [|auto].
    rewrite !lo_has_testbit by lia. rewrite lo_set_testbit by lia. intros ->. reflexivity.
  - destruct (hi s) as [l|]; cbn [map_store]; intros [= <-]; cbn [lo hi map_has]; destruct (m <? 64)%N; auto.
    + destruct (mem n l); [auto|]. cbn [mem existsb]. fold (mem m l). intros ->. apply orb_true_r.
    + discriminate.
Qed.

Definition mono (s s' : ints) : Prop := forall m, ints_has s m = true -> ints_has s' m = true.
Lemma mono_refl s : mono s s. Proof. intros m H; exact H. Qed.
Lemma mono_trans a b c : mono a b -> mono b c -> mono a c. Proof. unfold mono; auto. Qed.
Lemma mono_set s n s' : ints_set s n = Some s' -> mono s s'.
Proof. intros H m. now apply has_set_mono with (n := n). Qed.

Lemma oset_accept s n k : oset s n k = Accept -> exists s', ints_set s n = Some s' /\ k s' = Accept.
Proof. unfold oset. destruct (ints_set s n) as [s'|]; [eauto|discriminate]. Qed.

Lemma kids_accept rec cs : kids rec cs = Accept -> forall c, In c cs -> rec c = Accept.
Proof.
  induction cs as [|c0 cs IH]; cbn [kids]; intros H c I; [destruct I|].
  destruct (rec c0) eqn:E; try discriminate. destruct I as [<-|I]; auto.
Qed.

(* ---------------------------------------------------------------- what the two field loops share *)
Definition pick (o : bool) (s so : ints) : ints := if o then so else s.

Lemma list_max_map_le {A} (f : A -> nat) l n : (forall x, In x l -> f x <= n) -> list_max (map f l) <= n.
Proof.
  intros H. apply list_max_le. apply Forall_forall. intros k I. apply in_map_iff in I.
  destruct I as (x & <- & I). auto.
Qed.

Section Loop.
  (* a loop over the fields of a message body that threads seenNums and seenOneofs, and what an
     accepted turn guarantees of its field *)
  Variable L : list fld -> ints -> ints -> outcome.
  Variable ok : fld -> ints -> ints -> ints -> ints -> Prop.
  Hypothesis L_inv : forall f fs s so, L (f :: fs) s so = Accept ->
    exists s' so', L fs s' so' = Accept /\ mono s s' /\ mono so so' /\ ok f s so s' so'.

  Lemma loop_forall fs : forall s so, L fs s so = Accept -> Forall (fun f => exists s so s' so', ok f s so s' so') fs.
  Proof.
    induction fs as [|f fs IH]; intros s so A; [constructor|].
    apply L_inv in A. destruct A as (s' & so' & A & _ & _ & OK).
    constructor; [now exists s, so, s', so'|eauto].
  Qed.

  (* a key n of one of the two sets (seenOneofs if o, else seenNums) that every field of the class [hit]
     must find absent and leaves present *)
  Variables (o : bool) (n : N) (hit : fld -> Prop).
  Hypothesis hit_ok : forall f s so s' so', hit f -> ok f s so s' so' ->
    ints_has (pick o s so) n = false /\ ints_has (pick o s' so') n = true.

  Lemma loop_key_rejects fs : forall s so f, In f fs -> hit f -> ints_has (pick o s so) n = true -> L fs s so <> Accept.
  Proof.
    induction fs as [|g fs IH]; intros s so f I Hf H A; [destruct I|].
    apply L_inv in A. destruct A as (s' & so' & A & M & MO & OK).
    destruct I as [->|I].
    - destruct (hit_ok _ _ _ _ _ Hf OK) as [F _]. congruence.
    - apply (IH s' so' f I Hf); [|exact A]. destruct o; [apply MO|apply M]; exact H.
  Qed.

  (* two fields of the class in one body *)
  Lemma loop_twice pre f rest g : hit f -> In g rest -> hit g -> forall s so, L (pre ++ f :: rest) s so <> Accept.
  Proof.
    intros Hf I Hg. induction pre as [|e pre IH]; intros s so A; cbn [app] in A;
      apply L_inv in A; destruct A as (s' & so' & A & _ & _ & OK).
    - destruct (hit_ok _ _ _ _ _ Hf OK) as [_ H]. exact (loop_key_rejects rest s' so' g I Hg H A).
    - exact (IH _ _ A).
  Qed.
End Loop.

(* ---- totality of the event-level loops: no Panic outcome *)
Lemma kids_no_panic rec cs : (forall c, rec c <> Panic) -> kids rec cs <> Panic.
Proof.
  intros R. induction cs as [|c cs IH]; cbn [kids]; [discriminate|].
  destruct (rec c) eqn:E; [assumption|discriminate|]. exfalso. exact (R _ E).
Qed.

Lemma oset_no_panic s n k : (forall s', k s' <> Panic) -> oset s n k <> Panic.
Proof. intros K. unfold oset. destruct (ints_set_total s n) as (s' & ->). apply K. Qed.

(* ---------------------------------------------------------------- protojson: one step of the loop *)
Definition jstep_ok (discard : bool) (rec : list fld -> outcome) (rem' : nat) (f : fld) (seen seenO seen' seenO' : ints) : Prop :=
  match f with
  | Known num cls oneof isnull children =>
      ints_has seen num = false /\ ints_has seen' num = true /\
      (isnull = false -> (forall c, In c children -> rec c = Accept) /\
         match cls, oneof with
         | CSingular, Some idx => ints_has seenO idx = false /\ ints_has seenO' idx = true
         | _, _ => True
         end)
  | Unknown _ d => discard = true /\ d <= rem'
  | Scan d => d <= rem'
  | ByNum => True
  end.

Lemma jloop_inv discard rec rem' f fs seen seenO :
  jloop discard rec rem' (f :: fs) seen seenO = Accept ->
  exists seen' seenO', jloop discard rec rem' fs seen' seenO' = Accept /\ mono seen seen' /\ mono seenO seenO' /\
                       jstep_ok discard rec rem' f seen seenO seen' seenO'.
Proof.
  cbn [jloop]. destruct f as [num cls oneof isnull children|r d|d|].
  - destruct (ints_has seen num) eqn:H; [discriminate|]. intros A.
    apply oset_accept in A. destruct A as (seen1 & S1 & A).
    destruct isnull.
    { exists seen1, seenO. split; [exact A|]. split; [eapply mono_set; eauto|]. split; [apply mono_refl|].
      cbn [jstep_ok]. split; [exact H|]. split; [eapply has_set_same; eauto|]. intros X; discriminate X. }
    destruct cls; [destruct oneof as [idx|]|..].
    1:{ destruct (ints_has seenO idx) eqn:HO; [discriminate|].
        apply oset_accept in A. destruct A as (seenO1 & S2 & A).
        destruct (kids rec children) eqn:K; try discriminate.
        exists seen1, seenO1. repeat split; eauto using mono_refl, mono_set, has_set_same, kids_accept. }
    (* every other class of field leaves seenOneofs alone *)
    all: destruct (kids rec children) eqn:K; try discriminate.
    all: exists seen1, seenO; cbn [jstep_ok].
    all: repeat split; eauto using mono_refl, mono_set, has_set_same, kids_accept; try (destruct oneof; exact I).
  - destruct discard; [|discriminate]. destruct (Nat.ltb rem' d) eqn:L; [discriminate|]. intros A.
    exists seen, seenO. repeat split; auto using mono_refl. apply Nat.ltb_ge in L. exact L.
  - destruct (Nat.ltb rem' d) eqn:L; [discriminate|]. intros A.
    exists seen, seenO. repeat split; auto using mono_refl. apply Nat.ltb_ge in L. exact L.
  - intros A. exists seen, seenO. repeat split; auto using mono_refl.
Qed.

(* a message body that names a field number twice (JSON: lists and maps included) *)
Definition names_twice_j (fs : list fld) : Prop :=
  exists pre num c1 o1 n1 ch1 rest c2 o2 n2 ch2,
    fs = pre ++ Known num c1 o1 n1 ch1 :: rest /\ In (Known num c2 o2 n2 ch2) rest.
(* two members of one oneof, both with a (non-null) value *)
Definition two_oneof_j (fs : list fld) : Prop :=
  exists pre num1 idx ch1 rest num2 ch2,
    fs = pre ++ Known num1 CSingular (Some idx) false ch1 :: rest /\ In (Known num2 CSingular (Some idx) false ch2) rest.

Theorem j_duplicate_rejected discard rem fs : names_twice_j fs -> jmsg discard rem fs <> Accept.
Proof.
  intros (pre & num & c1 & o1 & n1 & ch1 & rest & c2 & o2 & n2 & ch2 & -> & I).
  destruct rem; cbn [jmsg]; [discriminate|].
  apply (loop_twice _ _ (jloop_inv discard _ rem) false num (fun f => exists c o n ch, f = Known num c o n ch))
    with (g := Known num c2 o2 n2 ch2); [|now exists c1, o1, n1, ch1|exact I|now exists c2, o2, n2, ch2].
  intros f s so s' so' (c & o & n & ch & ->) OK. cbn [jstep_ok pick] in *. tauto.
Qed.

Theorem j_two_oneof_rejected discard rem fs : two_oneof_j fs -> jmsg discard rem fs <> Accept.
Proof.
  intros (pre & num1 & idx & ch1 & rest & num2 & ch2 & -> & I).
  destruct rem; cbn [jmsg]; [discriminate|].
  apply (loop_twice _ _ (jloop_inv discard _ rem) true idx (fun f => exists num ch, f = Known num CSingular (Some idx) false ch))
    with (g := Known num2 CSingular (Some idx) false ch2); [|now exists num1, ch1|exact I|now exists num2, ch2].
  intros f s so s' so' (num & ch & ->) (_ & _ & OK). cbn [pick]. exact (proj2 (OK eq_refl)).
Qed.

(* a rejected nested message rejects the enclosing one *)
Theorem j_child_rejected discard rem fs num cls oneof children c :
  In (Known num cls oneof false children) fs -> In c children ->
  jmsg discard rem c <> Accept -> jmsg discard (S rem) fs <> Accept.
Proof.
  intros I IC NC A. cbn [jmsg] in A. apply (loop_forall _ _ (jloop_inv discard _ rem)) in A.
  rewrite Forall_forall in A. destruct (A _ I) as (s & so & s' & so' & OK).
  cbn [jstep_ok] in OK. destruct OK as (_ & _ & OK). destruct (OK eq_refl) as (K & _). exact (NC (K _ IC)).
Qed.

(* the violations of the property anywhere in the document tree *)
Inductive violates_j : list fld -> Prop :=
| VJ_dup fs : names_twice_j fs -> violates_j fs
| VJ_oneof fs : two_oneof_j fs -> violates_j fs
| VJ_child fs num cls oneof children c :
    In (Known num cls oneof false children) fs -> In c children -> violates_j c -> violates_j fs.

Theorem j_violation_rejected discard fs : violates_j fs -> forall rem, jmsg discard rem fs <> Accept.
Proof.
  induction 1 as [fs H|fs H|fs num cls oneof children c I IC V IH]; intros rem.
  - now apply j_duplicate_rejected.
  - now apply j_two_oneof_rejected.
  - destruct rem; [cbn [jmsg]; discriminate|]. eapply j_child_rejected; eauto.
Qed.

Theorem j_depth_bounded_num discard : forall rem fs, jmsg discard rem fs = Accept -> depth_j fs <= rem.
Proof.
  induction rem as [|rem IH]; intros fs A; cbn [jmsg] in A; [discriminate|].
  apply (loop_forall _ _ (jloop_inv discard _ rem)) in A. rewrite Forall_forall in A.
  unfold depth_j. apply le_n_S, list_max_map_le. intros f I. destruct (A _ I) as (s & so & s' & so' & OK).
  destruct f as [num cls oneof isnull children|r d|d|]; cbn [fdepth_j jstep_ok] in *; [|tauto|exact OK|lia].
  destruct isnull; [lia|]. destruct OK as (_ & _ & OK). destruct (OK eq_refl) as (K & _).
  apply list_max_map_le. intros c IC. apply IH. exact (K _ IC).
Qed.

Lemma jloop_no_panic discard rec rem' : (forall c, rec c <> Panic) ->
  forall fs seen seenO, jloop discard rec rem' fs seen seenO <> Panic.
Proof.
  intros R. induction fs as [|f fs IH]; intros seen seenO; cbn [jloop]; [discriminate|].
  destruct f as [num cls oneof isnull children|r d|d|].
  - destruct (ints_has seen num); [discriminate|]. apply oset_no_panic. intros seen1.
    destruct isnull; [apply IH|].
    pose proof (kids_no_panic rec children R) as K.
    destruct cls; [destruct oneof as [idx|]|..].
    1: destruct (ints_has seenO idx); [discriminate|]; apply oset_no_panic; intros seenO1.
    all: destruct (kids rec children); [apply IH|discriminate|congruence].
  - destruct discard; [|discriminate]. destruct (Nat.ltb rem' d); [discriminate|apply IH].
  - destruct (Nat.ltb rem' d); [discriminate|apply IH].
  - apply IH.
Qed.

Theorem j_no_panic discard : forall rem fs, jmsg discard rem fs <> Panic.
Proof.
  induction rem as [|rem IH]; intros fs; cbn [jmsg]; [discriminate|].
  apply jloop_no_panic. exact IH.
Qed.

(* ---------------------------------------------------------------- prototext: one step of the loop *)
Definition tstep_ok (discard : bool) (rec rec2 : list fld -> outcome) (rem' : nat) (f : fld) (seen seenO seen' seenO' : ints) : Prop :=
  match f with
  | Known num cls oneof _ children =>
      match cls with
      | CSingular =>
          ints_has seen num = false /\ ints_has seen' num = true /\ (forall c, In c children -> rec c = Accept) /\
          match oneof with Some idx => ints_has seenO idx = false /\ ints_has seenO' idx = true | None => True end
      | CList => forall c, In c children -> rec c = Accept
      | CMap => rem' <> 0 /\ forall c, In c children -> rec2 c = Accept
      end
  | Unknown reserved d => (discard || reserved = true) /\ d <= rem'
  | Scan _ => True
  | ByNum => False
  end.

Lemma tloop_inv discard rec rec2 rem' f fs seen seenO :
  tloop discard rec rec2 rem' (f :: fs) seen seenO = Accept ->
  exists seen' seenO', tloop discard rec rec2 rem' fs seen' seenO' = Accept /\ mono seen seen' /\ mono seenO seenO' /\
                       tstep_ok discard rec rec2 rem' f seen seenO seen' seenO'.
Proof.
  cbn [tloop]. destruct f as [num cls oneof isnull children|r d|d|].
  - destruct cls.
    + destruct oneof as [idx|].
      * destruct (ints_has seenO idx) eqn:HO; [discriminate|]. intros A.
        apply oset_accept in A. destruct A as (seenO1 & S2 & A).
        destruct (ints_has seen num) eqn:H; [discriminate|].
        destruct (kids rec children) eqn:K; try discriminate.
        apply oset_accept in A. destruct A as (seen1 & S1 & A).
        exists seen1, seenO1. cbn [tstep_ok]. repeat split; eauto using mono_refl, mono_set, has_set_same, kids_accept.
      * destruct (ints_has seen num) eqn:H; [discriminate|].
        destruct (kids rec children) eqn:K; try discriminate. intros A.
        apply oset_accept in A. destruct A as (seen1 & S1 & A).
        exists seen1, seenO. cbn [tstep_ok]. repeat split; eauto using mono_refl, mono_set, has_set_same, kids_accept.
    + destruct (kids rec children) eqn:K; try discriminate. intros A.
      exists seen, seenO. cbn [tstep_ok]. repeat split; eauto using mono_refl, kids_accept.
    + destruct rem' as [|r'']; [discriminate|].
      destruct (kids rec2 children) eqn:K; try discriminate. intros A.
      exists seen, seenO. cbn [tstep_ok]. repeat split; eauto using mono_refl, kids_accept.
  - destruct (discard || r) eqn:D; [|discriminate]. destruct (Nat.ltb rem' d) eqn:L; [discriminate|]. intros A.
    exists seen, seenO. repeat split; auto using mono_refl. apply Nat.ltb_ge in L. exact L.
  - intros A. exists seen, seenO. repeat split; auto using mono_refl.
  - discriminate.
Qed.

(* text: a non-repeated field named twice; two members of one oneof *)
Definition names_twice_t (fs : list fld) : Prop :=
  exists pre num o1 n1 ch1 rest o2 n2 ch2,
    fs = pre ++ Known num CSingular o1 n1 ch1 :: rest /\ In (Known num CSingular o2 n2 ch2) rest.
Definition two_oneof_t (fs : list fld) : Prop :=
  exists pre num1 idx n1 ch1 rest num2 n2 ch2,
    fs = pre ++ Known num1 CSingular (Some idx) n1 ch1 :: rest /\ In (Known num2 CSingular (Some idx) n2 ch2) rest.

Theorem t_duplicate_rejected discard rem fs : names_twice_t fs -> tmsg discard rem fs <> Accept.
Proof.
  intros (pre & num & o1 & n1 & ch1 & rest & o2 & n2 & ch2 & -> & I).
  destruct rem; cbn [tmsg]; [discriminate|].
  apply (loop_twice _ _ (tloop_inv discard _ _ rem) false num
           (fun f => exists o n ch, f = Known num CSingular o n ch)) with (g := Known num CSingular o2 n2 ch2);
    [|now exists o1, n1, ch1|exact I|now exists o2, n2, ch2].
  intros f s so s' so' (o & n & ch & ->) OK. cbn [tstep_ok pick] in *. tauto.
Qed.

Theorem t_two_oneof_rejected discard rem fs : two_oneof_t fs -> tmsg discard rem fs <> Accept.
Proof.
  intros (pre & num1 & idx & n1 & ch1 & rest & num2 & n2 & ch2 & -> & I).
  destruct rem; cbn [tmsg]; [discriminate|].
  apply (loop_twice _ _ (tloop_inv discard _ _ rem) true idx
           (fun f => exists num n ch, f = Known num CSingular (Some idx) n ch))
    with (g := Known num2 CSingular (Some idx) n2 ch2); [|now exists num1, n1, ch1|exact I|now exists num2, n2, ch2].
  intros f s so s' so' (num & n & ch & ->) OK. cbn [tstep_ok pick] in *. tauto.
Qed.

(* a known field addressed by number is always refused *)
Theorem t_bynum_rejected discard rem fs : In ByNum fs -> tmsg discard rem fs <> Accept.
Proof.
  intros I A. destruct rem; cbn [tmsg] in A; [discriminate|].
  apply (loop_forall _ _ (tloop_inv discard _ _ rem)) in A.
  rewrite Forall_forall in A. destruct (A _ I) as (s & so & s' & so' & OK). exact OK.
Qed.

Theorem t_child_rejected discard rem fs num cls oneof isnull children c :
  In (Known num cls oneof isnull children) fs -> In c children ->
  (forall r, tmsg discard r c <> Accept) -> tmsg discard (S rem) fs <> Accept.
Proof.
  intros I IC NC A. cbn [tmsg] in A. apply (loop_forall _ _ (tloop_inv discard _ _ rem)) in A.
  rewrite Forall_forall in A. destruct (A _ I) as (s & so & s' & so' & OK).
  cbn [tstep_ok] in OK. destruct cls.
  - destruct OK as (_ & _ & K & _). exact (NC _ (K _ IC)).
  - exact (NC _ (OK _ IC)).
  - destruct OK as (NZ & K). destruct rem as [|r'']; [congruence|]. exact (NC _ (K _ IC)).
Qed.

Inductive violates_t : list fld -> Prop :=
| VT_dup fs : names_twice_t fs -> violates_t fs
| VT_oneof fs : two_oneof_t fs -> violates_t fs
| VT_bynum fs : In ByNum fs -> violates_t fs
| VT_child fs num cls oneof isnull children c :
    In (Known num cls oneof isnull children) fs -> In c children -> violates_t c -> violates_t fs.

Theorem t_violation_rejected discard fs : violates_t fs -> forall rem, tmsg discard rem fs <> Accept.
Proof.
  induction 1 as [fs H|fs H|fs H|fs num cls oneof isnull children c I IC V IH]; intros rem.
  - now apply t_duplicate_rejected.
  - now apply t_two_oneof_rejected.
  - now apply t_bynum_rejected.
  - destruct rem; [cbn [tmsg]; discriminate|]. eapply t_child_rejected; eauto.
Qed.

(* a map entry is one nesting level of its own (it is a message syntactically and unmarshalMap
   spends one RecursionLimit unit on it) *)
Theorem t_depth_bounded_num discard : forall rem fs, tmsg discard rem fs = Accept -> depth_t fs <= rem.
Proof.
  induction rem as [rem IH] using lt_wf_ind. intros fs A.
  destruct rem as [|rem']; cbn [tmsg] in A; [discriminate|].
  apply (loop_forall _ _ (tloop_inv discard _ _ rem')) in A. rewrite Forall_forall in A.
  unfold depth_t. apply le_n_S, list_max_map_le. intros f I. destruct (A _ I) as (s & so & s' & so' & OK).
  destruct f as [num cls oneof isnull children|r d|d|]; cbn [fdepth_t tstep_ok] in *; [|tauto|lia|lia].
  destruct cls.
  - destruct OK as (_ & _ & K & _). apply list_max_map_le. intros c IC. apply (IH rem'); [lia|exact (K _ IC)].
  - apply list_max_map_le. intros c IC. apply (IH rem'); [lia|exact (OK _ IC)].
  - destruct OK as (NZ & K). destruct rem' as [|r'']; [congruence|]. apply le_n_S, list_max_map_le.
    intros c IC. apply (IH r''); [lia|exact (K _ IC)].
Qed.

Lemma tloop_no_panic discard rec rec2 rem' : (forall c, rec c <> Panic) -> (forall c, rec2 c <> Panic) ->
  forall fs seen seenO, tloop discard rec rec2 rem' fs seen seenO <> Panic.
Proof.
  intros R R2. induction fs as [|f fs IH]; intros seen seenO; cbn [tloop]; [discriminate|].
  destruct f as [num cls oneof isnull children|r d|d|].
  - pose proof (kids_no_panic rec children R) as K. pose proof (kids_no_panic rec2 children R2) as K2.
    destruct cls.
    + assert (B : forall so1, (if ints_has seen num then Reject RDup
                 else match kids rec children with
                      | Accept => oset seen num (fun seen1 => tloop discard rec rec2 rem' fs seen1 so1)
                      | o => o end) <> Panic).
      { intros so1. destruct (ints_has seen num); [discriminate|].
        destruct (kids rec children); [|discriminate|congruence]. apply oset_no_panic. intros; apply IH. }
      destruct oneof as [idx|]; [|apply B].
      destruct (ints_has seenO idx); [discriminate|]. apply oset_no_panic. exact B.
    + destruct (kids rec children); [apply IH|discriminate|congruence].
    + destruct rem'; [discriminate|]. destruct (kids rec2 children); [apply IH|discriminate|congruence].
  - destruct (discard || r); [|discriminate]. destruct (Nat.ltb rem' d); [discriminate|apply IH].
  - apply IH.
  - discriminate.
Qed.

Theorem t_no_panic discard : forall rem fs, tmsg discard rem fs <> Panic.
Proof.
  induction rem as [rem IH] using lt_wf_ind. intros fs.
  destruct rem as [|rem']; cbn [tmsg]; [discriminate|].
  apply tloop_no_panic.
  - apply IH. lia.
  - destruct rem' as [|r'']; [discriminate|]. apply IH. lia.
Qed.

(* ---------------------------------------------------------------- prototext unmarshalAny *)
Definition b2n (b : bool) : nat := if b then 1 else 0.
Lemma tany_budget : forall evs t v e, tany evs t v e = Accept -> length evs + b2n t + b2n v + b2n e <= 3.
Proof.
  induction evs as [|ev evs IH]; intros t v e A.
  - destruct t, v, e; cbn; lia.
  - destruct ev as [| |child]; cbn [tany] in A.
    + destruct t; [discriminate|]. destruct e; [discriminate|]. apply IH in A. cbn [length b2n] in *. lia.
    + destruct v; [discriminate|]. destruct e; [discriminate|]. apply IH in A. cbn [length b2n] in *. lia.
    + destruct e; [discriminate|]. destruct t; [discriminate|]. destruct child; try discriminate.
      apply IH in A. cbn [length b2n] in *. lia.
Qed.

(* Full statement (refuted, finding FL3): an Any body that gives Any.value a value twice is rejected *)
Lemma tany_value_twice_refuted :
  exists evs, 2 <= value_sets evs /\ tany evs false false false = Accept.
Proof. exists [AV; AE Accept]. split; [cbn; lia|reflexivity]. Qed.

(* ... and that is the only accepted shape *)
Lemma tany_value_twice_except_FL3 evs :
  excl_FL3 evs = false -> 2 <= value_sets evs -> tany evs false false false <> Accept.
Proof.
  intros X V A. pose proof (tany_budget _ _ _ _ A) as B. cbn [b2n] in B.
  destruct evs as [|e1 [|e2 [|e3 [|e4 r]]]]; cbn [length] in B; try lia.
  - cbn in V. lia.
  - destruct e1; cbn in V; lia.
  - destruct e1 as [| |c1], e2 as [| |c2]; cbn in V; try lia; cbn in A; try discriminate.
    + destruct c2; try discriminate.
    + destruct c1; discriminate.
    + destruct c1; discriminate.
  - destruct e1 as [| |c1], e2 as [| |c2], e3 as [| |c3]; cbn in A; try discriminate;
      try (destruct c1; discriminate); try (destruct c2; discriminate); try (destruct c3; discriminate).
Qed.
