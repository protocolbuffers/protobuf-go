(* JsonB64RtP — the base64 instance of the C20 codec parameter satisfies the hypothesis of the
   round-trip theorem: protojson's bytes decoder (std/url alphabet selection, padding selection)
   inverts base64.StdEncoding on every byte string. *)
From Coq Require Import List Arith NArith ZArith Lia Bool.
From Coq Require Import ZifyBool ZifyNat ZifyN.
From PB Require Import Base.PBytes Base.Base64P Json.JsonMsgModel Json.JsonWktLite.
Import ListNotations.
Open Scope N_scope.

(* ---------- the arithmetic of the two short quanta (for the full one see Base/Base64P.v) ---------- *)
Lemma q1_arith a : a < 256 -> let n := a * 16 in
  n / 64 < 64 /\ n mod 64 < 64 /\ (n / 64 * 64 + n mod 64) / 16 = a.
Proof. intros H n. subst n. repeat split; zify; Z.div_mod_to_equations; lia. Qed.

Lemma q2_arith a b : a < 256 -> b < 256 -> let n := a * 1024 + b * 4 in
  n / 4096 < 64 /\ (n / 64) mod 64 < 64 /\ n mod 64 < 64 /\
  n / 4096 * 4096 + (n / 64) mod 64 * 64 + n mod 64 = n /\ n / 1024 = a /\ (n / 4) mod 256 = b.
Proof. intros Ha Hb n. subst n. repeat split; zify; Z.div_mod_to_equations; lia. Qed.

Definition sixbits : list N := map N.of_nat (seq 0 64).

Lemma sixbits_in n : n < 64 -> In n sixbits.
Proof.
  intros H. unfold sixbits. apply in_map_iff. exists (N.to_nat n). split; [lia|]. apply in_seq. lia.
Qed.

Lemma b64_char_facts n : n < 64 ->
  b64_val false (b64_char n) = Some n /\ is_pad (b64_char n) = false /\
  ((b2n (b64_char n) =? 45) || (b2n (b64_char n) =? 95)) = false.
Proof.
  intros H.
  assert (Hall : forallb (fun n => match b64_val false (b64_char n) with Some m => m =? n | None => false end
                                   && negb (is_pad (b64_char n))
                                   && negb ((b2n (b64_char n) =? 45) || (b2n (b64_char n) =? 95))) sixbits = true)
    by (vm_compute; reflexivity).
  rewrite forallb_forall in Hall. specialize (Hall n (sixbits_in n H)).
  apply andb_prop in Hall. destruct Hall as [Hall H3]. apply andb_prop in Hall. destruct Hall as [H1 H2].
  destruct (b64_val false (b64_char n)) as [m|]; [|discriminate]. apply N.eqb_eq in H1. subst m.
  apply negb_true_iff in H2, H3. repeat split; assumption.
Qed.

Definition no_url (s : list byte) : Prop := existsb (fun c => (b2n c =? 45) || (b2n c =? 95)) s = false.

Lemma pad_no_url : ((b2n x3d =? 45) || (b2n x3d =? 95)) = false. Proof. reflexivity. Qed.

Lemma b64_encode_props l :
  no_url (b64_encode l) /\ (N.of_nat (length (b64_encode l)) mod 4 = 0) /\
  b64_dec_aux false true (b64_encode l) = Some l.
Proof.
  induction l as [|a|a b|a b c r IH] using list3_ind.
  - repeat split; reflexivity.
  - (* one byte *)
    destruct (q1_arith (b2n a) (b2n_lt a)) as (H1 & H2 & E1). set (n := b2n a * 16) in *.
    destruct (b64_char_facts _ H1) as (V1 & P1 & U1). destruct (b64_char_facts _ H2) as (V2 & P2 & U2).
    cbn [b64_encode]. fold n. split; [|split].
    + unfold no_url. cbn [existsb]. rewrite U1, U2, pad_no_url. reflexivity.
    + reflexivity.
    + cbn [b64_dec_aux andb]. change (is_pad x3d) with true. cbn iota. unfold b64_q2. rewrite V1, V2.
      rewrite E1, n2b_b2n. reflexivity.
  - (* two bytes *)
    destruct (q2_arith (b2n a) (b2n b) (b2n_lt a) (b2n_lt b)) as (H1 & H2 & H3 & Em & Ea & Eb).
    set (n := b2n a * 1024 + b2n b * 4) in *.
    destruct (b64_char_facts _ H1) as (V1 & P1 & U1). destruct (b64_char_facts _ H2) as (V2 & P2 & U2).
    destruct (b64_char_facts _ H3) as (V3 & P3 & U3).
    cbn [b64_encode]. fold n. split; [|split].
    + unfold no_url. cbn [existsb]. rewrite U1, U2, U3, pad_no_url. reflexivity.
    + reflexivity.
    + cbn [b64_dec_aux andb]. change (is_pad x3d) with true. rewrite P3. cbn iota. unfold b64_q3. rewrite V1, V2, V3.
      rewrite Em, Ea, Eb, !n2b_b2n. reflexivity.
  - (* three bytes and the rest *)
    destruct IH as (IHu & IHl & IHd).
    set (n := b2n a * 65536 + b2n b * 256 + b2n c).
    destruct (octets _ _ _ n (b2n_lt a) (b2n_lt b) (b2n_lt c) eq_refl) as (Hn & Ea & Eb & Ec).
    destruct (sextets_lt n Hn) as (H1 & H2 & H3 & H4). pose proof (sextets_sum n) as Em.
    destruct (b64_char_facts _ H1) as (V1 & P1 & U1). destruct (b64_char_facts _ H2) as (V2 & P2 & U2).
    destruct (b64_char_facts _ H3) as (V3 & P3 & U3). destruct (b64_char_facts _ H4) as (V4 & P4 & U4).
    cbn [b64_encode]. fold n.
    assert (Hq : b64_q4 false (b64_char (n / 262144)) (b64_char ((n / 4096) mod 64)) (b64_char ((n / 64) mod 64))
                        (b64_char (n mod 64)) = Some [a; b; c]).
    { unfold b64_q4. rewrite V1, V2, V3, V4.
      rewrite Em, Ea, Eb, Ec, !n2b_b2n. reflexivity. }
    split; [|split].
    + unfold no_url in *. cbn [existsb]. rewrite U1, U2, U3, U4. exact IHu.
    + cbn [length]. clear - IHl. lia.
    + cbn [b64_dec_aux]. destruct (b64_encode r) as [|x r'] eqn:Er.
      * (* the last quantum *)
        rewrite P4. cbn [andb]. rewrite Hq.
        destruct r as [|? [|? [|? ?]]]; cbn [b64_encode] in Er; try discriminate. reflexivity.
      * rewrite Hq, IHd. reflexivity.
Qed.

Theorem b64_roundtrip bs : b64_decode (b64_encode bs) = Some bs.
Proof.
  destruct (b64_encode_props bs) as (Hu & Hl & Hd).
  unfold b64_decode. unfold no_url in Hu. rewrite Hu.
  assert ((N.of_nat (length (b64_encode bs)) mod 4 =? 0) = true) as -> by (apply N.eqb_eq; exact Hl).
  exact Hd.
Qed.

Theorem std_codec_b64 bs : b64_dec std_codec (b64_enc std_codec bs) = Some bs.
Proof. exact (b64_roundtrip bs). Qed.
