(* The encoder emits JSON: every tree written through the Encoder calls (any indent made of
   spaces/tabs, any detrand stream) renders a strict JSON text with the token sequence of the
   tree ([render_spec]), hence a member of the RFC 8259 grammar that the Decoder reads back as
   those tokens; indent and detrand change only whitespace outside strings ([squeeze]).
   On the way: decimal integers are RFC numbers, prepareNext's separators and indentation. *)
From Coq Require Import List NArith ZArith Lia Bool.
From Coq Require Import ZifyBool ZifyNat ZifyN.
From PB Require Import Base.PBytes Json.JsonUtf8 Json.JsonGrammar Json.JsonNumModel Json.JsonNumP
  Json.JsonLexModel Json.JsonStrP Json.JsonLexP Json.JsonEncModel Json.JsonEncP Json.JsonStrict Json.JsonEncSpec
  Json.JsonLexCompleteP.
Import ListNotations.
Open Scope N_scope.

(* escaped strings are RFC 8259 strings *)
Lemma append_string_rfc s out : append_string s = (out, true) -> rfc_string out.
Proof. intros H. eapply sstring_rfc, append_string_sstring, H. Qed.

Lemma selems_ws q ks w : selems q ks -> ws w -> selems (q ++ w) ks.
Proof.
  intros H Hw. destruct H as [w1 v w2 ks H1 Hv H2 | p w1 v w2 ks1 ks2 Hp H1 Hv H2].
  - replace ((w1 ++ v ++ w2) ++ w) with (w1 ++ v ++ (w2 ++ w)) by app_eq. constructor; auto using ws_app.
  - replace ((p ++ c_comma :: w1 ++ v ++ w2) ++ w) with (p ++ c_comma :: w1 ++ v ++ (w2 ++ w)) by app_eq.
    constructor; auto using ws_app.
Qed.
Lemma smembers_ws q ks w : smembers q ks -> ws w -> smembers (q ++ w) ks.
Proof.
  intros H Hw. destruct H as [w1 k d w2 w3 v w4 ks H1 Hk H2 H3 Hv H4 | p w1 k d w2 w3 v w4 ks1 ks2 Hp H1 Hk H2 H3 Hv H4].
  - replace ((w1 ++ k ++ w2 ++ c_colon :: w3 ++ v ++ w4) ++ w)
      with (w1 ++ k ++ w2 ++ c_colon :: w3 ++ v ++ (w4 ++ w)) by app_eq. constructor; auto using ws_app.
  - replace ((p ++ c_comma :: w1 ++ k ++ w2 ++ c_colon :: w3 ++ v ++ w4) ++ w)
      with (p ++ c_comma :: w1 ++ k ++ w2 ++ c_colon :: w3 ++ v ++ (w4 ++ w)) by app_eq. constructor; auto using ws_app.
Qed.

(* decimal integers are RFC 8259 numbers *)
Lemma n2b_digit d : d < 10 -> is_digit (n2b (48 + d)) = true /\ (1 <= d -> is_digit19 (n2b (48 + d)) = true).
Proof. intros H. unfold is_digit, is_digit19, in_range. rewrite b2n_n2b by lia. split; lia. Qed.

Lemma dec_digits_fuel_spec fuel : forall n acc, n < 2 ^ N.of_nat fuel -> (0 < fuel)%nat ->
  exists d ds, dec_digits_fuel fuel n acc = d :: ds ++ acc /\ forallb is_digit (d :: ds) = true /\
               (n = 0 -> d = c_0 /\ ds = []) /\ (0 < n -> is_digit19 d = true).
Proof.
  induction fuel as [|f IH]; intros n acc Hn Hf; [lia|]. cbn [dec_digits_fuel].
  destruct (n <? 10) eqn:E.
  - exists (n2b (48 + n mod 10)), []. cbn [app forallb].
    destruct (n2b_digit (n mod 10) ltac:(lia)) as [H1 H2]. rewrite H1. split; [reflexivity|]. split; [reflexivity|]. split.
    + intros ->. split; reflexivity.
    + intros Hp. apply H2. lia.
  - assert (Hf' : (0 < f)%nat).
    { destruct f; [|lia]. cbn in Hn. lia. }
    rewrite Nat2N.inj_succ, N.pow_succ_r' in Hn.
    destruct (IH (n / 10) (n2b (48 + n mod 10) :: acc) ltac:(lia) Hf') as (d & ds & -> & Hd & _ & H19).
    exists d, (ds ++ [n2b (48 + n mod 10)]). split; [now rewrite <- app_assoc|].
    destruct (n2b_digit (n mod 10) ltac:(lia)) as [H1 _].
    cbn [forallb] in *. apply andb_true_iff in Hd as [Hd1 Hd2].
    rewrite Hd1, forallb_app, Hd2. cbn [forallb]. rewrite H1. split; [reflexivity|]. split.
    + intros ->. discriminate.
    + intros _. apply H19. lia.
Qed.

Lemma dec_digits_spec n : exists d ds, dec_digits n = d :: ds /\ forallb is_digit (d :: ds) = true /\
  (n = 0 -> d = c_0 /\ ds = []) /\ (0 < n -> is_digit19 d = true).
Proof.
  unfold dec_digits.
  destruct (dec_digits_fuel_spec (S (N.to_nat (N.log2 n))) n []) as (d & ds & E & H); [|lia|].
  - rewrite Nat2N.inj_succ, N2Nat.id. destruct n; [cbn; lia|]. apply N.log2_spec. lia.
  - exists d, ds. now rewrite app_nil_r in E.
Qed.

Lemma dec_digits_rfc_int n : rfc_int (dec_digits n).
Proof.
  destruct (dec_digits_spec n) as (d & ds & -> & Hd & H0 & H19).
  destruct (N.eq_dec n 0) as [->|Hn].
  - destruct (H0 eq_refl) as [-> ->]. constructor.
  - cbn [forallb] in Hd. apply andb_true_iff in Hd as [_ Hd]. constructor; auto. apply H19. lia.
Qed.

Lemma rfc_number_of_int m i : m = [] \/ m = [c_minus] -> rfc_int i -> rfc_number (m ++ i).
Proof.
  intros Hm Hi. replace (m ++ i) with (m ++ i ++ [] ++ []) by now rewrite !app_nil_r.
  constructor; auto; constructor.
Qed.

Lemma dec_int_rfc z : rfc_number (dec_int z).
Proof.
  unfold dec_int. destruct z.
  - apply (rfc_number_of_int [] (dec_digits (Z.to_N 0))); auto. apply dec_digits_rfc_int.
  - apply (rfc_number_of_int [] (dec_digits (Z.to_N (Z.pos p)))); auto. apply dec_digits_rfc_int.
  - apply (rfc_number_of_int [c_minus] (dec_digits (Npos p))); auto. apply dec_digits_rfc_int.
Qed.

Lemma ws_app_inv a b : ws (a ++ b) -> ws a /\ ws b.
Proof. apply ws_app_iff. Qed.

Definition sq (a c : list byte) : Prop := squeeze SqOut a = c /\ sq_end SqOut a = SqOut.

Lemma squeeze_app st a b : squeeze st (a ++ b) = squeeze st a ++ squeeze (sq_end st a) b.
Proof.
  revert st. induction a as [|x a IH]; intros st; [reflexivity|]. cbn [app squeeze sq_end].
  destruct st; try (rewrite IH; reflexivity). destruct (is_ws x); rewrite IH; reflexivity.
Qed.
Lemma sq_end_app st a b : sq_end st (a ++ b) = sq_end (sq_end st a) b.
Proof.
  revert st. induction a as [|x a IH]; intros st; [reflexivity|]. cbn [app sq_end].
  destruct st; try apply IH. destruct (is_ws x); apply IH.
Qed.
Lemma sq_app a ca b cb : sq a ca -> sq b cb -> sq (a ++ b) (ca ++ cb).
Proof. intros [H1 H2] [H3 H4]. split; [rewrite squeeze_app, H1, H2, H3|rewrite sq_end_app, H2, H4]; reflexivity. Qed.
Lemma sq_nil : sq [] [].
Proof. split; reflexivity. Qed.
Lemma sq_ws w : ws w -> sq w [].
Proof.
  unfold ws. induction w as [|b w IH]; intros H; [apply sq_nil|]. cbn [forallb] in H.
  apply andb_true_iff in H as [Hb Hw]. destruct (IH Hw) as [H1 H2].
  split; cbn [squeeze sq_end]; rewrite Hb; auto.
Qed.
Definition plain (x : list byte) : Prop := forallb (fun b => negb (is_ws b) && negb (is b c_quote)) x = true.
Lemma sq_plain x : plain x -> sq x x.
Proof.
  unfold plain. induction x as [|b x IH]; intros H; [apply sq_nil|]. cbn [forallb] in H.
  apply andb_true_iff in H as [Hb Hx]. apply andb_true_iff in Hb as [Hb1 Hb2].
  apply negb_true_iff in Hb1, Hb2. destruct (IH Hx) as [H1 H2].
  split; cbn [squeeze sq_end sq_next]; rewrite Hb1, Hb2; [now rewrite H1|auto].
Qed.
Lemma digits_plain d : forallb is_digit d = true -> plain d.
Proof.
  unfold plain. induction d as [|b d IH]; [reflexivity|]. cbn [forallb]. intros H.
  apply andb_true_iff in H as [Hb Hd]. rewrite (IH Hd), andb_true_r.
  apply is_digit_b2n in Hb. unfold is_ws.
  rewrite !is_b2n_false by (cbn; lia). reflexivity.
Qed.
Lemma plain_dec_digits n : plain (dec_digits n).
Proof. destruct (dec_digits_spec n) as (d & ds & -> & Hd & _). now apply digits_plain. Qed.
Lemma plain_dec_int z : plain (dec_int z).
Proof.
  unfold dec_int. destruct z.
  - apply (plain_dec_digits (Z.to_N 0)).
  - apply (plain_dec_digits (Z.to_N (Z.pos p))).
  - unfold plain. cbn [forallb]. change (negb (is_ws c_minus) && negb (is c_minus c_quote)) with true.
    apply plain_dec_digits.
Qed.

(* inside a string literal *)
Definition keeps_in (t : list byte) : Prop :=
  forall X, squeeze SqIn (t ++ X) = t ++ squeeze SqIn X /\ sq_end SqIn (t ++ X) = sq_end SqIn X.
Lemma keeps_in_nil : keeps_in [].
Proof. intros X. auto. Qed.
Lemma keeps_in_app a b : keeps_in a -> keeps_in b -> keeps_in (a ++ b).
Proof.
  intros Ha Hb X. rewrite <- app_assoc. destruct (Ha (b ++ X)) as [H1 H2]. destruct (Hb X) as [H3 H4].
  rewrite H1, H2, H3, H4. now rewrite <- app_assoc.
Qed.
Lemma keeps_in_byte b : is b c_quote = false -> is b c_bslash = false -> keeps_in [b].
Proof. intros H1 H2 X. cbn [app squeeze sq_end sq_next]. rewrite H1, H2. auto. Qed.
Lemma keeps_in_esc e : keeps_in [c_bslash; e].
Proof. intros X. cbn [app squeeze sq_end sq_next]. change (is c_bslash c_bslash) with true. auto. Qed.
Lemma keeps_in_high c : Forall (fun b => 128 <= b2n b) c -> keeps_in c.
Proof.
  induction 1 as [|b c Hb Hc IH]; [apply keeps_in_nil|].
  change (b :: c) with ([b] ++ c). apply keeps_in_app; auto.
  apply keeps_in_byte; apply is_b2n_false; cbn; lia.
Qed.
Lemma keeps_in_hex h : is_hex h = true -> keeps_in [h].
Proof.
  unfold is_hex, is_digit, in_range. intros H.
  apply keeps_in_byte; apply is_b2n_false; try change (b2n c_quote) with 34; try change (b2n c_bslash) with 92; lia.
Qed.
Lemma keeps_in_hex4 a b c d v : hex4 a b c d = Some v -> keeps_in [a; b; c; d].
Proof.
  intros H. apply hex4_is_hex in H as (Ha & Hb & Hc & Hd).
  change [a; b; c; d] with ([a] ++ [b] ++ [c] ++ [d]). auto using keeps_in_app, keeps_in_hex.
Qed.

(* a string body never leaves the in-string state of [squeeze] *)
Lemma schars_keeps body d : schars body d -> keeps_in body.
Proof.
  induction 1 as [|c rest0 d Hc Hu Hs IH|e rest0 d He Hs IH|h1 h2 h3 h4 v rest0 d Hh Hsur Hs IH
                  |h1 h2 h3 h4 g1 g2 g3 g4 v1 v2 rest0 d Hh Hg Hv1 Hv2 Hs IH].
  - apply keeps_in_nil.
  - apply keeps_in_app; auto. destruct (rfc3629_shape c Hc) as (b & c' & -> & _ & [[-> _] | [_ HF]]).
    + cbn [unescaped] in Hu. apply andb_true_iff in Hu as [Hu Hu3]. apply andb_true_iff in Hu as [_ Hu2].
      apply negb_true_iff in Hu2, Hu3. now apply keeps_in_byte.
    + now apply keeps_in_high.
  - change (c_bslash :: e :: rest0) with ([c_bslash; e] ++ rest0). apply keeps_in_app; [apply keeps_in_esc|assumption].
  - change (c_bslash :: c_u :: h1 :: h2 :: h3 :: h4 :: rest0) with ([c_bslash; c_u] ++ [h1; h2; h3; h4] ++ rest0).
    apply keeps_in_app; [apply keeps_in_esc|]. apply keeps_in_app; [eapply keeps_in_hex4; eauto|assumption].
  - change (c_bslash :: c_u :: h1 :: h2 :: h3 :: h4 :: c_bslash :: c_u :: g1 :: g2 :: g3 :: g4 :: rest0)
      with ([c_bslash; c_u] ++ [h1; h2; h3; h4] ++ [c_bslash; c_u] ++ [g1; g2; g3; g4] ++ rest0).
    apply keeps_in_app; [apply keeps_in_esc|]. apply keeps_in_app; [eapply keeps_in_hex4; eauto|].
    apply keeps_in_app; [apply keeps_in_esc|]. apply keeps_in_app; [eapply keeps_in_hex4; eauto|assumption].
Qed.

Lemma sq_append_string s out : append_string s = (out, true) -> sq out out.
Proof.
  intros H. apply append_string_sstring in H as (t & -> & Ht).
  destruct (schars_keeps _ _ Ht [c_quote]) as [H1 H2].
  split; cbn [squeeze sq_end sq_next]; change (is_ws c_quote) with false; change (is c_quote c_quote) with true; cbv iota.
  - rewrite H1. reflexivity.
  - rewrite H2. reflexivity.
Qed.

Section Enc.
Variable rnd : nat -> bool.

Definition indents_after_item (e : estate) : list byte :=
  match e_indent e with
  | [] => e_indents e
  | _ => if is_open (e_last e) then e_indents e ++ e_indent e else e_indents e
  end.
Definition indents_after_close (e : estate) : list byte :=
  match e_indent e with
  | [] => e_indents e
  | _ => if ends_value (e_last e)
         then firstn (length (e_indents e) - length (e_indent e)) (e_indents e) else e_indents e
  end.
Definition sep_ok (e : estate) (s : list byte) : Prop :=
  if ends_value (e_last e) then exists w, ws w /\ s = c_comma :: w else ws s.

Lemma ws_rnd_space (b : bool) : ws (if b then [c_sp] else []).
Proof. destruct b; reflexivity. Qed.

(* The six conjuncts of [prepare_item]'s conclusion, once the witness is given: the output
   equation and the three state fields hold by computation; [tsep] proves the shape of the
   separator and [tws] that the new indentation is whitespace. *)
Ltac fin_prep tsep tws :=
  split; [try reflexivity; try (now rewrite app_nil_r)|]; split; [tsep|];
  split; [reflexivity|]; split; [reflexivity|]; split; [reflexivity|]; tws.

Lemma prepare_item next e : starts_item next = true -> ws (e_indent e) -> ws (e_indents e) ->
  exists s, e_out (prepare_next rnd next e) = e_out e ++ s /\ sep_ok e s /\
            e_last (prepare_next rnd next e) = next /\
            e_indent (prepare_next rnd next e) = e_indent e /\
            e_indents (prepare_next rnd next e) = indents_after_item e /\
            ws (e_indents (prepare_next rnd next e)).
Proof.
  intros Hs Hi Hii. unfold prepare_next, indents_after_item, sep_ok.
  assert (Hnc : is_close next = false) by (destruct next; try discriminate; reflexivity).
  destruct (e_indent e) as [|i0 ind] eqn:Ei.
  - rewrite Hs, andb_true_r. destruct (ends_value (e_last e)) eqn:Ev; cbn [e_out e_last e_indent e_indents].
    + eexists. fin_prep ltac:(eexists; split; [|reflexivity]; apply ws_rnd_space) ltac:(exact Hii).
    + exists []. fin_prep ltac:(exact ws_nil) ltac:(exact Hii).
  - destruct (is_open (e_last e)) eqn:Eo.
    + rewrite Hnc. cbn [negb e_out e_last e_indent e_indents].
      assert (ends_value (e_last e) = false) as -> by (destruct (e_last e); try discriminate; reflexivity).
      eexists. fin_prep ltac:(apply ws_cons; [reflexivity|apply ws_app; assumption]) ltac:(apply ws_app; assumption).
    + destruct (ends_value (e_last e)) eqn:Ev.
      * rewrite Hs. cbn [e_out e_last e_indent e_indents]. eexists.
        fin_prep ltac:(eexists; split; [|reflexivity]; apply ws_cons; [reflexivity|assumption]) ltac:(exact Hii).
      * destruct (e_last e) eqn:El; try discriminate; cbn [e_out e_last e_indent e_indents].
        -- exists []. fin_prep ltac:(exact ws_nil) ltac:(exact Hii).
        -- eexists. fin_prep ltac:(apply ws_cons; [reflexivity|apply ws_rnd_space]) ltac:(exact Hii).
Qed.

(* the same for [prepare_close]; [tw] proves that what was written is whitespace *)
Ltac fin_close tw tws :=
  split; [tw|]; split; [try reflexivity; try (now rewrite app_nil_r)|];
  split; [reflexivity|]; split; [reflexivity|]; split; [reflexivity|]; tws.

Lemma prepare_close next e : is_close next = true -> ws (e_indent e) -> ws (e_indents e) ->
  exists w, ws w /\ e_out (prepare_next rnd next e) = e_out e ++ w /\
            e_last (prepare_next rnd next e) = next /\
            e_indent (prepare_next rnd next e) = e_indent e /\
            e_indents (prepare_next rnd next e) = indents_after_close e /\
            ws (e_indents (prepare_next rnd next e)).
Proof.
  intros Hc Hi Hii. unfold prepare_next, indents_after_close.
  assert (Hns : starts_item next = false) by (destruct next; try discriminate; reflexivity).
  destruct (e_indent e) as [|i0 ind] eqn:Ei.
  - rewrite Hns, andb_false_r. cbn [e_out e_last e_indent e_indents]. exists [].
    fin_close ltac:(exact ws_nil) ltac:(exact Hii).
  - destruct (is_open (e_last e)) eqn:Eo.
    + rewrite Hc. cbn [negb e_out e_last e_indent e_indents].
      assert (ends_value (e_last e) = false) as -> by (destruct (e_last e); try discriminate; reflexivity).
      exists []. fin_close ltac:(exact ws_nil) ltac:(exact Hii).
    + destruct (ends_value (e_last e)) eqn:Ev.
      * rewrite Hns, Hc. cbn [e_out e_last e_indent e_indents].
        exists (c_lf :: firstn (length (e_indents e) - length (i0 :: ind)) (e_indents e)).
        fin_close ltac:(apply ws_cons; [reflexivity|now apply ws_firstn]) ltac:(now apply ws_firstn).
      * destruct (e_last e) eqn:El; try discriminate; cbn [e_out e_last e_indent e_indents].
        -- exists []. fin_close ltac:(exact ws_nil) ltac:(exact Hii).
        -- exists (c_sp :: (if rnd (e_draws e) then [c_sp] else [])).
           fin_close ltac:(apply ws_cons; [reflexivity|apply ws_rnd_space]) ltac:(exact Hii).
Qed.

Lemma ends_not_open k : ends_value k = true -> is_open k = false.
Proof. destruct k; try discriminate; reflexivity. Qed.

Lemma enc_calls_app a b e e1 e2 :
  enc_calls rnd a e = (e1, true) -> enc_calls rnd b e1 = (e2, true) -> enc_calls rnd (a ++ b) e = (e2, true).
Proof.
  revert e. induction a as [|c a IH]; intros e; cbn [enc_calls app].
  - intros [= <-]. auto.
  - destruct (enc_call rnd c e) as [e' ok] eqn:Ec. destruct (enc_calls rnd a e') as [e'' ok'] eqn:Ea.
    intros [= <- Hok] Hb. apply andb_true_iff in Hok as [-> ->].
    rewrite (IH e' Ea Hb). reflexivity.
Qed.

Lemma enc_calls_one c e e1 : enc_call rnd c e = (e1, true) -> enc_calls rnd [c] e = (e1, true).
Proof. intros H. cbn [enc_calls]. rewrite H. reflexivity. Qed.

Fixpoint tree_ok (t : jtree) : Prop :=
  match t with
  | TStr s => snd (append_string s) = true
  | TArr l => (fix go (l : list jtree) : Prop := match l with [] => True | x :: r => tree_ok x /\ go r end) l
  | TObj l => (fix go (l : list (list byte * jtree)) : Prop :=
                 match l with [] => True | kv :: r => snd (append_string (fst kv)) = true /\ tree_ok (snd kv) /\ go r end) l
  | _ => True
  end.

Lemma sep_sq e s : sep_ok e s -> sq s (if ends_value (e_last e) then [c_comma] else []).
Proof.
  unfold sep_ok. destruct (ends_value (e_last e)).
  - intros (w & Hw & ->). change (c_comma :: w) with ([c_comma] ++ w). rewrite <- (app_nil_r [c_comma]) at 2.
    apply sq_app; [apply sq_plain; reflexivity|now apply sq_ws].
  - apply sq_ws.
Qed.

(* the calls [cs] write one value whose whitespace-free form is [cv] *)
Definition emits_value (cs : list ecall) (cv : list byte) (ks : list atok) : Prop :=
  forall e, ws (e_indent e) -> ws (e_indents e) ->
  exists e' s v, enc_calls rnd cs e = (e', true) /\ e_out e' = e_out e ++ s ++ v /\ sep_ok e s /\ svalue v ks /\
                 sq v cv /\
                 ends_value (e_last e') = true /\ e_indent e' = e_indent e /\
                 e_indents e' = indents_after_item e /\ ws (e_indents e').

Lemma emits_scalar c bs ks : (forall e, enc_call rnd c e = (emit bs (prepare_next rnd EKScalar e), true)) ->
  svalue bs ks -> sq bs bs -> emits_value [c] bs ks.
Proof.
  intros Hc Hv Hsq e Hi Hii. destruct (prepare_item EKScalar e eq_refl Hi Hii) as (s & Ho & Hs & Hl & Hin & Hins & Hw).
  exists (emit bs (prepare_next rnd EKScalar e)), s, bs. split; [apply enc_calls_one, Hc|].
  unfold emit. cbn [e_out e_last e_indent e_indents]. rewrite Ho, Hl. repeat split; auto; try apply Hsq. now rewrite app_assoc.
Qed.
End Enc.

Section EncTree.
Variable rnd : nat -> bool.
Notation emits := (emits_value rnd).

(* closing a container restores the indentation in force before it was opened *)
Lemma close_indents e0 e2 (l_empty : bool) I1 :
  e_indent e2 = e_indent e0 ->
  e_indents e0 = I1 -> is_open (e_last e0) = true ->
  (if l_empty then e_last e2 = e_last e0 /\ e_indents e2 = e_indents e0
   else ends_value (e_last e2) = true /\ e_indents e2 = indents_after_item e0) ->
  indents_after_close e2 = I1.
Proof.
  intros Hi HI Hop Hc. unfold indents_after_close. rewrite Hi.
  destruct l_empty.
  - destruct Hc as [Hl Hii]. rewrite Hl, Hii.
    assert (ends_value (e_last e0) = false) as -> by (destruct (e_last e0); try discriminate; reflexivity).
    destruct (e_indent e0); auto.
  - destruct Hc as [Hl Hii]. rewrite Hl, Hii. unfold indents_after_item. rewrite Hop.
    destruct (e_indent e0) as [|i0 ind] eqn:Ei; auto.
    rewrite app_length. replace (length (e_indents e0) + length (i0 :: ind) - length (i0 :: ind))%nat
      with (length (e_indents e0)) by lia.
    rewrite firstn_app_len. exact HI.
Qed.
Section Items.
Variables (A : Type) (calls : A -> list ecall) (cmp : A -> list byte) (toks : A -> list atok)
          (jm : list byte -> list atok -> Prop).

(* the calls of item [x] write a separator and a body that starts or extends a list of items *)
Definition emits_item (x : A) : Prop :=
  forall e, ws (e_indent e) -> ws (e_indents e) ->
  exists e' s body, enc_calls rnd (calls x) e = (e', true) /\ e_out e' = e_out e ++ s ++ body /\ sep_ok e s /\
    sq body (cmp x) /\ ends_value (e_last e') = true /\ e_indent e' = e_indent e /\
    e_indents e' = indents_after_item e /\ ws (e_indents e') /\
    (forall w, ws w -> jm (w ++ body) (toks x)) /\
    (forall acc kacc w, jm acc kacc -> ws w -> jm (acc ++ c_comma :: w ++ body) (kacc ++ toks x)).

(* the items of a container, written from state e1 whose output is base ++ acc *)
Lemma enc_items l : Forall emits_item l ->
  forall e1 base acc cacc kacc, ws (e_indent e1) -> ws (e_indents e1) -> e_out e1 = base ++ acc -> sq acc cacc ->
    ((is_open (e_last e1) = true /\ acc = [] /\ kacc = []) \/ (ends_value (e_last e1) = true /\ jm acc kacc)) ->
    exists e2 acc', enc_calls rnd (flat_map calls l) e1 = (e2, true) /\ e_out e2 = base ++ acc' /\
      e_indent e2 = e_indent e1 /\ ws (e_indents e2) /\
      sq acc' (cacc ++ (if ends_value (e_last e1) then tail_join (map cmp l) else join_comma (map cmp l))) /\
      ((l = [] /\ e_last e2 = e_last e1 /\ acc' = acc /\ e_indents e2 = e_indents e1) \/
       (l <> [] /\ ends_value (e_last e2) = true /\ jm acc' (kacc ++ flat_map toks l) /\ e_indents e2 = indents_after_item e1)).
Proof.
  induction 1 as [|x r Hx Hr IH]; intros e1 base acc cacc kacc Hi Hii Ho Hsq Hst.
  - exists e1, acc. cbn [flat_map enc_calls map tail_join join_comma flat_map].
    replace (cacc ++ (if ends_value (e_last e1) then [] else [])) with cacc
      by (destruct (ends_value (e_last e1)); now rewrite app_nil_r).
    repeat split; auto; apply Hsq.
  - destruct (Hx e1 Hi Hii) as (ex & s & v & Erun & Hox & Hsep & Hsqv & Hlx & Hix & Hiix & Hwx & Hj1 & Hjs).
    set (accx := acc ++ s ++ v).
    pose proof (sep_sq _ _ Hsep) as Hsqs.
    assert (Hsqx : sq accx (cacc ++ (if ends_value (e_last e1) then [c_comma] else []) ++ cmp x)).
    { subst accx. apply sq_app; auto. apply sq_app; auto. }
    assert (Haccx : jm accx (kacc ++ toks x)).
    { subst accx. unfold sep_ok in Hsep. destruct Hst as [(Hop & -> & ->) | [Hev Hacc]].
      - assert (ends_value (e_last e1) = false) as E by (destruct (e_last e1); try discriminate; reflexivity).
        rewrite E in Hsep. now apply Hj1.
      - rewrite Hev in Hsep. destruct Hsep as (w & Hw & ->). cbn [app]. now apply Hjs. }
    rewrite <- Hix in Hi.
    assert (Hoeq : e_out ex = base ++ accx) by (rewrite Hox, Ho; subst accx; now rewrite <- !app_assoc).
    destruct (IH ex base accx _ _ Hi Hwx Hoeq Hsqx (or_intror (conj Hlx Haccx)))
      as (e2 & acc' & Erun2 & Ho2 & Hi2 & Hw2 & Hsq2 & Hcase).
    exists e2, acc'. split. { cbn [flat_map]. eapply enc_calls_app; eauto. }
    split; auto. split; [congruence|]. split; auto. split.
    { rewrite Hlx in Hsq2. cbn [map].
      destruct (ends_value (e_last e1)); unfold join_comma, tail_join in *; cbn [flat_map app] in *;
        repeat first [rewrite <- app_assoc in Hsq2 | progress cbn [app] in Hsq2];
        repeat first [rewrite <- app_assoc | progress cbn [app]]; exact Hsq2. }
    right. split; [discriminate|].
    destruct Hcase as [(-> & Hl2 & -> & Hii2) | (_ & Hl2 & Hj2 & Hii2)].
    + rewrite Hl2, Hii2. cbn [flat_map]. rewrite app_nil_r. auto.
    + split; auto. split. { cbn [flat_map]. now rewrite app_assoc. }
      rewrite Hii2. unfold indents_after_item at 1. rewrite (ends_not_open _ Hlx), Hix.
      destruct (e_indent e1); auto.
Qed.

(* a container: the opening call, the items, the closing call *)
Lemma emits_container (open_k close_k : ekind) (oc cc : byte) (copen cclose : ecall) (ao ac : atok) l :
  (forall e, enc_call rnd copen e = (emit [oc] (prepare_next rnd open_k e), true)) ->
  (forall e, enc_call rnd cclose e = (emit [cc] (prepare_next rnd close_k e), true)) ->
  starts_item open_k = true -> is_open open_k = true -> is_close close_k = true -> ends_value close_k = true ->
  plain [oc] -> plain [cc] ->
  (forall w, ws w -> svalue (oc :: w ++ [cc]) [ao; ac]) ->
  (forall p ks, jm p ks -> svalue (oc :: p ++ [cc]) (ao :: ks ++ [ac])) ->
  (forall p ks w, jm p ks -> ws w -> jm (p ++ w) ks) ->
  Forall emits_item l ->
  emits (copen :: flat_map calls l ++ [cclose]) (oc :: join_comma (map cmp l) ++ [cc]) (ao :: flat_map toks l ++ [ac]).
Proof.
  intros Hco Hcc Hso Hoo Hcl Hev Hpo Hpc Hempty Hfull Hjmws HF e Hi Hii.
  destruct (prepare_item rnd open_k e Hso Hi Hii) as (s & Hos & Hsep & Hls & Hins & Hiis & Hws).
  set (e0 := emit [oc] (prepare_next rnd open_k e)).
  assert (He0 : e_out e0 = (e_out e ++ s ++ [oc]) ++ [] /\ e_last e0 = open_k /\ e_indent e0 = e_indent e /\
                e_indents e0 = indents_after_item e /\ ws (e_indents e0)).
  { subst e0. unfold emit. cbn [e_out e_last e_indent e_indents]. rewrite Hos, app_nil_r. repeat split; auto.
    now rewrite <- app_assoc. }
  destruct He0 as (Ho0 & Hl0 & Hi0 & Hii0 & Hw0).
  assert (Hi0' : ws (e_indent e0)) by now rewrite Hi0.
  assert (Hop0 : is_open (e_last e0) = true) by now rewrite Hl0.
  assert (Hne0 : ends_value (e_last e0) = false) by (destruct (e_last e0); try discriminate; reflexivity).
  destruct (enc_items l HF e0 _ [] [] [] Hi0' Hw0 Ho0 sq_nil (or_introl (conj Hop0 (conj eq_refl eq_refl))))
    as (e2 & acc' & Erun & Ho2 & Hi2 & Hw2 & Hsq2 & Hcase).
  rewrite Hne0 in Hsq2. cbn [app] in Hsq2, Hcase.
  assert (Hi2' : ws (e_indent e2)) by now rewrite Hi2.
  destruct (prepare_close rnd close_k e2 Hcl Hi2' Hw2) as (w & Hw & Hoc & Hlc & Hic & Hiic & Hwc).
  set (e3 := emit [cc] (prepare_next rnd close_k e2)).
  exists e3, s, (oc :: acc' ++ w ++ [cc]). split.
  { change (copen :: flat_map calls l ++ [cclose]) with ([copen] ++ flat_map calls l ++ [cclose]).
    eapply enc_calls_app; [apply enc_calls_one, Hco|]. eapply enc_calls_app; [exact Erun|].
    apply enc_calls_one, Hcc. }
  subst e3. unfold emit. cbn [e_out e_last e_indent e_indents]. rewrite Hoc, Ho2, Hlc, Hic, Hi2, Hi0.
  split. { rewrite <- !app_assoc. reflexivity. }
  split; auto. split.
  { destruct Hcase as [(-> & _ & -> & _) | (_ & _ & Hj & _)].
    - cbn [app flat_map]. apply Hempty; auto.
    - rewrite app_assoc. apply Hfull. apply Hjmws; auto. }
  split.
  { change (oc :: acc' ++ w ++ [cc]) with ([oc] ++ acc' ++ w ++ [cc]).
    change (oc :: join_comma (map cmp l) ++ [cc]) with ([oc] ++ join_comma (map cmp l) ++ [cc]).
    apply sq_app; [now apply sq_plain|]. apply sq_app; auto.
    rewrite <- (app_nil_l [cc]) at 2. apply sq_app; [now apply sq_ws|now apply sq_plain]. }
  split; auto. split; auto. split; [|exact Hwc].
  rewrite Hiic. destruct Hcase as [(_ & Hl2 & _ & Hii2) | (_ & Hl2 & _ & Hii2)].
  - apply (close_indents e0 e2 true); auto.
  - apply (close_indents e0 e2 false); auto.
Qed.
End Items.

Lemma emits_item_value t : emits (calls_of_tree t) (compact t) (tree_toks t) ->
  emits_item jtree calls_of_tree compact tree_toks selems t.
Proof.
  intros H e Hi Hii. destruct (H e Hi Hii) as (e' & s & v & Erun & Ho & Hsep & Hv & Hsq & Hrest).
  exists e', s, v. repeat (split; [assumption|]). destruct Hrest as (? & ? & ? & ?). repeat (split; [assumption|]). split.
  - intros w Hw. replace (w ++ v) with (w ++ v ++ []) by now rewrite app_nil_r. constructor; auto using ws_nil.
  - intros acc kacc w Ha Hw. replace (acc ++ c_comma :: w ++ v) with (acc ++ c_comma :: w ++ v ++ []) by now rewrite app_nil_r.
    constructor; auto using ws_nil.
Qed.

Definition member_calls (kv : list byte * jtree) : list ecall := CName (fst kv) :: calls_of_tree (snd kv).
Definition member_toks (kv : list byte * jtree) : list atok :=
  (KName, fst (append_string (fst kv)), false, fst kv) :: tree_toks (snd kv).
Definition member_compact (kv : list byte * jtree) : list byte :=
  fst (append_string (fst kv)) ++ c_colon :: compact (snd kv).

(* a member: the name, a colon, and the value written in the state after the name *)
Lemma emits_item_member kv : snd (append_string (fst kv)) = true ->
  emits (calls_of_tree (snd kv)) (compact (snd kv)) (tree_toks (snd kv)) ->
  emits_item _ member_calls member_compact member_toks smembers kv.
Proof.
  destruct kv as [k x]. cbn [fst snd]. intros Hk Hx e1 Hi Hii.
  unfold member_calls, member_compact, member_toks. cbn [fst snd].
  destruct (append_string k) as [ko okk] eqn:Ek. cbn [fst snd] in *. subst okk.
  pose proof (append_string_sstring _ _ Ek) as Hkrfc. pose proof (sq_append_string _ _ Ek) as Hksq.
  destruct (prepare_item rnd EKName e1 eq_refl Hi Hii) as (s & Hos & Hsep & Hls & Hins & Hiis & Hws).
  set (en := emit (ko ++ [c_colon]) (prepare_next rnd EKName e1)).
  assert (Ecn : enc_call rnd (CName k) e1 = (en, true)) by (cbn [enc_call]; rewrite Ek; reflexivity).
  assert (Hen : e_out en = e_out e1 ++ s ++ ko ++ [c_colon] /\ e_last en = EKName /\
                e_indent en = e_indent e1 /\ e_indents en = indents_after_item e1 /\ ws (e_indents en)).
  { subst en. unfold emit. cbn [e_out e_last e_indent e_indents]. rewrite Hos. repeat split; auto. now rewrite <- app_assoc. }
  destruct Hen as (Hoen & Hlen & Hien & Hiien & Hwen).
  rewrite <- Hien in Hi.
  destruct (Hx en Hi Hwen) as (ex & s' & v & Erun & Hox & Hsep' & Hv & Hsqv & Hlx & Hix & Hiix & Hwx).
  pose proof (sep_sq _ _ Hsep') as Hsqs'.
  unfold sep_ok in Hsep'. rewrite Hlen in Hsep', Hsqs'. cbn [ends_value] in Hsep', Hsqs'.
  exists ex, s, (ko ++ [c_colon] ++ s' ++ v). split.
  { apply (enc_calls_app rnd [CName k] _ e1 en); [apply enc_calls_one, Ecn|exact Erun]. }
  split. { rewrite Hox, Hoen. now rewrite <- !app_assoc. }
  split; [exact Hsep|]. split.
  { change (ko ++ c_colon :: compact x) with (ko ++ [c_colon] ++ [] ++ compact x).
    repeat apply sq_app; auto. apply sq_plain. reflexivity. }
  split; [exact Hlx|]. split; [congruence|]. split.
  { rewrite Hiix. unfold indents_after_item at 1. rewrite Hlen, Hien. cbn [is_open]. rewrite Hiien.
    destruct (e_indent e1); auto. }
  split; [exact Hwx|]. split.
  - intros w Hw. cbn [app].
    replace (w ++ ko ++ c_colon :: s' ++ v) with (w ++ ko ++ [] ++ c_colon :: s' ++ v ++ []) by now rewrite app_nil_r.
    constructor; auto using ws_nil.
  - intros acc kacc w Ha Hw. cbn [app].
    replace (acc ++ c_comma :: w ++ ko ++ c_colon :: s' ++ v)
      with (acc ++ c_comma :: w ++ ko ++ [] ++ c_colon :: s' ++ v ++ []) by now rewrite app_nil_r.
    constructor; auto using ws_nil.
Qed.

End EncTree.

Section JtreeInd.
  Variable P : jtree -> Prop.
  Hypothesis HNull : P TNull.
  Hypothesis HBool : forall b, P (TBool b).
  Hypothesis HStr : forall s, P (TStr s).
  Hypothesis HInt : forall z, P (TInt z).
  Hypothesis HUint : forall n, P (TUint n).
  Hypothesis HArr : forall l, Forall P l -> P (TArr l).
  Hypothesis HObj : forall l, Forall (fun kv => P (snd kv)) l -> P (TObj l).
  Fixpoint jtree_rect2 (t : jtree) : P t :=
    match t with
    | TNull => HNull | TBool b => HBool b | TStr s => HStr s | TInt z => HInt z | TUint n => HUint n
    | TArr l => HArr l ((fix go (l : list jtree) : Forall P l :=
                           match l with [] => Forall_nil _ | x :: r => Forall_cons x (jtree_rect2 x) (go r) end) l)
    | TObj l => HObj l ((fix go (l : list (list byte * jtree)) : Forall (fun kv => P (snd kv)) l :=
                           match l with [] => Forall_nil _ | kv :: r => Forall_cons kv (jtree_rect2 (snd kv)) (go r) end) l)
    end.
End JtreeInd.

Section EncMain.
Variable rnd : nat -> bool.

Lemma tree_ok_arr l : tree_ok (TArr l) -> Forall tree_ok l.
Proof. induction l as [|x r IH]; cbn; intros H; constructor; tauto. Qed.
Lemma tree_ok_obj l : tree_ok (TObj l) -> Forall (fun kv => snd (append_string (fst kv)) = true /\ tree_ok (snd kv)) l.
Proof. induction l as [|x r IH]; cbn; intros H; constructor; tauto. Qed.

Theorem enc_tree_emits t : tree_ok t -> emits_value rnd (calls_of_tree t) (compact t) (tree_toks t).
Proof.
  induction t as [| b | s | z | n | l IH | l IH] using jtree_rect2; intros Hok; cbn [calls_of_tree compact tree_toks].
  - apply (emits_scalar rnd CNull lit_null); [reflexivity|constructor|apply sq_plain; reflexivity].
  - apply (emits_scalar rnd (CBool b) (if b then lit_true else lit_false));
      [reflexivity|destruct b; constructor|destruct b; apply sq_plain; reflexivity].
  - cbn [tree_ok] in Hok. destruct (append_string s) as [o ok] eqn:Es. cbn [snd] in Hok. subst ok. cbn [fst].
    apply (emits_scalar rnd (CString s) o).
    + intros e. cbn [enc_call]. rewrite Es. reflexivity.
    + apply SStr. eapply append_string_sstring; eauto.
    + eapply sq_append_string; eauto.
  - apply (emits_scalar rnd (CInt z) (dec_int z)); [reflexivity|apply SNum, dec_int_rfc|apply sq_plain, plain_dec_int].
  - apply (emits_scalar rnd (CUint n) (dec_digits n)); [reflexivity| |apply sq_plain, plain_dec_digits].
    apply SNum. apply (rfc_number_of_int [] (dec_digits n)); auto. apply dec_digits_rfc_int.
  - (* array *)
    apply tree_ok_arr in Hok.
    apply (emits_container rnd _ _ _ _ selems EKArrOpen EKArrClose c_lbrack c_rbrack CStartArr CEndArr); try reflexivity.
    + intros w Hw. now apply SArrE.
    + intros p ks Hp. now apply SArr.
    + apply selems_ws.
    + clear - IH Hok. induction l; constructor; inversion IH; inversion Hok; subst; auto using emits_item_value.
  - (* object *)
    apply tree_ok_obj in Hok.
    apply (emits_container rnd _ member_calls member_compact member_toks smembers EKObjOpen EKObjClose
             c_lbrace c_rbrace CStartObj CEndObj); try reflexivity.
    + intros w Hw. now apply SObjE.
    + intros p ks Hp. now apply SObj.
    + apply smembers_ws.
    + clear - IH Hok. induction l; constructor; inversion IH; inversion Hok; subst; auto.
      apply emits_item_member; tauto.
Qed.

Lemma indent_ok_ws indent : indent_ok indent = true -> ws indent.
Proof.
  unfold ws, indent_ok. rewrite !forallb_forall. intros Hind b Hb. specialize (Hind b Hb).
  unfold is_ws. apply orb_true_iff in Hind as [->| ->]; [reflexivity|now rewrite !orb_true_r].
Qed.

(* every tree the encoder accepts renders, with any indent of spaces/tabs and any detrand
   stream, a JSON text, which is the compact rendering up to insignificant whitespace *)
Theorem render_spec indent t : indent_ok indent = true -> tree_ok t ->
  exists out, render rnd indent t = (out, true) /\ stext out (tree_toks t) /\ squeeze SqOut out = compact t.
Proof.
  intros Hind Hok. unfold render.
  destruct (enc_tree_emits t Hok (e_init indent) (indent_ok_ws _ Hind) ws_nil)
    as (e' & s & v & Erun & Ho & Hsep & Hv & Hsq & _).
  rewrite Erun. exists (e_out e'). split; auto. rewrite Ho. cbn [e_init e_out app].
  pose proof (sep_sq _ _ Hsep) as Hsqs. unfold sep_ok in Hsep. cbn [e_init e_last ends_value] in Hsep, Hsqs. split.
  - exists s, v, []. rewrite app_nil_r. auto using ws_nil.
  - destruct (sq_app _ _ _ _ Hsqs Hsq) as [H _]. exact H.
Qed.
End EncMain.

Theorem encoder_emits_json rnd indent t : indent_ok indent = true -> tree_ok t ->
  exists out, render rnd indent t = (out, true) /\ json_text out.
Proof. intros H1 H2. destruct (render_spec rnd indent t H1 H2) as (out & H & Hj & _). eauto using stext_json_text. Qed.

(* The Decoder reads every rendering back as the token sequence of the tree: rendering with any
   indent / detrand stream parses to the same tokens (kinds, raw bytes, decoded strings). *)
Theorem render_reads rnd indent t : indent_ok indent = true -> tree_ok t ->
  exists out toks, render rnd indent t = (out, true) /\ read_all out = (toks, None) /\
                   map atok_of toks = tree_toks t.
Proof.
  intros H1 H2. destruct (render_spec rnd indent t H1 H2) as (out & H & Hs & _).
  destruct (lexer_accepts_all_strict_json out _ Hs) as (toks & Hr & Hm & _). eauto.
Qed.

Theorem indent_invariant_tokens rnd1 rnd2 indent1 indent2 t :
  indent_ok indent1 = true -> indent_ok indent2 = true -> tree_ok t ->
  snd (read_all (fst (render rnd1 indent1 t))) = None /\ snd (read_all (fst (render rnd2 indent2 t))) = None /\
  map atok_of (fst (read_all (fst (render rnd1 indent1 t)))) = map atok_of (fst (read_all (fst (render rnd2 indent2 t)))) /\
  map atok_of (fst (read_all (fst (render rnd1 indent1 t)))) = tree_toks t.
Proof.
  intros H1 H2 Hok.
  destruct (render_reads rnd1 indent1 t H1 Hok) as (o1 & k1 & R1 & A1 & E1).
  destruct (render_reads rnd2 indent2 t H2 Hok) as (o2 & k2 & R2 & A2 & E2).
  rewrite R1, R2. cbn [fst]. rewrite A1, A2. cbn [fst snd]. repeat split; congruence.
Qed.

(* indent / detrand only change insignificant whitespace *)
Theorem indent_invariant rnd1 rnd2 indent1 indent2 t :
  indent_ok indent1 = true -> indent_ok indent2 = true -> tree_ok t ->
  squeeze SqOut (fst (render rnd1 indent1 t)) = squeeze SqOut (fst (render rnd2 indent2 t)) /\
  squeeze SqOut (fst (render rnd1 indent1 t)) = compact t.
Proof.
  intros H1 H2 Hok.
  destruct (render_spec rnd1 indent1 t H1 Hok) as (o1 & -> & _ & E1).
  destruct (render_spec rnd2 indent2 t H2 Hok) as (o2 & -> & _ & E2). cbn [fst]. split; congruence.
Qed.
