(* JsonWktP — the protojson round trip (C20) for tables whose special-mapping types have their real
   shapes (json_core2): Any, Timestamp, Duration, the wrappers, Struct, ListValue, Value, FieldMask,
   Empty, each by its own lemma, and json_roundtrip_wkt, from which the theorems of Props/C20.v follow. *)
From Coq Require Import List Arith NArith ZArith Lia Bool.
From Coq Require Import ZifyBool ZifyNat ZifyN.
From PB Require Import Base.PBytes Wire.WireModel Msg.MsgSchema Msg.MsgValue Msg.MsgUtf8 Msg.MsgEnc Msg.MsgDec Msg.MsgValid Msg.MsgAssocP.
From PB Require Import Json.RtSchema Json.RtCommonP Json.JsonMsgModel Json.JsonMsgValid Json.JsonWktValid.
From PB Require Import Text.TextMsgModel Text.TextMsgValid Text.TextMsgScalarP Text.TextMsgP Json.JsonMsgP Json.JsonFieldMaskP.
Import ListNotations.
Open Scope N_scope.

Lemma value_shape_facts nm fps : value_shape nm fps = true ->
  exists f1 n1 f2 n2 f3 n3 f4 n4 f5 n5 f6 n6,
    fps = [(f1, n1); (f2, n2); (f3, n3); (f4, n4); (f5, n5); (f6, n6)] /\
    f_num f1 = 1 /\ f_num f2 = 2 /\ f_num f3 = 3 /\ f_num f4 = 4 /\ f_num f5 = 5 /\ f_num f6 = 6 /\
    f_card f1 = COpt /\ f_card f2 = COpt /\ f_card f3 = COpt /\ f_card f4 = COpt /\ f_card f5 = COpt /\ f_card f6 = COpt /\
    f_kind f1 = KS SkEnum /\ e_null (nm_enum nm n1) = true /\ f_kind f2 = KS SkDouble /\ f_kind f3 = KS SkString /\
    f_kind f4 = KS SkBool /\ (exists ts, f_kind f5 = KMsg ts /\ wkt_of nm ts = 5) /\
    (exists tl, f_kind f6 = KMsg tl /\ wkt_of nm tl = 6).
Proof.
  unfold value_shape. intros H.
  destruct fps as [|[f1 n1] [|[f2 n2] [|[f3 n3] [|[f4 n4] [|[f5 n5] [|[f6 n6] [|? ?]]]]]]]; try discriminate.
  exists f1, n1, f2, n2, f3, n3, f4, n4, f5, n5, f6, n6. split; [reflexivity|].
  repeat (apply andb_prop in H; let H' := fresh "K" in destruct H as [H H']).
  unfold value_member in *.
  assert (Hm : forall fd num, (f_num fd =? num) && negb (f_ext fd) && match f_card fd with COpt => true | _ => false end
                 && match f_oneof fd with Some 0 => true | _ => false end = true -> f_num fd = num /\ f_card fd = COpt).
  { intros fd num Hx. apply andb_prop in Hx. destruct Hx as [Hx _]. apply andb_prop in Hx. destruct Hx as [Hx Hc].
    apply andb_prop in Hx. destruct Hx as [Hx _]. apply N.eqb_eq in Hx. split; [exact Hx|]. destruct (f_card fd); try discriminate; reflexivity. }
  destruct (f_kind f1) as [[]| |] eqn:E1; try discriminate.
  destruct (f_kind f2) as [[]| |] eqn:E2; try discriminate.
  destruct (f_kind f3) as [[]| |] eqn:E3; try discriminate.
  destruct (f_kind f4) as [[]| |] eqn:E4; try discriminate.
  destruct (f_kind f5) as [|ts|] eqn:E5; try discriminate.
  destruct (f_kind f6) as [|tl|] eqn:E6; try discriminate.
  repeat match goal with
         | Hx : (_ =? _) && _ && _ && _ = true |- _ => apply Hm in Hx; destruct Hx
         end.
  repeat match goal with Hx : (wkt_of _ _ =? _) = true |- _ => apply N.eqb_eq in Hx end.
  repeat split; try assumption; try (eexists; split; [reflexivity|assumption]).
  - apply N.eqb_eq, H.
  - destruct (f_card f1); try discriminate; reflexivity.
Qed.

(* ---------- members and the "@type" key ---------- *)
Lemma dec_members_skip cd nm recd fps : forall ms st,
  (forall kv, In kv ms -> fst kv <> s_at_type) ->
  dec_members cd nm recd fps true ms st = dec_members cd nm recd fps false ms st.
Proof.
  induction ms as [|kv ms IH]; intros st H; [reflexivity|].
  cbn [dec_members].
  assert (Hm : dec_member cd nm recd fps true st kv = dec_member cd nm recd fps false st kv).
  { unfold dec_member. rewrite (bs_eqb_neq _ _ (H kv (or_introl eq_refl))). reflexivity. }
  rewrite Hm. destruct (dec_member cd nm recd fps false st kv) as [st'|e]; [|reflexivity].
  cbn [jbind]. apply IH. intros kv' Hin. apply H. right. exact Hin.
Qed.

Lemma find_type_url_rest (ms : list (list byte * jv)) found :
  (forall kv, In kv ms -> fst kv <> s_at_type) -> find_type_url ms found = JOk found.
Proof.
  revert found. induction ms as [|[k j] ms IH]; intros found H; [reflexivity|].
  cbn [find_type_url]. rewrite (bs_eqb_neq k s_at_type (H (k, j) (or_introl eq_refl))).
  apply IH. intros kv Hin. apply H. right. exact Hin.
Qed.

Lemma jmapM_concat_keys {A} (f : A -> jres (list (list byte * jv))) (name : A -> list byte) :
  (forall a ms, f a = JOk ms -> forall kv, In kv ms -> fst kv = name a) ->
  forall l mss, jmapM f l = JOk mss -> forall kv, In kv (concat mss) -> exists a, In a l /\ fst kv = name a.
Proof.
  intros Hf. induction l as [|a l IH]; intros mss H kv Hin.
  - cbn [jmapM] in H. inversion H; subst. destruct Hin.
  - cbn [jmapM] in H. destruct (f a) as [ms|] eqn:Ea; [|discriminate]. cbn [jbind] in H.
    destruct (jmapM f l) as [mss'|] eqn:El; [|discriminate]. cbn [jbind] in H. inversion H; subst.
    cbn [concat] in Hin. apply in_app_or in Hin. destruct Hin as [Hin|Hin].
    + exists a. split; [left; reflexivity|]. eapply Hf; eassumption.
    + destruct (IH mss' eq_refl kv Hin) as (a' & Ha' & E). exists a'. split; [right; exact Ha'|exact E].
Qed.

Lemma json_members_keys cd o S nm rect tid fs ms :
  json_members cd o S nm rect tid fs = JOk ms ->
  forall kv, In kv ms -> exists p, In p (rt_fields S nm tid) /\ fst kv = json_name o (snd p).
Proof.
  unfold json_members. intros H kv Hin.
  destruct (jmapM (json_member cd o nm rect fs) (rt_field_order (rt_fields S nm tid))) as [mss|] eqn:E; [|discriminate].
  cbn [jbind] in H. inversion H; subst ms.
  destruct (jmapM_concat_keys (json_member cd o nm rect fs) (fun p => json_name o (snd p))) with (l := rt_field_order (rt_fields S nm tid)) (mss := mss) (kv := kv)
    as (p & Hp & Ek); try assumption.
  - intros a ms' Ha kv' Hin'. unfold json_member in Ha.
    destruct (msg_fget fs (f_num (fst a))).
    + destruct (o_emit_unpop o || o_emit_defaults o); [|inversion Ha; subst; destruct Hin'].
      destruct (json_default cd o nm (fst a) (snd a)); inversion Ha; subst; [|destruct Hin'].
      destruct Hin' as [<-|[]]. reflexivity.
    + destruct (json_field_value cd o nm rect (fst a) (snd a) (v :: l)); [|discriminate]. cbn [jbind] in Ha.
      inversion Ha; subst. destruct Hin' as [<-|[]]. reflexivity.
  - exists p. split; [|exact Ek]. eapply Permutation.Permutation_in; [apply rt_field_order_perm|exact Hp].
Qed.

Definition shape_ok (w : N) (j : jv) : Prop :=
  (is_jnull j = true -> w = 7) /\ (w = 5 -> is_jobj j) /\ (w = 6 -> is_jarr j).

(* ---------- what json_core2 says of the field tables of the special types ---------- *)
Section Core2.
  Variable S : schema.
  Variable nm : names.
  Hypothesis Hcore2 : json_core2 S nm = true.

  Lemma core2_at tid : (tid < length S)%nat ->
    let fps := rt_fields S nm tid in
    no_special_groups nm fps = true /\
    match wkt_of nm tid with
    | 0 => True
    | 1 => jany_shape fps = true
    | 2 | 3 => secs_nanos_shape fps = true
    | 4 => wrapper_shape fps = true
    | 5 => struct_shape nm fps = true
    | 6 => listvalue_shape nm fps = true
    | 7 => value_shape nm fps = true
    | 8 => fieldmask_shape fps = true
    | 9 => fps = []
    | _ => False
    end.
  Proof using Hcore2.
    intros Hlt fps. pose proof Hcore2 as Hc. unfold json_core2 in Hc. rewrite forallb_forall in Hc.
    assert (H := Hc tid ltac:(apply in_seq; lia)). cbn zeta in H. fold fps in H.
    apply andb_prop in H. destruct H as [Hg H]. split; [exact Hg|].
    destruct (wkt_of nm tid) as [|p]; [exact I|].
    (* four binary digits reach every code below 16 *)
    do 4 (try destruct p as [p|p|]); try discriminate; try exact H.
    destruct fps; [reflexivity|discriminate].
  Qed.

  Lemma core2_cases tid : (tid < length S)%nat ->
    wkt_of nm tid = 0 \/ wkt_of nm tid = 1 \/ wkt_of nm tid = 2 \/ wkt_of nm tid = 3 \/ wkt_of nm tid = 4 \/ wkt_of nm tid = 5 \/ wkt_of nm tid = 6 \/ wkt_of nm tid = 7 \/ wkt_of nm tid = 8 \/ wkt_of nm tid = 9.
  Proof using Hcore2.
    intros Hlt. destruct (core2_at tid Hlt) as [_ H].
    destruct (wkt_of nm tid) as [|p]; [auto|].
    do 4 (try destruct p as [p|p|]); cbn in H; try contradiction; auto 10. (* as in core2_at *)
  Qed.

  Lemma groups_ok tid : (tid < length S)%nat ->
    forall p, In p (rt_fields S nm tid) -> forall t, f_kind (fst p) = KGrp t -> mn_wkt (nm_msg nm t) <> 7.
  Proof using Hcore2.
    intros Hlt p Hp t Hk. destruct (core2_at tid Hlt) as [Hg _]. unfold no_special_groups in Hg.
    rewrite forallb_forall in Hg. specialize (Hg p Hp). rewrite Hk in Hg. apply N.eqb_eq in Hg.
    unfold wkt_of in Hg. rewrite Hg. discriminate.
  Qed.

  Variable recv : nat -> value -> bool.

  (* ---- a message with exactly one field, number 1 ---- *)
  Lemma single_field_fs fd fn fs :
    f_num fd = 1 -> msg_sorted 0 fs ->
    (forall k vs, In (k, vs) fs -> exists p, In p [(fd, fn)] /\ fp_num p = k /\ jvalid_field nm recv (fst p) (snd p) vs = true) ->
    fs = [] \/ exists vs, fs = [(1, vs)] /\ jvalid_field nm recv fd fn vs = true.
  Proof using Type.
    intros Hn Hs Hc. destruct fs as [|[k vs] [|[k2 vs2] r]].
    - left. reflexivity.
    - right. destruct (Hc k vs (or_introl eq_refl)) as (p & [<-|[]] & Hk & Hv). unfold fp_num in Hk. cbn [fst snd] in *.
      exists vs. split; [congruence|exact Hv].
    - exfalso.
      destruct (Hc k vs (or_introl eq_refl)) as (p & [<-|[]] & Hk & _).
      destruct (Hc k2 vs2 (or_intror (or_introl eq_refl))) as (p2 & [<-|[]] & Hk2 & _).
      unfold fp_num in *. cbn [fst] in *. cbn [msg_sorted fst] in Hs. destruct Hs as (_ & Hlt & _).
      clear - Hk Hk2 Hlt. lia.
  Qed.

  (* ---- a message with exactly two fields, 1 and 2, both implicit-presence scalars ---- *)
  Definition imp_val (sk : skind) (fn : fname) (vs : list value) : Prop :=
    exists s, vs = [VS s] /\ json_scalar_ok (nm_enum nm fn) sk s = true /\ msg_scalar_is_zero s = false.
  Definition imp_cell (sk : skind) (fn : fname) (vs : list value) : Prop := vs = [] \/ imp_val sk fn vs.

  Lemma two_imp_fs sk1 sk2 fps fs :
    (sk1 = SkInt64 /\ sk2 = SkInt32 /\ secs_nanos_shape fps = true) \/
    (sk1 = SkString /\ sk2 = SkBytes /\ jany_shape fps = true) ->
    msg_sorted 0 fs ->
    (forall k vs, In (k, vs) fs -> exists p, In p fps /\ fp_num p = k /\ jvalid_field nm recv (fst p) (snd p) vs = true) ->
    exists n1 n2,
      imp_cell sk1 n1 (msg_fget fs 1) /\ imp_cell sk2 n2 (msg_fget fs 2) /\
      fs = (match msg_fget fs 1 with [] => [] | vs => [(1, vs)] end)
           ++ (match msg_fget fs 2 with [] => [] | vs => [(2, vs)] end).
  Proof using Type.
    intros Hsh Hs Hchunks.
    assert (Hf : exists f1 n1 f2 n2, fps = [(f1, n1); (f2, n2)] /\ f_num f1 = 1 /\ f_num f2 = 2 /\
                   f_card f1 = CImp /\ f_card f2 = CImp /\ f_kind f1 = KS sk1 /\ f_kind f2 = KS sk2).
    { destruct Hsh as [(-> & -> & Hsh)|(-> & -> & Hsh)]; [unfold secs_nanos_shape in Hsh|unfold jany_shape in Hsh].
      all: destruct fps as [|[f1 n1] [|[f2 n2] [|? ?]]]; try discriminate.
      all: apply andb_prop in Hsh; destruct Hsh as [Hsh Hk]; apply andb_prop in Hsh; destruct Hsh as [Hsh _].
      all: apply andb_prop in Hsh; destruct Hsh as [Hsh _]; apply andb_prop in Hsh; destruct Hsh as [N1 N2].
      all: apply N.eqb_eq in N1, N2.
      all: destruct (f_card f1) eqn:C1; try discriminate; destruct (f_kind f1) as [[]| |] eqn:K1; try discriminate.
      all: destruct (f_card f2) eqn:C2; try discriminate; destruct (f_kind f2) as [[]| |] eqn:K2; try discriminate.
      all: exists f1, n1, f2, n2; auto 10. }
    destruct Hf as (f1 & n1 & f2 & n2 & -> & N1 & N2 & C1 & C2 & K1 & K2). exists n1, n2.
    assert (Hcell : forall fd fn sk vs, f_card fd = CImp -> f_kind fd = KS sk -> jvalid_field nm recv fd fn vs = true ->
              exists s, vs = [VS s] /\ msg_scalar_is_zero s = false /\ json_scalar_ok (nm_enum nm fn) sk s = true).
    { intros fd fn sk vs C K Hv. unfold jvalid_field in Hv. rewrite C in Hv.
      destruct vs as [|[s| |] [|? ?]]; try discriminate. apply andb_prop in Hv as [Hv Hnz].
      apply negb_true_iff in Hnz. unfold jvalid_elem in Hv. rewrite K in Hv. exists s. auto. }
    apply (two_key_fs (imp_val sk1 n1) (imp_val sk2 n2)); [exact Hs|]. intros k vs Hin.
    destruct (Hchunks k vs Hin) as (p & Hp & Hk' & Hv). unfold fp_num in Hk'.
    destruct Hp as [<-|[<-|[]]]; cbn [fst snd] in *.
    - destruct (Hcell _ _ _ _ C1 K1 Hv) as (s & -> & Hnz & Hok). split; [discriminate|]. left. split; [congruence|exists s; auto].
    - destruct (Hcell _ _ _ _ C2 K2 Hv) as (s & -> & Hnz & Hok). split; [discriminate|]. right. split; [congruence|exists s; auto].
  Qed.

  Lemma secs_nanos_fs tid fs :
    (tid < length S)%nat -> wkt_of nm tid = 2 \/ wkt_of nm tid = 3 ->
    msg_keys_sorted 0 fs = true -> forallb (jvalid_chunk nm recv (rt_fields S nm tid)) fs = true ->
    map sp fs = fs /\ fs = set_nz (set_nz [] 1 (get_z fs 1)) 2 (get_z fs 2).
  Proof using Hcore2.
    intros Hlt Hw Hs Hc. destruct (core2_at tid Hlt) as [_ Hshape].
    assert (Hsh : secs_nanos_shape (rt_fields S nm tid) = true) by (destruct Hw as [E|E]; rewrite E in Hshape; exact Hshape).
    clear Hshape. apply msg_keys_sorted_spec in Hs.
    pose proof (jchunks_of S nm recv tid fs Hc) as Hchunks.
    destruct (two_imp_fs SkInt64 SkInt32 _ fs (or_introl (conj eq_refl (conj eq_refl Hsh))) Hs Hchunks)
      as (n1 & n2 & H1 & H2 & Hfs).
    unfold get_z. set (a := msg_fget fs 1) in *. set (b := msg_fget fs 2) in *. clearbody a b. subst fs.
    assert (Hz : forall sk fn v, (sk = SkInt64 \/ sk = SkInt32) -> imp_cell sk fn v ->
              v = [] \/ exists z, z <> 0%Z /\ v = [VS (SZ z)]).
    { intros sk fn v Hsk [->|(s & -> & Hok & Hnz)]; [auto|right].
      unfold json_scalar_ok, rt_scalar_ok in Hok. destruct Hsk as [-> | ->], s as [z| | |]; cbn [sk_ok andb] in Hok; try discriminate.
      all: exists z; split; [intros ->; discriminate|reflexivity]. }
    destruct (Hz _ _ _ (or_introl eq_refl) H1) as [->|(z1 & Hz1 & ->)], (Hz _ _ _ (or_intror eq_refl) H2) as [->|(z2 & Hz2 & ->)];
      unfold set_nz; cbn [app map sp fst snd strip_unknown].
    - (* neither field *) split; reflexivity.
    - (* nanos only *) rewrite (proj2 (Z.eqb_neq z2 0) Hz2). split; reflexivity.
    - (* seconds only *) rewrite (proj2 (Z.eqb_neq z1 0) Hz1). split; reflexivity.
    - rewrite (proj2 (Z.eqb_neq z1 0) Hz1), (proj2 (Z.eqb_neq z2 0) Hz2). split; reflexivity.
  Qed.

  Lemma jany_fs tid fs :
    (tid < length S)%nat -> wkt_of nm tid = 1 ->
    msg_keys_sorted 0 fs = true -> forallb (jvalid_chunk nm recv (rt_fields S nm tid)) fs = true ->
    map sp fs = fs /\
    fs = (match get_bytes fs 1 with [] => [] | u => [(1, [VS (SBy u)])] end)
         ++ (match get_bytes fs 2 with [] => [] | b => [(2, [VS (SBy b)])] end) /\
    (has_field fs 1 = false -> get_bytes fs 1 = []) /\ (has_field fs 2 = false -> get_bytes fs 2 = []) /\
    (has_field fs 1 = true -> get_bytes fs 1 <> [] /\ msg_utf8_valid (get_bytes fs 1) = true).
  Proof using Hcore2.
    intros Hlt Hw Hs Hc. destruct (core2_at tid Hlt) as [_ Hsh]. rewrite Hw in Hsh.
    apply msg_keys_sorted_spec in Hs.
    pose proof (jchunks_of S nm recv tid fs Hc) as Hchunks.
    destruct (two_imp_fs SkString SkBytes _ fs (or_intror (conj eq_refl (conj eq_refl Hsh))) Hs Hchunks)
      as (n1 & n2 & H1 & H2 & Hfs).
    unfold has_field, get_bytes. set (a := msg_fget fs 1) in *. set (b := msg_fget fs 2) in *. clearbody a b. subst fs.
    assert (Hb : forall sk fn v, (sk = SkString \/ sk = SkBytes) -> imp_cell sk fn v ->
              v = [] \/ exists x, x <> [] /\ v = [VS (SBy x)] /\ (sk = SkString -> msg_utf8_valid x = true)).
    { intros sk fn v Hsk [->|(s & -> & Hok & Hnz)]; [auto|right].
      unfold json_scalar_ok, rt_scalar_ok in Hok. destruct Hsk as [-> | ->], s as [| | |x]; cbn [sk_ok andb] in Hok; try discriminate.
      all: exists x; split; [intros ->; discriminate|]; split; [reflexivity|]; try discriminate.
      intros _. apply andb_prop in Hok. destruct Hok as [Hok _]. apply andb_prop in Hok. destruct Hok as [Hok _]. exact Hok. }
    destruct (Hb _ _ _ (or_introl eq_refl) H1) as [->|(x1 & Hx1 & -> & Hu)], (Hb _ _ _ (or_intror eq_refl) H2) as [->|(x2 & Hx2 & -> & _)];
      cbn [app map sp fst snd strip_unknown].
    - (* an empty Any *) repeat split; try reflexivity; discriminate.
    - (* value without type_url *) destruct x2; [congruence|]. repeat split; try reflexivity; discriminate.
    - (* type_url alone *) destruct x1; [congruence|]. repeat split; try reflexivity; try discriminate. exact (Hu eq_refl).
    - destruct x1; [congruence|]. destruct x2; [congruence|].
      repeat split; try reflexivity; try discriminate. exact (Hu eq_refl).
  Qed.
End Core2.

Section W.
  Variable cd : jcodec.
  Hypothesis Hb64 : forall bs, b64_dec cd (b64_enc cd bs) = Some bs.
  Variable o : jopts.
  Variable S : schema.
  Variable nm : names.
  Variable lim : nat.
  Hypothesis Hschema : json_schema_ok S nm = true.
  Hypothesis Hcore2 : json_core2 S nm = true.
  Hypothesis Hts : forall s n, ts_in_range s n = true -> ts_parse cd (ts_fmt cd s n) = Some (s, n).
  Hypothesis Hdur : forall s n, dur_in_range s n = true -> dur_parse cd (dur_fmt cd s n) = Some (s, n).

  Variable recv : nat -> value -> bool.
  Variable rect : nat -> value -> jres jv.
  Variable recd : nat -> jv -> jres value.
  Hypothesis Hrec : forall tid v, recv tid v = true ->
    exists j, rect tid v = JOk j /\ shape_ok (wkt_of nm tid) j /\ recd tid j = JOk (strip_unknown v).

  Lemma rec_null_shape : forall tid v, recv tid v = true ->
    exists j, rect tid v = JOk j /\ (is_jnull j = true -> mn_wkt (nm_msg nm tid) = 7) /\
              recd tid j = JOk (strip_unknown v).
  Proof.
    intros tid v H. destruct (Hrec tid v H) as (j & Hj & (Hs & _) & Hd). exists j. repeat split; assumption.
  Qed.

  Lemma svals_nonempty (vs : list value) : vs <> [] -> svals vs <> [].
  Proof. destruct vs; [congruence|discriminate]. Qed.

  Lemma wrapper_rt tid fs :
    (tid < length S)%nat -> wkt_of nm tid = 4 ->
    msg_keys_sorted 0 fs = true -> forallb (jvalid_chunk nm recv (rt_fields S nm tid)) fs = true ->
    exists j, json_wrapper cd o S nm tid fs = JOk j /\ is_jnull j = false /\
              dec_wrapper cd S nm tid j = JOk (VMsg (map sp fs) []).
  Proof.
    intros Hlt Hw Hs Hc. destruct (core2_at S nm Hcore2 tid Hlt) as [_ Hshape]. rewrite Hw in Hshape.
    apply msg_keys_sorted_spec in Hs.
    pose proof (jchunks_of S nm recv tid fs Hc) as Hchunks.
    unfold wrapper_shape in Hshape. unfold json_wrapper, dec_wrapper.
    destruct (rt_fields S nm tid) as [|[fd fn] [|? ?]] eqn:Efps; try discriminate.
    apply andb_prop in Hshape. destruct Hshape as [Hshape Hk]. apply andb_prop in Hshape. destruct Hshape as [Hshape _].
    apply andb_prop in Hshape. destruct Hshape as [N1 _]. apply N.eqb_eq in N1.
    destruct (f_card fd) eqn:Ecard; try discriminate. destruct (f_kind fd) as [sk| |] eqn:Ek; try discriminate.
    assert (Hsk : sk <> SkEnum) by (intros ->; discriminate).
    cbn [rt_find fst]. rewrite N1. cbn [N.eqb Pos.eqb]. rewrite !Ek.
    destruct (single_field_fs nm recv fd fn fs N1 Hs Hchunks) as [->|(vs & -> & Hv)].
    - cbn [msg_fget].
      destruct (json_scalar_rt cd Hb64 o (nm_enum nm fn) sk (sk_zero sk) (json_zero_ok _ sk)) as (j & Hj & Hd & Hn).
      { intros E. contradiction. }
      exists j. split; [exact Hj|]. split.
      + destruct (is_jnull j) eqn:En; [|reflexivity]. destruct (Hn eq_refl) as [E _]. contradiction.
      + rewrite Hd. cbn [jbind]. rewrite zero_is_zero. reflexivity.
    - unfold jvalid_field in Hv. rewrite Ecard in Hv. destruct vs as [|[s| |] [|? ?]]; try discriminate.
      apply andb_prop in Hv. destruct Hv as [Hv Hnz]. apply negb_true_iff in Hnz.
      unfold jvalid_elem in Hv. rewrite Ek in Hv.
      cbn [msg_fget N.eqb Pos.eqb].
      destruct (json_scalar_rt cd Hb64 o (nm_enum nm fn) sk s Hv) as (j & Hj & Hd & Hn).
      { intros E. contradiction. }
      exists j. split; [exact Hj|]. split.
      + destruct (is_jnull j) eqn:En; [|reflexivity]. destruct (Hn eq_refl) as [E _]. contradiction.
      + rewrite Hd. cbn [jbind]. rewrite Hnz. reflexivity.
  Qed.

  Lemma json_any_rt tid fs :
    (tid < length S)%nat -> wkt_of nm tid = 1 ->
    msg_keys_sorted 0 fs = true -> forallb (jvalid_chunk nm recv (rt_fields S nm tid)) fs = true ->
    jvalid_any true (o_emit_unpop o) S nm lim recv fs = true ->
    exists j, json_any cd o S nm lim rect fs = JOk j /\ is_jnull j = false /\
              dec_any cd S nm recd j = JOk (VMsg (map sp fs) []).
  Proof.
    intros Hlt Hw Hs Hc Hany.
    destruct (jany_fs S nm Hcore2 recv tid fs Hlt Hw Hs Hc) as (Hsp & Hfs & H1 & H2 & H1').
    rewrite Hsp. unfold jvalid_any in Hany. unfold json_any.
    destruct (has_field fs 1) eqn:E1; cbn [negb] in *.
    - (* a type URL *)
      destruct (H1' eq_refl) as [Hune Hutf]. set (url := get_bytes fs 1) in *. set (b2 := get_bytes fs 2) in *.
      destruct (resolve_url nm url) as [t|] eqn:Eres; [|discriminate].
      destruct (msg_decode false S lim t b2) as [em|] eqn:Edec; [|discriminate].
      apply andb_prop in Hany. destruct Hany as [Hany Henc]. apply andb_prop in Hany. destruct Hany as [Htl Hval].
      apply Nat.ltb_lt in Htl. apply bs_eqb_eq in Henc. rewrite Hutf. cbn [negb].
      assert (Hresult : any_of S url t (strip_unknown em) = VMsg fs []).
      { unfold any_of. rewrite Henc. rewrite Hfs. destruct url; [congruence|]. destruct b2; reflexivity. }
      destruct url as [|u0 url'] eqn:Eurl; [congruence|]. rewrite <- Eurl in *.
      change (mn_wkt (nm_msg nm t)) with (wkt_of nm t).
      destruct (is_special_wkt (wkt_of nm t)) eqn:Esp.
      + (* embedded special type: {"@type": url, "value": ...} *)
        destruct (Hrec t em Hval) as (j & Hj & _ & Hd). rewrite Hj. cbn [jbind].
        eexists. split; [reflexivity|]. split; [reflexivity|].
        unfold dec_any. cbn [find_type_url]. rewrite bs_eqb_refl. rewrite Eurl. cbn iota. rewrite <- Eurl.
        change (bs_eqb s_value s_at_type) with false. cbn iota. cbn [find_type_url jbind]. rewrite Eres.
        change (mn_wkt (nm_msg nm t)) with (wkt_of nm t).
        assert (Hw0 : (wkt_of nm t =? 0) = false).
        { unfold is_special_wkt in Esp. apply andb_prop in Esp. destruct Esp as [Esp _]. apply negb_true_iff in Esp. exact Esp. }
        rewrite Hw0. cbn [negb]. cbn [dec_any_value]. rewrite bs_eqb_refl.
        change (bs_eqb s_value s_at_type) with false. change (bs_eqb s_value s_value) with true. cbn iota.
        rewrite Hd. cbn [jbind dec_any_value]. rewrite Hresult. reflexivity.
      + (* embedded ordinary message (or Empty): {"@type": url, members...} *)
        unfold jvalid_body in Hval. destruct em as [|efs eunk|]; try discriminate.
        pose proof Hval as Hval0.
        apply andb_prop in Hval. destruct Hval as [Hval Hf11]. apply andb_prop in Hval. destruct Hval as [Hval Ho].
        apply andb_prop in Hval. destruct Hval as [Hes Hec].
        destruct (json_ordinary_rt cd Hb64 o S nm Hschema recv rect recd rec_null_shape t efs Htl) as (ms & Hm & Hd); try assumption.
        { apply (groups_ok S nm Hcore2 t Htl). }
        rewrite Hm. cbn [jbind]. eexists. split; [reflexivity|]. split; [reflexivity|].
        assert (Hkeys : forall kv, In kv ms -> fst kv <> s_at_type).
        { intros kv Hin. destruct (json_members_keys _ _ _ _ _ _ _ _ Hm kv Hin) as (p & Hp & ->).
          apply (jschema_no_at_type S nm Hschema o t Htl p Hp). }
        unfold dec_any. cbn [find_type_url]. rewrite bs_eqb_refl. rewrite Eurl. cbn iota. rewrite <- Eurl.
        rewrite (find_type_url_rest ms (Some url) Hkeys). cbn [jbind]. rewrite Eres.
        change (mn_wkt (nm_msg nm t)) with (wkt_of nm t).
        change (strip_unknown (VMsg efs eunk)) with (VMsg (map sp efs) []) in Hresult.
        destruct (wkt_of nm t =? 0) eqn:Hw0; cbn [negb].
        * (* ordinary *)
          assert (Hdo : dec_ordinary cd S nm recd t true ((s_at_type, JStr url) :: ms) = JOk (VMsg (map sp efs) [])).
          { unfold dec_ordinary in *. cbn [dec_members]. unfold dec_member at 1. cbn [fst andb]. rewrite bs_eqb_refl.
            cbn [jbind]. rewrite (dec_members_skip cd nm recd _ ms _ Hkeys). exact Hd. }
          rewrite Hdo. cbn [jbind]. rewrite Hresult. reflexivity.
        * (* Empty: no members *)
          unfold is_special_wkt in Esp. rewrite Hw0 in Esp. cbn [negb andb] in Esp. apply negb_false_iff in Esp.
          apply N.eqb_eq in Esp.
          destruct (core2_at S nm Hcore2 t Htl) as [_ Hsh]. rewrite Esp in Hsh.
          assert (ms = []) as ->.
          { unfold json_members in Hm. rewrite Hsh in Hm. unfold rt_field_order in Hm. cbn in Hm. inversion Hm. reflexivity. }
          assert (efs = []) as ->.
          { destruct efs as [|[k vs] r]; [reflexivity|].
            destruct (jchunks_of S nm recv t _ Hec k vs (or_introl eq_refl)) as (p & Hp & _). rewrite Hsh in Hp. destruct Hp. }
          cbn [dec_any_value]. rewrite bs_eqb_refl. cbn [dec_any_value jbind]. rewrite Esp. cbn [N.eqb Pos.eqb].
          cbn [map] in Hresult. rewrite Hresult. reflexivity.
    - (* empty Any *)
      apply negb_true_iff in Hany. rewrite Hany.
      eexists. split; [reflexivity|]. split; [reflexivity|].
      rewrite Hfs, (H1 eq_refl), (H2 Hany). reflexivity.
  Qed.

  Lemma fieldmask_rt tid fs :
    (tid < length S)%nat -> wkt_of nm tid = 8 ->
    msg_keys_sorted 0 fs = true -> forallb (jvalid_chunk nm recv (rt_fields S nm tid)) fs = true ->
    forallb (fun x => match x with VS (SBy p) => fm_path_ok p | _ => false end) (msg_fget fs 1) = true ->
    exists j, json_fieldmask fs = JOk j /\ is_jnull j = false /\ dec_fieldmask j = JOk (VMsg (map sp fs) []).
  Proof.
    intros Hlt Hw Hs Hc Hpaths. destruct (core2_at S nm Hcore2 tid Hlt) as [_ Hshape]. rewrite Hw in Hshape.
    apply msg_keys_sorted_spec in Hs.
    pose proof (jchunks_of S nm recv tid fs Hc) as Hchunks.
    unfold fieldmask_shape in Hshape.
    destruct (rt_fields S nm tid) as [|[fd fn] [|? ?]]; try discriminate.
    apply andb_prop in Hshape. destruct Hshape as [Hshape Hk]. apply andb_prop in Hshape. destruct Hshape as [N1 _].
    apply N.eqb_eq in N1.
    (* the paths as byte strings *)
    assert (Hps : exists ps, msg_fget fs 1 = map (fun p => VS (SBy p)) ps /\ Forall (fun p => fm_path_ok p = true) ps).
    { revert Hpaths. generalize (msg_fget fs 1). induction l as [|x l IH]; intros H.
      - exists []. split; [reflexivity|constructor].
      - cbn [forallb] in H. apply andb_prop in H. destruct H as [Hx Hl]. destruct (IH Hl) as (ps & -> & Hall).
        destruct x as [[| | |p]| |]; try discriminate. exists (p :: ps). split; [reflexivity|]. constructor; assumption. }
    destruct Hps as (ps & Eget & Hall).
    assert (Hfs : map sp fs = match ps with [] => [] | _ => [(1, map (fun p => VS (SBy p)) ps)] end).
    { destruct (single_field_fs nm recv fd fn fs N1 Hs Hchunks) as [->|(vs & -> & Hv)].
      - cbn [msg_fget] in Eget. destruct ps; [reflexivity|discriminate].
      - cbn [msg_fget N.eqb Pos.eqb] in Eget. subst vs.
        pose proof (jvalid_field_nonempty _ _ _ _ _ Hv) as Hne.
        assert (Hstrip : map strip_unknown (map (fun p => VS (SBy p)) ps) = map (fun p => VS (SBy p)) ps)
          by (rewrite map_map; apply map_ext; reflexivity).
        unfold sp. cbn [map fst snd]. rewrite Hstrip. destruct ps; [cbn in Hne; congruence|reflexivity]. }
    unfold json_fieldmask. rewrite Eget.
    assert (Hm : jmapM (fun v => match v with
                               | VS (SBy p) => if fm_path_ok p then JOk (fm_camel p) else JErr EFieldMask
                               | _ => JErr ESchema end) (map (fun p => VS (SBy p)) ps) = JOk (map fm_camel ps)).
    { clear Eget Hfs. induction Hall as [|p ps Hp Hall IH]; [reflexivity|].
      cbn [map jmapM]. rewrite Hp. cbn [jbind]. rewrite IH. reflexivity. }
    rewrite Hm. cbn [jbind]. eexists. split; [reflexivity|]. split; [reflexivity|].
    rewrite Hfs. unfold dec_fieldmask.
    destruct ps as [|p0 ps0]; [reflexivity|].
    set (ps := p0 :: ps0) in *.
    assert (Hcs : Forall (fun a => forall c, In c a -> b2n c <> 44) (map fm_camel ps) /\ Forall (fun a => a <> []) (map fm_camel ps)).
    { clear Hm Hfs Eget. induction Hall as [|p ps' Hp Hall IH]; [split; constructor|].
      destruct (fm_path_facts p Hp) as (Hv & _ & Hne). destruct IH as [I1 I2].
      split; constructor; try assumption. apply fm_camel_no_comma, Hv. }
    destruct Hcs as [Hnc Hne].
    pose proof (join_nonempty (map fm_camel ps) ltac:(subst ps; discriminate) Hne) as Hjne.
    destruct (join_comma (map fm_camel ps)) as [|c0 s0] eqn:Ej; [congruence|]. rewrite <- Ej.
    rewrite (split_join (map fm_camel ps) ltac:(subst ps; discriminate) Hnc).
    assert (Hd : jmapM (fun p => if existsb (fun c => b2n c =? 95) p || negb (fullname_valid (fm_snake p))
                                 then JErr EDecode else JOk (VS (SBy (fm_snake p)))) (map fm_camel ps)
                 = JOk (map (fun p => VS (SBy p)) ps)).
    { clear Hm Hfs Eget Hnc Hne Hjne Ej. induction Hall as [|p ps' Hp Hall IH]; [reflexivity|].
      destruct (fm_path_facts p Hp) as (Hv & Hsn & _).
      cbn [map jmapM]. rewrite fm_camel_no_underscore, Hsn, Hv. cbn [negb orb jbind]. rewrite IH. reflexivity. }
    rewrite Hd. reflexivity.
  Qed.

  Lemma field1_rt tid fs :
    (tid < length S)%nat -> wkt_of nm tid = 5 \/ wkt_of nm tid = 6 ->
    msg_keys_sorted 0 fs = true -> forallb (jvalid_chunk nm recv (rt_fields S nm tid)) fs = true ->
    exists j, json_field1 cd o S nm rect tid fs = JOk j /\
              (wkt_of nm tid = 5 -> is_jobj j) /\ (wkt_of nm tid = 6 -> is_jarr j) /\
              dec_field1 cd S nm recd tid j = JOk (VMsg (map sp fs) []).
  Proof.
    intros Hlt Hw Hs Hc. destruct (core2_at S nm Hcore2 tid Hlt) as [_ Hshape].
    apply msg_keys_sorted_spec in Hs.
    pose proof (jchunks_of S nm recv tid fs Hc) as Hchunks.
    unfold json_field1, dec_field1.
    assert (Hf : exists fd fn, rt_fields S nm tid = [(fd, fn)] /\ f_num fd = 1 /\
               (exists t, f_kind fd = KMsg t) /\
               ((wkt_of nm tid = 5 /\ exists u d, f_card fd = CMap SkString u d) \/ (wkt_of nm tid = 6 /\ f_card fd = CRep))).
    { destruct Hw as [Hw|Hw]; rewrite Hw in Hshape.
      - unfold struct_shape in Hshape. destruct (rt_fields S nm tid) as [|[fd fn] [|? ?]]; try discriminate.
        apply andb_prop in Hshape. destruct Hshape as [Hshape Hk]. apply andb_prop in Hshape. destruct Hshape as [N1 _].
        apply N.eqb_eq in N1. destruct (f_card fd) as [| | | | |kk u d] eqn:Ecard; try discriminate.
        destruct kk; try discriminate. destruct (f_kind fd) as [|t|] eqn:Ek; try discriminate.
        exists fd, fn. split; [reflexivity|]. split; [exact N1|]. split; [exists t; exact Ek|].
        left. split; [exact Hw|]. exists u, d. exact Ecard.
      - unfold listvalue_shape in Hshape. destruct (rt_fields S nm tid) as [|[fd fn] [|? ?]]; try discriminate.
        apply andb_prop in Hshape. destruct Hshape as [Hshape Hk]. apply andb_prop in Hshape. destruct Hshape as [N1 _].
        apply N.eqb_eq in N1. destruct (f_card fd) eqn:Ecard; try discriminate.
        destruct (f_kind fd) as [|t|] eqn:Ek; try discriminate.
        exists fd, fn. split; [reflexivity|]. split; [exact N1|]. split; [exists t; exact Ek|].
        right. split; [exact Hw|exact Ecard]. }
    destruct Hf as (fd & fn & Efps & N1 & (t & Ek) & Hcard). rewrite Efps in *.
    cbn [rt_find fst]. rewrite N1. cbn [N.eqb Pos.eqb].
    assert (Hvs : exists vs, msg_fget fs 1 = vs /\ (vs = [] \/ jvalid_field nm recv fd fn vs = true) /\
                  map sp fs = store [] 1 (svals vs)).
    { destruct (single_field_fs nm recv fd fn fs N1 Hs Hchunks) as [->|(vs & -> & Hv)].
      - exists []. split; [reflexivity|]. split; [left; reflexivity|reflexivity].
      - exists vs. cbn [msg_fget N.eqb Pos.eqb]. split; [reflexivity|]. split; [right; exact Hv|].
        pose proof (jvalid_field_nonempty _ _ _ _ _ Hv) as Hne. destruct vs; [congruence|reflexivity]. }
    destruct Hvs as (vs & -> & Hval & Hsp). rewrite Hsp.
    destruct (json_field_value_rt cd Hb64 o nm recv rect recd rec_null_shape fd fn vs) as (j & Hj & Hshp & Hd).
    { rewrite Ek. discriminate. }
    { rewrite Ek. discriminate. }
    { exact Hval. }
    { unfold is_sing. destruct Hcard as [(_ & u & d & ->)|(_ & ->)]; reflexivity. }
    exists j. split; [exact Hj|].
    split. { intros E5. destruct Hcard as [(_ & u & d & Ecard)|(E6 & _)]; [rewrite Ecard in Hshp; exact Hshp|congruence]. }
    split. { intros E6. destruct Hcard as [(E5 & _)|(_ & Ecard)]; [congruence|rewrite Ecard in Hshp; exact Hshp]. }
    rewrite (Hd (mkDS [] [] []) eq_refl). cbn [jbind ds_fs]. rewrite N1. reflexivity.
  Qed.

  Lemma value_rt tid v :
    (tid < length S)%nat -> wkt_of nm tid = 7 ->
    jvalid_body true (o_emit_unpop o) S nm recv tid v = true -> value_extra v = true ->
    exists j, (match v with VMsg fs _ => json_value cd o S nm rect tid fs | _ => JErr ESchema end) = JOk j /\
              dec_value cd S nm recd tid j = JOk (strip_unknown v).
  Proof.
    intros Hlt Hw Hb Hx. destruct (core2_at S nm Hcore2 tid Hlt) as [_ Hshape]. rewrite Hw in Hshape.
    destruct (jschema_facts S nm Hschema o tid Hlt) as (Hnd & _ & Henum & _ & _).
    unfold value_extra in Hx. destruct v as [|fs unk|]; try discriminate.
    destruct fs as [|[num [|x [|? ?]]] [|? ?]]; try discriminate.
    unfold jvalid_body in Hb. apply andb_prop in Hb. destruct Hb as [Hb _]. apply andb_prop in Hb. destruct Hb as [Hb _].
    apply andb_prop in Hb. destruct Hb as [_ Hc].
    destruct (jchunks_of S nm recv tid _ Hc num [x] (or_introl eq_refl)) as (p & Hp & Hk & Hv).
    pose proof (rt_find_in _ p Hnd Hp) as Hfind. rewrite Hk in Hfind.
    pose proof (Henum p Hp) as He. pose proof (groups_ok S nm Hcore2 tid Hlt p Hp) as Hg.
    destruct (value_shape_facts nm _ Hshape) as
      (f1 & n1 & f2 & n2 & f3 & n3 & f4 & n4 & f5 & n5 & f6 & n6 & Efps & N1 & N2 & N3 & N4 & N5 & N6 &
       C1 & C2 & C3 & C4 & C5 & C6 & K1 & Enull & K2 & K3 & K4 & (ts & K5 & W5) & (tl & K6 & W6)).
    change (strip_unknown (VMsg [(num, [x])] unk)) with (VMsg [(num, [strip_unknown x])] []).
    unfold json_value, dec_value. rewrite Hfind. destruct p as [fd fn]. cbn [fst snd] in *.
    unfold fp_num in Hk. cbn [fst] in Hk. rewrite Efps in Hp.
    assert (Hcard : f_card fd = COpt)
      by (destruct Hp as [E|[E|[E|[E|[E|[E|[]]]]]]]; inversion E; subst fd; assumption).
    unfold jvalid_field in Hv. rewrite Hcard in Hv.
    destruct (json_elem_rt cd Hb64 o nm recv rect recd rec_null_shape fd fn x Hv He Hg) as (j & Hj & Hd & _).
    exists j. split.
    { destruct num as [|[[]|[]|]]; try exact Hj. destruct x as [[| | |]| |]; try exact Hj.
      apply negb_true_iff in Hx. rewrite Hx. exact Hj. }
    (* the JSON kind of j is the one dec_value maps back to this member *)
    unfold json_elem in Hj. unfold jvalid_elem in Hv.
    destruct Hp as [E|[E|[E|[E|[E|[E|[]]]]]]]; inversion E; subst fd fn; clear E.
    - (* null_value *)
      rewrite K1 in Hj, Hv. destruct x as [s| |]; try discriminate.
      unfold json_scalar_ok in Hv. apply andb_prop in Hv. destruct Hv as [Hv1 Hv2].
      destruct s as [z| | |]; try discriminate. cbn [json_scalar] in Hj. unfold json_enum in Hj. rewrite Enull in Hj.
      inversion Hj; subst j. rewrite Enull in Hv2. cbn [negb orb] in Hv2. apply Z.eqb_eq in Hv2. subst z.
      cbn [strip_unknown]. rewrite <- N1, Hk, Hfind. congruence.
    - (* number_value *)
      rewrite K2 in Hj, Hv. destruct x as [s| |]; try discriminate.
      unfold json_scalar_ok, rt_scalar_ok in Hv. destruct s as [|b| |]; cbn [sk_ok andb] in Hv; try discriminate.
      cbn [json_scalar] in Hj. rewrite <- Hk, N2 in Hx. apply negb_true_iff in Hx.
      apply orb_false_iff in Hx. destruct Hx as [Hx X3]. apply orb_false_iff in Hx. destruct Hx as [X1 X2].
      unfold json_float64 in Hj. rewrite X1, X2, X3 in Hj. inversion Hj; subst j.
      cbn [strip_unknown]. rewrite <- N2, Hk, Hfind. cbn [dec_float64 jbind]. congruence.
    - (* string_value *)
      rewrite K3 in Hj, Hv. destruct x as [s| |]; try discriminate.
      unfold json_scalar_ok, rt_scalar_ok in Hv. destruct s as [| | |b]; cbn [sk_ok andb] in Hv; try discriminate.
      cbn [json_scalar] in Hj. destruct (msg_utf8_valid b); [|discriminate]. inversion Hj; subst j.
      cbn [strip_unknown]. rewrite <- N3, Hk, Hfind. congruence.
    - (* bool_value *)
      rewrite K4 in Hj, Hv. destruct x as [s| |]; try discriminate.
      unfold json_scalar_ok, rt_scalar_ok in Hv. destruct s as [| |b|]; cbn [sk_ok andb] in Hv; try discriminate.
      cbn [json_scalar] in Hj. inversion Hj; subst j.
      cbn [strip_unknown]. rewrite <- N4, Hk, Hfind. congruence.
    - (* struct_value *)
      rewrite K5 in Hj, Hv. destruct x as [|xfs xunk|]; try discriminate.
      destruct (Hrec ts _ Hv) as (j' & Hj' & (_ & Hobj & _) & _). rewrite Hj in Hj'. inversion Hj'; subst j'.
      destruct (Hobj W5) as (l & ->).
      rewrite <- N5, Hk, Hfind, Hd. cbn [jbind]. congruence.
    - (* list_value *)
      rewrite K6 in Hj, Hv. destruct x as [|xfs xunk|]; try discriminate.
      destruct (Hrec tl _ Hv) as (j' & Hj' & (_ & _ & Harr) & _). rewrite Hj in Hj'. inversion Hj'; subst j'.
      destruct (Harr W6) as (l & ->).
      rewrite <- N6, Hk, Hfind, Hd. cbn [jbind]. congruence.
  Qed.
End W.

Section WMain.
  Variable cd : jcodec.
  Hypothesis Hb64 : forall bs, b64_dec cd (b64_enc cd bs) = Some bs.
  Variable o : jopts.
  Variable S : schema.
  Variable nm : names.
  Variable lim : nat.
  Hypothesis Hschema : json_schema_ok S nm = true.
  Hypothesis Hcore2 : json_core2 S nm = true.
  Hypothesis Hts : forall s n, ts_in_range s n = true -> ts_parse cd (ts_fmt cd s n) = Some (s, n).
  Hypothesis Hdur : forall s n, dur_in_range s n = true -> dur_parse cd (dur_fmt cd s n) = Some (s, n).

  Theorem json_roundtrip_wkt : forall fuel tid v,
    json_valid2 true (o_emit_unpop o) S nm lim fuel tid v = true ->
    exists j, to_json_msg cd o S nm lim fuel tid v = JOk j /\ shape_ok (wkt_of nm tid) j /\
              of_json_msg cd S nm fuel tid j = JOk (strip_unknown v).
  Proof.
    induction fuel as [|f IH]; intros tid v H; [discriminate|].
    cbn [json_valid2] in H. apply andb_prop in H. destruct H as [H Hrange]. apply andb_prop in H. destruct H as [H Hextra].
    apply andb_prop in H. destruct H as [Hlt Hb]. apply Nat.ltb_lt in Hlt.
    cbn [to_json_msg of_json_msg].
    set (recv := json_valid2 true (o_emit_unpop o) S nm lim f) in *.
    set (rect := to_json_msg cd o S nm lim f) in *.
    set (recd := of_json_msg cd S nm f) in *.
    pose proof (rec_null_shape nm recv rect recd IH) as Hrec1.
    pose proof Hb as Hb0.
    unfold jvalid_body in Hb. destruct v as [|fs unk|]; try discriminate.
    apply andb_prop in Hb. destruct Hb as [Hb Hf11]. apply andb_prop in Hb. destruct Hb as [Hb Ho].
    apply andb_prop in Hb. destruct Hb as [Hs Hc].
    unfold json_msg_body, of_json_body. change (mn_wkt (nm_msg nm tid)) with (wkt_of nm tid) in *.
    change (strip_unknown (VMsg fs unk)) with (VMsg (map sp fs) []).
    destruct (core2_cases S nm Hcore2 tid Hlt) as [E|[E|[E|[E|[E|[E|[E|[E|[E|E]]]]]]]]]; rewrite E in *; cbn iota.
    - (* ordinary *)
      destruct (json_ordinary_rt cd Hb64 o S nm Hschema recv rect recd Hrec1 tid fs Hlt) as (ms & Hm & Hd); try assumption.
      { apply (groups_ok S nm Hcore2 tid Hlt). }
      rewrite Hm. cbn [jbind]. eexists. split; [reflexivity|]. split; [|exact Hd].
      split; [discriminate|]. split; discriminate.
    - (* Any *)
      destruct (json_any_rt cd Hb64 o S nm lim Hschema Hcore2 recv rect recd IH tid fs Hlt E Hs Hc Hrange) as (j & Hj & Hnn & Hd).
      exists j. split; [exact Hj|]. split; [|exact Hd].
      split; [rewrite Hnn; discriminate|]. split; discriminate.
    - (* Timestamp *)
      destruct (secs_nanos_fs S nm Hcore2 recv tid fs Hlt (or_introl E) Hs Hc) as [Hsp Hfs].
      unfold json_timestamp, dec_timestamp. rewrite Hrange. eexists. split; [reflexivity|].
      split; [split; [discriminate|split; discriminate]|].
      rewrite (Hts _ _ Hrange). unfold ts_in_range in Hrange.
      apply andb_prop in Hrange. destruct Hrange as [Hr _]. apply andb_prop in Hr. destruct Hr as [Hr _]. rewrite Hr.
      rewrite Hsp, <- Hfs. reflexivity.
    - (* Duration *)
      destruct (secs_nanos_fs S nm Hcore2 recv tid fs Hlt (or_intror E) Hs Hc) as [Hsp Hfs].
      unfold json_duration, dec_duration. rewrite Hrange. eexists. split; [reflexivity|].
      split; [split; [discriminate|split; discriminate]|].
      assert (Hr2 : ((- max_dur_secs <=? get_z fs 1) && (get_z fs 1 <=? max_dur_secs))%Z = true).
      { unfold dur_in_range in Hrange. repeat (apply andb_prop in Hrange; destruct Hrange as [Hrange ?]).
        rewrite Hrange. assumption. }
      rewrite (Hdur _ _ Hrange), Hr2.
      rewrite Hsp, <- Hfs. reflexivity.
    - (* wrapper *)
      destruct (wrapper_rt cd Hb64 o S nm Hcore2 recv tid fs Hlt E Hs Hc) as (j & Hj & Hnn & Hd).
      exists j. split; [exact Hj|]. split; [|exact Hd].
      split; [rewrite Hnn; discriminate|]. split; discriminate.
    - (* Struct *)
      destruct (field1_rt cd Hb64 o S nm Hcore2 recv rect recd IH tid fs Hlt (or_introl E) Hs Hc) as (j & Hj & H5 & _ & Hd).
      exists j. split; [exact Hj|]. split; [|exact Hd].
      destruct (H5 E) as (l & ->). split; [discriminate|]. split; [intros _; exists l; reflexivity|discriminate].
    - (* ListValue *)
      destruct (field1_rt cd Hb64 o S nm Hcore2 recv rect recd IH tid fs Hlt (or_intror E) Hs Hc) as (j & Hj & _ & H6 & Hd).
      exists j. split; [exact Hj|]. split; [|exact Hd].
      destruct (H6 E) as (l & ->). split; [discriminate|]. split; [discriminate|intros _; exists l; reflexivity].
    - (* Value *)
      cbn [N.eqb Pos.eqb] in Hextra.
      destruct (value_rt cd Hb64 o S nm Hschema Hcore2 recv rect recd IH tid (VMsg fs unk) Hlt E Hb0 Hextra) as (j & Hj & Hd).
      exists j. split; [exact Hj|]. split; [|exact Hd].
      split; [reflexivity|]. split; discriminate.
    - (* FieldMask *)
      destruct (fieldmask_rt S nm Hcore2 recv tid fs Hlt E Hs Hc Hrange) as (j & Hj & Hnn & Hd).
      exists j. split; [exact Hj|]. split; [|exact Hd].
      split; [rewrite Hnn; discriminate|]. split; discriminate.
    - (* Empty *)
      destruct (json_ordinary_rt cd Hb64 o S nm Hschema recv rect recd Hrec1 tid fs Hlt) as (ms & Hm & Hd); try assumption.
      { apply (groups_ok S nm Hcore2 tid Hlt). }
      rewrite Hm. cbn [jbind]. eexists. split; [reflexivity|]. split; [split; [discriminate|split; discriminate]|].
      destruct (core2_at S nm Hcore2 tid Hlt) as [_ Hshape]. rewrite E in Hshape.
      unfold json_members in Hm. unfold dec_ordinary in Hd. rewrite Hshape in *.
      unfold rt_field_order in Hm. cbn in Hm. inversion Hm; subst ms.
      cbn [dec_empty]. cbn in Hd. exact Hd.
  Qed.
End WMain.

Theorem json_roundtrip_wkt_except_F11_partial cd (o : jopts) S nm lim fuel tid v :
  codec_ok cd ->
  json_schema_ok S nm = true -> json_core2 S nm = true ->
  json_valid2 true (o_emit_unpop o) S nm lim fuel tid v = true ->
  exists j, to_json cd o S nm lim fuel tid v = JOk j /\ of_json cd S nm fuel tid j = JOk (strip_unknown v).
Proof.
  intros (Hb & Ht & Hd0) Hs Hc Hv.
  destruct (json_roundtrip_wkt cd Hb (jo_tree o) S nm lim Hs Hc Ht Hd0 fuel tid v Hv) as (j & Hj & _ & Hd).
  exists j. split; assumption.
Qed.

(* with the executable codec of Json/JsonWktLite.v the base64 hypothesis is discharged (Json/JsonB64RtP.v);
   the Timestamp / Duration string forms remain hypotheses (C23) *)
From PB Require Import Json.JsonWktLite Json.JsonB64RtP.

Theorem json_roundtrip_std_except_F11_partial (o : jopts) S nm lim fuel tid v :
  (forall s n, ts_in_range s n = true -> ts_parse_canon (ts_format s n) = Some (s, n)) ->
  (forall s n, dur_in_range s n = true -> dur_parse_s (dur_format s n) = Some (s, n)) ->
  json_schema_ok S nm = true -> json_core2 S nm = true ->
  json_valid2 true (o_emit_unpop o) S nm lim fuel tid v = true ->
  exists j, to_json std_codec o S nm lim fuel tid v = JOk j /\ of_json std_codec S nm fuel tid j = JOk (strip_unknown v).
Proof.
  intros Ht Hd. apply json_roundtrip_wkt_except_F11_partial. split; [exact std_codec_b64|]. split; assumption.
Qed.

Theorem json_marshal_total_wkt_partial cd (o : jopts) S nm lim fuel tid v :
  codec_ok cd ->
  json_schema_ok S nm = true -> json_core2 S nm = true ->
  json_valid2 true (o_emit_unpop o) S nm lim fuel tid v = true ->
  exists j, to_json cd o S nm lim fuel tid v = JOk j.
Proof.
  intros Hb Hs Hc Hv. destruct (json_roundtrip_wkt_except_F11_partial cd o S nm lim fuel tid v Hb Hs Hc Hv) as (j & Hj & _).
  exists j. exact Hj.
Qed.
