(* 64-bit integers are written as JSON strings holding the decimal value, and read back
   exactly (marshalSingular / unmarshalInt). *)
From Coq Require Import List NArith ZArith Lia Bool.
From Coq Require Import ZifyBool ZifyNat ZifyN.
From PB Require Import Base.PBytes Json.JsonUtf8 Json.JsonGrammar Json.JsonNumModel Json.JsonNumP Json.JsonIntP
  Json.JsonLexModel Json.JsonStrP Json.JsonLexP Json.JsonEncModel Json.JsonEncP Json.JsonEncSpec Json.JsonEncGrammarP
  Json.JsonScalarModel Json.JsonScalarP Json.JsonQuotedP.
Import ListNotations.
Open Scope N_scope.
Ltac Zify.zify_post_hook ::= Z.div_mod_to_equations.

(* ---------- decimal printing is inverted by decimal parsing ---------- *)
Lemma dv_n2b d : d < 10 -> dv (n2b (48 + d)) = d.
Proof. intros H. unfold dv. rewrite b2n_n2b by lia. lia. Qed.

Lemma dec_digits_fuel_val fuel : forall n acc, n < 2 ^ N.of_nat fuel -> (0 < fuel)%nat ->
  dec_val (dec_digits_fuel fuel n acc) = n * p10 (length acc) + dec_val acc.
Proof.
  induction fuel as [|f IH]; intros n acc Hn Hf; [lia|]. cbn [dec_digits_fuel].
  destruct (n <? 10) eqn:E.
  - rewrite dec_val_cons, dv_n2b by lia. replace (n mod 10) with n by lia. reflexivity.
  - assert (Hf' : (0 < f)%nat) by (destruct f; [cbn in Hn; lia|lia]).
    rewrite Nat2N.inj_succ, N.pow_succ_r' in Hn.
    rewrite IH by lia. rewrite dec_val_cons, dv_n2b by lia. cbn [length p10].
    assert (Hdm : n = 10 * (n / 10) + n mod 10) by lia.
    set (q := n / 10) in *. set (r := n mod 10) in *. set (P := p10 (length acc)). clearbody q r P. rewrite Hdm. ring.
Qed.

Lemma dec_val_dec_digits n : dec_val (dec_digits n) = n.
Proof.
  unfold dec_digits. rewrite dec_digits_fuel_val; [cbn [length p10]; rewrite dec_val_nil; lia| |lia].
  rewrite Nat2N.inj_succ, N2Nat.id. destruct n; [cbn; lia|]. apply N.log2_spec. lia.
Qed.

(* ---------- the literal dec_int v denotes v ---------- *)
Lemma dec_digits_digits n : digits (dec_digits n) /\ dec_digits n <> [].
Proof. destruct (dec_digits_spec n) as (d & ds & -> & Hd & _). split; [exact Hd|discriminate]. Qed.

Definition int_sign (z : Z) : list byte := match z with Zneg _ => [c_minus] | _ => [] end.
Lemma dec_int_split z : dec_int z = int_sign z ++ dec_digits (Z.abs_N z).
Proof. destruct z; reflexivity. Qed.

Lemma span_digits_all d : digits d -> span_digits d = (d, []).
Proof. intros H. rewrite <- (app_nil_r d) at 1. apply span_digits_app; auto. exact I. Qed.

Lemma num_decompose_dec_int z :
  num_decompose (dec_int z) =
  {| nl_neg := match z with Zneg _ => true | _ => false end; nl_int := dec_digits (Z.abs_N z);
     nl_frac := []; nl_eneg := false; nl_exp := [] |}.
Proof.
  rewrite dec_int_split. destruct (dec_digits_digits (Z.abs_N z)) as [Hd Hne].
  pose proof (dec_digits_rfc_int (Z.abs_N z)) as Hi.
  unfold num_decompose. destruct z; cbn [int_sign app].
  - rewrite <- (app_nil_r (dec_digits _)) at 1. rewrite (nd_sign_int _ [] Hi), app_nil_r, (span_digits_all _ Hd). reflexivity.
  - rewrite <- (app_nil_r (dec_digits _)) at 1. rewrite (nd_sign_int _ [] Hi), app_nil_r, (span_digits_all _ Hd). reflexivity.
  - cbn [nd_sign]. rewrite is_refl, (span_digits_all _ Hd). reflexivity.
Qed.

Lemma lit_is_int_dec_int z : lit_is_int (dec_int z) z.
Proof.
  unfold lit_is_int, num_mant, num_exp10. rewrite num_decompose_dec_int. cbn [nl_neg nl_int nl_frac nl_eneg nl_exp length].
  rewrite app_nil_r, dec_val_dec_digits. cbn. destruct z; cbn; lia.
Qed.

Lemma f6_class_dec_int z : f6_class (dec_int z) = false.
Proof.
  destruct (number_shape _ (dec_int_rfc z)) as (neg & i & fd & eneg & esg & ed & _ & _ & _ & Hec & Hnd & Hpp).
  rewrite num_decompose_dec_int in Hnd. injection Hnd as _ _ <- _ <-.
  destruct Hec as [(-> & _) | (Hne & _)]; [|contradiction].
  unfold f6_class. rewrite Hpp. cbn [p_intp p_frac p_exp app]. destruct (intp_of i); reflexivity.
Qed.

Theorem token_int_dec_int bits z : 1 <= bits <= 64 -> int_in_range bits true z -> token_int bits (dec_int z) = Some z.
Proof.
  intros Hb Hr. apply token_int_complete; auto using dec_int_rfc, f6_class_dec_int, lit_is_int_dec_int.
Qed.

Theorem token_uint_dec_digits bits n : bits <= 64 -> n < 2 ^ bits -> token_uint bits (dec_digits n) = Some n.
Proof.
  intros Hb Hr.
  assert (E : dec_digits n = dec_int (Z.of_N n)) by (destruct n; reflexivity).
  rewrite E. rewrite (token_uint_complete bits _ (Z.of_N n)); auto using dec_int_rfc, f6_class_dec_int, lit_is_int_dec_int.
  - f_equal. lia.
  - unfold int_in_range. pose proof (N2Z.inj_pow 2 bits) as HP. change (Z.of_N 2) with 2%Z in HP. lia.
Qed.

(* the bytes of a decimal literal need no escaping *)
Definition numch (b : byte) : Prop := is_digit b = true \/ b = c_minus.

Lemma numch_facts b : numch b ->
  b2n b < 128 /\ 32 <= b2n b /\ is b c_quote = false /\ is b c_bslash = false.
Proof.
  intros [H | ->]; [|repeat split; reflexivity || (cbn; lia)].
  apply is_digit_b2n in H. rewrite !is_b2n_false by (cbn; lia). repeat split; lia.
Qed.

Lemma dec_int_numch z : Forall numch (dec_int z).
Proof.
  rewrite dec_int_split. apply Forall_app. split.
  - destruct z; cbn [int_sign]; auto. constructor; auto. now right.
  - destruct (dec_digits_digits (Z.abs_N z)) as [Hd _]. unfold digits in Hd. rewrite forallb_forall in Hd.
    apply Forall_forall. intros b Hb. left. auto.
Qed.

Lemma escape_loop_numch s : Forall numch s -> forall fuel, (length s < fuel)%nat -> escape_loop fuel s = (s, true).
Proof.
  induction 1 as [|b r Hb Hr IH]; intros fuel Hf; (destruct fuel as [|f]; [cbn [length] in Hf; lia|]); [reflexivity|].
  destruct (numch_facts b Hb) as (H128 & H32 & Hq & Hbs).
  cbn [escape_loop]. rewrite (decode_rune_ascii b r H128). unfold is_bad_rune, rune_error. cbn [fst snd skipn firstn].
  replace (b2n b =? 65533) with false by lia. cbn [andb].
  rewrite (IH f) by (cbn [length] in Hf; lia). rewrite Hq, Hbs. replace (b2n b <? 32) with false by lia. reflexivity.
Qed.

Lemma append_string_dec_int z : append_string (dec_int z) = (c_quote :: dec_int z ++ [c_quote], true).
Proof.
  unfold append_string, escape_string. rewrite (escape_loop_numch _ (dec_int_numch z)) by lia. reflexivity.
Qed.

Theorem quoted_number_token_dec_int z :
  quoted_number_token (dec_int z) = Some (number_token (dec_int z)).
Proof. exact (quoted_number_accepts _ (dec_int_rfc z)). Qed.

Definition string_token (raw str : list byte) (pos : nat) : token :=
  {| t_kind := KString; t_pos := pos; t_raw := raw; t_boo := false; t_str := str |}.

(* a String token whose content is the decimal text is read back at any width *)
Lemma unmarshal_int_dec_int bits z raw pos : 1 <= bits <= 64 -> int_in_range bits true z ->
  unmarshal_int bits (string_token raw (dec_int z) pos) = Some z.
Proof.
  intros Hb Hr. unfold unmarshal_int, string_token. cbn [t_kind t_str].
  rewrite quoted_number_token_dec_int. unfold tok_int, number_token. cbn [t_kind t_raw].
  now apply token_int_dec_int.
Qed.

Lemma unmarshal_uint_dec_digits bits n raw pos : bits <= 64 -> n < 2 ^ bits ->
  unmarshal_uint bits (string_token raw (dec_digits n) pos) = Some n.
Proof.
  intros Hb Hr. assert (E : dec_digits n = dec_int (Z.of_N n)) by (destruct n; reflexivity).
  unfold unmarshal_uint, string_token. cbn [t_kind t_str].
  rewrite E, quoted_number_token_dec_int. unfold tok_uint, number_token. cbn [t_kind t_raw]. rewrite <- E.
  now apply token_uint_dec_digits.
Qed.

(* marshalSingular: a 64-bit integer is one WriteString call; the bytes written are the
   quoted decimal value; the String token read back from them decodes to the same value *)
Theorem int64_written_as_string rnd e z :
  int_in_range 64 true z ->
  marshal_int 64 z = CString (dec_int z) /\
  fst (enc_call rnd (marshal_int 64 z) e) = emit (c_quote :: dec_int z ++ [c_quote]) (prepare_next rnd EKScalar e) /\
  (forall pos rest, parse_string_at pos ((c_quote :: dec_int z ++ [c_quote]) ++ rest)
                    = Ok (dec_int z, length (c_quote :: dec_int z ++ [c_quote]))) /\
  (forall raw pos, unmarshal_int 64 (string_token raw (dec_int z) pos) = Some z).
Proof.
  intros Hr. split; [reflexivity|]. split; [|split].
  - cbn [marshal_int N.eqb Pos.eqb enc_call]. rewrite append_string_dec_int. reflexivity.
  - intros pos rest. apply string_escape_roundtrip. apply append_string_dec_int.
  - intros raw pos. apply unmarshal_int_dec_int; [lia|exact Hr].
Qed.

Theorem uint64_written_as_string rnd e n :
  n < 2 ^ 64 ->
  marshal_uint 64 n = CString (dec_digits n) /\
  fst (enc_call rnd (marshal_uint 64 n) e) = emit (c_quote :: dec_digits n ++ [c_quote]) (prepare_next rnd EKScalar e) /\
  (forall raw pos, unmarshal_uint 64 (string_token raw (dec_digits n) pos) = Some n).
Proof.
  intros Hr. assert (E : dec_digits n = dec_int (Z.of_N n)) by (destruct n; reflexivity).
  split; [reflexivity|]. split.
  - cbn [marshal_uint N.eqb Pos.eqb enc_call]. rewrite E, append_string_dec_int. reflexivity.
  - intros raw pos. apply unmarshal_uint_dec_digits; [lia|exact Hr].
Qed.

(* 32-bit integers are written as bare numbers *)
Theorem int32_written_as_number rnd e z : int_in_range 32 true z ->
  fst (enc_call rnd (marshal_int 32 z) e) = emit (dec_int z) (prepare_next rnd EKScalar e) /\
  token_int 32 (dec_int z) = Some z.
Proof. intros Hr. split; [reflexivity|]. apply token_int_dec_int; auto. lia. Qed.
