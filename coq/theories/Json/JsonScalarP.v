(* Proofs about the protojson scalar layer (C22): quoted numbers, enums, floats relative to
   the strconv.ParseFloat oracle. *)
From Coq Require Import List NArith ZArith Lia Bool.
From Coq Require Import ZifyBool ZifyNat ZifyN.
From PB Require Import Base.PBytes Json.JsonUtf8 Json.JsonGrammar Json.JsonNumModel Json.JsonNumP Json.JsonIntP
  Json.JsonLexModel Json.JsonStrP Json.JsonLexP Json.JsonReadP Json.JsonEncModel Json.JsonScalarModel.
Import ListNotations.
Open Scope N_scope.

(* ---------- quoted numbers ---------- *)
Lemma rstep_comma_open last stack k k' stack' : rstep last stack k k' stack' -> k' = KComma -> stack <> [].
Proof.
  destruct 1 as [?|k Hk ?|? ?|k [-> | ->] ?|? ? ? ?|? ? ?|? ?]; try discriminate; auto.
  intros ->. discriminate.
Qed.

Lemma rstep_scalar last stack k k' stack' : rstep last stack k k' stack' -> is_scalar k' = true ->
  k = k' /\ stack' = stack.
Proof. destruct 1 as [?|k Hk ?|? ?|k [-> | ->] ?|? ? ? ?|? ? ?|? ?]; try discriminate; auto. Qed.

Lemma read_step_top_not_comma st tok st' :
  d_stack st = [] -> read_step st = Ok (tok, st') -> t_kind tok <> KComma.
Proof.
  intros Hs H E. apply read_step_spec in H as (tk & st1 & k' & stack' & Epn & Hr & _ & -> & _).
  destruct (parse_next_spec _ _ _ Epn) as (_ & _ & _ & _ & _ & _ & _ & Hk & _). rewrite Hs in Hk.
  apply (rstep_comma_open _ _ _ _ _ Hr E), Hk.
Qed.

Lemma read_top st tok st' : d_stack st = [] -> read st = Ok (tok, st') -> read_step st = Ok (tok, st').
Proof.
  intros Hs. unfold read. destruct (read_step st) as [[tok1 st1]|] eqn:E; [|discriminate].
  pose proof (read_step_top_not_comma _ _ _ Hs E) as Hne.
  destruct (t_kind tok1); try contradiction; auto.
Qed.

Theorem quoted_number_token_spec s t : quoted_number_token s = Some t -> t_kind t = KNumber ->
  exists w1 w2, ws w1 /\ ws w2 /\ s = w1 ++ t_raw t ++ w2 /\ rfc_number (t_raw t).
Proof.
  unfold quoted_number_token. destruct (trim_space_changes s); [discriminate|].
  destruct (read (d_init s)) as [[tok st]|] eqn:E1; [|discriminate].
  destruct (read st) as [[next st2]|] eqn:E2; [|discriminate].
  destruct (kind_eqb (t_kind next) KEOF) eqn:Ek; [|discriminate]. apply kind_eqb_eq in Ek.
  intros [= <-] Hnum.
  apply read_top in E1; [|reflexivity].
  (* first token: a number at top level *)
  pose proof E1 as E1'. apply read_step_spec in E1' as (tk & st1 & k' & stack' & Epn & Hr & _ & Etok & Est).
  destruct (parse_next_spec _ _ _ Epn) as (w1 & w2 & Hw1 & Hw2 & Hin & Hlex & Hl1 & Hk1 & _).
  cbn [d_init d_in d_last d_stack] in Hin, Hl1, Hk1.
  assert (Htk : tk = tok /\ d_in st = d_in st1 /\ d_stack st = []).
  { rewrite Etok in Hnum. cbn [t_kind set_kind] in Hnum. subst k'.
    destruct (rstep_scalar _ _ _ _ _ Hr eq_refl) as [Ekk ->]. rewrite Etok, Est, Hk1.
    destruct tk as [tkk tkp tkr tkb tks]. cbn [t_kind] in Ekk. subst tkk. auto. }
  destruct Htk as (-> & Hinst & Hst). rewrite Hnum in Hlex. cbn [lexeme] in Hlex.
  (* second token: EOF *)
  apply read_top in E2; auto.
  assert (Hinv : inv (w1 ++ t_raw tok ++ w2) (d_last st) (d_stack st)).
  { destruct (read_step_inv [] (d_init s) tok st) as (c & Hc & _ & Hne); auto.
    { cbn. left. auto using ws_nil. }
    rewrite Hnum in Hne. destruct (Hne ltac:(discriminate)) as [Hi _].
    cbn [d_init d_in app] in Hc. rewrite Hin, Hinst in Hc.
    assert (c = w1 ++ t_raw tok ++ w2).
    { rewrite !app_assoc in Hc. apply app_inv_tail in Hc. rewrite <- Hc. now rewrite <- !app_assoc. }
    subst c. exact Hi. }
  destruct (read_step_inv _ st next st2 Hinv E2) as (c2 & Hc2 & Heof & _).
  destruct (Heof Ek) as (Hnil & Hwc & _). rewrite Hnil, app_nil_r in Hc2.
  exists w1, (w2 ++ c2). split; auto. split; [now apply ws_app|]. split; auto.
  rewrite Hin, <- Hinst, Hc2. reflexivity.
Qed.

(* unmarshalInt / unmarshalUint: a bare number token, or a string holding one between white space,
   is handed to the same token reader [tokf] *)
Lemma unmarshal_num_sound {A} (tokf : list byte -> option A) (P : list byte -> A -> Prop) :
  (forall raw v, rfc_number raw -> tokf raw = Some v -> P raw v) ->
  forall tok v, lexeme (t_kind tok) (t_raw tok) ->
  let tk t := match t_kind t with KNumber => tokf (t_raw t) | _ => None end in
  match t_kind tok with
  | KNumber => tk tok
  | KString => match quoted_number_token (t_str tok) with Some t => tk t | None => None end
  | _ => None
  end = Some v ->
  exists raw, rfc_number raw /\ P raw v /\
    ((t_kind tok = KNumber /\ raw = t_raw tok) \/
     (t_kind tok = KString /\ exists w1 w2, ws w1 /\ ws w2 /\ t_str tok = w1 ++ raw ++ w2)).
Proof.
  intros HP tok v Hlex tk. unfold tk. destruct (t_kind tok) eqn:Ek; try discriminate.
  - cbn [lexeme] in Hlex. intros H. exists (t_raw tok). split; [auto|]. split; [now apply HP|]. left; auto.
  - destruct (quoted_number_token (t_str tok)) as [t|] eqn:Eq; [|discriminate].
    destruct (t_kind t) eqn:Ekt; try discriminate. intros H.
    destruct (quoted_number_token_spec _ _ Eq Ekt) as (w1 & w2 & Hw1 & Hw2 & Hs & Hn).
    exists (t_raw t). split; [auto|]. split; [now apply HP|]. right. split; auto. exists w1, w2. auto.
Qed.

(* what is accepted is the exact value *)
Theorem unmarshal_int_sound bits tok v : 1 <= bits -> lexeme (t_kind tok) (t_raw tok) ->
  unmarshal_int bits tok = Some v ->
  exists raw, rfc_number raw /\ lit_is_int raw v /\ int_in_range bits true v /\
    ((t_kind tok = KNumber /\ raw = t_raw tok) \/
     (t_kind tok = KString /\ exists w1 w2, ws w1 /\ ws w2 /\ t_str tok = w1 ++ raw ++ w2)).
Proof.
  intros Hb Hlex H.
  destruct (unmarshal_num_sound (token_int bits) (fun raw v => lit_is_int raw v /\ int_in_range bits true v)
              (fun raw v Hn => token_int_sound bits raw v Hb Hn) tok v Hlex H) as (raw & Hn & [H1 H2] & Hp).
  exists raw. auto.
Qed.

Theorem unmarshal_uint_sound bits tok v : lexeme (t_kind tok) (t_raw tok) ->
  unmarshal_uint bits tok = Some v ->
  exists raw, rfc_number raw /\ lit_is_int raw (Z.of_N v) /\ int_in_range bits false (Z.of_N v) /\
    ((t_kind tok = KNumber /\ raw = t_raw tok) \/
     (t_kind tok = KString /\ exists w1 w2, ws w1 /\ ws w2 /\ t_str tok = w1 ++ raw ++ w2)).
Proof.
  intros Hlex H.
  destruct (unmarshal_num_sound (token_uint bits)
              (fun raw v => lit_is_int raw (Z.of_N v) /\ int_in_range bits false (Z.of_N v))
              (fun raw v Hn => token_uint_sound bits raw v Hn) tok v Hlex H) as (raw & Hn & [H1 H2] & Hp).
  exists raw. auto.
Qed.

(* ---------- enums: by name or by number ---------- *)
Lemma bytes_eqb_eq a b : bytes_eqb a b = true -> a = b.
Proof.
  unfold bytes_eqb. rewrite andb_true_iff. intros [Hl Hf]. apply Nat.eqb_eq in Hl.
  revert b Hl Hf. induction a as [|x a IH]; intros [|y b] Hl Hf; cbn [length] in Hl; try discriminate; auto.
  cbn [combine forallb fst snd] in Hf. apply andb_true_iff in Hf as [H1 H2]. apply is_true in H1.
  subst. f_equal. apply IH; auto.
Qed.
Lemma bytes_eqb_refl a : bytes_eqb a a = true.
Proof.
  unfold bytes_eqb. rewrite Nat.eqb_refl. cbn [andb]. induction a as [|x a IH]; [reflexivity|].
  cbn [combine forallb fst snd]. now rewrite is_refl.
Qed.

Theorem enum_by_name_spec values s v : enum_by_name values s = Some v ->
  exists pre post, values = pre ++ (s, v) :: post /\ forall n w, In (n, w) pre -> n <> s.
Proof.
  induction values as [|[n w] r IH]; cbn [enum_by_name]; [discriminate|].
  destruct (bytes_eqb n s) eqn:E.
  - intros [= <-]. apply bytes_eqb_eq in E. subst. exists [], r. split; auto.
  - intros H. destruct (IH H) as (pre & post & -> & Hpre). exists ((n, w) :: pre), post. split; auto.
    intros n' w' [[= <- <-] | Hin]; [|eauto]. intros ->. rewrite bytes_eqb_refl in E. discriminate.
Qed.

Theorem enum_name_decodes values discard tok s v :
  t_kind tok = KString -> t_str tok = s -> enum_by_name values s = Some v ->
  unmarshal_enum values discard tok = Some (Some v).
Proof. intros Hk Hs Hv. unfold unmarshal_enum. now rewrite Hk, Hs, Hv. Qed.

Theorem enum_number_decodes values discard tok v :
  t_kind tok = KNumber -> rfc_number (t_raw tok) ->
  (unmarshal_enum values discard tok = Some (Some v) <-> token_int 32 (t_raw tok) = Some v).
Proof.
  intros Hk Hn. unfold unmarshal_enum, tok_int. rewrite Hk.
  destruct (token_int 32 (t_raw tok)); split; congruence.
Qed.

Theorem enum_number_exact values discard tok v :
  t_kind tok = KNumber -> rfc_number (t_raw tok) -> unmarshal_enum values discard tok = Some (Some v) ->
  lit_is_int (t_raw tok) v /\ int_in_range 32 true v.
Proof.
  intros Hk Hn H. apply (enum_number_decodes values discard tok v Hk Hn) in H.
  apply token_int_sound; auto. lia.
Qed.

(* ---------- floats, relative to strconv.ParseFloat ---------- *)
Section FloatP.
  Variable parse_float : N -> list byte -> option N.
  (* the oracle hypothesis: what "correctly rounded" means is left to the oracle's specification *)
  Variable correctly_rounded : N -> list byte -> N -> Prop.
  Hypothesis parse_float_rounds : forall bits s b, parse_float bits s = Some b -> correctly_rounded bits s b.

  Theorem float_decode_number bits tok b : t_kind tok = KNumber ->
    unmarshal_float parse_float bits tok = Some (FNum b) -> correctly_rounded bits (t_raw tok) b.
  Proof.
    intros Hk. unfold unmarshal_float, tok_float. rewrite Hk.
    destruct (parse_float bits (t_raw tok)) eqn:E; [|discriminate]. intros [= <-]. auto.
  Qed.

  (* the literal is parsed once, at the requested width: no detour through another width *)
  Theorem float_decode_is_oracle bits tok : t_kind tok = KNumber ->
    unmarshal_float parse_float bits tok =
    match parse_float bits (t_raw tok) with Some b => Some (FNum b) | None => None end.
  Proof. intros Hk. unfold unmarshal_float, tok_float. now rewrite Hk. Qed.

  Theorem float_decode_quoted bits tok b : t_kind tok = KString ->
    unmarshal_float parse_float bits tok = Some (FNum b) ->
    exists raw w1 w2, rfc_number raw /\ ws w1 /\ ws w2 /\ t_str tok = w1 ++ raw ++ w2 /\
                      correctly_rounded bits raw b.
  Proof.
    intros Hk. unfold unmarshal_float. rewrite Hk.
    destruct (bytes_eqb (t_str tok) str_nan); [discriminate|].
    destruct (bytes_eqb (t_str tok) str_inf); [discriminate|].
    destruct (bytes_eqb (t_str tok) (c_minus :: str_inf)); [discriminate|].
    destruct (quoted_number_token (t_str tok)) as [t|] eqn:Eq; [|discriminate].
    unfold tok_float. destruct (t_kind t) eqn:Ekt; try discriminate.
    destruct (parse_float bits (t_raw t)) eqn:E; [|discriminate]. intros [= <-].
    destruct (quoted_number_token_spec _ _ Eq Ekt) as (w1 & w2 & Hw1 & Hw2 & Hs & Hn).
    exists (t_raw t), w1, w2. repeat split; auto.
  Qed.

  Theorem float_special_strings bits tok : t_kind tok = KString ->
    (t_str tok = str_nan -> unmarshal_float parse_float bits tok = Some FNaN) /\
    (t_str tok = str_inf -> unmarshal_float parse_float bits tok = Some (FInf false)) /\
    (t_str tok = c_minus :: str_inf -> unmarshal_float parse_float bits tok = Some (FInf true)).
  Proof.
    intros Hk. unfold unmarshal_float. rewrite Hk. repeat split; intros ->; reflexivity.
  Qed.
End FloatP.
