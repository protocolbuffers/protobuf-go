(* If the Decoder reads tokens to EOF without error (and read at least one token) then the
   input is a strict JSON text (JsonStrict.v; here in its token-free form [xvalue]).  Simulation
   argument: the consumed prefix always decomposes into whitespace and one partial container
   per open-stack entry.  JsonLexP.v derives the RFC 8259 statement; together with
   JsonLexCompleteP.v this characterises the accepted language and the tokens read. *)
From Coq Require Import List NArith ZArith Lia Bool.
From Coq Require Import ZifyBool ZifyNat ZifyN.
From PB Require Import Base.PBytes Json.JsonUtf8 Json.JsonGrammar Json.JsonNumModel Json.JsonNumP
  Json.JsonBytesP Json.JsonLexModel Json.JsonStrP Json.JsonStrict Json.JsonReadP.
Import ListNotations.
Open Scope N_scope.

Definition tstring (k : list byte) : Prop := exists d, sstring k d.

(* the strict grammar without its token index *)
Inductive xvalue : list byte -> Prop :=
| XNull : xvalue lit_null
| XTrue : xvalue lit_true
| XFalse : xvalue lit_false
| XNum s : rfc_number s -> xvalue s
| XStr s : tstring s -> xvalue s
| XArrE w : ws w -> xvalue (c_lbrack :: w ++ [c_rbrack])
| XArr p : xelems p -> xvalue (c_lbrack :: p ++ [c_rbrack])
| XObjE w : ws w -> xvalue (c_lbrace :: w ++ [c_rbrace])
| XObj p : xmembers p -> xvalue (c_lbrace :: p ++ [c_rbrace])
with xelems : list byte -> Prop :=
| XE1 w1 v w2 : ws w1 -> xvalue v -> ws w2 -> xelems (w1 ++ v ++ w2)
| XEs p w1 v w2 : xelems p -> ws w1 -> xvalue v -> ws w2 -> xelems (p ++ c_comma :: w1 ++ v ++ w2)
with xmembers : list byte -> Prop :=
| XM1 w1 k w2 w3 v w4 : ws w1 -> tstring k -> ws w2 -> ws w3 -> xvalue v -> ws w4 ->
    xmembers (w1 ++ k ++ w2 ++ c_colon :: w3 ++ v ++ w4)
| XMs p w1 k w2 w3 v w4 : xmembers p -> ws w1 -> tstring k -> ws w2 -> ws w3 -> xvalue v -> ws w4 ->
    xmembers (p ++ c_comma :: w1 ++ k ++ w2 ++ c_colon :: w3 ++ v ++ w4).
Definition xtext (s : list byte) : Prop :=
  exists w1 v w2, s = w1 ++ v ++ w2 /\ ws w1 /\ xvalue v /\ ws w2.

Scheme xvalue_mind := Minimality for xvalue Sort Prop
  with xelems_mind := Minimality for xelems Sort Prop
  with xmembers_mind := Minimality for xmembers Sort Prop.
Combined Scheme x_mutind from xvalue_mind, xelems_mind, xmembers_mind.

Lemma x_has_tokens :
  (forall v, xvalue v -> exists ks, svalue v ks) /\ (forall p, xelems p -> exists ks, selems p ks) /\
  (forall p, xmembers p -> exists ks, smembers p ks).
Proof.
  apply x_mutind; intros;
    repeat match goal with H : exists _, _ |- _ => destruct H end; unfold tstring in *;
    repeat match goal with H : exists _, _ |- _ => destruct H end.
  - eexists; apply SNull.
  - eexists; apply STrue.
  - eexists; apply SFalse.
  - eexists; apply SNum; eauto.
  - eexists; eapply SStr; eauto.
  - eexists; apply SArrE; eauto.
  - eexists; eapply SArr; eauto.
  - eexists; apply SObjE; eauto.
  - eexists; eapply SObj; eauto.
  - eexists; eapply SE1; eauto.
  - eexists; eapply SEs; eauto.
  - eexists; eapply SM1; eauto.
  - eexists; eapply SMs; eauto.
Qed.

Theorem xtext_stext s : xtext s -> exists ks, stext s ks.
Proof.
  intros (w1 & v & w2 & -> & H1 & Hv & H2). destruct (proj1 x_has_tokens v Hv) as (ks & Hk).
  exists ks, w1, v, w2. auto.
Qed.

Lemma ws_app a b : ws a -> ws b -> ws (a ++ b).
Proof. intros Ha Hb. now apply ws_app_iff. Qed.
#[local] Hint Resolve ws_nil ws_app : core.

Definition arr_open (p : list byte) : Prop := exists w, ws w /\ p = c_lbrack :: w.
Definition arr_comma (p : list byte) : Prop := exists q w, xelems q /\ ws w /\ p = c_lbrack :: q ++ c_comma :: w.
Definition arr_val (p : list byte) : Prop := exists q, xelems q /\ p = c_lbrack :: q.
Definition obj_open (p : list byte) : Prop := exists w, ws w /\ p = c_lbrace :: w.
Definition obj_comma (p : list byte) : Prop := exists q w, xmembers q /\ ws w /\ p = c_lbrace :: q ++ c_comma :: w.
Definition obj_name (p : list byte) : Prop :=
  exists pre k w2 w3, (obj_open pre \/ obj_comma pre) /\ tstring k /\ ws w2 /\ ws w3 /\
                      p = pre ++ k ++ w2 ++ c_colon :: w3.
Definition obj_val (p : list byte) : Prop := exists q, xmembers q /\ p = c_lbrace :: q.

(* trailing whitespace is absorbed *)
Lemma xelems_ws q w : xelems q -> ws w -> xelems (q ++ w).
Proof.
  intros H Hw. destruct H as [w1 v w2 H1 Hv H2 | p w1 v w2 Hp H1 Hv H2].
  - replace ((w1 ++ v ++ w2) ++ w) with (w1 ++ v ++ (w2 ++ w)) by app_eq. constructor; auto.
  - replace ((p ++ c_comma :: w1 ++ v ++ w2) ++ w) with (p ++ c_comma :: w1 ++ v ++ (w2 ++ w)) by app_eq.
    constructor; auto.
Qed.
Lemma xmembers_ws q w : xmembers q -> ws w -> xmembers (q ++ w).
Proof.
  intros H Hw. destruct H as [w1 k w2 w3 v w4 H1 Hk H2 H3 Hv H4 | p w1 k w2 w3 v w4 Hp H1 Hk H2 H3 Hv H4].
  - replace ((w1 ++ k ++ w2 ++ c_colon :: w3 ++ v ++ w4) ++ w)
      with (w1 ++ k ++ w2 ++ c_colon :: w3 ++ v ++ (w4 ++ w)) by app_eq. constructor; auto.
  - replace ((p ++ c_comma :: w1 ++ k ++ w2 ++ c_colon :: w3 ++ v ++ w4) ++ w)
      with (p ++ c_comma :: w1 ++ k ++ w2 ++ c_colon :: w3 ++ v ++ (w4 ++ w)) by app_eq. constructor; auto.
Qed.
Lemma arr_open_ws p w : arr_open p -> ws w -> arr_open (p ++ w).
Proof. intros (w0 & H0 & ->) Hw. exists (w0 ++ w). split; auto. Qed.
Lemma arr_comma_ws p w : arr_comma p -> ws w -> arr_comma (p ++ w).
Proof. intros (q & w0 & Hq & H0 & ->) Hw. exists q, (w0 ++ w). repeat split; auto. app_eq. Qed.
Lemma arr_val_ws p w : arr_val p -> ws w -> arr_val (p ++ w).
Proof. intros (q & Hq & ->) Hw. exists (q ++ w). split; auto using xelems_ws. Qed.
Lemma obj_open_ws p w : obj_open p -> ws w -> obj_open (p ++ w).
Proof. intros (w0 & H0 & ->) Hw. exists (w0 ++ w). split; auto. Qed.
Lemma obj_comma_ws p w : obj_comma p -> ws w -> obj_comma (p ++ w).
Proof. intros (q & w0 & Hq & H0 & ->) Hw. exists q, (w0 ++ w). repeat split; auto. app_eq. Qed.
Lemma obj_name_ws p w : obj_name p -> ws w -> obj_name (p ++ w).
Proof.
  intros (pre & k & w2 & w3 & Hpre & Hk & H2 & H3 & ->) Hw. exists pre, k, w2, (w3 ++ w).
  repeat split; auto. app_eq.
Qed.
Lemma obj_val_ws p w : obj_val p -> ws w -> obj_val (p ++ w).
Proof. intros (q & Hq & ->) Hw. exists (q ++ w). split; auto using xmembers_ws. Qed.
Lemma xtext_ws p w : xtext p -> ws w -> xtext (p ++ w).
Proof. intros (w1 & v & w2 & -> & H1 & Hv & H2) Hw. exists w1, v, (w2 ++ w). repeat split; auto. app_eq. Qed.

(* extension by a value, a comma, a name; closing *)
Lemma arr_open_value p v w : arr_open p -> xvalue v -> ws w -> arr_val (p ++ v ++ w).
Proof. intros (w0 & H0 & ->) Hv Hw. exists (w0 ++ v ++ w). split; [constructor; auto|app_eq]. Qed.
Lemma arr_comma_value p v w : arr_comma p -> xvalue v -> ws w -> arr_val (p ++ v ++ w).
Proof.
  intros (q & w0 & Hq & H0 & ->) Hv Hw. exists (q ++ c_comma :: w0 ++ v ++ w). split; [constructor; auto|app_eq].
Qed.
Lemma arr_val_comma p w : arr_val p -> ws w -> arr_comma (p ++ c_comma :: w).
Proof. intros (q & Hq & ->) Hw. exists q, w. repeat split; auto. Qed.
Lemma arr_open_close p : arr_open p -> xvalue (p ++ [c_rbrack]).
Proof. intros (w0 & H0 & ->). cbn [app]. now constructor. Qed.
Lemma arr_val_close p : arr_val p -> xvalue (p ++ [c_rbrack]).
Proof. intros (q & Hq & ->). cbn [app]. now apply XArr. Qed.
Lemma obj_key p k w2 w3 : obj_open p \/ obj_comma p -> tstring k -> ws w2 -> ws w3 ->
  obj_name (p ++ k ++ w2 ++ c_colon :: w3).
Proof. intros Hp Hk H2 H3. exists p, k, w2, w3. auto. Qed.
Lemma obj_name_value p v w : obj_name p -> xvalue v -> ws w -> obj_val (p ++ v ++ w).
Proof.
  intros (pre & k & w2 & w3 & Hpre & Hk & H2 & H3 & ->) Hv Hw.
  destruct Hpre as [(w0 & H0 & ->) | (q & w0 & Hq & H0 & ->)].
  - exists (w0 ++ k ++ w2 ++ c_colon :: w3 ++ v ++ w). split; [constructor; auto|app_eq].
  - exists (q ++ c_comma :: w0 ++ k ++ w2 ++ c_colon :: w3 ++ v ++ w). split; [constructor; auto|app_eq].
Qed.
Lemma obj_val_comma p w : obj_val p -> ws w -> obj_comma (p ++ c_comma :: w).
Proof. intros (q & Hq & ->) Hw. exists q, w. repeat split; auto. Qed.
Lemma obj_open_close p : obj_open p -> xvalue (p ++ [c_rbrace]).
Proof. intros (w0 & H0 & ->). cbn [app]. now apply XObjE. Qed.
Lemma obj_val_close p : obj_val p -> xvalue (p ++ [c_rbrace]).
Proof. intros (q & Hq & ->). cbn [app]. now apply XObj. Qed.

(* parseNext: whitespace, one lexeme, whitespace *)
Definition slexeme (k : kind) (raw : list byte) : Prop :=
  match k with
  | KEOF => raw = []
  | KNull => raw = lit_null
  | KBool => raw = lit_true \/ raw = lit_false
  | KNumber => rfc_number raw
  | KString => tstring raw
  | KObjOpen => raw = [c_lbrace] | KObjClose => raw = [c_rbrace]
  | KArrOpen => raw = [c_lbrack] | KArrClose => raw = [c_rbrack]
  | KComma => raw = [c_comma]
  | _ => False
  end.

Lemma consume_spec n st : (n <= length (d_in st))%nat ->
  exists w, ws w /\ d_in st = firstn n (d_in st) ++ w ++ d_in (consume n st) /\
            d_last (consume n st) = d_last st /\ d_stack (consume n st) = d_stack st.
Proof.
  intros Hn. unfold consume. cbn [d_in d_last d_stack].
  destruct (skip_ws_spec (skipn n (d_in st))) as (w & Hs & Hw). exists w. repeat split; auto.
  rewrite <- Hs. symmetry. apply firstn_skipn.
Qed.

Lemma match_with_delim_spec lit inp n : match_with_delim lit inp = S n ->
  firstn (S n) inp = lit /\ (S n <= length inp)%nat.
Proof.
  unfold match_with_delim. destruct (strip_prefix lit inp) as [r|] eqn:E; [|discriminate].
  apply strip_prefix_spec in E. subst inp. intros H.
  assert (Hl : S n = length lit).
  { destruct r as [|c r]; [congruence|]. destruct (is_not_delim c); congruence. }
  rewrite Hl, firstn_app_len, app_length. split; auto. lia.
Qed.

(* [tok] is the first lexeme of [st]'s input; [st'] is [st] moved past it and the whitespace around it *)
Definition lexed (st : dstate) (tok : token) (st' : dstate) : Prop :=
  exists w1 w2, ws w1 /\ ws w2 /\ d_in st = w1 ++ t_raw tok ++ w2 ++ d_in st' /\
    slexeme (t_kind tok) (t_raw tok) /\ d_last st' = d_last st /\ d_stack st' = d_stack st /\
    (t_kind tok = KEOF -> d_in st' = []).

Lemma mk_token_lexed st k size boo str tok st' :
  (size <= length (d_in (consume 0 st)))%nat -> slexeme k (firstn size (d_in (consume 0 st))) ->
  (k = KEOF -> d_in (consume 0 st) = []) ->
  Ok (mk_token k size boo str (consume 0 st)) = Ok (tok, st') -> lexed st tok st'.
Proof.
  destruct (consume_spec 0 st ltac:(lia)) as (w1 & Hw1 & Hs1 & Hl1 & Hk1). cbn [firstn app] in Hs1.
  set (st1 := consume 0 st) in *. clearbody st1. intros Hsz Hlex Heof. unfold mk_token. intros [= <- <-]. cbn [t_raw t_kind].
  destruct (consume_spec size st1 Hsz) as (w2 & Hw2 & Hs2 & Hl2 & Hk2).
  exists w1, w2. split; auto. split; auto. split; [rewrite Hs1; f_equal; exact Hs2|].
  split; [exact Hlex|]. split; [congruence|]. split; [congruence|].
  intros HE. rewrite (Heof HE) in Hs2. destruct size; cbn [firstn app] in Hs2; destruct w2; try discriminate; auto.
Qed.

Theorem parse_next_strict st tok st' : parse_next st = Ok (tok, st') -> lexed st tok st'.
Proof.
  unfold parse_next. destruct (d_in (consume 0 st)) as [|b r] eqn:Ein.
  { apply mk_token_lexed; rewrite Ein; cbn [length]; auto. reflexivity. }
  assert (Hone : forall k c, b = c -> slexeme k [c] -> k <> KEOF ->
            Ok (mk_token k 1 false [] (consume 0 st)) = Ok (tok, st') -> lexed st tok st').
  { intros k c -> Hlex Hne. apply mk_token_lexed; rewrite Ein; cbn [length firstn]; auto; try lia. intros; contradiction. }
  destruct (is b "n"%byte).
  { destruct (match_with_delim lit_null (b :: r)) as [|n] eqn:E; [discriminate|].
    apply match_with_delim_spec in E as [E1 E2].
    apply mk_token_lexed; rewrite Ein; auto; discriminate. }
  destruct (is b "t"%byte).
  { destruct (match_with_delim lit_true (b :: r)) as [|n] eqn:E; [discriminate|].
    apply match_with_delim_spec in E as [E1 E2].
    apply mk_token_lexed; rewrite Ein; auto; try discriminate. left; exact E1. }
  destruct (is b "f"%byte).
  { destruct (match_with_delim lit_false (b :: r)) as [|n] eqn:E; [discriminate|].
    apply match_with_delim_spec in E as [E1 E2].
    apply mk_token_lexed; rewrite Ein; auto; try discriminate. right; exact E1. }
  destruct (is b c_minus || is_digit b).
  { destruct (parse_number (b :: r)) as [n|] eqn:E; [|discriminate].
    apply parse_number_sound in E as (E1 & _ & E2).
    apply mk_token_lexed; rewrite Ein; auto; try lia; discriminate. }
  destruct (is b c_quote).
  { destruct (parse_string_at _ (b :: r)) as [[s n]|] eqn:E; [|discriminate].
    apply parse_string_at_strict in E as (E1 & E2).
    apply mk_token_lexed; rewrite Ein; try lia; [exists s; exact E1|discriminate]. }
  destruct (is b c_lbrace) eqn:E1. { apply is_true in E1. eapply Hone; eauto. reflexivity. discriminate. }
  destruct (is b c_rbrace) eqn:E2. { apply is_true in E2. eapply Hone; eauto. reflexivity. discriminate. }
  destruct (is b c_lbrack) eqn:E3. { apply is_true in E3. eapply Hone; eauto. reflexivity. discriminate. }
  destruct (is b c_rbrack) eqn:E4. { apply is_true in E4. eapply Hone; eauto. reflexivity. discriminate. }
  destruct (is b c_comma) eqn:E5. { apply is_true in E5. eapply Hone; eauto. reflexivity. discriminate. }
  discriminate.
Qed.

(* The invariant.  The consumed prefix P is leading whitespace followed by one frame (the bytes of a
   partial container) per entry of the open stack, innermost last.  Every frame below the top
   is at a point where a value is due ([awaiting]: it is its child that is open); what the top
   frame looks like is determined by the kind of the last token ([top_ok]).  With an empty stack
   P is whitespace (nothing read yet) or a complete text. *)
Definition awaiting (k : kind) (f : list byte) : Prop :=
  match k with KArrOpen => arr_open f \/ arr_comma f | KObjOpen => obj_name f | _ => False end.
Definition top_ok (k last : kind) (f : list byte) : Prop :=
  match k with
  | KArrOpen => match last with
                | KArrOpen => arr_open f | KComma => arr_comma f
                | _ => is_value_end last = true /\ arr_val f end
  | KObjOpen => match last with
                | KObjOpen => obj_open f | KComma => obj_comma f | KName => obj_name f
                | _ => is_value_end last = true /\ obj_val f end
  | _ => False
  end.
Fixpoint lower_ok (ks : list kind) (fs : list (list byte)) : Prop :=
  match ks, fs with
  | [], [] => True
  | k :: ks', f :: fs' => awaiting k f /\ lower_ok ks' fs'
  | _, _ => False
  end.
Definition inv (P : list byte) (last : kind) (stack : list kind) : Prop :=
  match stack with
  | [] => (last = KInvalid /\ ws P) \/ (is_value_end last = true /\ xtext P)
  | k :: ks => exists w0 f fs, ws w0 /\ top_ok k last f /\ lower_ok ks fs /\ P = w0 ++ concat (rev fs) ++ f
  end.

(* [top_ok] is a table over (k, last); the proofs about it walk through the table, and each
   entry is one of the partial-container lemmas above *)
Lemma top_ok_ws k last f w : top_ok k last f -> ws w -> top_ok k last (f ++ w).
Proof.
  intros H Hw. destruct k; try contradiction; destruct last; cbn [top_ok] in *;
    try (destruct H as [Hv H]; split; [exact Hv|]);
    auto using arr_open_ws, arr_comma_ws, arr_val_ws, obj_open_ws, obj_comma_ws, obj_name_ws, obj_val_ws.
Qed.

Lemma inv_ws P last stack w : inv P last stack -> ws w -> inv (P ++ w) last stack.
Proof.
  intros H Hw. destruct stack as [|k ks]; cbn [inv] in *.
  - destruct H as [[H1 H2] | [H1 H2]]; [left | right]; auto using xtext_ws.
  - destruct H as (w0 & f & fs & H0 & Ht & Hl & ->). exists w0, (f ++ w), fs.
    repeat split; auto using top_ok_ws. app_eq.
Qed.

Lemma top_ok_value_end_arr l f : is_value_end l = true -> arr_val f -> top_ok KArrOpen l f.
Proof. intros Hl Hf. destruct l; try discriminate; cbn [top_ok]; auto. Qed.
Lemma top_ok_value_end_obj l f : is_value_end l = true -> obj_val f -> top_ok KObjOpen l f.
Proof. intros Hl Hf. destruct l; try discriminate; cbn [top_ok]; auto. Qed.

(* the frame on top takes a value when isValueNext holds *)
Lemma top_awaiting last k ks f : value_next last (k :: ks) = true -> top_ok k last f -> awaiting k f.
Proof.
  unfold value_next, is_value_next. cbn [d_stack d_last]. intros Hv Ht. destruct k; try contradiction; cbn [awaiting].
  - apply kind_eqb_eq in Hv. rewrite Hv in Ht. exact Ht.
  - apply orb_true_iff in Hv as [Hv | Hv]; apply kind_eqb_eq in Hv; rewrite Hv in Ht; cbn [top_ok] in Ht; auto.
Qed.

Lemma awaiting_value k f v w l : awaiting k f -> xvalue v -> ws w -> is_value_end l = true ->
  top_ok k l (f ++ v ++ w).
Proof.
  intros Ha Hv Hw Hl. destruct k; try contradiction; cbn [awaiting] in Ha.
  - apply top_ok_value_end_obj; auto using obj_name_value.
  - apply top_ok_value_end_arr; auto. destruct Ha; auto using arr_open_value, arr_comma_value.
Qed.

(* a complete value (scalar, or a container just closed) arrives in context (ks, fs) *)
Lemma inv_value_in w0 ks fs v w l : ws w0 -> lower_ok ks fs -> xvalue v -> ws w -> is_value_end l = true ->
  inv (w0 ++ concat (rev fs) ++ v ++ w) l ks.
Proof.
  intros H0 Hl Hv Hw Hle. destruct ks as [|k ks]; destruct fs as [|f fs]; cbn [lower_ok] in Hl; try contradiction.
  - cbn [inv rev concat app]. right. split; auto. exists w0, v, w. auto.
  - destruct Hl as [Ha Hl]. cbn [inv]. exists w0, (f ++ v ++ w), fs. repeat split; auto using awaiting_value.
    cbn [rev]. rewrite concat_app. cbn [concat]. app_eq.
Qed.

(* where a value may start, the prefix is whitespace and frames all awaiting a value *)
Lemma inv_value_next P last stack : inv P last stack -> value_next last stack = true ->
  exists w0 fs, ws w0 /\ lower_ok stack fs /\ P = w0 ++ concat (rev fs).
Proof.
  intros Hi Hn. destruct stack as [|k ks]; cbn [inv] in Hi.
  - unfold value_next, is_value_next in Hn. cbn [d_stack d_last] in Hn. apply kind_eqb_eq in Hn.
    destruct Hi as [[_ HP] | [Hc _]]; [|rewrite Hn in Hc; discriminate].
    exists P, []. cbn [rev concat]. rewrite app_nil_r. cbn. auto.
  - destruct Hi as (w0 & f & fs & H0 & Ht & Hlo & ->). exists w0, (f :: fs).
    split; auto. split; [split; eauto using top_awaiting|]. cbn [rev]. rewrite concat_app. cbn [concat]. now rewrite app_nil_r.
Qed.

Lemma inv_scalar P last stack v w l : inv P last stack -> value_next last stack = true ->
  xvalue v -> ws w -> is_value_end l = true -> inv (P ++ v ++ w) l stack.
Proof.
  intros Hi Hn Hv Hw Hl. destruct (inv_value_next _ _ _ Hi Hn) as (w0 & fs & H0 & Hlo & ->).
  rewrite <- app_assoc. now apply inv_value_in.
Qed.

Lemma inv_open P last stack k raw w : inv P last stack -> value_next last stack = true ->
  k = KObjOpen \/ k = KArrOpen -> slexeme k raw -> ws w -> inv (P ++ raw ++ w) k (k :: stack).
Proof.
  intros Hi Hn Hk Hlex Hw. destruct (inv_value_next _ _ _ Hi Hn) as (w0 & fs & H0 & Hlo & ->).
  cbn [inv]. exists w0, (raw ++ w), fs. repeat split; auto; [|app_eq].
  destruct Hk as [-> | ->]; cbn [slexeme] in Hlex; subst raw; cbn [top_ok]; exists w; auto.
Qed.

Lemma inv_close P k last ks closer w l :
  inv P last (k :: ks) ->
  (k = KArrOpen /\ closer = c_rbrack /\ last <> KComma \/
   k = KObjOpen /\ closer = c_rbrace /\ last <> KComma /\ last <> KName) ->
  ws w -> is_value_end l = true -> inv (P ++ [closer] ++ w) l ks.
Proof.
  intros Hi Hk Hw Hl. cbn [inv] in Hi. destruct Hi as (w0 & f & fs & H0 & Ht & Hlo & ->).
  assert (Hv : xvalue (f ++ [closer])).
  { destruct Hk as [(-> & -> & Hn) | (-> & -> & Hn1 & Hn2)]; cbn [top_ok] in Ht.
    - destruct last; try contradiction; try (destruct Ht as [_ Ht]); auto using arr_open_close, arr_val_close.
    - destruct last; try contradiction; try (destruct Ht as [_ Ht]); auto using obj_open_close, obj_val_close. }
  pose proof (inv_value_in w0 ks fs (f ++ [closer]) w l H0 Hlo Hv Hw Hl) as H.
  replace ((w0 ++ concat (rev fs) ++ f) ++ [closer] ++ w) with (w0 ++ concat (rev fs) ++ (f ++ [closer]) ++ w) by app_eq.
  exact H.
Qed.

Lemma inv_comma P k last ks w : inv P last (k :: ks) -> is_value_end last = true -> ws w ->
  inv (P ++ [c_comma] ++ w) KComma (k :: ks).
Proof.
  intros Hi Hl Hw. cbn [inv] in *. destruct Hi as (w0 & f & fs & H0 & Ht & Hlo & ->).
  exists w0, (f ++ c_comma :: w), fs. repeat split; auto; [|app_eq].
  destruct k; try contradiction; cbn [top_ok] in *; destruct last; try discriminate;
    destruct Ht as [_ Ht]; auto using arr_val_comma, obj_val_comma.
Qed.

Lemma inv_name P last stack key w2 w3 : inv P last stack -> value_next last stack = false ->
  (last = KObjOpen \/ last = KComma) -> tstring key -> ws w2 -> ws w3 ->
  inv (P ++ key ++ w2 ++ [c_colon] ++ w3) KName stack.
Proof.
  intros Hi Hn Hlast Hk H2 H3. unfold value_next, is_value_next in Hn. cbn [d_stack d_last] in Hn.
  destruct stack as [|k ks]; cbn [inv] in Hi.
  - destruct Hi as [[Hc _] | [Hc _]]; destruct Hlast as [E|E]; rewrite E in Hc; discriminate.
  - destruct Hi as (w0 & f & fs & H0 & Ht & Hlo & ->). cbn [inv].
    exists w0, (f ++ key ++ w2 ++ c_colon :: w3), fs. repeat split; auto; [|app_eq].
    destruct k; try contradiction; cbn [top_ok] in *.
    + apply obj_key; auto. destruct Hlast as [E|E]; rewrite E in Ht; auto.
    + exfalso. destruct Hlast as [E|E]; rewrite E in Ht, Hn; [destruct Ht; discriminate|discriminate].
Qed.

Lemma lexeme_scalar_value k raw : is_scalar k = true -> slexeme k raw -> xvalue raw.
Proof.
  destruct k; try discriminate; cbn [slexeme]; intros _ H.
  - subst. constructor.
  - destruct H; subst; constructor.
  - now apply XNum.
  - now apply XStr.
Qed.

(* a token other than EOF or a Name extends the prefix by its bytes and the whitespace after *)
Lemma rstep_inv P last stack k stack' raw w :
  rstep last stack k k stack' -> inv P last stack -> slexeme k raw -> ws w -> k <> KEOF ->
  inv (P ++ raw ++ w) k stack'.
Proof.
  intros Hr Hi Hlex Hw Hne. inversion Hr as [Hs|k0 Hk Hv|Hv Hl|k0 Hk Hv|rest Hs H1 H2|rest Hs H1|Hs Hl]; subst.
  - contradiction.
  - apply (inv_scalar _ last); auto; [now apply (lexeme_scalar_value k)|]. destruct k; try discriminate; reflexivity.
  - now apply (inv_open _ last).
  - cbn [slexeme] in Hlex. subst raw. apply (inv_close _ KObjOpen last); auto.
  - cbn [slexeme] in Hlex. subst raw. apply (inv_close _ KArrOpen last); auto.
  - cbn [slexeme] in Hlex. subst raw. destruct stack'; [contradiction|]. now apply (inv_comma _ _ last).
Qed.

(* one pass through Read's switch preserves the invariant *)
Theorem read_step_inv P st tok st' :
  inv P (d_last st) (d_stack st) -> read_step st = Ok (tok, st') ->
  exists c, d_in st = c ++ d_in st' /\
    (t_kind tok = KEOF -> d_in st' = [] /\ ws c /\ d_stack st = []) /\
    (t_kind tok <> KEOF -> inv (P ++ c) (d_last st') (d_stack st') /\ d_last st' <> KInvalid).
Proof.
  intros Hinv H. apply read_step_spec in H as (tk & st1 & k' & stack' & Hp & Hr & Hc & -> & ->).
  destruct (parse_next_strict _ _ _ Hp) as (w1 & w2 & Hw1 & Hw2 & Hin & Hlex & Hl1 & Hk1 & Heof).
  pose proof (inv_ws _ _ _ w1 Hinv Hw1) as Hinv1. rewrite <- Hl1, <- Hk1 in Hinv1.
  unfold rs_state. cbn [t_kind set_kind d_in d_last d_stack set_last set_stack].
  destruct (rstep_kind _ _ _ _ _ Hr) as [(-> & Hnn & Hni) | [Ek ->]].
  - rewrite (kind_eqb_false _ _ Hnn). exists (w1 ++ t_raw tk ++ w2). split; [rewrite Hin; app_eq|]. split.
    + intros E. rewrite E in Hr, Hlex. destruct (rstep_eof _ _ _ _ Hr) as [_ Hs]. cbn [slexeme] in Hlex.
      rewrite Hlex. cbn [app]. split; auto. split; auto. congruence.
    + intros Hne. split; auto. rewrite app_assoc. now apply (rstep_inv _ (d_last st1) (d_stack st1)).
  - (* a Name: the colon and the whitespace after it are consumed as well *)
    destruct (rstep_name _ _ _ _ Hr) as (_ & -> & Hv & Hl). destruct (Hc eq_refl) as (r & Hr1). cbn [kind_eqb].
    destruct (consume_spec 1 st1 ltac:(rewrite Hr1; cbn [length]; lia)) as (w3 & Hw3 & Hs3 & Hl3 & Hk3).
    rewrite Hr1 in Hs3 at 2. cbn [firstn] in Hs3.
    exists (w1 ++ t_raw tk ++ w2 ++ [c_colon] ++ w3). split; [rewrite Hin, Hs3; app_eq|].
    split; [discriminate|]. intros _. split; [|discriminate].
    rewrite Ek in Hlex. cbn [slexeme] in Hlex. rewrite app_assoc. now apply (inv_name _ (d_last st1)).
Qed.

Lemma read_step_comma_stack st tok st' :
  read_step st = Ok (tok, st') -> t_kind tok = KComma -> d_stack st' <> [].
Proof.
  intros H. apply read_step_spec in H as (tk & st1 & k' & stack' & _ & Hr & _ & -> & ->). cbn [t_kind set_kind].
  intros E. exact (proj2 (rstep_comma _ _ _ _ _ Hr E)).
Qed.

(* Read = one pass, or a comma pass followed by one more pass *)
Theorem read_inv P st tok st' :
  inv P (d_last st) (d_stack st) -> read st = Ok (tok, st') ->
  exists c, d_in st = c ++ d_in st' /\
    (t_kind tok = KEOF -> d_in st' = [] /\ ((d_last st = KInvalid /\ ws (P ++ c)) \/ xtext (P ++ c))) /\
    (t_kind tok <> KEOF -> inv (P ++ c) (d_last st') (d_stack st') /\ d_last st' <> KInvalid).
Proof.
  intros Hinv. unfold read. destruct (read_step st) as [[tok1 st1]|e] eqn:E1; [|discriminate].
  destruct (read_step_inv P st tok1 st1 Hinv E1) as (c1 & Hc1 & Heof1 & Hne1).
  assert (Hdirect : Ok (tok1, st1) = Ok (tok, st') -> t_kind tok1 <> KComma ->
            exists c, d_in st = c ++ d_in st' /\
              (t_kind tok = KEOF -> d_in st' = [] /\ ((d_last st = KInvalid /\ ws (P ++ c)) \/ xtext (P ++ c))) /\
              (t_kind tok <> KEOF -> inv (P ++ c) (d_last st') (d_stack st') /\ d_last st' <> KInvalid)).
  { intros [= <- <-] _. exists c1. split; auto. split; auto.
    intros HE. destruct (Heof1 HE) as (H1 & H2 & H3). split; auto.
    rewrite H3 in Hinv. cbn [inv] in Hinv. destruct Hinv as [[Ha Hb] | [Ha Hb]]; [left | right]; auto using xtext_ws. }
  destruct (t_kind tok1) eqn:Ek; try (intros H; apply Hdirect; [exact H|discriminate]).
  (* comma: a second pass *)
  intros E2. destruct (Hne1 ltac:(discriminate)) as [Hinv1 Hl1].
  destruct (read_step_inv (P ++ c1) st1 tok st' Hinv1 E2) as (c2 & Hc2 & Heof2 & Hne2).
  exists (c1 ++ c2). split; [rewrite Hc1, Hc2; app_eq|]. split.
  - intros HE. destruct (Heof2 HE) as (H1 & H2 & H3). exfalso.
    exact (read_step_comma_stack _ _ _ E1 Ek H3).
  - intros HE. rewrite app_assoc. apply Hne2; auto.
Qed.

Theorem read_all_from_json fuel : forall st P orig toks,
  orig = P ++ d_in st -> inv P (d_last st) (d_stack st) ->
  read_all_from fuel st = (toks, None) -> (toks <> [] \/ d_last st <> KInvalid) -> xtext orig.
Proof.
  induction fuel as [|f IH]; intros st P orig toks Ho Hinv; cbn [read_all_from]; [discriminate|].
  destruct (read st) as [[tok st']|e] eqn:Er; [|discriminate].
  destruct (read_inv P st tok st' Hinv Er) as (c & Hc & Heof & Hne).
  destruct (kind_eqb (t_kind tok) KEOF) eqn:Ek.
  - apply kind_eqb_eq in Ek. rewrite Ek. intros [= <-] Hlast.
    destruct (Heof Ek) as (H1 & H2). rewrite Ho, Hc, H1, app_nil_r.
    destruct H2 as [[Ha _] | H2]; auto. destruct Hlast; congruence.
  - assert (Hk : t_kind tok <> KEOF) by (intros E; rewrite E in Ek; discriminate).
    destruct (Hne Hk) as [Hinv' Hl'].
    destruct (read_all_from f st') as [l e] eqn:Erec.
    intros H _. assert (He : e = None) by (destruct (t_kind tok); congruence). subst e.
    apply (IH st' (P ++ c) orig l); auto. rewrite Ho, Hc. app_eq.
Qed.

Theorem lexer_accepts_only_json input toks :
  read_all input = (toks, None) -> toks <> [] -> xtext input.
Proof.
  unfold read_all. intros H Hne.
  apply (read_all_from_json (S (length input)) (d_init input) [] input toks); auto.
  cbn. left. auto.
Qed.

Corollary lexer_accepts_only_strict_json input toks :
  read_all input = (toks, None) -> toks <> [] -> exists ks, stext input ks.
Proof. intros H Hne. exact (xtext_stext _ (lexer_accepts_only_json _ _ H Hne)). Qed.
