(* Byte-level facts shared by the grammar, lexer and encoder proofs: whitespace and skip_ws,
   delimiters, literal prefixes, the shape of one UTF-8 character. *)
From Coq Require Import List NArith Lia Bool.
From Coq Require Import ZifyBool ZifyNat ZifyN.
From PB Require Import Base.PBytes Base.ListEqbP Json.JsonUtf8 Json.JsonGrammar Json.JsonNumModel Json.JsonNumP.
Import ListNotations.
Open Scope N_scope.

(* closes an equation between two bracketings of the same concatenation *)
Ltac app_eq := repeat (rewrite <- ?app_assoc, <- ?app_comm_cons; cbn [app]); reflexivity.

Lemma ws_nil : ws [].
Proof. reflexivity. Qed.
Lemma ws_app_iff a b : ws (a ++ b) <-> ws a /\ ws b.
Proof. unfold ws. rewrite forallb_app. apply andb_true_iff. Qed.
Lemma ws_cons b w : is_ws b = true -> ws w -> ws (b :: w).
Proof. unfold ws. cbn [forallb]. intros -> ->. reflexivity. Qed.
Lemma ws_firstn n w : ws w -> ws (firstn n w).
Proof.
  unfold ws. revert n. induction w as [|b w IH]; intros [|n] H; cbn [firstn forallb] in *; auto.
  apply andb_true_iff in H as [H1 H2]. rewrite H1. cbn [andb]. auto.
Qed.

Lemma skip_ws_spec s : exists w, s = w ++ skip_ws s /\ ws w.
Proof.
  induction s as [|b s IH]; cbn [skip_ws]. { exists []. auto using ws_nil. }
  destruct (is_ws b) eqn:E.
  - destruct IH as (w & Hs & Hw). exists (b :: w). split. { cbn [app]. now rewrite <- Hs. }
    now apply ws_cons.
  - exists []. auto using ws_nil.
Qed.
Lemma skip_ws_head b r : is_ws b = false -> skip_ws (b :: r) = b :: r.
Proof. intros H. cbn [skip_ws]. now rewrite H. Qed.
Lemma skip_ws_app w s : ws w -> skip_ws (w ++ s) = skip_ws s.
Proof.
  unfold ws. induction w as [|b w IH]; intros H; [reflexivity|]. cbn [forallb] in H.
  apply andb_true_iff in H as [Hb Hw]. cbn [app skip_ws]. rewrite Hb. auto.
Qed.
Lemma skip_ws_idem s : skip_ws (skip_ws s) = skip_ws s.
Proof.
  induction s as [|b s IH]; [reflexivity|]. cbn [skip_ws].
  destruct (is_ws b) eqn:E; auto. now apply skip_ws_head.
Qed.

(* first byte of a value *)
Definition head_nonws (s : list byte) : Prop := match s with b :: _ => is_ws b = false | [] => False end.
Lemma skip_ws_nonws s : head_nonws s -> skip_ws s = s.
Proof. destruct s; [contradiction|]. apply skip_ws_head. Qed.
Lemma head_nonws_app s r : head_nonws s -> head_nonws (s ++ r).
Proof. destruct s; [contradiction|auto]. Qed.
Lemma skip_ws_value w v r : ws w -> head_nonws v -> skip_ws (w ++ v ++ r) = v ++ r.
Proof. intros Hw Hv. rewrite skip_ws_app by auto. apply skip_ws_nonws. now apply head_nonws_app. Qed.

Lemma ws_not_delim b : is_ws b = true -> is_not_delim b = false.
Proof.
  unfold is_ws. rewrite !orb_true_iff. intros [[[H|H]|H]|H]; apply is_true in H; subst; reflexivity.
Qed.
Lemma delim_ws_app w rest : ws w -> delim_or_end rest = true -> delim_or_end (w ++ rest) = true.
Proof.
  destruct w as [|b w]; auto. unfold ws. cbn [forallb app delim_or_end]. intros H _.
  apply andb_true_iff in H as [Hb _]. now rewrite (ws_not_delim b Hb).
Qed.

Lemma strip_prefix_spec p s r : strip_prefix p s = Some r -> s = p ++ r.
Proof.
  revert s. induction p as [|a p IH]; intros s; cbn [strip_prefix]. { intros [= <-]. reflexivity. }
  destruct s as [|b s]; [discriminate|]. destruct (is a b) eqn:E; [|discriminate].
  apply is_true in E. subst. intros H. apply IH in H. now subst.
Qed.
Lemma strip_prefix_app lit rest : strip_prefix lit (lit ++ rest) = Some rest.
Proof. exact (list_strip_prefix_app is is_refl lit rest). Qed.

(* one well-formed character: a single ASCII byte, or 2..4 bytes all above 127; the lead byte
   determines the length *)
Lemma rfc3629_shape c : rfc3629_char c = true ->
  exists b c', c = b :: c' /\ utf8_len b = length c /\
    ((c' = [] /\ b2n b < 128) \/ ((2 <= length c)%nat /\ Forall (fun x => 128 <= b2n x) c)).
Proof.
  destruct c as [|b0 [|b1 [|b2 [|b3 [|b4 c]]]]]; cbn [rfc3629_char length]; try discriminate;
    unfold utf8_tail, in_range, utf8_len; intros H; eexists _, _; (split; [reflexivity|]).
  - replace (b2n b0 <? 128) with true by lia. split; auto. left. split; auto. lia.
  - replace (b2n b0 <? 128) with false by lia. replace (b2n b0 <? 224) with true by lia. split; auto.
    right. split; [lia|]. repeat constructor; lia.
  - replace (b2n b0 <? 128) with false by lia. replace (b2n b0 <? 224) with false by lia.
    replace (b2n b0 <? 240) with true by lia. split; auto. right. split; [lia|]. repeat constructor; lia.
  - replace (b2n b0 <? 128) with false by lia. replace (b2n b0 <? 224) with false by lia.
    replace (b2n b0 <? 240) with false by lia. split; auto. right. split; [lia|]. repeat constructor; lia.
Qed.
