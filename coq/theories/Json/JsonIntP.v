(* Proofs for C22: Token.Int / Token.Uint decode a JSON number literal exactly (soundness
   unconditionally; completeness outside the F6 class; everything in the class is rejected).  Holds the
   decimal-value facts (p10, dec_val, DZ), the decomposition of a literal shared by the specification
   and parseNumberParts (number_shape), normalizeToIntString (norm_body_sound / norm_body_complete) and
   the specification-side definition decode_int. *)
From Coq Require Import List NArith ZArith Lia Bool.
From Coq Require Import ZifyBool ZifyNat ZifyN.
From PB Require Import Base.PBytes Json.JsonUtf8 Json.JsonGrammar Json.JsonNumModel Json.JsonNumP.
Import ListNotations.
Open Scope N_scope.
Ltac Zify.zify_post_hook ::= Z.div_mod_to_equations.

(* ---------- powers of ten, structurally ---------- *)
Fixpoint p10 (n : nat) : N := match n with O => 1 | S k => 10 * p10 k end.

Lemma p10_pos n : 0 < p10 n.
Proof. induction n; cbn [p10]; lia. Qed.
Lemma p10_add a b : p10 (a + b) = p10 a * p10 b.
Proof. induction a; cbn [p10 Nat.add]; lia. Qed.
Lemma p10_Z n : Z.of_N (p10 n) = (10 ^ Z.of_nat n)%Z.
Proof.
  induction n; [reflexivity|]. rewrite Nat2Z.inj_succ, Z.pow_succ_r by lia. cbn [p10]. lia.
Qed.
Lemma p10_mono a b : (a <= b)%nat -> p10 a <= p10 b.
Proof.
  intros H. replace b with (a + (b - a))%nat by lia. rewrite p10_add.
  pose proof (p10_pos a). pose proof (p10_pos (b - a)). nia.
Qed.
Lemma p10_ge10 n : (1 <= n)%nat -> 10 <= p10 n.
Proof. intros H. apply (p10_mono 1 n) in H. exact H. Qed.

(* ---------- decimal value of digit strings ---------- *)
Definition dv (b : byte) : N := b2n b - 48.
Definition digits (s : list byte) : Prop := forallb is_digit s = true.
Definition is0 (b : byte) : bool := is b c_0.

Lemma dec_val_acc s acc :
  fold_left (fun a b => a * 10 + (b2n b - 48)) s acc = acc * p10 (length s) + dec_val s.
Proof.
  unfold dec_val. revert acc. induction s as [|b s IH]; intros acc; cbn [fold_left length p10].
  - lia.
  - rewrite IH. rewrite (IH (0 * 10 + _)). lia.
Qed.

Lemma dec_val_cons b s : dec_val (b :: s) = dv b * p10 (length s) + dec_val s.
Proof. unfold dec_val at 1. cbn [fold_left]. rewrite dec_val_acc. unfold dv. lia. Qed.

Lemma dec_val_nil : dec_val [] = 0.
Proof. reflexivity. Qed.

Lemma dec_val_app a b : dec_val (a ++ b) = dec_val a * p10 (length b) + dec_val b.
Proof.
  induction a as [|x a IH]; cbn [app].
  - rewrite dec_val_nil. lia.
  - rewrite !dec_val_cons, IH, app_length, p10_add. lia.
Qed.

Lemma dv_digit b : is_digit b = true -> dv b <= 9.
Proof. unfold dv. rewrite is_digit_b2n. lia. Qed.
Lemma dv_digit19 b : is_digit19 b = true -> 1 <= dv b.
Proof. unfold dv, is_digit19, in_range. lia. Qed.
Lemma dv_0 : dv c_0 = 0.
Proof. reflexivity. Qed.
Lemma dv_nonzero b : is_digit b = true -> is0 b = false -> 1 <= dv b.
Proof.
  unfold dv, is0. rewrite is_digit_b2n. intros H H0.
  destruct (N.eq_dec (b2n b) 48) as [E|E]; [|lia].
  exfalso. apply is_false in H0. apply H0. rewrite <- (n2b_b2n b), E. reflexivity.
Qed.

Lemma digits_cons b s : digits (b :: s) <-> is_digit b = true /\ digits s.
Proof. unfold digits. cbn [forallb]. now rewrite andb_true_iff. Qed.
Lemma digits_app a b : digits (a ++ b) <-> digits a /\ digits b.
Proof. unfold digits. now rewrite forallb_app, andb_true_iff. Qed.

Lemma dec_val_lt s : digits s -> dec_val s < p10 (length s).
Proof.
  induction s as [|b s IH]; intros H.
  - cbn. lia.
  - apply digits_cons in H as [Hb Hs]. rewrite dec_val_cons. cbn [length p10].
    pose proof (dv_digit _ Hb). specialize (IH Hs). nia.
Qed.

Lemma dec_val_ge b s : is_digit19 b = true -> p10 (length s) <= dec_val (b :: s).
Proof. intros H. rewrite dec_val_cons. pose proof (dv_digit19 _ H). pose proof (p10_pos (length s)). nia. Qed.

Lemma dec_val_zeros k : dec_val (repeat c_0 k) = 0.
Proof. induction k; [reflexivity|]. cbn [repeat]. rewrite dec_val_cons, IHk, dv_0. lia. Qed.

Lemma all0_dec_val s : forallb is0 s = true -> dec_val s = 0.
Proof.
  induction s as [|b s IH]; [reflexivity|]. cbn [forallb]. rewrite andb_true_iff. intros [Hb Hs].
  unfold is0 in Hb. apply is_true in Hb. subst. rewrite dec_val_cons, dv_0, IH; auto.
Qed.

Lemma dec_val_0_all0 s : digits s -> dec_val s = 0 -> forallb is0 s = true.
Proof.
  induction s as [|b s IH]; [reflexivity|]. intros H E. apply digits_cons in H as [Hb Hs].
  rewrite dec_val_cons in E. cbn [forallb]. pose proof (p10_pos (length s)).
  destruct (is0 b) eqn:E0.
  - cbn [andb]. apply IH; auto. nia.
  - pose proof (dv_nonzero _ Hb E0). nia.
Qed.

Lemma all0_repeat s : forallb is0 s = true -> s = repeat c_0 (length s).
Proof.
  induction s as [|b s IH]; [reflexivity|]. cbn [forallb]. rewrite andb_true_iff. intros [Hb Hs].
  unfold is0 in Hb. apply is_true in Hb. subst. cbn [length repeat]. f_equal. auto.
Qed.

Lemma dec_val_snoc_mod t l : dec_val (t ++ [l]) mod 10 = dv l mod 10.
Proof. rewrite dec_val_app, dec_val_cons, dec_val_nil. cbn [length p10]. lia. Qed.

(* ---------- bytes.TrimRight(frac, "0") ---------- *)
Lemma trim_spec s : digits s ->
  exists k, s = trim_right_zeros s ++ repeat c_0 k /\
            digits (trim_right_zeros s) /\
            (trim_right_zeros s = [] \/
             exists t l, trim_right_zeros s = t ++ [l] /\ is_digit l = true /\ is0 l = false).
Proof.
  induction s as [|b s IH]; intros H.
  - exists 0%nat. cbn. repeat split; auto.
  - apply digits_cons in H as [Hb Hs]. destruct (IH Hs) as (k & Es & Hd & Hl). clear IH.
    cbn [trim_right_zeros]. destruct (trim_right_zeros s) as [|x t'] eqn:Et.
    + fold (is0 b). destruct (is0 b) eqn:E0.
      * exists (S k). unfold is0 in E0. apply is_true in E0. subst b. cbn [app repeat] in *.
        rewrite <- Es. repeat split; auto.
      * exists k. cbn [app] in *. rewrite <- Es. repeat split; auto.
        { apply digits_cons. split; auto. }
        right. exists [], b. auto.
    + exists k. cbn [app] in *. rewrite <- Es. repeat split; auto.
      { apply digits_cons. auto. }
      right. destruct Hl as [Hl | (t & l & Etl & Hl1 & Hl2)]; [discriminate|].
      exists (b :: t), l. cbn [app]. rewrite Etl. auto.
Qed.

(* ---------- the shape of a number literal: what the specification and the code extract ---------- *)
Definition exp_head (t : list byte) : Prop :=
  match t with [] => True | b :: _ => b = c_e \/ b = c_E end.

Lemma exp_head_not_digit t : exp_head t -> not_digit_head t.
Proof. destruct t as [|b t]; cbn; auto. intros [-> | ->]; reflexivity. Qed.
Lemma rfc_exp_head e : rfc_exp e -> exp_head e.
Proof. destruct 1; cbn; auto. Qed.

(* bytes told apart by a predicate are different *)
Lemma is_sep (p : byte -> bool) b c : p b = true -> p c = false -> is b c = false.
Proof. intros Hb Hc. destruct (is b c) eqn:E; auto. apply is_true in E. congruence. Qed.

Lemma digits_not_sign b : is_digit b = true -> is b c_minus = false /\ is b c_plus = false /\ is b c_dot = false.
Proof. intros H. repeat split; apply (is_sep is_digit _ _ H); reflexivity. Qed.

Lemma rfc_int_digits i : rfc_int i -> digits i /\ exists b d, i = b :: d /\ is_digit b = true.
Proof.
  destruct 1 as [|b d Hb Hd].
  - split; [reflexivity|]. exists c_0, []. auto.
  - split. { apply digits_cons. split; auto. now apply is_digit19_digit. }
    exists b, d. split; auto. now apply is_digit19_digit.
Qed.

(* integer digits as the code keeps them: a lone 0 is dropped *)
Definition intp_of (i : list byte) : list byte :=
  match i with [b] => if is b c_0 then [] else i | _ => i end.

Lemma intp_of_spec i : rfc_int i ->
  (i = [c_0] /\ intp_of i = []) \/
  (intp_of i = i /\ exists b d, i = b :: d /\ is_digit19 b = true /\ digits d).
Proof.
  destruct 1 as [|b d Hb Hd]; [left; auto|]. right. split; [|exists b, d; auto].
  unfold intp_of. destruct d; auto. now rewrite (is_sep is_digit19 b c_0 Hb).
Qed.

Lemma digits_intp_of i : rfc_int i -> digits (intp_of i).
Proof. intros H. destruct (intp_of_spec i H) as [[_ ->] | [-> _]]; [reflexivity|]. apply (rfc_int_digits i H). Qed.

Lemma nd_sign_int i t : rfc_int i -> nd_sign (i ++ t) = (false, i ++ t).
Proof.
  intros H. destruct (rfc_int_digits _ H) as (_ & b & d & -> & Hb). cbn [app nd_sign].
  now rewrite (proj1 (digits_not_sign _ Hb)).
Qed.

Lemma pp_int_app i t : rfc_int i -> not_digit_head t -> pp_int (i ++ t) = Some (intp_of i, t).
Proof.
  intros H Ht. destruct H as [|b d Hb Hd]; [reflexivity|]. cbn [app pp_int].
  pose proof (is_sep is_digit19 b c_0 Hb eq_refl) as H0.
  rewrite H0, Hb, span_digits_app; auto. do 2 f_equal. unfold intp_of. destruct d; auto. now rewrite H0.
Qed.

Definition frac_digits (f : list byte) : list byte := tl f.

Lemma rfc_frac_digits f : rfc_frac f -> digits (frac_digits f).
Proof. destruct 1 as [|d [_ Hd]]; [reflexivity|exact Hd]. Qed.

Lemma pp_frac_app f t : rfc_frac f -> exp_head t -> pp_frac (f ++ t) = (frac_digits f, t).
Proof.
  intros Hf Ht. destruct Hf as [|d [Hne Hd]]; cbn [app frac_digits tl].
  - destruct t as [|b1 [|b2 r]]; auto. cbn [pp_frac]. cbn [exp_head] in Ht.
    replace (is b1 c_dot) with false; auto. destruct Ht as [-> | ->]; reflexivity.
  - destruct d as [|b2 d]; [contradiction|]. apply digits_cons in Hd as [Hb Hd].
    cbn [app pp_frac]. rewrite is_refl, Hb. cbn [andb].
    rewrite span_digits_app; auto. now apply exp_head_not_digit.
Qed.

Lemma nd_frac_app f t : rfc_frac f -> exp_head t -> nd_frac (f ++ t) = (frac_digits f, t).
Proof.
  intros Hf Ht. destruct Hf as [|d [Hne Hd]]; cbn [app frac_digits tl].
  - destruct t as [|b1 r]; auto. cbn [nd_frac]. cbn [exp_head] in Ht.
    replace (is b1 c_dot) with false; auto. destruct Ht as [-> | ->]; reflexivity.
  - cbn [nd_frac]. rewrite is_refl. apply span_digits_app; auto. now apply exp_head_not_digit.
Qed.

(* exponent: sign bytes and digits *)
Definition sign_case (sg : list byte) (neg : bool) : Prop :=
  (sg = [] /\ neg = false) \/ (sg = [c_plus] /\ neg = false) \/ (sg = [c_minus] /\ neg = true).

Definition exp_case (eneg : bool) (esg ed : list byte) : Prop :=
  (esg = [] /\ ed = [] /\ eneg = false) \/ (ed <> [] /\ sign_case esg eneg).

Lemma exp_shape e : rfc_exp e ->
  exists eneg esg ed, digits ed /\ exp_case eneg esg ed /\
    pp_exp e = Some (esg ++ ed) /\ nd_exp e = (eneg, ed).
Proof.
  unfold exp_case, sign_case. destruct 1 as [|e0 sg d He0 Hsg [Hne Hd]].
  - exists false, [], []. repeat split; auto.
  - assert (HE : (is e0 c_e || is e0 c_E) = true) by (destruct He0; subst; reflexivity).
    destruct d as [|b d]; [contradiction|]. pose proof Hd as Hd'. apply digits_cons in Hd' as [Hb Hd2].
    destruct (digits_not_sign _ Hb) as (Hm & Hp & _).
    assert (Hsp : span_digits (b :: d) = (b :: d, [])).
    { rewrite <- (app_nil_r (b :: d)) at 1. apply span_digits_app; auto. exact I. }
    destruct Hsg as [-> | [-> | ->]].
    + exists false, [], (b :: d). split; auto. split; [right; split; [discriminate|auto]|].
      cbn [app pp_exp nd_exp]. rewrite HE, Hp, Hm, Hsp. cbn [orb fst]. auto.
    + exists false, [c_plus], (b :: d). split; auto. split; [right; split; [discriminate|auto]|].
      cbn [app pp_exp nd_exp]. rewrite HE, Hsp. cbn [fst]. auto.
    + exists true, [c_minus], (b :: d). split; auto. split; [right; split; [discriminate|auto]|].
      cbn [app pp_exp nd_exp]. rewrite HE, Hsp. cbn [fst]. auto.
Qed.

Theorem number_shape raw : rfc_number raw ->
  exists neg i fd eneg esg ed,
    rfc_int i /\ digits fd /\ digits ed /\ exp_case eneg esg ed /\
    num_decompose raw = {| nl_neg := neg; nl_int := i; nl_frac := fd; nl_eneg := eneg; nl_exp := ed |} /\
    parse_number_parts raw =
      Some {| p_neg := neg; p_intp := intp_of i; p_frac := trim_right_zeros fd; p_exp := esg ++ ed |}.
Proof.
  destruct 1 as [m i f e Hm Hi Hf He].
  destruct (exp_shape _ He) as (eneg & esg & ed & Hed & Hec & Hpp & Hnd).
  pose proof (rfc_exp_head _ He) as Heh.
  assert (Hfe : not_digit_head (f ++ e)).
  { destruct Hf; [now apply exp_head_not_digit|reflexivity]. }
  destruct (rfc_int_digits _ Hi) as (Hid & b0 & d0 & Ei & Hb0).
  exists (match m with [] => false | _ => true end), i, (frac_digits f), eneg, esg, ed.
  split; auto. split; [now apply rfc_frac_digits|]. split; auto. split; auto.
  assert (Hsd : span_digits (i ++ f ++ e) = (i, f ++ e)) by (apply span_digits_app; auto).
  split.
  - unfold num_decompose.
    destruct Hm as [-> | ->]; cbn [app].
    + rewrite (nd_sign_int _ _ Hi), Hsd, (nd_frac_app _ _ Hf Heh), Hnd. reflexivity.
    + cbn [nd_sign]. rewrite is_refl, Hsd, (nd_frac_app _ _ Hf Heh), Hnd. reflexivity.
  - unfold parse_number_parts.
    destruct Hm as [-> | ->]; cbn [app].
    + subst i. cbn [app]. rewrite (proj1 (digits_not_sign _ Hb0)).
      change (b0 :: d0 ++ f ++ e) with ((b0 :: d0) ++ f ++ e).
      rewrite (pp_int_app _ _ Hi Hfe), (pp_frac_app _ _ Hf Heh), Hpp. reflexivity.
    + rewrite is_refl, (pp_int_app _ _ Hi Hfe), (pp_frac_app _ _ Hf Heh), Hpp. reflexivity.
Qed.

(* ---------- values ---------- *)
Definition PZ (n : nat) : Z := Z.of_N (p10 n).
Definition DZ (s : list byte) : Z := Z.of_N (dec_val s).
Definition sgnz (neg : bool) (x : Z) : Z := if neg then (- x)%Z else x.
Definition expZ (eneg : bool) (ed : list byte) : Z := sgnz eneg (DZ ed).

Lemma PZ_add a b : PZ (a + b) = (PZ a * PZ b)%Z.
Proof. unfold PZ. rewrite p10_add. lia. Qed.
Lemma PZ_pos n : (0 < PZ n)%Z.
Proof. unfold PZ. pose proof (p10_pos n). lia. Qed.
Lemma PZ_0 : PZ 0 = 1%Z.
Proof. reflexivity. Qed.
Lemma pow10_PZ z : (0 <= z)%Z -> (10 ^ z)%Z = PZ (Z.to_nat z).
Proof. intros H. unfold PZ. rewrite p10_Z, Z2Nat.id; auto. Qed.
Lemma DZ_nonneg s : (0 <= DZ s)%Z.
Proof. unfold DZ. lia. Qed.
Lemma DZ_app a b : DZ (a ++ b) = (DZ a * PZ (length b) + DZ b)%Z.
Proof. unfold DZ, PZ. rewrite dec_val_app. lia. Qed.
Lemma DZ_zeros k : DZ (repeat c_0 k) = 0%Z.
Proof. unfold DZ. now rewrite dec_val_zeros. Qed.
Lemma DZ_nil : DZ [] = 0%Z.
Proof. reflexivity. Qed.
Lemma DZ_app_zeros a k : DZ (a ++ repeat c_0 k) = (DZ a * PZ k)%Z.
Proof. rewrite DZ_app, DZ_zeros, repeat_length. lia. Qed.
Lemma DZ_pos_nonnil s : (0 < DZ s)%Z -> s <> [].
Proof. intros H ->. discriminate H. Qed.

Lemma digits_repeat0 k : digits (repeat c_0 k).
Proof. induction k; [reflexivity|]. cbn [repeat]. apply digits_cons. auto. Qed.

Lemma spec_values raw neg i fd eneg ed :
  num_decompose raw = {| nl_neg := neg; nl_int := i; nl_frac := fd; nl_eneg := eneg; nl_exp := ed |} ->
  num_mant raw = sgnz neg (DZ (i ++ fd)) /\
  num_exp10 raw = (expZ eneg ed - Z.of_nat (length fd))%Z.
Proof. intros H. unfold num_mant, num_exp10. rewrite H. cbn. auto. Qed.

Lemma parse_int_dec_signed bits sg neg ds : digits ds -> ds <> [] -> sign_case sg neg ->
  parse_int_dec bits (sg ++ ds) =
  if neg then (if dec_val ds <=? 2 ^ (bits - 1) then Some (- DZ ds)%Z else None)
  else (if dec_val ds <? 2 ^ (bits - 1) then Some (DZ ds) else None).
Proof.
  intros Hd Hne Hc. destruct ds as [|b d]; [contradiction|]. pose proof Hd as Hd'.
  apply digits_cons in Hd' as [Hb _]. destruct (digits_not_sign _ Hb) as (Hm & Hp & _).
  unfold digits in Hd. unfold parse_int_dec, DZ.
  destruct Hc as [[-> ->] | [[-> ->] | [-> ->]]]; cbn [app].
  - rewrite Hp, Hm, Hd. reflexivity.
  - rewrite is_refl, Hd. reflexivity.
  - replace (is c_minus c_plus) with false by reflexivity. rewrite is_refl, Hd. reflexivity.
Qed.

Lemma parse_int_dec_nodigits bits sg neg : sign_case sg neg -> parse_int_dec bits sg = None.
Proof. intros [[-> ->] | [[-> ->] | [-> ->]]]; reflexivity. Qed.

(* the exponent the code works with *)
Definition code_exp (esg ed : list byte) : option Z :=
  match esg ++ ed with [] => Some 0%Z | _ => parse_int_dec 32 (esg ++ ed) end.

Lemma code_exp_spec eneg esg ed : digits ed -> exp_case eneg esg ed ->
  code_exp esg ed =
  if ((-2147483648 <=? expZ eneg ed) && (expZ eneg ed <=? 2147483647))%Z then Some (expZ eneg ed) else None.
Proof.
  intros Hd [(-> & -> & ->) | (Hne & Hc)]; [reflexivity|].
  unfold code_exp. destruct (esg ++ ed) eqn:E.
  { destruct ed; [contradiction|]. destruct esg; discriminate. }
  rewrite <- E, (parse_int_dec_signed 32 esg eneg ed Hd Hne Hc).
  unfold expZ, sgnz, DZ. change (2 ^ (32 - 1)) with 2147483648.
  destruct eneg.
  - replace ((-2147483648 <=? - Z.of_N (dec_val ed))%Z && (- Z.of_N (dec_val ed) <=? 2147483647)%Z)
      with (dec_val ed <=? 2147483648) by lia. reflexivity.
  - replace ((-2147483648 <=? Z.of_N (dec_val ed))%Z && (Z.of_N (dec_val ed) <=? 2147483647)%Z)
      with (dec_val ed <? 2147483648) by lia. reflexivity.
Qed.

Definition sign_bytes (neg : bool) : list byte := if neg then [c_minus] else [].
Lemma sign_bytes_case neg : sign_case (sign_bytes neg) neg.
Proof. destruct neg; [right; right|left]; auto. Qed.

(* norm_body with the exponent as a value *)
Lemma norm_body_eq neg intp fr eneg esg ed : digits ed -> exp_case eneg esg ed ->
  norm_body {| p_neg := neg; p_intp := intp; p_frac := fr; p_exp := esg ++ ed |} =
  let X := expZ eneg ed in
  let fl := Z.of_nat (length fr) in
  let idx := (Z.of_nat (length intp) + X)%Z in
  if ((-2147483648 <=? X) && (X <=? 2147483647))%Z then
    if (0 <=? X)%Z then
      if (X <? fl)%Z then None else if (max_digits <? idx)%Z then None
      else Some (sign_bytes neg ++ intp ++ fr ++ repeat c_0 (Z.to_nat (X - fl)))
    else
      if (0 <? fl)%Z then None else if (idx <? 0)%Z then None
      else if forallb is0 (skipn (Z.to_nat idx) intp) then Some (sign_bytes neg ++ firstn (Z.to_nat idx) intp)
      else None
  else None.
Proof.
  intros Hd Hc. unfold norm_body. cbn [p_neg p_intp p_frac p_exp].
  fold (code_exp esg ed). rewrite (code_exp_spec eneg esg ed Hd Hc). now destruct (_ && _).
Qed.

(* what norm_body returns, in terms of values *)
Lemma norm_body_sound neg intp fr eneg esg ed s :
  digits intp -> digits fr -> digits ed -> exp_case eneg esg ed ->
  norm_body {| p_neg := neg; p_intp := intp; p_frac := fr; p_exp := esg ++ ed |} = Some s ->
  let X := expZ eneg ed in
  exists ds, s = sign_bytes neg ++ ds /\ digits ds /\
    ((0 <= X /\ Z.of_nat (length fr) <= X /\ DZ ds = DZ (intp ++ fr) * PZ (Z.to_nat (X - Z.of_nat (length fr)))) \/
     (X < 0 /\ fr = [] /\ DZ intp = DZ ds * PZ (Z.to_nat (- X))))%Z.
Proof.
  intros Hi Hf He Hc. rewrite (norm_body_eq neg intp fr eneg esg ed He Hc).
  set (X := expZ eneg ed). cbn zeta.
  destruct ((-2147483648 <=? X)%Z && (X <=? 2147483647)%Z); [|discriminate].
  destruct (0 <=? X)%Z eqn:C0.
  - destruct (X <? Z.of_nat (length fr))%Z eqn:C1; [discriminate|].
    destruct (max_digits <? Z.of_nat (length intp) + X)%Z eqn:C2; [discriminate|].
    intros [= <-]. eexists. split; [reflexivity|]. split.
    + apply digits_app. split; auto. apply digits_app. split; auto. apply digits_repeat0.
    + left. split; [lia|]. split; [lia|].
      rewrite (app_assoc intp fr). apply DZ_app_zeros.
  - destruct (0 <? Z.of_nat (length fr))%Z eqn:C1; [discriminate|].
    destruct (Z.of_nat (length intp) + X <? 0)%Z eqn:C2; [discriminate|].
    destruct (forallb _ _) eqn:C3; [|discriminate].
    intros [= <-]. eexists. split; [reflexivity|]. split.
    + rewrite <- (firstn_skipn (Z.to_nat (Z.of_nat (length intp) + X)) intp) in Hi.
      apply digits_app in Hi. tauto.
    + right. split; [lia|]. split. { destruct fr; auto. cbn [length] in C1. lia. }
      rewrite <- (firstn_skipn (Z.to_nat (Z.of_nat (length intp) + X)) intp) at 1.
      assert (Hz : DZ (skipn (Z.to_nat (Z.of_nat (length intp) + X)) intp) = 0%Z)
        by (unfold DZ; rewrite (all0_dec_val _ C3); reflexivity).
      rewrite DZ_app, Hz, skipn_length. replace (length intp - Z.to_nat (Z.of_nat (length intp) + X))%nat with (Z.to_nat (- X)) by lia. lia.
Qed.

(* pure arithmetic: from the code's relation to the specification's *)
Lemma lit_arith neg (M V : Z) (k fl : nat) (X : Z) :
  ((0 <= X /\ Z.of_nat fl <= X /\ V = M * PZ (Z.to_nat (X - Z.of_nat fl))) \/
   (X < 0 /\ fl = 0%nat /\ M = V * PZ (Z.to_nat (- X))))%Z ->
  let m := sgnz neg (M * PZ k)%Z in
  let e10 := (X - Z.of_nat (fl + k))%Z in
  let v := sgnz neg V in
  if (0 <=? e10)%Z then v = (m * 10 ^ e10)%Z else m = (v * 10 ^ (- e10))%Z.
Proof.
  intros H m e10 v. subst m v. destruct (0 <=? e10)%Z eqn:C.
  - rewrite pow10_PZ by lia. destruct H as [(H0 & H1 & ->) | (H0 & -> & ->)]; [|lia].
    replace (Z.to_nat (X - Z.of_nat fl)) with (k + Z.to_nat e10)%nat by lia.
    rewrite PZ_add. destruct neg; cbn [sgnz]; ring.
  - rewrite pow10_PZ by lia. destruct H as [(H0 & H1 & ->) | (H0 & -> & ->)].
    + replace k with (Z.to_nat (X - Z.of_nat fl) + Z.to_nat (- e10))%nat at 1 by lia.
      rewrite PZ_add. destruct neg; cbn [sgnz]; ring.
    + replace (Z.to_nat (- e10)) with (Z.to_nat (- X) + k)%nat by lia.
      rewrite PZ_add. destruct neg; cbn [sgnz]; ring.
Qed.

Lemma DZ_intp_of i : rfc_int i -> DZ (intp_of i) = DZ i.
Proof. intros H. destruct (intp_of_spec i H) as [[-> ->] | [-> _]]; reflexivity. Qed.

Lemma mant_decomp i fd : rfc_int i -> digits fd ->
  exists k, fd = trim_right_zeros fd ++ repeat c_0 k /\
    DZ (i ++ fd) = (DZ (intp_of i ++ trim_right_zeros fd) * PZ k)%Z /\
    length fd = (length (trim_right_zeros fd) + k)%nat.
Proof.
  intros Hi Hd. destruct (trim_spec fd Hd) as (k & Es & _ & _). exists k.
  assert (HL : length fd = (length (trim_right_zeros fd) + k)%nat).
  { rewrite Es at 1. now rewrite app_length, repeat_length. }
  split; auto. split; auto.
  rewrite !DZ_app, (DZ_intp_of i Hi), HL, PZ_add.
  assert (Hfd : DZ fd = (DZ (trim_right_zeros fd) * PZ k)%Z).
  { rewrite Es at 1. apply DZ_app_zeros. }
  rewrite Hfd. ring.
Qed.

Lemma lit_is_int_from raw neg i fd eneg ed V :
  rfc_int i -> digits fd ->
  num_decompose raw = {| nl_neg := neg; nl_int := i; nl_frac := fd; nl_eneg := eneg; nl_exp := ed |} ->
  let X := expZ eneg ed in
  let fr := trim_right_zeros fd in
  ((0 <= X /\ Z.of_nat (length fr) <= X /\ V = DZ (intp_of i ++ fr) * PZ (Z.to_nat (X - Z.of_nat (length fr)))) \/
   (X < 0 /\ length fr = 0%nat /\ DZ (intp_of i ++ fr) = V * PZ (Z.to_nat (- X))))%Z ->
  lit_is_int raw (sgnz neg V).
Proof.
  intros Hi Hd Hnd X fr H. unfold lit_is_int.
  destruct (spec_values _ _ _ _ _ _ Hnd) as [-> ->].
  destruct (mant_decomp i fd Hi Hd) as (k & _ & -> & ->). fold fr. fold X.
  exact (lit_arith neg (DZ (intp_of i ++ fr)) V k (length fr) X H).
Qed.

(* getIntStr: "0" when no digits are kept, else norm_body *)
Lemma get_int_str_cases raw p : parse_number_parts raw = Some p ->
  (p_intp p = [] /\ p_frac p = [] /\ get_int_str raw = Some [c_0]) \/
  ((p_intp p <> [] \/ p_frac p <> []) /\ get_int_str raw = norm_body p).
Proof.
  intros E. unfold get_int_str, normalize_to_int_string. rewrite E.
  destruct (p_intp p); [destruct (p_frac p)|]; [left; auto|right; split; auto; right; discriminate|right; split; auto; left; discriminate].
Qed.

Theorem get_int_str_value raw s : rfc_number raw -> get_int_str raw = Some s ->
  exists neg ds, s = sign_bytes neg ++ ds /\ digits ds /\ lit_is_int raw (sgnz neg (DZ ds)).
Proof.
  intros Hn. destruct (number_shape raw Hn) as (neg & i & fd & eneg & esg & ed & Hi & Hfd & Hed & Hec & Hnd & Hpp).
  destruct (get_int_str_cases raw _ Hpp) as [(Ei & Ef & ->) | (_ & ->)]; cbn [p_intp p_frac] in *.
  - intros [= <-]. exists false, [c_0]. split; auto. split; [reflexivity|].
    replace (sgnz false (DZ [c_0])) with (sgnz neg 0%Z) by (destruct neg; reflexivity).
    apply (lit_is_int_from raw neg i fd eneg ed 0%Z Hi Hfd Hnd).
    rewrite Ei, Ef. cbn [app length]. rewrite DZ_nil.
    destruct (Z_le_gt_dec 0 (expZ eneg ed)); [left | right]; repeat split; lia.
  - destruct (trim_spec fd Hfd) as (k0 & _ & Hfr & _). intros Hb.
    destruct (norm_body_sound _ _ _ _ _ _ _ (digits_intp_of i Hi) Hfr Hed Hec Hb) as (ds & -> & Hds & Hrel).
    exists neg, ds. split; auto. split; auto.
    apply (lit_is_int_from raw neg i fd eneg ed (DZ ds) Hi Hfd Hnd).
    destruct Hrel as [H | (H0 & H1 & H2)]; [left; exact H|].
    right. split; auto. rewrite H1. cbn [length]. split; auto. now rewrite app_nil_r.
Qed.

Lemma pow2_Z bits : 1 <= bits -> Z.of_N (2 ^ (bits - 1)) = (2 ^ (Z.of_N bits - 1))%Z.
Proof. intros H. rewrite N2Z.inj_pow, N2Z.inj_sub by lia. reflexivity. Qed.

Theorem token_int_sound bits raw v : 1 <= bits -> rfc_number raw ->
  token_int bits raw = Some v -> lit_is_int raw v /\ int_in_range bits true v.
Proof.
  intros Hb Hn. unfold token_int. destruct (get_int_str raw) as [s|] eqn:E; [|discriminate].
  destruct (get_int_str_value raw s Hn E) as (neg & ds & -> & Hds & Hlit).
  pose proof (sign_bytes_case neg) as Hsc.
  destruct ds as [|d0 ds'] eqn:Eds.
  { rewrite app_nil_r, (parse_int_dec_nodigits bits _ neg Hsc). discriminate. }
  rewrite <- Eds in *. assert (Hne : ds <> []) by (subst ds; discriminate).
  rewrite (parse_int_dec_signed bits _ neg ds Hds Hne Hsc).
  unfold int_in_range. rewrite <- (pow2_Z bits Hb). pose proof (DZ_nonneg ds). unfold DZ in *.
  destruct neg; cbn [sgnz] in *.
  - destruct (dec_val ds <=? 2 ^ (bits - 1)) eqn:C; [|discriminate]. intros [= <-]. split; auto. lia.
  - destruct (dec_val ds <? 2 ^ (bits - 1)) eqn:C; [|discriminate]. intros [= <-]. split; auto. lia.
Qed.

Lemma parse_uint_dec_minus bits ds : parse_uint_dec bits (c_minus :: ds) = None.
Proof. reflexivity. Qed.

Theorem token_uint_sound bits raw v : rfc_number raw ->
  token_uint bits raw = Some v -> lit_is_int raw (Z.of_N v) /\ int_in_range bits false (Z.of_N v).
Proof.
  intros Hn. unfold token_uint. destruct (get_int_str raw) as [s|] eqn:E; [|discriminate].
  destruct (get_int_str_value raw s Hn E) as (neg & ds & -> & Hds & Hlit).
  destruct neg; cbn [sign_bytes app]; [rewrite parse_uint_dec_minus; discriminate|].
  unfold parse_uint_dec. destruct ds as [|d0 ds'] eqn:Eds; [discriminate|]. rewrite <- Eds in *.
  unfold digits in Hds. rewrite Hds. destruct (dec_val ds <? 2 ^ bits) eqn:C; [|discriminate].
  intros [= <-]. cbn [sgnz] in Hlit. split; auto. unfold int_in_range.
  pose proof (N2Z.inj_pow 2 bits) as HP. change (Z.of_N 2) with 2%Z in HP. rewrite <- HP. lia.
Qed.

(* ---------- completeness outside the F6 class ---------- *)
Lemma sgnz_invol neg x : sgnz neg (sgnz neg x) = x.
Proof. destruct neg; cbn [sgnz]; lia. Qed.
Lemma sgnz_mul neg x y : (sgnz neg x * y)%Z = sgnz neg (x * y)%Z.
Proof. destruct neg; cbn [sgnz]; lia. Qed.

(* the converse of lit_arith *)
Lemma lit_w neg (M v : Z) (k fl : nat) (X : Z) :
  (let m := sgnz neg (M * PZ k)%Z in
   let e10 := (X - Z.of_nat (fl + k))%Z in
   if (0 <=? e10)%Z then v = (m * 10 ^ e10)%Z else m = (v * 10 ^ (- e10))%Z) ->
  let w := sgnz neg v in
  ((Z.of_nat fl <= X -> w = M * PZ (Z.to_nat (X - Z.of_nat fl))) /\
   (X < Z.of_nat fl -> M = w * PZ (Z.to_nat (Z.of_nat fl - X))))%Z.
Proof.
  cbn zeta. destruct (0 <=? X - Z.of_nat (fl + k))%Z eqn:C; rewrite pow10_PZ by lia; intros H.
  - split; [intros _|lia]. rewrite H, sgnz_mul, sgnz_invol.
    replace (Z.to_nat (X - Z.of_nat fl)) with (k + Z.to_nat (X - Z.of_nat (fl + k)))%nat by lia.
    rewrite PZ_add. ring.
  - apply (f_equal (sgnz neg)) in H. rewrite sgnz_invol, <- sgnz_mul in H.
    set (w := sgnz neg v) in *.
    split; intros HX.
    + replace k with (Z.to_nat (X - Z.of_nat fl) + Z.to_nat (- (X - Z.of_nat (fl + k))))%nat in H at 1 by lia.
      rewrite PZ_add, Z.mul_assoc in H.
      apply Z.mul_reg_r in H; [auto|]. pose proof (PZ_pos (Z.to_nat (- (X - Z.of_nat (fl + k))))). lia.
    + replace (Z.to_nat (- (X - Z.of_nat (fl + k)))) with (Z.to_nat (Z.of_nat fl - X) + k)%nat in H by lia.
      rewrite PZ_add, Z.mul_assoc in H.
      apply Z.mul_reg_r in H; [auto|]. pose proof (PZ_pos k). lia.
Qed.

Lemma DZ_snoc_mod t l : is_digit l = true -> (DZ (t ++ [l]) mod 10 = Z.of_N (dv l))%Z.
Proof.
  intros Hl. unfold DZ. pose proof (dec_val_snoc_mod t l) as H. pose proof (dv_digit _ Hl). lia.
Qed.

Lemma PZ_mod10 n : (1 <= n)%nat -> (PZ n mod 10 = 0)%Z.
Proof. destruct n; [lia|]. intros _. unfold PZ. cbn [p10]. lia. Qed.

Lemma PZ_mono a b : (a <= b)%nat -> (PZ a <= PZ b)%Z.
Proof. intros H. unfold PZ. pose proof (p10_mono a b H). lia. Qed.

Lemma DZ_lt s : digits s -> (DZ s < PZ (length s))%Z.
Proof. intros H. unfold DZ, PZ. pose proof (dec_val_lt s H). lia. Qed.

Lemma DZ_lead b d : is_digit19 b = true -> (PZ (length d) <= DZ (b :: d))%Z.
Proof. intros H. unfold DZ, PZ. pose proof (dec_val_ge b d H). lia. Qed.

(* mantissa digits as kept by the code are non-zero unless both parts are empty *)
Lemma M_pos i fd : rfc_int i -> digits fd ->
  (intp_of i <> [] \/ trim_right_zeros fd <> []) -> (0 < DZ (intp_of i ++ trim_right_zeros fd))%Z.
Proof.
  intros Hi Hfd Hne. destruct (trim_spec fd Hfd) as (k & _ & Hfr & Hl).
  destruct (intp_of_spec i Hi) as [[_ E] | [E (b & d & Ei & Hb & Hd)]].
  - rewrite E in *. cbn [app]. destruct Hne as [Hne | Hne]; [contradiction|].
    destruct Hl as [Hl | (t & l & Etl & Hl1 & Hl2)]; [contradiction|].
    rewrite Etl. pose proof (DZ_snoc_mod t l Hl1). pose proof (dv_nonzero _ Hl1 Hl2).
    pose proof (DZ_nonneg (t ++ [l])). lia.
  - rewrite E, Ei. pose proof (DZ_lead b (d ++ trim_right_zeros fd) Hb).
    pose proof (PZ_pos (length (d ++ trim_right_zeros fd))). cbn [app]. lia.
Qed.

Lemma f6_x eneg esg ed : digits ed -> exp_case eneg esg ed ->
  match esg ++ ed with
  | b :: r => if is b c_plus then Z.of_N (dec_val r)
              else if is b c_minus then (- Z.of_N (dec_val r))%Z
              else Z.of_N (dec_val (b :: r))
  | [] => 0%Z end = expZ eneg ed.
Proof.
  intros Hd [(-> & -> & ->) | (Hne & [[-> ->] | [[-> ->] | [-> ->]]])]; cbn [app]; try reflexivity.
  destruct ed as [|b d]; [contradiction|]. apply digits_cons in Hd as [Hb _].
  destruct (digits_not_sign _ Hb) as (Hm & Hp & _). rewrite Hp, Hm. reflexivity.
Qed.

Definition is_nil {A} (l : list A) : bool := match l with [] => true | _ => false end.

Lemma match_nil2 {A} (a b : list A) (c : bool) :
  a <> [] \/ b <> [] -> match a, b with [], [] => false | _, _ => c end = c.
Proof. intros [H|H]; destruct a, b; auto; contradiction. Qed.

(* a digit string whose value is a multiple of 10^k ends in k zeros, and the rest is the quotient *)
Lemma DZ_split_mul l (w : Z) k : digits l -> (k <= length l)%nat -> DZ l = (w * PZ k)%Z ->
  let idx := (length l - k)%nat in
  digits (firstn idx l) /\ forallb is0 (skipn idx l) = true /\ w = DZ (firstn idx l).
Proof.
  intros Hl Hk Hw idx. pose proof (firstn_skipn idx l) as Hsplit.
  assert (Hda : digits (firstn idx l) /\ digits (skipn idx l)) by (apply digits_app; now rewrite Hsplit).
  assert (Hlz : length (skipn idx l) = k) by (rewrite skipn_length; subst idx; lia).
  pose proof (DZ_lt _ (proj2 Hda)) as Hzlt. rewrite Hlz in Hzlt.
  pose proof (DZ_nonneg (skipn idx l)) as Hz0. pose proof (PZ_pos k) as HP.
  rewrite <- Hsplit, DZ_app, Hlz in Hw.
  assert (Hz : DZ (skipn idx l) = 0%Z /\ w = DZ (firstn idx l)).
  { set (a := DZ (firstn idx l)) in *. set (z := DZ (skipn idx l)) in *. clearbody a z. clear - Hw Hzlt Hz0 HP.
    assert (Hd : (z = (w - a) * PZ k)%Z) by (rewrite Z.mul_sub_distr_r; lia).
    assert (Hd0 : (w - a = 0)%Z).
    { destruct (Z_lt_le_dec (w - a) 1) as [H1|H1]; [|nia]. destruct (Z_lt_le_dec (w - a) 0) as [H2|H2]; [nia|lia]. }
    rewrite Hd0 in Hd. lia. }
  split; [tauto|]. split; [|tauto].
  apply dec_val_0_all0; [tauto|]. destruct Hz as [Hz _]. unfold DZ in Hz. lia.
Qed.

(* a non-zero last fraction digit cannot be shifted out *)
Lemma frac_not_int (intp fr : list byte) (w : Z) (n : nat) :
  (exists t l, fr = t ++ [l] /\ is_digit l = true /\ is0 l = false) ->
  (1 <= n)%nat -> DZ (intp ++ fr) = (w * PZ n)%Z -> False.
Proof.
  intros (t & l & -> & Hl1 & Hl2) Hn H.
  rewrite app_assoc in H. pose proof (DZ_snoc_mod (intp ++ t) l Hl1) as Hm.
  pose proof (dv_nonzero _ Hl1 Hl2). pose proof (dv_digit _ Hl1).
  rewrite H in Hm. pose proof (PZ_mod10 n Hn).
  rewrite Z.mul_mod, H2, Z.mul_0_r in Hm by lia. cbn in Hm. lia.
Qed.

(* normalizeToIntString succeeds on every literal outside the F6 class whose value w is an integer
   below 10^20 (20 = max_digits, the longest decimal form of a 64-bit value; every width up to 64
   satisfies the bound).  With M the mantissa without trailing fraction zeros and X the exponent:
   - X >= 0: a fraction longer than X would leave a non-zero digit behind the point (frac_not_int), so
     w = M * 10^(X - |fr|); the digit count |intp| + X cannot exceed 20, else w >= 10^20;
   - X < 0: the fraction is empty for the same reason, intp = w * 10^(-X), and DZ_split_mul says the
     last -X digits of intp are zeros and the digits before them are w. *)
Lemma norm_body_complete neg i fd eneg esg ed w :
  rfc_int i -> digits fd -> digits ed -> exp_case eneg esg ed ->
  let intp := intp_of i in
  let fr := trim_right_zeros fd in
  let X := expZ eneg ed in
  let M := DZ (intp ++ fr) in
  (intp <> [] \/ fr <> []) ->
  ((max_digits <? X)%Z && is_nil intp || (2147483647 <? X)%Z || (X <? -2147483648)%Z) = false ->
  (Z.of_nat (length fr) <= X -> w = M * PZ (Z.to_nat (X - Z.of_nat (length fr))))%Z ->
  (X < Z.of_nat (length fr) -> M = w * PZ (Z.to_nat (Z.of_nat (length fr) - X)))%Z ->
  (Z.abs w < PZ 20)%Z ->
  exists ds, norm_body {| p_neg := neg; p_intp := intp; p_frac := fr; p_exp := esg ++ ed |}
               = Some (sign_bytes neg ++ ds) /\
             digits ds /\ DZ ds = w /\ (0 < w)%Z.
Proof.
  intros Hi Hfd Hed Hec intp fr X M Hne Hf6 Hw1 Hw2 Hv.
  destruct (trim_spec fd Hfd) as (k0 & _ & Hfr & Hlast). fold fr in Hfr, Hlast.
  pose proof (digits_intp_of i Hi) as Hip. fold intp in Hip.
  pose proof (M_pos i fd Hi Hfd Hne) as HM. fold intp fr M in HM.
  rewrite (norm_body_eq neg intp fr eneg esg ed Hed Hec). cbn zeta. fold X.
  replace ((-2147483648 <=? X)%Z && (X <=? 2147483647)%Z) with true by lia.
  unfold max_digits in *. (* max_digits appears as the literal 20 below *)
  assert (Hshift : (X < Z.of_nat (length fr))%Z -> fr = []).
  { intros C. destruct Hlast as [Hl|Hl]; [exact Hl|]. exfalso.
    apply (frac_not_int intp fr w (Z.to_nat (Z.of_nat (length fr) - X)) Hl); [lia|]. apply Hw2, C. }
  destruct (0 <=? X)%Z eqn:C0.
  - destruct (X <? Z.of_nat (length fr))%Z eqn:C1.
    { rewrite Hshift in C1 by lia. cbn [length] in C1. lia. }
    set (n := Z.to_nat (X - Z.of_nat (length fr))).
    assert (Hw : w = (M * PZ n)%Z) by (apply Hw1; lia).
    pose proof (PZ_pos n) as HP.
    destruct (20 <? Z.of_nat (length intp) + X)%Z eqn:C2.
    { exfalso. destruct (intp_of_spec i Hi) as [[_ E] | [E (b & d & Ei & Hb & Hd)]]; fold intp in E.
      - rewrite E in *. cbn [is_nil length] in *. lia.
      - assert (HMge : (PZ (length d + length fr) <= M)%Z).
        { subst M. rewrite E, Ei, <- app_length. apply (DZ_lead b (d ++ fr) Hb). }
        assert (Hlen : length intp = S (length d)) by (rewrite E, Ei; reflexivity).
        pose proof (PZ_mono 20 (length d + length fr + n) ltac:(lia)) as Hmono.
        rewrite PZ_add in Hmono. clear - Hw HMge Hmono HP Hv. nia. }
    assert (Hds : DZ ((intp ++ fr) ++ repeat c_0 n) = w) by (rewrite DZ_app_zeros; fold M; lia).
    assert (Hpos : (0 < w)%Z) by (clear - Hw HM HP; nia).
    eexists. split; [reflexivity|]. rewrite (app_assoc intp fr). split; auto.
    apply digits_app. split; [apply digits_app; auto|apply digits_repeat0].
  - destruct (0 <? Z.of_nat (length fr))%Z eqn:C1.
    { rewrite Hshift in C1 by lia. discriminate C1. }
    assert (Hf0 : fr = []) by (apply Hshift; lia).
    set (n := Z.to_nat (- X)).
    assert (Hw : DZ intp = (w * PZ n)%Z).
    { unfold M in Hw2. rewrite Hf0, app_nil_r in Hw2. apply Hw2. cbn [length]. lia. }
    pose proof (PZ_pos n) as HP.
    assert (Hpos : (0 < w)%Z) by (subst M; rewrite Hf0, app_nil_r in HM; clear - HM Hw HP; nia).
    destruct (Z.of_nat (length intp) + X <? 0)%Z eqn:C2.
    { exfalso. pose proof (DZ_lt intp Hip) as Hlt. pose proof (PZ_mono (length intp) n ltac:(lia)) as Hmono.
      clear - Hlt Hmono Hw Hpos HP. nia. }
    destruct (DZ_split_mul intp w n Hip ltac:(lia) Hw) as (Hdf & Hall & Hwa). cbn zeta in *.
    replace (length intp - n)%nat with (Z.to_nat (Z.of_nat (length intp) + X)) in * by lia.
    rewrite Hall. eexists. split; [reflexivity|]. auto.
Qed.

Theorem get_int_str_complete raw v : rfc_number raw -> f6_class raw = false ->
  lit_is_int raw v -> (Z.abs v < PZ 20)%Z ->
  exists neg ds, get_int_str raw = Some (sign_bytes neg ++ ds) /\ digits ds /\ ds <> [] /\
                 v = sgnz neg (DZ ds) /\ (neg = true -> (0 < DZ ds)%Z).
Proof.
  intros Hn Hf6 Hlit Hv.
  destruct (number_shape raw Hn) as (neg & i & fd & eneg & esg & ed & Hi & Hfd & Hed & Hec & Hnd & Hpp).
  unfold f6_class in Hf6. rewrite Hpp in Hf6. cbn [p_intp p_frac p_exp] in Hf6.
  rewrite (f6_x eneg esg ed Hed Hec) in Hf6.
  unfold lit_is_int in Hlit. destruct (spec_values _ _ _ _ _ _ Hnd) as [Em Ee]. rewrite Em, Ee in Hlit.
  destruct (mant_decomp i fd Hi Hfd) as (k & _ & EM & EL). rewrite EM, EL in Hlit.
  apply lit_w in Hlit. cbn zeta in Hlit. destruct Hlit as [Hw1 Hw2].
  destruct (get_int_str_cases raw _ Hpp) as [(Ei & Ef & ->) | (Hne & ->)]; cbn [p_intp p_frac] in *.
  - exists false, [c_0]. split; auto. split; [reflexivity|]. split; [discriminate|]. split; [|discriminate].
    rewrite Ei, Ef in Hw1, Hw2. cbn [app length] in Hw1, Hw2. rewrite DZ_nil in Hw1, Hw2. cbn [sgnz].
    change (DZ [c_0]) with 0%Z. clear - Hw1 Hw2.
    destruct (Z_le_gt_dec 0 (expZ eneg ed)) as [H|H].
    + specialize (Hw1 H). destruct neg; cbn [sgnz] in Hw1; lia.
    + specialize (Hw2 ltac:(lia)).
      match type of Hw2 with _ = (_ * PZ ?n)%Z => pose proof (PZ_pos n) end.
      destruct neg; cbn [sgnz] in Hw2; nia.
  - rewrite match_nil2 in Hf6 by exact Hne.
    assert (Hv' : (Z.abs (sgnz neg v) < PZ 20)%Z) by (clear - Hv; destruct neg; cbn [sgnz]; lia).
    destruct (norm_body_complete neg i fd eneg esg ed _ Hi Hfd Hed Hec Hne Hf6 Hw1 Hw2 Hv') as (ds & E & Hds & Hw & Hp).
    exists neg, ds. rewrite Hw, sgnz_invol. repeat split; auto. apply DZ_pos_nonnil. now rewrite Hw.
Qed.

Lemma PZ_20 : PZ 20 = 100000000000000000000%Z.
Proof. reflexivity. Qed.

Lemma pow2_le_63 bits : 1 <= bits <= 64 -> (2 ^ (Z.of_N bits - 1) <= 9223372036854775808)%Z.
Proof. intros H. change 9223372036854775808%Z with (2 ^ 63)%Z. apply Z.pow_le_mono_r; lia. Qed.

Theorem token_int_complete bits raw v : 1 <= bits <= 64 -> rfc_number raw -> f6_class raw = false ->
  lit_is_int raw v -> int_in_range bits true v -> token_int bits raw = Some v.
Proof.
  intros Hb Hn Hf6 Hlit Hr. unfold int_in_range in Hr. pose proof (pow2_le_63 bits Hb) as H63.
  assert (Hv : (Z.abs v < PZ 20)%Z) by (rewrite PZ_20; lia).
  destruct (get_int_str_complete raw v Hn Hf6 Hlit Hv) as (neg & ds & E & Hds & Hne & -> & Hpos).
  unfold token_int. rewrite E.
  pose proof (sign_bytes_case neg) as Hsc.
  rewrite (parse_int_dec_signed bits _ neg ds Hds Hne Hsc).
  rewrite <- (pow2_Z bits) in Hr by lia. unfold DZ in *.
  destruct neg; cbn [sgnz] in *.
  - replace (dec_val ds <=? 2 ^ (bits - 1)) with true by lia. reflexivity.
  - replace (dec_val ds <? 2 ^ (bits - 1)) with true by lia. reflexivity.
Qed.

Theorem token_uint_complete bits raw v : bits <= 64 -> rfc_number raw -> f6_class raw = false ->
  lit_is_int raw v -> int_in_range bits false v -> token_uint bits raw = Some (Z.to_N v).
Proof.
  intros Hb Hn Hf6 Hlit Hr. unfold int_in_range in Hr.
  assert (H64 : (2 ^ Z.of_N bits <= 18446744073709551616)%Z).
  { change 18446744073709551616%Z with (2 ^ 64)%Z. apply Z.pow_le_mono_r; lia. }
  assert (Hv : (Z.abs v < PZ 20)%Z) by (rewrite PZ_20; lia).
  destruct (get_int_str_complete raw v Hn Hf6 Hlit Hv) as (neg & ds & E & Hds & Hne & -> & Hpos).
  unfold token_uint. rewrite E.
  destruct neg; cbn [sgnz] in *. { specialize (Hpos eq_refl). lia. }
  cbn [sign_bytes app]. unfold parse_uint_dec. destruct ds as [|d0 ds'] eqn:Eds; [contradiction|].
  rewrite <- Eds in *. unfold digits in Hds. rewrite Hds.
  pose proof (N2Z.inj_pow 2 bits) as HP. change (Z.of_N 2) with 2%Z in HP. unfold DZ in *.
  replace (dec_val ds <? 2 ^ bits) with true by lia. f_equal. lia.
Qed.

(* inside the F6 class every literal is rejected *)
Lemma norm_body_f6 neg intp fr eneg esg ed :
  digits ed -> exp_case eneg esg ed ->
  ((max_digits <? expZ eneg ed)%Z && is_nil intp || (2147483647 <? expZ eneg ed)%Z || (expZ eneg ed <? -2147483648)%Z) = true ->
  norm_body {| p_neg := neg; p_intp := intp; p_frac := fr; p_exp := esg ++ ed |} = None.
Proof.
  intros Hed Hec Hf. rewrite (norm_body_eq neg intp fr eneg esg ed Hed Hec). set (X := expZ eneg ed) in *. cbn zeta.
  destruct ((-2147483648 <=? X)%Z && (X <=? 2147483647)%Z) eqn:C; auto.
  assert (HX : (max_digits < X)%Z /\ intp = []).
  { unfold max_digits in *. destruct intp; cbn [is_nil] in Hf; split; auto; lia. }
  destruct HX as [HX ->]. unfold max_digits in *. cbn [length].
  replace (0 <=? X)%Z with true by lia.
  destruct (X <? Z.of_nat (length fr))%Z; auto.
  replace (20 <? Z.of_nat 0 + X)%Z with true by lia. reflexivity.
Qed.

Theorem f6_rejected raw : rfc_number raw -> f6_class raw = true -> get_int_str raw = None.
Proof.
  intros Hn Hf6.
  destruct (number_shape raw Hn) as (neg & i & fd & eneg & esg & ed & Hi & Hfd & Hed & Hec & Hnd & Hpp).
  unfold f6_class in Hf6. rewrite Hpp in Hf6. cbn [p_intp p_frac p_exp] in Hf6.
  rewrite (f6_x eneg esg ed Hed Hec) in Hf6.
  destruct (get_int_str_cases raw _ Hpp) as [(Ei & Ef & _) | (Hne & ->)]; cbn [p_intp p_frac] in *.
  - rewrite Ei, Ef in Hf6. discriminate.
  - rewrite match_nil2 in Hf6 by exact Hne. apply (norm_body_f6 _ _ _ eneg); auto.
Qed.

(* ---------- C22 int_decode_exact ---------- *)
Definition decode_int (bits : N) (signed : bool) (raw : list byte) : option Z :=
  if signed then token_int bits raw
  else match token_uint bits raw with Some n => Some (Z.of_N n) | None => None end.

Theorem int_decode_sound bits signed raw v : 1 <= bits -> rfc_number raw ->
  decode_int bits signed raw = Some v -> lit_is_int raw v /\ int_in_range bits signed v.
Proof.
  intros Hb Hn. unfold decode_int. destruct signed.
  - now apply token_int_sound.
  - destruct (token_uint bits raw) as [n|] eqn:E; [|discriminate]. intros [= <-].
    now apply token_uint_sound.
Qed.

Theorem int_decode_exact_except_F6 bits signed raw v : 1 <= bits <= 64 -> rfc_number raw ->
  f6_class raw = false ->
  (decode_int bits signed raw = Some v <-> lit_is_int raw v /\ int_in_range bits signed v).
Proof.
  intros Hb Hn Hf6. split; [apply int_decode_sound; auto; lia|]. intros [Hlit Hr].
  unfold decode_int. destruct signed.
  - now apply token_int_complete.
  - rewrite (token_uint_complete bits raw v); auto; [|lia]. f_equal. unfold int_in_range in Hr. lia.
Qed.

Theorem int_decode_in_F6_rejected bits signed raw : rfc_number raw -> f6_class raw = true ->
  decode_int bits signed raw = None.
Proof.
  intros Hn Hf. unfold decode_int, token_int, token_uint. rewrite (f6_rejected raw Hn Hf). now destruct signed.
Qed.

(* the witness of F6: 0.01e21 = 10^19 into uint64 *)
Definition f6_witness : list byte := ["0"; "."; "0"; "1"; "e"; "2"; "1"]%byte.
Definition f6_witness32 : list byte :=
  ["0"; "."; "0"; "0"; "0"; "0"; "0"; "0"; "0"; "0"; "0"; "0"; "0"; "0"; "0"; "0"; "0"; "0"; "0"; "0"; "0"; "0"; "1"; "e"; "2"; "1"]%byte.

Theorem int_decode_exact_refuted :
  exists bits signed raw v, rfc_number raw /\ lit_is_int raw v /\ int_in_range bits signed v /\
                            decode_int bits signed raw = None.
Proof.
  exists 64, false, f6_witness, 10000000000000000000%Z. split; [|split; [|split]].
  - apply is_rfc_number_iff. vm_compute. reflexivity.
  - vm_compute. reflexivity.
  - vm_compute. split; [discriminate|reflexivity].
  - vm_compute. reflexivity.
Qed.

Example int_decode_exact_refuted_int32 :
  rfc_number f6_witness32 /\ lit_is_int f6_witness32 1 /\ int_in_range 32 true 1 /\ decode_int 32 true f6_witness32 = None
  /\ f6_class f6_witness32 = true /\ f6_class f6_witness = true.
Proof.
  split; [apply is_rfc_number_iff; vm_compute; reflexivity|].
  split; [vm_compute; reflexivity|]. split; [vm_compute; split; [discriminate|reflexivity]|].
  split; vm_compute; auto.
Qed.
