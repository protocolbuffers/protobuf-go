(* The executable recogniser [is_json] is sound for the inductive grammar [json_text]. *)
From Coq Require Import List NArith ZArith Lia Bool.
From PB Require Import Base.PBytes Json.JsonUtf8 Json.JsonGrammar Json.JsonNumModel Json.JsonNumP Json.JsonBytesP.
Import ListNotations.
Open Scope N_scope.

Lemma strip_chars_sound fuel : forall s r, strip_chars fuel s = Some r ->
  exists body, s = body ++ c_quote :: r /\ jchars body.
Proof.
  induction fuel as [|f IH]; intros s r; cbn [strip_chars]; [discriminate|].
  destruct s as [|b s1]; [discriminate|].
  destruct (is b c_quote) eqn:Eq.
  { intros [= <-]. apply is_true in Eq. subst. exists []. split; auto. constructor. }
  destruct (is b c_bslash) eqn:Eb.
  { apply is_true in Eb. subst b. destruct s1 as [|e r1]; [discriminate|].
    destruct (is_simple_esc e) eqn:Ee.
    { intros H. apply IH in H as (body & -> & Hb). exists (c_bslash :: e :: body). split; auto. now apply JCesc. }
    destruct (is e c_u) eqn:Eu; [|discriminate]. apply is_true in Eu. subst e.
    destruct r1 as [|h1 [|h2 [|h3 [|h4 r2]]]]; try discriminate.
    destruct (is_hex h1 && is_hex h2 && is_hex h3 && is_hex h4) eqn:Eh; [|discriminate].
    apply andb_true_iff in Eh as [Eh H4]. apply andb_true_iff in Eh as [Eh H3]. apply andb_true_iff in Eh as [H1 H2].
    intros H. apply IH in H as (body & -> & Hb).
    exists (c_bslash :: c_u :: h1 :: h2 :: h3 :: h4 :: body). split; auto. now apply JCuni. }
  destruct (take (utf8_len b) (b :: s1)) as [[c r1]|] eqn:Et; [|discriminate].
  destruct (rfc3629_char c && unescaped c) eqn:Ec; [|discriminate]. apply andb_true_iff in Ec as [Ec1 Ec2].
  intros H. apply IH in H as (body & -> & Hb). apply take_some in Et as [Et _].
  exists (c ++ body). split; [rewrite Et; app_eq|]. now apply JCplain.
Qed.

Lemma strip_string_sound s r : strip_string s = Some r -> exists k, s = k ++ r /\ rfc_string k.
Proof.
  unfold strip_string. destruct s as [|b s1]; [discriminate|].
  destruct (is b c_quote) eqn:Eq; [|discriminate]. apply is_true in Eq. subst b.
  intros H. apply strip_chars_sound in H as (body & -> & Hb).
  exists (c_quote :: body ++ [c_quote]). split; [app_eq|]. exists body. auto.
Qed.

(* the prefix that precedes the current element: whitespace, or complete elements and a comma *)
Definition elems_prefix (pre : list byte) : Prop :=
  ws pre \/ exists p w, jelems p /\ ws w /\ pre = p ++ c_comma :: w.
Definition members_prefix (pre : list byte) : Prop :=
  ws pre \/ exists p w, jmembers p /\ ws w /\ pre = p ++ c_comma :: w.

Lemma elems_prefix_value pre v w : elems_prefix pre -> jvalue v -> ws w -> jelems (pre ++ v ++ w).
Proof.
  intros [Hp | (p & w0 & Hp & Hw0 & ->)] Hv Hw; [now constructor|].
  rewrite <- app_assoc. cbn [app]. now constructor.
Qed.
Lemma members_prefix_member pre k w2 w3 v w : members_prefix pre -> rfc_string k -> ws w2 -> ws w3 ->
  jvalue v -> ws w -> jmembers (pre ++ k ++ w2 ++ c_colon :: w3 ++ v ++ w).
Proof.
  intros [Hp | (p & w0 & Hp & Hw0 & ->)] Hk H2 H3 Hv Hw; [now constructor|].
  rewrite <- app_assoc. cbn [app]. now constructor.
Qed.

Theorem strip_value_sound fuel :
  (forall s r, strip_value fuel s = Some r -> exists v, s = v ++ r /\ jvalue v) /\
  (forall s r, strip_elems fuel s = Some r ->
     forall pre, elems_prefix pre -> exists q, jelems q /\ pre ++ s = q ++ c_rbrack :: r) /\
  (forall s r, strip_members fuel s = Some r ->
     forall pre, members_prefix pre -> exists q, jmembers q /\ pre ++ s = q ++ c_rbrace :: r).
Proof.
  induction fuel as [|f (IHv & IHe & IHm)]; [repeat split; intros; discriminate|].
  split; [|split].
  - (* value *)
    intros s r. cbn [strip_value]. destruct s as [|b s1]; [discriminate|].
    destruct (is b c_lbrack) eqn:E1.
    { apply is_true in E1. subst b. destruct (skip_ws_spec s1) as (w & Hs1 & Hw).
      destruct (skip_ws s1) as [|b1 r1] eqn:Esk; [discriminate|].
      destruct (is b1 c_rbrack) eqn:E2.
      - intros [= <-]. apply is_true in E2. subst b1. exists (c_lbrack :: w ++ [c_rbrack]).
        split; [rewrite Hs1; app_eq|]. now apply JArrE.
      - intros H. destruct (IHe _ _ H w (or_introl Hw)) as (q & Hq & Heq).
        exists (c_lbrack :: q ++ [c_rbrack]). split; [|now apply JArr].
        rewrite Hs1, Heq. app_eq. }
    destruct (is b c_lbrace) eqn:E2.
    { apply is_true in E2. subst b. destruct (skip_ws_spec s1) as (w & Hs1 & Hw).
      destruct (skip_ws s1) as [|b1 r1] eqn:Esk; [discriminate|].
      destruct (is b1 c_rbrace) eqn:E3.
      - intros [= <-]. apply is_true in E3. subst b1. exists (c_lbrace :: w ++ [c_rbrace]).
        split; [rewrite Hs1; app_eq|]. now apply JObjE.
      - intros H. destruct (IHm _ _ H w (or_introl Hw)) as (q & Hq & Heq).
        exists (c_lbrace :: q ++ [c_rbrace]). split; [|now apply JObj].
        rewrite Hs1, Heq. app_eq. }
    destruct (is b c_quote).
    { intros H. apply strip_string_sound in H as (k & -> & Hk). exists k. split; auto. now apply JStr. }
    destruct (is b "n"%byte).
    { intros H. apply strip_prefix_spec in H. exists lit_null. split; auto. constructor. }
    destruct (is b "t"%byte).
    { intros H. apply strip_prefix_spec in H. exists lit_true. split; auto. constructor. }
    destruct (is b "f"%byte).
    { intros H. apply strip_prefix_spec in H. exists lit_false. split; auto. constructor. }
    intros H. apply strip_number_sound in H as (num & -> & Hn). exists num. split; auto. now apply JNum.
  - (* elements *)
    intros s r. cbn [strip_elems]. destruct (strip_value f s) as [r0|] eqn:Ev; [|discriminate].
    destruct (IHv _ _ Ev) as (v & -> & Hv). destruct (skip_ws_spec r0) as (w & Hr0 & Hw).
    destruct (skip_ws r0) as [|b r1] eqn:Esk; [discriminate|].
    destruct (is b c_comma) eqn:E1.
    { apply is_true in E1. subst b. intros H pre Hpre.
      destruct (skip_ws_spec r1) as (w' & Hr1 & Hw'). set (s2 := skip_ws r1) in *.
      assert (Hpre' : elems_prefix ((pre ++ v ++ w) ++ c_comma :: w')).
      { right. exists (pre ++ v ++ w), w'. repeat split; auto. now apply elems_prefix_value. }
      destruct (IHe _ _ H _ Hpre') as (q & Hq & Heq). exists q. split; auto.
      rewrite <- Heq, Hr0, Hr1. app_eq. }
    destruct (is b c_rbrack) eqn:E2; [|discriminate]. apply is_true in E2. subst b.
    intros [= <-] pre Hpre. exists (pre ++ v ++ w). split; [now apply elems_prefix_value|].
    rewrite Hr0. app_eq.
  - (* members *)
    intros s r. cbn [strip_members]. destruct (strip_string s) as [r0|] eqn:Ek; [|discriminate].
    apply strip_string_sound in Ek as (k & -> & Hk). destruct (skip_ws_spec r0) as (w2 & Hr0 & Hw2).
    destruct (skip_ws r0) as [|b r1] eqn:Esk; [discriminate|].
    destruct (is b c_colon) eqn:E0; [|discriminate]. apply is_true in E0. subst b.
    destruct (skip_ws_spec r1) as (w3 & Hr1 & Hw3). set (s2 := skip_ws r1) in *.
    destruct (strip_value f s2) as [r2|] eqn:Ev; [|discriminate].
    destruct (IHv _ _ Ev) as (v & Hv1 & Hv). destruct (skip_ws_spec r2) as (w4 & Hr2 & Hw4).
    destruct (skip_ws r2) as [|b2 r3] eqn:Esk2; [discriminate|].
    assert (Hs : forall pre, pre ++ k ++ r0 = (pre ++ k ++ w2 ++ c_colon :: w3 ++ v ++ w4) ++ b2 :: r3).
    { intros pre. rewrite Hr0, Hr1, Hv1, Hr2. app_eq. }
    destruct (is b2 c_comma) eqn:E1.
    { apply is_true in E1. subst b2. intros H pre Hpre.
      destruct (skip_ws_spec r3) as (w' & Hr3 & Hw'). set (s4 := skip_ws r3) in *.
      assert (Hpre' : members_prefix ((pre ++ k ++ w2 ++ c_colon :: w3 ++ v ++ w4) ++ c_comma :: w')).
      { right. eexists _, w'. repeat split; auto. now apply members_prefix_member. }
      destruct (IHm _ _ H _ Hpre') as (q & Hq & Heq). exists q. split; auto.
      rewrite <- Heq, Hs, Hr3. app_eq. }
    destruct (is b2 c_rbrace) eqn:E2; [|discriminate]. apply is_true in E2. subst b2.
    intros [= <-] pre Hpre. exists (pre ++ k ++ w2 ++ c_colon :: w3 ++ v ++ w4).
    split; [now apply members_prefix_member|]. apply Hs.
Qed.

Theorem is_json_sound s : is_json s = true -> json_text s.
Proof.
  unfold is_json. destruct (skip_ws_spec s) as (w1 & Hs & Hw1).
  destruct (strip_value _ (skip_ws s)) as [r|] eqn:E; [|discriminate].
  destruct (proj1 (strip_value_sound _) _ _ E) as (v & Hv1 & Hv).
  destruct (skip_ws_spec r) as (w2 & Hr & Hw2). destruct (skip_ws r); [|discriminate]. intros _.
  exists w1, v, w2. repeat split; auto. rewrite Hs, Hv1, Hr. now rewrite app_nil_r.
Qed.
