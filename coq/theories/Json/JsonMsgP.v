(* JsonMsgP — the protojson round trip (C20) for the tree-level model, ordinary mapping: scalars and
   map keys, one member (json_member_rt), all members of a message for any encoder / decoder pair of
   the sub-messages (json_ordinary_rt, used by Json/JsonWktP.v for every table), the facts read off
   json_schema_ok, and the round trip for tables without special-mapping types (json_core). *)
From Coq Require Import List Arith NArith ZArith Lia Bool Permutation.
From Coq Require Import ZifyBool ZifyNat ZifyN.
From PB Require Import Base.PBytes Base.ListP Wire.WireModel Msg.MsgSchema Msg.MsgValue Msg.MsgUtf8 Msg.MsgEnc Msg.MsgDec Msg.MsgValid Msg.MsgAssocP.
From PB Require Import Text.TextStrModel Text.TextFmtModel Text.TextFmtP.
From PB Require Import Json.RtSchema Json.RtCommonP Json.JsonMsgModel Json.JsonMsgValid.
From PB Require Import Text.TextMsgModel Text.TextMsgValid Text.TextMsgScalarP Text.TextMsgP.
Import ListNotations.
Open Scope N_scope.

Lemma jmapM_ok {A B} (f : A -> jres B) (P : A -> B -> Prop) l :
  (forall a, In a l -> exists b, f a = JOk b /\ P a b) ->
  exists bs, jmapM f l = JOk bs /\ Forall2 P l bs.
Proof.
  induction l as [|a l IH]; intros H.
  - exists []. split; [reflexivity|constructor].
  - destruct (H a (or_introl eq_refl)) as (b & Hb & Pb).
    destruct IH as (bs & Hbs & Pbs); [intros x Hx; apply H; right; exact Hx|].
    exists (b :: bs). split; [|constructor; assumption].
    cbn [jmapM]. rewrite Hb. cbn [jbind]. rewrite Hbs. reflexivity.
Qed.

Lemma jmapM_dec {A B} (f : A -> jres B) (g : B -> B) : forall (xs : list A) (vs : list B),
  Forall2 (fun v x => f x = JOk (g v)) vs xs -> jmapM f xs = JOk (map g vs).
Proof.
  intros xs vs H. induction H as [|v x vs xs Hx Hall IH]; [reflexivity|].
  cbn [jmapM map]. rewrite Hx. cbn [jbind]. rewrite IH. reflexivity.
Qed.

(* ================================================================== scalars *)
Lemma fmt_dec_int n : fmt_dec n = fmt_int (Z.of_N n).
Proof. unfold fmt_int. destruct (Z.of_N n <? 0)%Z eqn:E; [lia|]. rewrite N2Z.id. reflexivity. Qed.

Lemma pow127 : (2 ^ Z.of_N (128 - 1) = 170141183460469231731687303715884105728)%Z.
Proof. reflexivity. Qed.

Lemma json_int_of_str z :
  (-9223372036854775808 <= z < 18446744073709551616)%Z -> json_int_of (JStr (fmt_int z)) = JOk z.
Proof.
  intros H. unfold json_int_of. rewrite (parse_fmt_int 128 z); [|lia|rewrite pow127; lia].
  rewrite bs_eqb_refl. reflexivity.
Qed.

Lemma dec_int_num ok z : ok z = true -> dec_int ok (JNum (NInt z)) = JOk z.
Proof. intros H. unfold dec_int. cbn [json_int_of jbind]. now rewrite H. Qed.

Lemma dec_int_str ok z :
  (-9223372036854775808 <= z < 18446744073709551616)%Z -> ok z = true -> dec_int ok (JStr (fmt_int z)) = JOk z.
Proof. intros R H. unfold dec_int. rewrite (json_int_of_str z R). cbn [jbind]. now rewrite H. Qed.

(* an integer kind round-trips when dec_int reads back what was written: signed kinds keep the Z,
   unsigned kinds the N behind it *)
Lemma int_arm (P : Prop) ok j z : dec_int ok j = JOk z -> is_jnull j = false ->
  exists j', JOk j = JOk j' /\ (z' <- dec_int ok j' ;; JOk (SZ z')) = JOk (SZ z) /\ (is_jnull j' = true -> P).
Proof. intros H N. exists j. rewrite H, N. repeat split. discriminate. Qed.

Lemma uint_arm (P : Prop) ok j n : dec_int ok j = JOk (Z.of_N n) -> is_jnull j = false ->
  exists j', JOk j = JOk j' /\ (z' <- dec_int ok j' ;; JOk (SN (Z.to_N z'))) = JOk (SN n) /\ (is_jnull j' = true -> P).
Proof. intros H N. exists j. rewrite H, N. cbn [jbind]. rewrite N2Z.id. repeat split. discriminate. Qed.

Lemma json_float32_rt b : nan_canon32 b = true -> dec_float32 (json_float32 b) = JOk b.
Proof.
  unfold nan_canon32, json_float32. intros H.
  destruct (f32_is_nan b) eqn:En.
  - cbn [negb orb] in H. apply N.eqb_eq in H. subst b. reflexivity.
  - unfold f32_is_pinf, f32_is_ninf.
    destruct (b =? 2139095040) eqn:E1; [apply N.eqb_eq in E1; subst; reflexivity|].
    destruct (b =? 4286578688) eqn:E2; [apply N.eqb_eq in E2; subst; reflexivity|].
    reflexivity.
Qed.

Lemma json_float64_rt b : nan_canon64 b = true -> dec_float64 (json_float64 b) = JOk b.
Proof.
  unfold nan_canon64, json_float64. intros H.
  destruct (f64_is_nan b) eqn:En.
  - cbn [negb orb] in H. apply N.eqb_eq in H. subst b. reflexivity.
  - unfold f64_is_pinf, f64_is_ninf.
    destruct (b =? 9218868437227405312) eqn:E1; [apply N.eqb_eq in E1; subst; reflexivity|].
    destruct (b =? 18442240474082181120) eqn:E2; [apply N.eqb_eq in E2; subst; reflexivity|].
    reflexivity.
Qed.

Lemma json_float32_notnull b : is_jnull (json_float32 b) = false.
Proof. unfold json_float32. destruct (f32_is_nan b), (f32_is_pinf b), (f32_is_ninf b); reflexivity. Qed.
Lemma json_float64_notnull b : is_jnull (json_float64 b) = false.
Proof. unfold json_float64. destruct (f64_is_nan b), (f64_is_pinf b), (f64_is_ninf b); reflexivity. Qed.

Lemma zero_is_zero sk : msg_scalar_is_zero (sk_zero sk) = true.
Proof. destruct sk; reflexivity. Qed.

Section Scalar.
  Variable cd : jcodec.
  Hypothesis Hb64 : forall bs, b64_dec cd (b64_enc cd bs) = Some bs.
  Variable o : jopts.

  Lemma json_scalar_rt ed sk s :
    json_scalar_ok ed sk s = true ->
    (sk = SkEnum -> enum_ok ed = true) ->
    exists j, json_scalar cd o ed sk s = JOk j /\ dec_scalar cd ed sk j = JOk s /\
              (is_jnull j = true -> sk = SkEnum /\ e_null ed = true).
  Proof.
    unfold json_scalar_ok, rt_scalar_ok. intros H He.
    apply andb_prop in H. destruct H as [H Hnull].
    apply andb_prop in H. destruct H as [H Hnan]. apply andb_prop in H. destruct H as [Hok Hstr].
    destruct sk, s; cbn [sk_ok] in Hok; try discriminate; cbn [json_scalar dec_scalar].
    - (* double *) eexists; split; [reflexivity|]. unfold jbind. rewrite (json_float64_rt _ Hnan).
      split; [reflexivity|]. rewrite json_float64_notnull. discriminate.
    - (* float *) eexists; split; [reflexivity|]. unfold jbind. rewrite (json_float32_rt _ Hnan).
      split; [reflexivity|]. rewrite json_float32_notnull. discriminate.
    - (* int64 *) apply int_arm; [apply dec_int_str; [lia|exact Hok]|reflexivity].
    - (* uint64 *) rewrite fmt_dec_int. apply uint_arm; [apply dec_int_str; unfold in_u64; lia|reflexivity].
    - (* int32 *) apply int_arm; [apply dec_int_num, Hok|reflexivity].
    - (* fixed64 *) rewrite fmt_dec_int. apply uint_arm; [apply dec_int_str; unfold in_u64; lia|reflexivity].
    - (* fixed32 *) apply uint_arm; [apply dec_int_num; unfold in_u32; lia|reflexivity].
    - (* bool *) eexists; split; [reflexivity|]. split; [reflexivity|discriminate].
    - (* string *) cbn [msg_str_valid negb orb] in Hstr. rewrite Hstr.
      eexists; split; [reflexivity|]. split; [reflexivity|discriminate].
    - (* bytes *) eexists; split; [reflexivity|]. cbn [dec_scalar]. rewrite Hb64. split; [reflexivity|discriminate].
    - (* uint32 *) apply uint_arm; [apply dec_int_num; unfold in_u32; lia|reflexivity].
    - (* enum *)
      unfold json_enum. destruct (e_null ed) eqn:Enull.
      + cbn [negb orb] in Hnull. apply Z.eqb_eq in Hnull. subst z.
        eexists; split; [reflexivity|]. unfold jbind, dec_enum. rewrite Enull. split; [reflexivity|]. intros _. split; reflexivity.
      + destruct (enum_by_number (e_vals ed) z) as [name|] eqn:En.
        * destruct (enum_ok_roundtrip ed z name (He eq_refl) En) as [Hname _].
          destruct (o_enum_numbers o).
          -- eexists; split; [reflexivity|]. unfold dec_enum. rewrite (dec_int_num in_i32 z Hok).
             split; [reflexivity|discriminate].
          -- eexists; split; [reflexivity|]. unfold jbind, dec_enum. rewrite Hname. split; [reflexivity|discriminate].
        * eexists; split; [reflexivity|]. unfold dec_enum. rewrite (dec_int_num in_i32 z Hok).
          split; [reflexivity|discriminate].
    - (* sfixed32 *) apply int_arm; [apply dec_int_num, Hok|reflexivity].
    - (* sfixed64 *) apply int_arm; [apply dec_int_str; [lia|exact Hok]|reflexivity].
    - (* sint32 *) apply int_arm; [apply dec_int_num, Hok|reflexivity].
    - (* sint64 *) apply int_arm; [apply dec_int_str; [lia|exact Hok]|reflexivity].
  Qed.

  Lemma json_zero_ok ed sk : json_scalar_ok ed sk (sk_zero sk) = true.
  Proof.
    unfold json_scalar_ok. destruct sk; cbn [sk_zero]; try reflexivity.
    (* enum *) unfold rt_scalar_ok. cbn. apply orb_true_r.
  Qed.
End Scalar.

Lemma json_key_rt kk k :
  rt_scalar_ok true kk k = true -> json_key_kind_ok kk = true ->
  exists name, json_key kk k = JOk name /\ dec_key kk name = JOk k.
Proof.
  unfold rt_scalar_ok. intros H Hk.
  apply andb_prop in H. destruct H as [H _]. apply andb_prop in H. destruct H as [Hok Hstr].
  assert (Hz : forall bits z, (- 2 ^ Z.of_N (bits - 1) <= z < 2 ^ Z.of_N (bits - 1))%Z -> 0 < bits ->
            exists name, JOk (fmt_int z) = JOk name /\
              match parse_int10 bits name with Some z => JOk (SZ z) | None => JErr EDecode end = JOk (SZ z)).
  { intros bits z R B. eexists. split; [reflexivity|]. now rewrite (parse_fmt_int bits z B) by lia. }
  assert (Hn : forall bits n, n < 2 ^ bits ->
            exists name, JOk (fmt_dec n) = JOk name /\
              match parse_uint10 bits name with Some n => JOk (SN n) | None => JErr EDecode end = JOk (SN n)).
  { intros bits n R. eexists. split; [reflexivity|]. now rewrite (parse_fmt_dec bits n R). }
  destruct kk, k; cbn [sk_ok] in Hok; try discriminate; cbn [json_key_kind_ok] in Hk; try discriminate;
    cbn [json_key dec_key].
  - (* int64 *) apply Hz; [change (Z.of_N (64 - 1)) with 63%Z; lia|reflexivity].
  - (* uint64 *) apply Hn, N.ltb_lt, Hok.
  - (* int32 *) apply Hz; [change (Z.of_N (32 - 1)) with 31%Z; lia|reflexivity].
  - (* fixed64 *) apply Hn, N.ltb_lt, Hok.
  - (* fixed32 *) apply Hn, N.ltb_lt, Hok.
  - (* bool *) eexists; split; [reflexivity|]. destruct b; reflexivity.
  - (* string *) cbn [msg_str_valid negb orb] in Hstr. rewrite Hstr. eexists; split; reflexivity.
  - (* uint32 *) apply Hn, N.ltb_lt, Hok.
  - (* sfixed32 *) apply Hz; [change (Z.of_N (32 - 1)) with 31%Z; lia|reflexivity].
  - (* sfixed64 *) apply Hz; [change (Z.of_N (64 - 1)) with 63%Z; lia|reflexivity].
  - (* sint32 *) apply Hz; [change (Z.of_N (32 - 1)) with 31%Z; lia|reflexivity].
  - (* sint64 *) apply Hz; [change (Z.of_N (64 - 1)) with 63%Z; lia|reflexivity].
Qed.

(* ================================================================== one message level *)
Definition is_jobj (j : jv) : Prop := exists l, j = JObj l.
Definition is_jarr (j : jv) : Prop := exists l, j = JArr l.

Section JBody.
  Variable cd : jcodec.
  Hypothesis Hb64 : forall bs, b64_dec cd (b64_enc cd bs) = Some bs.
  Variable o : jopts.
  Variable nm : names.
  Variable recv : nat -> value -> bool.
  Variable rect : nat -> value -> jres jv.
  Variable recd : nat -> jv -> jres value.
  Hypothesis Hrec : forall tid v, recv tid v = true ->
    exists j, rect tid v = JOk j /\ (is_jnull j = true -> mn_wkt (nm_msg nm tid) = 7) /\
              recd tid j = JOk (strip_unknown v).

  Lemma json_elem_rt fd fn v :
    jvalid_elem nm recv fd fn v = true ->
    (f_kind fd = KS SkEnum -> enum_ok (nm_enum nm fn) = true) ->
    (forall t, f_kind fd = KGrp t -> mn_wkt (nm_msg nm t) <> 7) ->
    exists j, json_elem cd o nm rect fd fn v = JOk j /\
              dec_elem cd nm recd fd fn j = JOk (strip_unknown v) /\
              (is_jnull j = true ->
               (f_kind fd = KS SkEnum /\ e_null (nm_enum nm fn) = true) \/
               (exists t, f_kind fd = KMsg t /\ mn_wkt (nm_msg nm t) = 7)).
  Proof.
    unfold jvalid_elem, json_elem, dec_elem. intros H He Hg.
    destruct (f_kind fd) as [sk|tid|tid] eqn:Ek; destruct v as [s|fs unk|k0 v0]; try discriminate.
    - destruct (json_scalar_rt cd Hb64 o (nm_enum nm fn) sk s H) as (j & Hj & Hd & Hn).
      { intros ->. apply He. reflexivity. }
      exists j. rewrite Hj, Hd. cbn [jbind]. split; [reflexivity|]. split; [reflexivity|].
      intros Hnull. destruct (Hn Hnull) as [-> Hnl]. left. split; [reflexivity|exact Hnl].
    - destruct (Hrec tid _ H) as (j & Hj & Hnn & Hd). exists j. rewrite Hj. split; [reflexivity|]. split; [exact Hd|].
      intros Hnull. right. exists tid. split; [reflexivity|apply Hnn, Hnull].
    - destruct (Hrec tid _ H) as (j & Hj & Hnn & Hd). exists j. rewrite Hj. split; [reflexivity|]. split; [exact Hd|].
      intros Hnull. exfalso. apply (Hg tid eq_refl), Hnn, Hnull.
  Qed.

  Variable fps : list fpair.
  Hypothesis Hlook : forall p, In p fps -> lookup_name fps (json_name o (snd p)) = Some p.
  Hypothesis Henum : forall p, In p fps -> f_kind (fst p) = KS SkEnum -> enum_ok (nm_enum nm (snd p)) = true.
  Hypothesis Honeof : forall p, In p fps -> fn_inoneof (snd p) = false -> f_oneof (fst p) = None.
  Hypothesis Hgrp : forall p, In p fps -> forall t, f_kind (fst p) = KGrp t -> mn_wkt (nm_msg nm t) <> 7.

  Definition jst_after (st : dstate) (fd : fdesc) (vs : list value) (emitted : bool) : dstate :=
    mkDS (match vs with [] => ds_fs st | _ => msg_fset (ds_fs st) (f_num fd) (svals vs) end)
         (if emitted then f_num fd :: ds_seen st else ds_seen st)
         (match vs with
          | [] => ds_oneofs st
          | _ => if is_sing fd then match f_oneof fd with Some i => i :: ds_oneofs st | None => ds_oneofs st end
                 else ds_oneofs st
          end).

  (* ---- map entries ---- *)
  Lemma json_entry_rt fd fn kk e :
    jvalid_entry nm recv fd fn kk e = true -> json_key_kind_ok kk = true ->
    (f_kind fd = KS SkEnum -> enum_ok (nm_enum nm fn) = true) ->
    (forall t, f_kind fd = KGrp t -> mn_wkt (nm_msg nm t) <> 7) ->
    exists kv, json_entry cd o nm rect fd fn kk e = JOk kv /\
      exists k v, e = VEntry k v /\ dec_key kk (fst kv) = JOk k /\
                  dec_elem cd nm recd fd fn (snd kv) = JOk (strip_unknown v).
  Proof.
    unfold jvalid_entry, json_entry. intros H Hkk He Hg.
    destruct e as [|?|k v]; try discriminate.
    apply andb_prop in H. destruct H as [Hk Hv].
    destruct (json_key_rt kk k Hk Hkk) as (name & Hname & Hdk).
    destruct (json_elem_rt fd fn v Hv He Hg) as (j & Hj & Hd & _).
    exists (name, j). rewrite Hname. cbn [jbind]. rewrite Hj. cbn [jbind]. split; [reflexivity|].
    exists k, v. cbn [fst snd]. repeat split; assumption.
  Qed.

  Lemma json_entries_dec fd fn kk :
    forall vs es,
      Forall2 (fun e kv => exists k v, e = VEntry k v /\ dec_key kk (fst kv) = JOk k /\
                 dec_elem cd nm recd fd fn (snd kv) = JOk (strip_unknown v)) vs es ->
      msg_entries_sorted vs = true ->
      forall acc, Forall (key_gt_all acc) vs ->
        dec_entries cd nm recd fd fn kk es acc = JOk (acc ++ svals vs).
  Proof.
    induction 1 as [|e kv vs es Hx Hall IH]; intros Hsorted acc Hgt.
    - cbn [dec_entries svals map]. rewrite app_nil_r. reflexivity.
    - destruct Hx as (k & v & -> & Hk & Hv). destruct kv as [name j]. cbn [fst snd] in *.
      inversion Hgt as [|? ? Hkgt Hgt']; subst. cbn [key_gt_all] in Hkgt.
      cbn [msg_entries_sorted] in Hsorted. apply andb_prop in Hsorted. destruct Hsorted as [Hafter Hsorted].
      cbn [dec_entries]. rewrite Hk. cbn [jbind]. unfold has_key. rewrite (has_key_false _ _ Hkgt).
      rewrite Hv. cbn [jbind]. rewrite (msg_map_put_last _ _ _ Hkgt). rewrite IH; [|exact Hsorted|].
      + rewrite <- app_assoc. reflexivity.
      + exact (key_gt_all_snoc _ _ _ _ Hgt' Hafter).
  Qed.

  (* ---- list / map field values, possibly empty ---- *)
  Lemma json_elems_rt fd fn vs :
    (forall a, In a vs -> jvalid_elem nm recv fd fn a = true) ->
    (f_kind fd = KS SkEnum -> enum_ok (nm_enum nm fn) = true) ->
    (forall t, f_kind fd = KGrp t -> mn_wkt (nm_msg nm t) <> 7) ->
    exists xs, jmapM (json_elem cd o nm rect fd fn) vs = JOk xs /\
               jmapM (dec_elem cd nm recd fd fn) xs = JOk (svals vs).
  Proof.
    intros Hall0 He Hg.
    destruct (jmapM_ok (json_elem cd o nm rect fd fn)
                (fun v j => dec_elem cd nm recd fd fn j = JOk (strip_unknown v)) vs) as (xs & Hxs & Hall).
    { intros a Ha. destruct (json_elem_rt fd fn a (Hall0 a Ha) He Hg) as (j & Hj & Hd & _). exists j. split; assumption. }
    exists xs. split; [exact Hxs|]. exact (jmapM_dec _ strip_unknown xs vs Hall).
  Qed.

  Lemma json_field_value_rt fd fn vs :
    (f_kind fd = KS SkEnum -> enum_ok (nm_enum nm fn) = true) ->
    (forall t, f_kind fd = KGrp t -> mn_wkt (nm_msg nm t) <> 7) ->
    (vs = [] \/ jvalid_field nm recv fd fn vs = true) -> is_sing fd = false ->
    exists j, json_field_value cd o nm rect fd fn vs = JOk j /\
      (match f_card fd with CMap _ _ _ => is_jobj j | _ => is_jarr j end) /\
      forall st, msg_fget (ds_fs st) (f_num fd) = [] ->
        dec_field cd nm recd fd fn j st =
        JOk (mkDS (store (ds_fs st) (f_num fd) (svals vs)) (ds_seen st) (ds_oneofs st)).
  Proof.
    intros He Hg Hval Hns. unfold json_field_value, dec_field, is_sing, jvalid_field in *.
    destruct (f_card fd) as [| | | | |kk u d] eqn:Ecard; try discriminate.
    1, 2: (* repeated, packed *)
      assert (Hall0 : forall a, In a vs -> jvalid_elem nm recv fd fn a = true)
        by (destruct Hval as [->|Hval]; [intros a []|]; destruct vs; [discriminate|]; apply forallb_forall, Hval);
      destruct (json_elems_rt fd fn vs Hall0 He Hg) as (xs & -> & Hd); cbn [jbind];
      eexists; split; [reflexivity|]; split; [eexists; reflexivity|]; intros st ->; now rewrite Hd.
    (* map *)
    assert (Hv : forallb (jvalid_entry nm recv fd fn kk) vs = true /\ msg_entries_sorted vs = true /\
                 (vs <> [] -> json_key_kind_ok kk = true)).
    { destruct Hval as [->|Hval]; [repeat split; congruence|].
      apply andb_prop in Hval. destruct Hval as [Hval Hkk]. apply andb_prop in Hval. destruct Hval as [Hval Hsorted].
      destruct vs; [discriminate|]. auto. }
    destruct Hv as (Hall0 & Hsorted & Hkk). rewrite forallb_forall in Hall0.
    destruct (jmapM_ok (json_entry cd o nm rect fd fn kk)
                (fun e kv => exists k v, e = VEntry k v /\ dec_key kk (fst kv) = JOk k /\
                   dec_elem cd nm recd fd fn (snd kv) = JOk (strip_unknown v)) vs) as (es & -> & Hall).
    { intros a Ha. apply json_entry_rt; auto. apply Hkk. intros ->. destruct Ha. }
    cbn [jbind]. eexists. split; [reflexivity|]. split; [eexists; reflexivity|]. intros st ->.
    rewrite (json_entries_dec fd fn kk vs es Hall Hsorted []); [reflexivity|].
    rewrite Forall_forall. intros e He'. specialize (Hall0 e He').
    unfold jvalid_entry in Hall0. destruct e; try discriminate. cbn [key_gt_all]. constructor.
  Qed.

  (* ---- one field ---- *)
  Lemma json_member_rt fs p st :
    In p fps ->
    (msg_fget fs (fp_num p) <> [] -> jvalid_field nm recv (fst p) (snd p) (msg_fget fs (fp_num p)) = true) ->
    (msg_fget fs (fp_num p) = [] -> o_emit_unpop o = true -> f11_shaped nm p = false) ->
    msg_fget (ds_fs st) (fp_num p) = [] ->
    ~ In (fp_num p) (ds_seen st) ->
    (forall i, f_oneof (fst p) = Some i -> msg_fget fs (fp_num p) <> [] -> ~ In i (ds_oneofs st)) ->
    exists ms, json_member cd o nm rect fs p = JOk ms /\
      forall rest, dec_members cd nm recd fps false (ms ++ rest) st =
                   dec_members cd nm recd fps false rest
                     (jst_after st (fst p) (msg_fget fs (fp_num p)) (match ms with [] => false | _ => true end)).
  Proof.
    destruct p as [fd fn]. unfold fp_num. cbn [fst snd]. intros Hin Hval Hf11 Hfresh Hseen Hone.
    pose proof (Henum _ Hin) as He. cbn [fst snd] in He.
    pose proof (Hgrp _ Hin) as Hg. cbn [fst snd] in Hg.
    pose proof (Hlook _ Hin : lookup_name fps (json_name o fn) = Some (fd, fn)) as Hl.
    unfold json_member. cbn [fst snd].
    assert (Hdm : forall j rest st1,
              dec_field cd nm recd fd fn j (mkDS (ds_fs st) (f_num fd :: ds_seen st) (ds_oneofs st)) = JOk st1 ->
              is_jnull j && negb (null_is_value nm fd fn) = false ->
              dec_members cd nm recd fps false ((json_name o fn, j) :: rest) st = dec_members cd nm recd fps false rest st1).
    { intros j rest st1 Hdf Hnull. cbn [dec_members]. unfold dec_member. cbn [fst snd andb]. rewrite Hl.
      rewrite (existsb_Neqb_false _ _ Hseen). rewrite Hnull, Hdf. reflexivity. }
    destruct (msg_fget fs (f_num fd)) as [|v0 vs0] eqn:Evs.
    { (* absent *)
      assert (Hnone : exists ms, JOk [] = JOk ms /\
                forall rest, dec_members cd nm recd fps false (ms ++ rest) st =
                             dec_members cd nm recd fps false rest
                               (jst_after st fd [] (match ms with [] => false | _ => true end))).
      { exists []. split; [reflexivity|]. intros rest. unfold jst_after. destruct st. reflexivity. }
      destruct (o_emit_unpop o || o_emit_defaults o) eqn:Eemit;
        [|exact Hnone].
      unfold json_default.
      destruct (f_ext fd || fn_inoneof fn) eqn:Eeo;
        [exact Hnone|].
      apply orb_false_iff in Eeo. destruct Eeo as [Eext Eino].
      destruct (rt_has_presence fd) eqn:Ehp.
      - destruct (o_emit_unpop o) eqn:Eun;
          [|exact Hnone].
        specialize (Hf11 eq_refl eq_refl). unfold f11_shaped in Hf11. cbn [fst snd] in Hf11.
        rewrite Eext, Eino, Ehp in Hf11. cbn [negb andb] in Hf11.
        eexists. split; [reflexivity|]. intros rest. cbn [app dec_members]. unfold dec_member. cbn [fst snd andb].
        rewrite Hl, (existsb_Neqb_false _ _ Hseen). cbn [is_jnull]. rewrite Hf11. cbn [negb andb jbind].
        unfold jst_after. reflexivity.
      - unfold rt_has_presence in Ehp.
        destruct (f_card fd) as [| | | | |kk kutf8 vdef] eqn:Ecard; try discriminate.
        1:{ (* CImp *)
          destruct (f_kind fd) as [sk| |] eqn:Ek;
            [|exact Hnone..].
          destruct (json_scalar_rt cd Hb64 o (nm_enum nm fn) sk (sk_zero sk) (json_zero_ok _ sk)) as (j & Hj & Hd & Hn).
          { intros ->. apply He. reflexivity. }
          rewrite Hj. eexists. split; [reflexivity|]. intros rest. cbn [app].
          erewrite Hdm; [reflexivity| |].
          * unfold dec_field. rewrite Ecard. cbn [ds_oneofs ds_fs ds_seen].
            rewrite (Honeof _ Hin Eino : f_oneof fd = None).
            unfold dec_elem. rewrite Ek, Hd. cbn [jbind].
            rewrite zero_is_zero.
            unfold jst_after. reflexivity.
          * destruct (is_jnull j) eqn:En; [|reflexivity]. destruct (Hn eq_refl) as [-> Hnl].
            unfold null_is_value. rewrite Ecard, Ek, Hnl. reflexivity. }
        (* an empty list or map: [] or {} *)
        all: eexists; (split; [reflexivity|]); intros rest; cbn [app]; (erewrite Hdm; [reflexivity| |reflexivity]).
        all: unfold dec_field; rewrite Ecard; cbn [jmapM dec_entries jbind ds_fs ds_seen ds_oneofs]; now rewrite Hfresh. }
    (* present *)
    specialize (Hval ltac:(discriminate)). unfold jvalid_field in Hval.
    set (vs := v0 :: vs0) in *.
    assert (Hsing : forall v, vs = [v] -> is_sing fd = true ->
              (f_card fd = CImp -> exists s, v = VS s /\ msg_scalar_is_zero s = false) ->
              jvalid_elem nm recv fd fn v = true ->
              exists ms, (j <- json_elem cd o nm rect fd fn v ;; JOk [(json_name o fn, j)]) = JOk ms /\
                forall rest, dec_members cd nm recd fps false (ms ++ rest) st =
                  dec_members cd nm recd fps false rest (jst_after st fd vs (match ms with [] => false | _ => true end))).
    { intros v Evs' Hs Himp Hv. destruct (json_elem_rt fd fn v Hv He Hg) as (j & Hj & Hd & Hn).
      rewrite Hj. cbn [jbind]. eexists. split; [reflexivity|]. intros rest. cbn [app].
      erewrite Hdm; [reflexivity| |].
      - unfold dec_field. unfold is_sing in Hs.
        pose proof (oneof_mark_fresh (f_oneof fd) (ds_oneofs st) (fun i Hi => Hone i Hi ltac:(discriminate))) as Ho.
        unfold jst_after. rewrite Evs'. cbn [svals map]. unfold is_sing.
        destruct (f_card fd) eqn:Ecard; try discriminate; cbn [ds_oneofs ds_fs ds_seen]; rewrite Ho, Hd; cbn [jbind];
          try reflexivity.
        destruct (Himp eq_refl) as (s & -> & Hnz). cbn [strip_unknown]. rewrite Hnz. reflexivity.
      - destruct (is_jnull j) eqn:En; [|reflexivity]. unfold is_sing in Hs.
        destruct (Hn eq_refl) as [[Hk Hnl]|(t & Hk & Hw)]; unfold null_is_value; rewrite Hk.
        + rewrite Hnl. destruct (f_card fd); try discriminate; reflexivity.
        + rewrite Hw. destruct (f_card fd); try discriminate; reflexivity. }
    destruct (is_sing fd) eqn:Es.
    - (* one value *)
      unfold json_field_value. unfold is_sing in Es. destruct (f_card fd) eqn:Ecard; try discriminate Es.
      + (* COpt *) destruct vs0; [|discriminate]. apply (Hsing v0 eq_refl eq_refl); [discriminate|exact Hval].
      + (* CImp *) destruct v0 as [s| |]; try discriminate. destruct vs0; [|discriminate].
        apply andb_prop in Hval. destruct Hval as [Hval Hnz]. apply negb_true_iff in Hnz.
        apply (Hsing (VS s) eq_refl eq_refl); [|exact Hval].
        intros _. exists s. split; [reflexivity|exact Hnz].
      + (* CReq *) destruct vs0; [|discriminate]. apply (Hsing v0 eq_refl eq_refl); [discriminate|exact Hval].
    - (* a list or a map *)
      destruct (json_field_value_rt fd fn vs He Hg (or_intror Hval) Es) as (j & -> & Hshp & Hd). cbn [jbind].
      eexists. split; [reflexivity|]. intros rest. cbn [app].
      rewrite (Hdm j rest _ (Hd (mkDS (ds_fs st) (f_num fd :: ds_seen st) (ds_oneofs st)) Hfresh)).
      + unfold jst_after. rewrite Es. subst vs. reflexivity.
      + destruct (f_card fd); destruct Hshp as [l ->]; reflexivity.
  Qed.
End JBody.

(* ================================================================== all members of one message *)
Lemma jvalid_field_nonempty nm recv fd fn vs : jvalid_field nm recv fd fn vs = true -> vs <> [].
Proof.
  unfold jvalid_field. destruct (f_card fd); destruct vs; try discriminate; intros _; discriminate.
Qed.

Section JMessage.
  Variable cd : jcodec.
  Hypothesis Hb64 : forall bs, b64_dec cd (b64_enc cd bs) = Some bs.
  Variable o : jopts.
  Variable nm : names.
  Variable recv : nat -> value -> bool.
  Variable rect : nat -> value -> jres jv.
  Variable recd : nat -> jv -> jres value.
  Hypothesis Hrec : forall tid v, recv tid v = true ->
    exists j, rect tid v = JOk j /\ (is_jnull j = true -> mn_wkt (nm_msg nm tid) = 7) /\
              recd tid j = JOk (strip_unknown v).
  Variable fps : list fpair.
  Hypothesis Hlook : forall p, In p fps -> lookup_name fps (json_name o (snd p)) = Some p.
  Hypothesis Henum : forall p, In p fps -> f_kind (fst p) = KS SkEnum -> enum_ok (nm_enum nm (snd p)) = true.
  Hypothesis Honeof : forall p, In p fps -> fn_inoneof (snd p) = false -> f_oneof (fst p) = None.
  Hypothesis Hgrp : forall p, In p fps -> forall t, f_kind (fst p) = KGrp t -> mn_wkt (nm_msg nm t) <> 7.
  Hypothesis Hnd : NoDup (map fp_num fps).
  Variable fs : fields.
  Hypothesis Hchunks : forall k vs, In (k, vs) fs ->
    exists p, In p fps /\ fp_num p = k /\ jvalid_field nm recv (fst p) (snd p) vs = true.
  Hypothesis Hone : rt_oneofs_ok fps fs = true.
  Hypothesis Hf11 : forall p, In p fps -> msg_fget fs (fp_num p) = [] -> o_emit_unpop o = true -> f11_shaped nm p = false.

  Definition emitted (p : fpair) : bool :=
    match json_member cd o nm rect fs p with JOk (_ :: _) => true | _ => false end.

  Definition jstep (st : dstate) (p : fpair) : dstate :=
    jst_after st (fst p) (msg_fget fs (fp_num p)) (emitted p).

  Lemma jfield_valid p : In p fps -> msg_fget fs (fp_num p) <> [] ->
    jvalid_field nm recv (fst p) (snd p) (msg_fget fs (fp_num p)) = true.
  Proof. exact (chunk_of_field fps fs (fun p vs => jvalid_field nm recv (fst p) (snd p) vs = true) Hnd Hchunks p). Qed.

  Lemma jfields_rt : forall order done st,
    NoDup (map fp_num (done ++ order)) -> (forall p, In p (done ++ order) -> In p fps) ->
    loop_inv fs ds_fs ds_seen ds_oneofs done st ->
    exists mss, jmapM (json_member cd o nm rect fs) order = JOk mss /\
      forall rest, dec_members cd nm recd fps false (concat mss ++ rest) st =
                   dec_members cd nm recd fps false rest (fold_left jstep order st).
  Proof.
    induction order as [|p order IH]; intros done st Hnodup Hsub Hinv.
    - exists []. split; [reflexivity|]. intros rest. reflexivity.
    - destruct (loop_inv_fresh fps fs Hone ds_fs ds_seen ds_oneofs done p order st Hinv Hnodup Hsub) as (Hp & Hfresh & Hseen & Hones).
      destruct (json_member_rt cd Hb64 o nm recv rect recd Hrec fps Hlook Henum Honeof Hgrp fs p st Hp
                  (jfield_valid p Hp) (Hf11 p Hp) Hfresh Hseen Hones) as (ms & Hms & Hdec).
      assert (Hem : (match ms with [] => false | _ => true end) = emitted p).
      { unfold emitted. rewrite Hms. reflexivity. }
      rewrite Hem in Hdec. fold (jstep st p) in Hdec.
      destruct (IH (done ++ [p]) (jstep st p)) as (mss & Hmss & Hdecs).
      + rewrite <- app_assoc. exact Hnodup.
      + intros q Hq. apply Hsub. rewrite <- app_assoc in Hq. exact Hq.
      + apply (loop_inv_after fs ds_fs ds_seen ds_oneofs done st p _ Hinv); unfold jstep, jst_after; cbn [ds_fs ds_seen ds_oneofs].
        * destruct (msg_fget fs (fp_num p)); reflexivity.
        * intros k Hk. destruct (emitted p); [destruct Hk as [<-|Hk]|]; auto.
        * reflexivity.
      + exists (ms :: mss). cbn [jmapM]. rewrite Hms. cbn [jbind]. rewrite Hmss. cbn [jbind].
        split; [reflexivity|]. intros rest. cbn [concat fold_left]. rewrite <- app_assoc, Hdec, Hdecs. reflexivity.
  Qed.

  Lemma fold_jstep_fs order st : ds_fs (fold_left jstep order st) = msg_ins_all (pairs fs order) (ds_fs st).
  Proof.
    apply (fold_step_fs fs ds_fs jstep). clear. intros st p. unfold jstep, jst_after, pairs. cbn [flat_map ds_fs].
    destruct (msg_fget fs (fp_num p)); reflexivity.
  Qed.
End JMessage.

(* ================================================================== schema facts *)
Lemma find_by_find sel ext fps name :
  find_by sel ext fps name = find (fun p => Bool.eqb (f_ext (fst p)) ext && bs_eqb (sel (snd p)) name) fps.
Proof. induction fps as [|p r IH]; [reflexivity|]. cbn [find_by find]. now rewrite IH. Qed.

Lemma find_by_some sel ext fps name q : find_by sel ext fps name = Some q ->
  In q fps /\ f_ext (fst q) = ext /\ sel (snd q) = name.
Proof.
  rewrite find_by_find. intros H. apply find_some in H as [Hin H]. apply andb_prop in H as [E1 E2].
  split; [exact Hin|]. split; [apply eqb_prop, E1|apply bs_eqb_eq, E2].
Qed.

Lemma find_by_self sel ext fps p :
  NoDup (map (fun p => sel (snd p)) fps) -> In p fps -> f_ext (fst p) = ext ->
  find_by sel ext fps (sel (snd p)) = Some p.
Proof.
  intros Hnd Hp He. rewrite find_by_find. now apply find_named.
Qed.

Lemma find_by_none sel ext fps name : find_by sel ext fps name = None ->
  forall p, In p fps -> f_ext (fst p) = ext -> sel (snd p) <> name.
Proof.
  rewrite find_by_find. intros H p Hin He Hn. pose proof (find_none _ _ H p Hin) as F. cbn beta in F.
  rewrite He, eqb_reflx, Hn, bs_eqb_refl in F. discriminate.
Qed.

Section JSchema.
  Variable S : schema.
  Variable nm : names.
  Hypothesis Hschema : json_schema_ok S nm = true.

  Lemma jschema_facts (o : jopts) tid : (tid < length S)%nat ->
    let fps := rt_fields S nm tid in
    NoDup (map fp_num fps) /\
    (forall p, In p fps -> 1 <= fp_num p) /\
    (forall p, In p fps -> f_kind (fst p) = KS SkEnum -> enum_ok (nm_enum nm (snd p)) = true) /\
    (forall p, In p fps -> lookup_name fps (json_name o (snd p)) = Some p) /\
    (forall p, In p fps -> fn_inoneof (snd p) = false -> f_oneof (fst p) = None).
  Proof.
    intros Hlt fps. unfold json_schema_ok in Hschema. apply andb_prop in Hschema as [H1 H2].
    destruct (rt_msg_facts S nm tid H1 Hlt) as (Hnd & Hpos & Henum & _). fold fps in Hnd, Hpos, Henum.
    rewrite forallb_forall in H2. specialize (H2 tid ltac:(apply in_seq; lia)).
    unfold json_msg_ok in H2. fold fps in H2.
    apply andb_prop in H2. destruct H2 as [H2 _].
    apply andb_prop in H2. destruct H2 as [H2 Hino]. apply andb_prop in H2. destruct H2 as [H2 Hcross].
    apply andb_prop in H2. destruct H2 as [H2 Hshape]. apply andb_prop in H2. destruct H2 as [Hj Ht].
    apply bs_nodup_NoDup in Hj. apply bs_nodup_NoDup in Ht.
    rewrite forallb_forall in Hshape, Hcross, Hino.
    split; [exact Hnd|]. split; [exact Hpos|]. split; [exact Henum|].
    split.
    { intros p Hp. specialize (Hshape p Hp). unfold json_name_shape_ok in Hshape. unfold lookup_name, json_name.
      destruct (f_ext (fst p)) eqn:Eext.
      - apply andb_prop in Hshape. destruct Hshape as [Hbr Heq]. apply bs_eqb_eq in Heq.
        assert (Hname : (if o_proto_names o then fn_text (snd p) else fn_json (snd p)) = fn_text (snd p))
          by (destruct (o_proto_names o); [reflexivity|exact Heq]).
        rewrite Hname, Hbr. now apply find_by_self.
      - apply andb_prop in Hshape. destruct Hshape as [Hbj Hbt]. apply negb_true_iff in Hbj, Hbt.
        destruct (o_proto_names o).
        + rewrite Hbt.
          destruct (find_by fn_json false fps (fn_text (snd p))) as [q|] eqn:Eq.
          * f_equal. destruct (find_by_some _ _ _ _ _ Eq) as (Hq1 & _ & Hq3).
            specialize (Hcross q Hq1). rewrite forallb_forall in Hcross. specialize (Hcross p Hp).
            rewrite Hq3, bs_eqb_refl in Hcross. cbn [negb] in Hcross. rewrite orb_false_r in Hcross.
            apply N.eqb_eq in Hcross. apply (list_nodup_map_inj fp_num fps); assumption.
          * now rewrite (find_by_self fn_text false fps p Ht Hp Eext).
        + rewrite Hbj. now rewrite (find_by_self fn_json false fps p Hj Hp Eext). }
    intros p Hp Hino'. specialize (Hino p Hp). destruct (f_oneof (fst p)); [congruence|reflexivity].
  Qed.
  Lemma jschema_no_at_type (o : jopts) tid : (tid < length S)%nat ->
    forall p, In p (rt_fields S nm tid) -> json_name o (snd p) <> s_at_type.
  Proof.
    intros Hlt p Hp. unfold json_schema_ok in Hschema.
    apply andb_prop in Hschema. destruct Hschema as [_ H2]. rewrite forallb_forall in H2.
    specialize (H2 tid ltac:(apply in_seq; lia)). unfold json_msg_ok in H2.
    apply andb_prop in H2. destruct H2 as [_ Hat]. rewrite forallb_forall in Hat. specialize (Hat p Hp).
    apply andb_prop in Hat. destruct Hat as [Hj Ht]. apply negb_true_iff in Hj, Ht.
    unfold json_name. destruct (o_proto_names o); intros E; rewrite E, bs_eqb_refl in *; discriminate.
  Qed.
End JSchema.

(* ================================================================== the theorem (core) *)
Section JMain.
  Variable cd : jcodec.
  Hypothesis Hb64 : forall bs, b64_dec cd (b64_enc cd bs) = Some bs.
  Variable o : jopts.
  Variable S : schema.
  Variable nm : names.
  Variable lim : nat.
  Hypothesis Hschema : json_schema_ok S nm = true.

  Lemma jchunks_of recv tid fs :
    forallb (jvalid_chunk nm recv (rt_fields S nm tid)) fs = true ->
    forall k vs, In (k, vs) fs ->
      exists p, In p (rt_fields S nm tid) /\ fp_num p = k /\ jvalid_field nm recv (fst p) (snd p) vs = true.
  Proof. exact (chunks_by_find _ (fun p vs => jvalid_field nm recv (fst p) (snd p) vs) fs). Qed.

  (* the ordinary mapping of one message, for any decoder / encoder of the sub-messages *)
  Lemma json_ordinary_rt recv rect recd
    (Hrec : forall tid v, recv tid v = true ->
       exists j, rect tid v = JOk j /\ (is_jnull j = true -> mn_wkt (nm_msg nm tid) = 7) /\
                 recd tid j = JOk (strip_unknown v)) tid fs :
    (tid < length S)%nat ->
    (forall p, In p (rt_fields S nm tid) -> forall t, f_kind (fst p) = KGrp t -> mn_wkt (nm_msg nm t) <> 7) ->
    msg_keys_sorted 0 fs = true ->
    forallb (jvalid_chunk nm recv (rt_fields S nm tid)) fs = true ->
    rt_oneofs_ok (rt_fields S nm tid) fs = true ->
    (negb (true && o_emit_unpop o)
     || forallb (fun p => negb (f11_shaped nm p) || has_num fs (fp_num p)) (rt_fields S nm tid)) = true ->
    exists ms, json_members cd o S nm rect tid fs = JOk ms /\
               dec_ordinary cd S nm recd tid false ms = JOk (VMsg (map sp fs) []).
  Proof.
    intros Hlt Hgrp Hs Hc Ho Hf11.
    destruct (jschema_facts S nm Hschema o tid Hlt) as (Hnd & Hpos & Henum & Hlook & Honeof).
    set (fps := rt_fields S nm tid) in *.
    apply msg_keys_sorted_spec in Hs.
    pose proof (jchunks_of recv tid fs Hc) as Hchunks. fold fps in Hchunks.
    pose proof (rt_field_order_perm fps) as Hperm.
    assert (Hf11' : forall p, In p fps -> msg_fget fs (fp_num p) = [] -> o_emit_unpop o = true -> f11_shaped nm p = false).
    { intros p Hp Hget Hun. rewrite Hun in Hf11. cbn [andb negb orb] in Hf11.
      rewrite forallb_forall in Hf11. specialize (Hf11 p Hp). unfold has_num in Hf11. rewrite Hget in Hf11.
      rewrite orb_false_r in Hf11. apply negb_true_iff in Hf11. exact Hf11. }
    destruct (jfields_rt cd Hb64 o nm recv rect recd Hrec
                fps Hlook Henum Honeof Hgrp Hnd fs Hchunks Ho Hf11' (rt_field_order fps) [] (mkDS [] [] []))
      as (mss & Hmss & Hdec).
    { cbn [app]. eapply Permutation_NoDup; [apply Permutation_map, Permutation_sym, Hperm|exact Hnd]. }
    { cbn [app]. intros p Hp. eapply Permutation_in; eassumption. }
    { now apply loop_inv_init. }
    exists (concat mss). split.
    { unfold json_members. fold fps. rewrite Hmss. reflexivity. }
    unfold dec_ordinary. fold fps. specialize (Hdec []). rewrite app_nil_r in Hdec. rewrite Hdec.
    cbn [dec_members jbind]. rewrite (fold_jstep_fs cd o nm rect fs). cbn [ds_fs].
    erewrite ins_all_pairs_eq; [reflexivity|exact Hnd|exact Hpos|exact Hs| |exact Hperm].
    intros k vs Hin. destruct (Hchunks k vs Hin) as (p & Hp & Hk & Hv).
    split; [eapply jvalid_field_nonempty, Hv|]. exists p. split; assumption.
  Qed.

  Hypothesis Hcore : json_core S nm = true.

  Lemma core_wkt t : mn_wkt (nm_msg nm t) = 0 \/ mn_wkt (nm_msg nm t) = 9.
  Proof.
    destruct (Nat.lt_ge_cases t (length S)) as [Hlt|Hge].
    - unfold json_core in Hcore. rewrite forallb_forall in Hcore.
      assert (Hcw := Hcore t ltac:(apply in_seq; lia)). cbn zeta in Hcw.
      apply orb_prop in Hcw. destruct Hcw as [E|E]; [left; apply N.eqb_eq, E|].
      apply andb_prop in E. destruct E as [E _]. right. apply N.eqb_eq, E.
    - left. unfold json_schema_ok, rt_schema_ok in Hschema.
      apply andb_prop in Hschema. destruct Hschema as [H1 _]. apply andb_prop in H1. destruct H1 as [Hlen _].
      apply Nat.eqb_eq in Hlen. unfold nm_msg. rewrite nth_overflow by lia. reflexivity.
  Qed.

  Theorem json_roundtrip_core : forall fuel tid v,
    json_valid true (o_emit_unpop o) S nm fuel tid v = true ->
    exists j, to_json_msg cd o S nm lim fuel tid v = JOk j /\ is_jnull j = false /\
              of_json_msg cd S nm fuel tid j = JOk (strip_unknown v).
  Proof.
    induction fuel as [|f IH]; intros tid v H; [discriminate|].
    cbn [json_valid] in H. apply andb_prop in H. destruct H as [Hlt Hb]. apply Nat.ltb_lt in Hlt.
    cbn [to_json_msg of_json_msg].
    unfold jvalid_body in Hb. destruct v as [|fs unk|]; try discriminate.
    apply andb_prop in Hb. destruct Hb as [Hb Hf11]. apply andb_prop in Hb. destruct Hb as [Hb Ho].
    apply andb_prop in Hb. destruct Hb as [Hs Hc].
    change (strip_unknown (VMsg fs unk)) with (VMsg (map sp fs) []).
    assert (Hrec : forall tid v, json_valid true (o_emit_unpop o) S nm f tid v = true ->
              exists j, to_json_msg cd o S nm lim f tid v = JOk j /\ (is_jnull j = true -> mn_wkt (nm_msg nm tid) = 7) /\
                        of_json_msg cd S nm f tid j = JOk (strip_unknown v)).
    { intros t x Hx. destruct (IH t x Hx) as (j & Hj & Hnn & Hd). exists j. split; [exact Hj|]. split; [|exact Hd].
      rewrite Hnn. discriminate. }
    destruct (json_ordinary_rt _ _ _ Hrec tid fs Hlt) as (ms & Hmembers & Hdecoded); try assumption.
    { intros p _ t _. destruct (core_wkt t) as [E|E]; rewrite E; discriminate. }
    unfold json_msg_body, of_json_body.
    destruct (core_wkt tid) as [E0|E9].
    - rewrite E0. rewrite Hmembers. cbn [jbind].
      eexists. split; [reflexivity|]. split; [reflexivity|]. exact Hdecoded.
    - rewrite E9. rewrite Hmembers. cbn [jbind]. eexists. split; [reflexivity|]. split; [reflexivity|].
      (* Empty: no fields, hence no members *)
      unfold json_core in Hcore. rewrite forallb_forall in Hcore.
      assert (Hcw := Hcore tid ltac:(apply in_seq; lia)). cbn zeta in Hcw. rewrite E9 in Hcw.
      cbn [N.eqb Pos.eqb orb andb] in Hcw.
      unfold json_members in Hmembers. unfold dec_ordinary in Hdecoded.
      destruct (rt_fields S nm tid) as [|? ?] eqn:Efps; [|discriminate].
      unfold rt_field_order in Hmembers. cbn in Hmembers. inversion Hmembers; subst ms.
      cbn [dec_empty]. cbn in Hdecoded. exact Hdecoded.
  Qed.
End JMain.

Theorem json_roundtrip_except_F11_partial cd (o : jopts) S nm lim fuel tid v :
  (forall bs, b64_dec cd (b64_enc cd bs) = Some bs) ->
  json_schema_ok S nm = true -> json_core S nm = true ->
  json_valid true (o_emit_unpop o) S nm fuel tid v = true ->
  exists j, to_json cd o S nm lim fuel tid v = JOk j /\ of_json cd S nm fuel tid j = JOk (strip_unknown v).
Proof.
  intros Hb Hs Hc Hv.
  destruct (json_roundtrip_core cd Hb (jo_tree o) S nm lim Hs Hc fuel tid v Hv) as (j & Hj & _ & Hd).
  exists j. split; assumption.
Qed.

Theorem json_marshal_total_partial cd (o : jopts) S nm lim fuel tid v :
  (forall bs, b64_dec cd (b64_enc cd bs) = Some bs) ->
  json_schema_ok S nm = true -> json_core S nm = true ->
  json_valid true (o_emit_unpop o) S nm fuel tid v = true ->
  exists j, to_json cd o S nm lim fuel tid v = JOk j.
Proof.
  intros Hb Hs Hc Hv.
  destruct (json_roundtrip_except_F11_partial cd o S nm lim fuel tid v Hb Hs Hc Hv) as (j & Hj & _).
  exists j. exact Hj.
Qed.

(* Multiline and Indent select the rendering only *)
Theorem json_rendering_options_irrelevant cd ml ml' ind ind' pn en eu ed S nm lim fuel tid v :
  to_json cd (mkJO ml ind pn en eu ed) S nm lim fuel tid v = to_json cd (mkJO ml' ind' pn en eu ed) S nm lim fuel tid v.
Proof. reflexivity. Qed.
