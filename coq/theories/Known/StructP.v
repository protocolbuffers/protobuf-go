(* structpb (C45): NewValue then AsInterface is the documented conversion [norm] and fails exactly on
   the rejected inputs; base64 and UTF-8 facts for the []byte case; integers up to 2^53 convert to
   float64 exactly; protojson of a Value agrees with encoding/json of its AsInterface. *)
From Coq Require Import List NArith ZArith Bool Lia.
From Coq Require Import ZifyBool ZifyNat ZifyN.
Require Import PB.Base.PBytes PB.Base.Base64P PB.Known.StructModel.
Import ListNotations.
Open Scope N_scope.

Section GvalInd.
  Variable P : gval -> Prop.
  Hypothesis Hnil : P GNil.
  Hypothesis Hbool : forall b, P (GBool b).
  Hypothesis Hnum : forall b, P (GNum b).
  Hypothesis Hf32 : forall b, P (GF32 b).
  Hypothesis Hint : forall z, P (GInt z).
  Hypothesis Hstr : forall s, P (GStr s).
  Hypothesis Hbytes : forall s, P (GBytes s).
  Hypothesis Hlist : forall l, Forall P l -> P (GList l).
  Hypothesis Hmap : forall m, Forall (fun kv => P (snd kv)) m -> P (GMap m).
  Hypothesis Hbad : P GBad.

  Fixpoint gval_ind2 (v : gval) : P v :=
    match v with
    | GNil => Hnil
    | GBool b => Hbool b
    | GNum b => Hnum b
    | GF32 b => Hf32 b
    | GInt z => Hint z
    | GStr s => Hstr s
    | GBytes s => Hbytes s
    | GList l =>
      Hlist l ((fix go (l : list gval) : Forall P l :=
                  match l with
                  | [] => Forall_nil _
                  | x :: r => Forall_cons _ (gval_ind2 x) (go r)
                  end) l)
    | GMap m =>
      Hmap m ((fix go (m : list (list byte * gval)) : Forall (fun kv => P (snd kv)) m :=
                 match m with
                 | [] => Forall_nil _
                 | kv :: r => Forall_cons kv (gval_ind2 (snd kv)) (go r)
                 end) m)
    | GBad => Hbad
    end.
End GvalInd.

Section PvalInd.
  Variable P : pval -> Prop.
  Hypothesis Hunset : P PUnset.
  Hypothesis Hnull : P PNull.
  Hypothesis Hnum : forall b, P (PNumber b).
  Hypothesis Hstr : forall s, P (PString s).
  Hypothesis Hbool : forall b, P (PBool b).
  Hypothesis Hstruct : forall m, Forall (fun kv => P (snd kv)) m -> P (PStruct m).
  Hypothesis Hlist : forall l, Forall P l -> P (PList l).

  Fixpoint pval_ind2 (v : pval) : P v :=
    match v with
    | PUnset => Hunset
    | PNull => Hnull
    | PNumber b => Hnum b
    | PString s => Hstr s
    | PBool b => Hbool b
    | PStruct m =>
      Hstruct m ((fix go (m : list (list byte * pval)) : Forall (fun kv => P (snd kv)) m :=
                    match m with
                    | [] => Forall_nil _
                    | kv :: r => Forall_cons kv (pval_ind2 (snd kv)) (go r)
                    end) m)
    | PList l =>
      Hlist l ((fix go (l : list pval) : Forall P l :=
                  match l with
                  | [] => Forall_nil _
                  | x :: r => Forall_cons _ (pval_ind2 x) (go r)
                  end) l)
    end.
End PvalInd.

(* The loops of NewList / NewStruct and of the two JSON encoders convert every element and give
   up at the first failure.  [traverse f] is that loop on lists (the inline loops of the model
   are instances of it), [traverse_keyed f] the one on maps, which also checks the key. *)
Section Traverse.
  Context {A B : Type} (f : A -> option B).
  Fixpoint traverse (l : list A) : option (list B) :=
    match l with
    | [] => Some []
    | x :: r => match f x, traverse r with Some y, Some ys => Some (y :: ys) | _, _ => None end
    end.
  Fixpoint traverse_keyed (m : list (list byte * A)) : option (list (list byte * B)) :=
    match m with
    | [] => Some []
    | (k, x) :: r => if utf8_valid k then
                       match f x, traverse_keyed r with Some y, Some ys => Some ((k, y) :: ys) | _, _ => None end
                     else None
    end.
  Definition keyed (kv : list byte * A) : option (list byte * B) :=
    if utf8_valid (fst kv) then option_map (pair (fst kv)) (f (snd kv)) else None.

  Lemma keyed_Some k x y : keyed (k, x) = Some y <-> utf8_valid k = true /\ exists p, f x = Some p /\ y = (k, p).
  Proof.
    unfold keyed. cbn [fst snd]. destruct (utf8_valid k); [|split; [discriminate | now intros [? _]]].
    destruct (f x) as [p|]; cbn [option_map].
    - split; [intros [= <-]; eauto | intros [_ [q [[= <-] ->]]]; reflexivity].
    - split; [discriminate | intros [_ [q [E _]]]; discriminate E].
  Qed.
  Lemma keyed_None k x : keyed (k, x) = None <-> utf8_valid k = false \/ f x = None.
  Proof.
    unfold keyed. cbn [fst snd]. destruct (utf8_valid k); [|split; auto]. destruct (f x); cbn [option_map].
    - split; [discriminate | intros [E|E]; discriminate E].
    - split; auto.
  Qed.

  (* success: the image of every element agrees with a conversion h of the input *)
  Lemma traverse_map {C} (g : B -> C) (h : A -> C) l :
    Forall (fun x => forall y, f x = Some y -> g y = h x) l ->
    forall ys, traverse l = Some ys -> map g ys = map h l.
  Proof.
    induction 1 as [|x r Hx Hr IH]; intros ys H; cbn [traverse] in H; [now injection H as <-|].
    destruct (f x) as [y|]; [|discriminate]. destruct (traverse r) as [qs|]; [|discriminate].
    injection H as <-. cbn [map]. now rewrite (Hx y eq_refl), (IH qs eq_refl).
  Qed.

  (* failure: exactly when some element fails *)
  Lemma traverse_None (bad : A -> bool) l :
    Forall (fun x => f x = None <-> bad x = true) l -> (traverse l = None <-> existsb bad l = true).
  Proof.
    induction 1 as [|x r Hx Hr IH]; cbn [traverse existsb]; [split; discriminate|].
    destruct (f x) as [y|].
    - replace (bad x) with false by (destruct (bad x); [discriminate (proj2 Hx eq_refl) | reflexivity]). cbn [orb].
      rewrite <- IH. destruct (traverse r); split; congruence.
    - rewrite (proj1 Hx eq_refl). split; reflexivity.
  Qed.
End Traverse.

Lemma traverse_keyed_eq {A B} (f : A -> option B) m : traverse_keyed f m = traverse (keyed f) m.
Proof.
  induction m as [|[k x] r IH]; [reflexivity|]. cbn [traverse_keyed traverse]. unfold keyed at 1. cbn [fst snd].
  rewrite <- IH. destruct (utf8_valid k); [|reflexivity]. destruct (f x); reflexivity.
Qed.

(* the same loop after converting the input: it succeeds wherever the loop on the input did *)
Lemma traverse_premap {A A' B} (f : A -> option B) (f' : A' -> option B) (g : A -> A') l :
  Forall (fun x => forall y, f x = Some y -> f' (g x) = Some y) l ->
  forall ys, traverse f l = Some ys -> traverse f' (map g l) = Some ys.
Proof.
  induction 1 as [|x r Hx Hr IH]; intros ys H; cbn [traverse map] in *; [exact H|].
  destruct (f x) as [y|]; [|discriminate]. destruct (traverse f r) as [qs|]; [|discriminate].
  now rewrite (Hx y eq_refl), (IH qs eq_refl).
Qed.

Lemma new_value_list l :
  new_value (GList l) = match traverse new_value l with None => None | Some ps => Some (PList ps) end.
Proof. reflexivity. Qed.

Lemma new_value_map m :
  new_value (GMap m) = match traverse (keyed new_value) m with None => None | Some ps => Some (PStruct ps) end.
Proof. rewrite <- traverse_keyed_eq. reflexivity. Qed.

Theorem new_value_as_interface :
  forall v p, new_value v = Some p -> as_interface p = norm v.
Proof.
  induction v using gval_ind2; intros p Hp.
  - inversion Hp; reflexivity.
  - inversion Hp; reflexivity.
  - inversion Hp; reflexivity.
  - inversion Hp; reflexivity.
  - inversion Hp; reflexivity.
  - cbn [new_value] in Hp. destruct (utf8_valid s); inversion Hp; reflexivity.
  - inversion Hp; reflexivity.
  - rewrite new_value_list in Hp. destruct (traverse new_value l) as [ps|] eqn:E; [|discriminate].
    inversion Hp; subst. cbn [as_interface norm]. f_equal. now apply (traverse_map new_value as_interface norm l).
  - rewrite new_value_map in Hp. destruct (traverse (keyed new_value) m) as [ps|] eqn:E; [|discriminate].
    inversion Hp; subst. cbn [as_interface norm]. f_equal. revert E. apply traverse_map.
    eapply Forall_impl; [|exact H]. intros [k x] Hx y Hy. apply keyed_Some in Hy. destruct Hy as [_ [q [Hq ->]]].
    cbn [fst snd] in *. now rewrite (Hx q Hq).
  - discriminate.
Qed.

Theorem new_value_none_iff :
  forall v, new_value v = None <-> rejected v = true.
Proof.
  induction v using gval_ind2; try (cbn; split; discriminate).
  - cbn [new_value rejected]. destruct (utf8_valid s); cbn; split; congruence.
  - rewrite new_value_list. cbn [rejected]. rewrite <- (traverse_None new_value rejected l H).
    destruct (traverse new_value l); split; congruence.
  - rewrite new_value_map. cbn [rejected].
    rewrite <- (traverse_None (keyed new_value) (fun kv => negb (utf8_valid (fst kv)) || rejected (snd kv)) m).
    + destruct (traverse (keyed new_value) m); split; congruence.
    + eapply Forall_impl; [|exact H]. intros [k x] Hx. cbn [fst snd] in *. rewrite keyed_None, Hx.
      destruct (utf8_valid k), (rejected x); cbn [negb orb]; intuition congruence.
  - cbn; split; reflexivity.
Qed.

Lemma finite_num_as_interface bits : f64_finite bits = true -> num_as_interface bits = GNum bits.
Proof.
  unfold num_as_interface, f64_is_nan, f64_finite. intros H.
  destruct (f64_exp bits =? 2047) eqn:E; [discriminate|]. cbn [andb].
  destruct (bits =? f64_pinf) eqn:E1.
  { apply N.eqb_eq in E1. subst. vm_compute in E. discriminate. }
  destruct (bits =? f64_ninf) eqn:E2.
  { apply N.eqb_eq in E2. subst. vm_compute in E. discriminate. }
  reflexivity.
Qed.

Lemma map_id_Forall {A} (f : A -> A) l : Forall (fun x => f x = x) l -> map f l = l.
Proof. induction 1; cbn; congruence. Qed.

Theorem json_like_norm : forall v, json_like v = true -> norm v = v.
Proof.
  induction v using gval_ind2; cbn [json_like norm]; intros J; try reflexivity; try discriminate.
  - apply andb_prop in J. now apply finite_num_as_interface.
  - f_equal. apply map_id_Forall. rewrite forallb_forall in J. rewrite Forall_forall in *.
    intros x Hx. apply H; [assumption|now apply J].
  - f_equal. apply map_id_Forall. rewrite forallb_forall in J. rewrite Forall_forall in *.
    intros [k x] Hx. cbn [fst snd]. f_equal. apply (H (k, x) Hx).
    specialize (J _ Hx). cbn [fst snd] in J. now apply andb_prop in J.
Qed.

Theorem json_like_not_rejected : forall v, json_like v = true -> rejected v = false.
Proof.
  induction v using gval_ind2; cbn [json_like rejected]; intros J; try reflexivity; try discriminate.
  - now rewrite J.
  - destruct (existsb rejected l) eqn:E; [|reflexivity].
    apply existsb_exists in E. destruct E as [x [Hx R]]. rewrite forallb_forall in J. rewrite Forall_forall in H.
    rewrite (H x Hx (J x Hx)) in R. discriminate.
  - match goal with |- ?e = false => destruct e eqn:E end; [|reflexivity].
    apply existsb_exists in E. destruct E as [[k x] [Hx R]]. rewrite forallb_forall in J. rewrite Forall_forall in H.
    specialize (J _ Hx). cbn [fst snd] in *. apply andb_prop in J. destruct J as [J1 J2].
    pose proof (H (k, x) Hx) as Hk. cbn [snd] in Hk. rewrite J1, (Hk J2) in R. discriminate.
Qed.

(* the documented domain: everything except invalid strings/keys and unsupported types is accepted,
   and the result is the documented conversion *)
Theorem value_roundtrip_conversions :
  forall v, rejected v = false -> exists p, new_value v = Some p /\ as_interface p = norm v.
Proof.
  intros v R. destruct (new_value v) as [p|] eqn:E.
  - exists p. split; [reflexivity|]. now apply new_value_as_interface.
  - apply new_value_none_iff in E. congruence.
Qed.

(* on JSON-like values the conversion is the identity *)
Theorem value_roundtrip :
  forall v, json_like v = true -> exists p, new_value v = Some p /\ as_interface p = v.
Proof.
  intros v J. destruct (value_roundtrip_conversions v (json_like_not_rejected v J)) as [p [E1 E2]].
  exists p. split; [exact E1|]. rewrite E2. now apply json_like_norm.
Qed.

(* invalid UTF-8 anywhere is rejected *)
Fixpoint has_invalid_utf8 (v : gval) : bool :=
  match v with
  | GStr s => negb (utf8_valid s)
  | GList l => existsb has_invalid_utf8 l
  | GMap m => existsb (fun kv => negb (utf8_valid (fst kv)) || has_invalid_utf8 (snd kv)) m
  | _ => false
  end.

Lemma has_invalid_rejected : forall v, has_invalid_utf8 v = true -> rejected v = true.
Proof.
  induction v using gval_ind2; cbn [has_invalid_utf8 rejected]; intros Hv; try discriminate; try assumption.
  - apply existsb_exists in Hv. destruct Hv as [x [Hx R]]. apply existsb_exists. exists x. split; [assumption|].
    rewrite Forall_forall in H. now apply H.
  - apply existsb_exists in Hv. destruct Hv as [[k x] [Hx R]]. apply existsb_exists. exists (k, x). split; [assumption|].
    rewrite Forall_forall in H. cbn [fst snd] in *. apply orb_prop in R. destruct R as [R|R].
    + now rewrite R.
    + pose proof (H (k, x) Hx) as Hk. cbn [snd] in Hk. rewrite (Hk R). apply orb_true_r.
Qed.

Theorem value_invalid_utf8_rejected : forall v, has_invalid_utf8 v = true -> new_value v = None.
Proof. intros v Hv. apply new_value_none_iff. now apply has_invalid_rejected. Qed.

(* a Value tree without an unset Value or an invalid string or key: what protojson requires of
   it apart from finite numbers.  Only the predicate is defined; that the results of NewValue
   satisfy it is not proved. *)
Fixpoint pval_wf (p : pval) : bool :=
  match p with
  | PUnset => false
  | PString s => utf8_valid s
  | PStruct m => forallb (fun kv => utf8_valid (fst kv) && pval_wf (snd kv)) m
  | PList l => forallb pval_wf l
  | _ => true
  end.

(* the alphabet is a table of 64 entries: checked entry by entry *)
Lemma b64_char_facts n : n < 64 -> b64_val (b64_char n) = Some n /\ is_pad (b64_char n) = false.
Proof.
  intros Hn.
  assert (F : forallb (fun n => match b64_val (b64_char n) with Some m => m =? n | None => false end
                                && negb (is_pad (b64_char n)))
                      (map N.of_nat (seq 0 64)) = true) by (vm_compute; reflexivity).
  rewrite forallb_forall in F. specialize (F n).
  apply andb_prop in F; [|apply in_map_iff; exists (N.to_nat n); split; [lia | apply in_seq; lia]].
  destruct F as [F1 F2].
  destruct (b64_val (b64_char n)); [|discriminate]. apply N.eqb_eq in F1. subst.
  now destruct (is_pad (b64_char n)).
Qed.
Lemma b64_val_char n : n < 64 -> b64_val (b64_char n) = Some n.
Proof. apply b64_char_facts. Qed.
Lemma b64_char_not_pad n : n < 64 -> is_pad (b64_char n) = false.
Proof. apply b64_char_facts. Qed.

Lemma is_pad_pad : is_pad b64_pad = true.
Proof. vm_compute. reflexivity. Qed.

(* three bytes as four six-bit groups and back; a missing byte is 0 *)
Lemma sextets x y z : x < 256 -> y < 256 -> z < 256 ->
  let s1 := x mod 4 * 16 + y / 16 in let s2 := y mod 16 * 4 + z / 64 in
  (x / 4 < 64 /\ s1 < 64 /\ s2 < 64 /\ z mod 64 < 64) /\
  x / 4 * 4 + s1 / 16 = x /\ s1 mod 16 * 16 + s2 / 4 = y /\ s2 mod 4 * 64 + z mod 64 = z.
Proof. intros Hx Hy Hz. cbv zeta. repeat split; lia. Qed.

Theorem b64_decode_encode : forall bs, b64_decode (b64_encode bs) = Some bs.
Proof.
  induction bs as [|a|a b|a b c r IH] using list3_ind.
  - reflexivity.
  - destruct (sextets (b2n a) 0 0 (b2n_lt a)) as [[R0 [R1 _]] [Ea [Eb _]]]; [reflexivity|reflexivity|].
    cbv zeta in *. change (0 / 16) with 0 in *. rewrite N.add_0_r in *. cbn [b64_encode b64_decode].
    rewrite !b64_val_char, is_pad_pad by assumption.
    rewrite N.mod_mul by discriminate. cbn [N.eqb].
    now rewrite Ea, n2b_b2n.
  - destruct (sextets (b2n a) (b2n b) 0 (b2n_lt a) (b2n_lt b)) as [[R0 [R1 [R2 _]]] [Ea [Eb Ec]]]; [reflexivity|].
    cbv zeta in *. change (0 / 64) with 0 in *. rewrite N.add_0_r in *. cbn [b64_encode b64_decode].
    rewrite !b64_val_char, is_pad_pad, b64_char_not_pad by assumption.
    rewrite N.mod_mul by discriminate. cbn [N.eqb].
    now rewrite Ea, Eb, !n2b_b2n.
  - destruct (sextets (b2n a) (b2n b) (b2n c) (b2n_lt a) (b2n_lt b) (b2n_lt c)) as [[R0 [R1 [R2 R3]]] [Ea [Eb Ec]]].
    cbv zeta in *. cbn [b64_encode]. cbn [b64_decode]. fold b64_decode.
    rewrite !b64_val_char, !b64_char_not_pad, IH by assumption.
    now rewrite Ea, Eb, Ec, !n2b_b2n.
Qed.

Corollary b64_encode_injective : forall a b, b64_encode a = b64_encode b -> a = b.
Proof.
  intros a b H. apply (f_equal b64_decode) in H. rewrite !b64_decode_encode in H. congruence.
Qed.

(* base64 text is ASCII, hence valid UTF-8: NewValue([]byte) always stores a valid string *)
Lemma ascii_utf8_valid l : Forall (fun b => b2n b < 128) l -> utf8_valid l = true.
Proof.
  induction 1 as [|b r Hb Hr IH]; [reflexivity|]. cbn [utf8_valid].
  replace (b2n b <? 128) with true by (symmetry; apply N.ltb_lt; assumption). assumption.
Qed.

Lemma b64_char_ascii n : b2n (b64_char n) < 128.
Proof.
  unfold b64_char.
  destruct (n <? 26) eqn:E1; [rewrite b2n_n2b; lia|].
  destruct (n <? 52) eqn:E2; [rewrite b2n_n2b; lia|].
  destruct (n <? 62) eqn:E3; [rewrite b2n_n2b; lia|].
  destruct (n =? 62); rewrite b2n_n2b; lia.
Qed.

Lemma b64_encode_ascii : forall bs, Forall (fun b => b2n b < 128) (b64_encode bs).
Proof.
  assert (Hp : b2n b64_pad < 128) by (vm_compute; reflexivity).
  induction bs as [|a|a b|a b c r IH] using list3_ind; cbn [b64_encode];
    repeat (constructor; try apply b64_char_ascii; try assumption).
Qed.

Theorem b64_encode_utf8_valid : forall bs, utf8_valid (b64_encode bs) = true.
Proof. intros. apply ascii_utf8_valid, b64_encode_ascii. Qed.

Lemma pow52 : 2^52 = 4503599627370496. Proof. reflexivity. Qed.
Lemma pow63 : 2^63 = 9223372036854775808. Proof. reflexivity. Qed.

Lemma f64_fields (s e f : N) :
  s < 2 -> e < 2048 -> f < 2^52 ->
  f64_exp (s * 2^63 + e * 2^52 + f) = e /\ f64_frac (s * 2^63 + e * 2^52 + f) = f /\
  f64_sign (s * 2^63 + e * 2^52 + f) = (s =? 1).
Proof.
  intros Hs He Hf. unfold f64_exp, f64_frac, f64_sign. rewrite pow52, pow63 in *.
  repeat split.
  - assert ((s * 9223372036854775808 + e * 4503599627370496 + f) / 4503599627370496 = s * 2048 + e) as -> by lia.
    lia.
  - lia.
  - destruct (s =? 1) eqn:E; lia.
Qed.

(* a significand a of exactly L <= 53 bits, shifted to 53 bits *)
Lemma significand_range L a :
  1 <= L -> L <= 53 -> 2^(L-1) <= a -> a < 2^L -> 2^52 <= a * 2^(53 - L) /\ a * 2^(53 - L) < 2^53.
Proof.
  intros HL1 HL2 Hlo Hhi.
  assert (Hk : 2^(L-1) * 2^(53-L) = 2^52) by (rewrite <- N.pow_add_r; f_equal; lia).
  assert (Hk2 : 2^L * 2^(53-L) = 2^53) by (rewrite <- N.pow_add_r; f_equal; lia).
  assert (Hp : 0 < 2^(53-L)) by (apply N.neq_0_lt_0, N.pow_nonzero; lia).
  rewrite <- Hk, <- Hk2. split; [now apply N.mul_le_mono_r | now apply N.mul_lt_mono_pos_r].
Qed.

(* the normal number with sign s, exponent field L + 1022 and that significand is (-1)^s * a *)
Lemma f64_normal_exact s L a :
  s < 2 -> 1 <= L -> L <= 53 -> 2^(L-1) <= a -> a < 2^L ->
  f64_to_Z (s * 2^63 + (L + 1022) * 2^52 + (a * 2^(53 - L) - 2^52)) =
  Some (if s =? 1 then (- Z.of_N a)%Z else Z.of_N a).
Proof.
  intros Hs HL1 HL2 Hlo Hhi. destruct (significand_range L a HL1 HL2 Hlo Hhi) as [Hm1 Hm2].
  change (2^53) with (2 * 2^52) in Hm2.
  destruct (f64_fields s (L + 1022) (a * 2^(53-L) - 2^52)) as [E1 [E2 E3]]; [assumption | lia | lia |].
  unfold f64_to_Z. rewrite E1, E2, E3.
  replace (L + 1022 =? 2047) with false by lia. replace (L + 1022 =? 0) with false by lia.
  replace (2^52 + (a * 2^(53-L) - 2^52)) with (a * 2^(53-L)) by lia.
  destruct (1075 <=? L + 1022) eqn:EL.
  - assert (L = 53) by lia. subst L. replace (53 + 1022 - 1075) with 0 by lia. replace (53 - 53) with 0 by lia.
    now rewrite !N.pow_0_r, !N.mul_1_r.
  - replace (1075 - (L + 1022)) with (53 - L) by lia.
    assert (2^(53-L) <> 0) by (apply N.pow_nonzero; lia).
    now rewrite N.mod_mul, N.eqb_refl, N.div_mul.
Qed.

Lemma size_bounds a : a <> 0 -> 1 <= N.size a /\ 2^(N.size a - 1) <= a /\ a < 2^(N.size a).
Proof.
  intros Ha. destruct a as [|p]; [congruence|].
  pose proof (N.size_gt (Npos p)) as Hgt.
  pose proof (N.size_le (Npos p)) as Hle.
  assert (H1 : 1 <= N.size (Npos p)) by (cbn; lia).
  repeat split; try assumption.
  set (L := N.size (N.pos p)) in *.
  replace (2 ^ L) with (2 * 2^(L - 1)) in Hle.
  2:{ rewrite <- N.pow_succ_r'. f_equal. lia. }
  rewrite N.succ_double_spec in Hle. lia.
Qed.

Lemma n_to_f64_mag_exact a :
  a <> 0 -> a < 2^53 ->
  f64_to_Z (n_to_f64_mag a) = Some (Z.of_N a) /\ f64_to_Z (2^63 + n_to_f64_mag a) = Some (- Z.of_N a)%Z.
Proof.
  intros Ha Hlt.
  destruct (size_bounds a Ha) as [HL1 [Hlo Hhi]].
  set (L := N.size a) in *.
  assert (HL2 : L <= 53).
  { destruct (N.le_gt_cases L 53) as [|Hgt]; [assumption|exfalso].
    assert (2^53 <= 2^(L-1)) by (apply N.pow_le_mono_r; lia). lia. }
  unfold n_to_f64_mag. fold L. cbv zeta.
  replace (L <=? 53) with true by lia. replace (L - 1 + 1023) with (L + 1022) by lia. clearbody L.
  split.
  - exact (f64_normal_exact 0 L a eq_refl HL1 HL2 Hlo Hhi).
  - rewrite N.add_assoc. exact (f64_normal_exact 1 L a eq_refl HL1 HL2 Hlo Hhi).
Qed.

Theorem z_to_f64_exact : forall z, (Z.abs z <= 2^53)%Z -> f64_to_Z (z_to_f64 z) = Some z.
Proof.
  intros z Hz.
  destruct (Z.eq_dec (Z.abs z) (2^53)) as [E|NE].
  { (* the boundary value itself: 2^53 has 54 bits and an even quotient *)
    destruct z as [|p|p]; cbn in E; try discriminate.
    - inversion E; subst. vm_compute. reflexivity.
    - inversion E; subst. vm_compute. reflexivity. }
  destruct z as [|p|p].
  - vm_compute. reflexivity.
  - cbn [z_to_f64]. destruct (n_to_f64_mag_exact (Npos p)) as [H _]; [discriminate| |].
    + change (2^53) with 9007199254740992. cbn in Hz, NE. lia.
    + rewrite H. reflexivity.
  - cbn [z_to_f64]. destruct (n_to_f64_mag_exact (Npos p)) as [_ H]; [discriminate| |].
    + change (2^53) with 9007199254740992. cbn in Hz, NE. lia.
    + rewrite H. reflexivity.
Qed.

(* integers of that range never become NaN or an infinity, so AsInterface returns the number *)
Theorem z_to_f64_finite : forall z, (Z.abs z <= 2^53)%Z -> f64_finite (z_to_f64 z) = true.
Proof.
  intros z Hz. pose proof (z_to_f64_exact z Hz) as H. unfold f64_to_Z in H. unfold f64_finite.
  destruct (f64_exp (z_to_f64 z) =? 2047); [discriminate|reflexivity].
Qed.

Lemma json_of_gval_list l :
  json_of_gval (GList l) = match traverse json_of_gval l with Some js => Some (JArr js) | None => None end.
Proof. reflexivity. Qed.
Lemma json_of_gval_map m :
  json_of_gval (GMap m) = match traverse (keyed json_of_gval) m with Some js => Some (JObj js) | None => None end.
Proof. rewrite <- traverse_keyed_eq. reflexivity. Qed.
Lemma json_of_pval_list l :
  json_of_pval (PList l) = match traverse json_of_pval l with Some js => Some (JArr js) | None => None end.
Proof. reflexivity. Qed.
Lemma json_of_pval_map m :
  json_of_pval (PStruct m) = match traverse (keyed json_of_pval) m with Some js => Some (JObj js) | None => None end.
Proof. rewrite <- traverse_keyed_eq. reflexivity. Qed.

Theorem value_json_agrees_tree :
  forall p j, json_of_pval p = Some j -> json_of_gval (as_interface p) = Some j.
Proof.
  induction p using pval_ind2; intros j Hj.
  - discriminate.
  - exact Hj.
  - cbn [json_of_pval] in Hj. destruct (f64_finite b) eqn:F; [|discriminate].
    cbn [as_interface]. rewrite finite_num_as_interface by assumption. cbn [json_of_gval]. now rewrite F.
  - exact Hj.
  - exact Hj.
  - rewrite json_of_pval_map in Hj. cbn [as_interface]. rewrite json_of_gval_map.
    destruct (traverse (keyed json_of_pval) m) as [js|] eqn:E; [|discriminate].
    rewrite (traverse_premap (keyed json_of_pval) (keyed json_of_gval) _ m) with (ys := js); [exact Hj| |exact E].
    eapply Forall_impl; [|exact H]. intros [k x] Hx y Hy. apply keyed_Some in Hy. destruct Hy as [Hk [q [Hq ->]]].
    apply keyed_Some. cbn [fst snd] in *. eauto.
  - rewrite json_of_pval_list in Hj. cbn [as_interface]. rewrite json_of_gval_list.
    destruct (traverse json_of_pval l) as [js|] eqn:E; [|discriminate].
    now rewrite (traverse_premap _ json_of_gval _ l H js E).
Qed.

Theorem int_conversion_exact :
  forall z, (Z.abs z <= 2^53)%Z -> f64_to_Z (z_to_f64 z) = Some z /\ f64_finite (z_to_f64 z) = true.
Proof. intros z H. split; [exact (z_to_f64_exact z H)|exact (z_to_f64_finite z H)]. Qed.

Theorem bytes_conversion_invertible :
  forall bs, b64_decode (b64_encode bs) = Some bs /\ utf8_valid (b64_encode bs) = true.
Proof. intros bs. split; [exact (b64_decode_encode bs)|exact (b64_encode_utf8_valid bs)]. Qed.
