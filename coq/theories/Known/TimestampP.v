(* timestamppb (C43): New and AsTime are mutually inverse; AsTime normalises the nanos with carry and
   wraps the seconds only modulo 2^64; what check() accepts. *)
From Coq Require Import ZArith Bool Lia.
From Coq Require Import ZifyBool.
From PB Require Import Known.DurationModel Known.DurationP Known.TimestampModel.
Open Scope Z_scope.

(* wrap64, quot and rem are about division: the hook of lia is set for this section only *)
Section Wrap.
Ltac Zify.zify_post_hook ::= Z.to_euclidean_division_equations.

(* wrap64 is reduction modulo 2^64: an inner wrap does not change an outer one *)
Lemma wrap64_wrap_add a b : wrap64 (wrap64 a + b) = wrap64 (a + b).
Proof.
  unfold wrap64. replace ((a + 2 ^ 63) mod 2 ^ 64 - 2 ^ 63 + b + 2 ^ 63) with ((a + 2 ^ 63) mod 2 ^ 64 + b) by ring.
  rewrite Zplus_mod_idemp_l. do 2 f_equal. ring.
Qed.

Lemma wrap64_idem a : wrap64 (wrap64 a) = wrap64 a.
Proof. rewrite <- (Z.add_0_r (wrap64 a)) at 1. now rewrite wrap64_wrap_add, Z.add_0_r. Qed.

(* Unix() undoes the shift to internal seconds, whatever wrapped on the way *)
Lemma time_unix_shift s n : time_unix {| t_isec := wrap64 (s + unix_to_internal); t_nsec := n |} = wrap64 s.
Proof.
  unfold time_unix. cbn [t_isec]. rewrite <- Z.add_opp_r, wrap64_wrap_add. f_equal. ring.
Qed.

(* truncated versus floored division by 10^9 *)
Lemma quot_rem_e9 x : let q := Z.quot x e9 in let r := Z.rem x e9 in
  x - q * e9 = r /\ -e9 < r < e9 /\
  (if r <? 0 then x / e9 = q - 1 /\ x mod e9 = r + e9 else x / e9 = q /\ x mod e9 = r).
Proof. unfold e9. cbv zeta. destruct (Z.rem x 1000000000 <? 0) eqn:E; lia. Qed.

(* AsTime(New(t)) = t for every time.Time (any internal second count, any location:
   the model identifies times that time.Time.Equal identifies) *)
Theorem timestamp_new_as_inverse t :
  time_ok t -> let '(s, n) := ts_new t in as_time s n = t.
Proof.
  destruct t as [isec nsec]. unfold time_ok, ts_new, as_time, go_unix, time_unix, time_nanosecond.
  cbn [t_isec t_nsec]. intros [H1 H2].
  rewrite (wrap32_id nsec) by (unfold e9 in H2; lia).
  assert ((nsec <? 0) || (e9 <=? nsec) = false) as -> by lia.
  f_equal. rewrite wrap64_wrap_add, Z.sub_add. now apply wrap64_id.
Qed.

(* New(t) of any time has nanos in [0, 10^9) and seconds = Unix seconds *)
Theorem ts_new_fields t :
  time_ok t -> let '(s, n) := ts_new t in in_int64 s /\ 0 <= n < e9 /\ s = time_unix t /\ n = t_nsec t.
Proof.
  destruct t as [isec nsec]. unfold time_ok, ts_new, time_unix, time_nanosecond. cbn [t_isec t_nsec].
  intros [H1 H2].
  rewrite (wrap32_id nsec) by (unfold e9 in H2; lia).
  repeat split; try lia; apply wrap64_range.
Qed.

(* AsTime on arbitrary field values: the nanos are normalised into [0,10^9) with carry,
   seconds wrap only at the int64 limits *)
Theorem as_time_spec secs nanos :
  in_int64 secs -> in_int32 nanos ->
  let t := as_time secs nanos in
  time_ok t /\
  t_nsec t = nanos mod e9 /\
  time_unix t = wrap64 (secs + nanos / e9).
Proof.
  unfold in_int32, min_int32, max_int32. intros Hs Hn. cbv zeta. unfold as_time, go_unix, time_ok.
  destruct (quot_rem_e9 nanos) as [Er [Hr Hdm]]. cbv zeta in Er, Hr, Hdm.
  destruct ((nanos <? 0) || (e9 <=? nanos)) eqn:E.
  - set (n := Z.quot nanos e9) in *. set (r := Z.rem nanos e9) in *.
    assert (-3 <= n <= 3) as Hq by (unfold e9 in *; lia).
    rewrite (wrap64_id (n * e9)), Er, (wrap64_id r) by (unfold e9 in *; lia).
    destruct (r <? 0) eqn:E2; destruct Hdm as [-> ->]; rewrite time_unix_shift; cbn [t_isec t_nsec].
    + rewrite (wrap64_id (r + e9)) by (unfold e9 in *; lia).
      split; [split; [apply wrap64_range | unfold e9 in *; lia]|]. split; [reflexivity|].
      rewrite wrap64_idem, <- Z.add_opp_r, wrap64_wrap_add. apply f_equal. ring.
    + split; [split; [apply wrap64_range | unfold e9 in *; lia]|]. split; [reflexivity | apply wrap64_idem].
  - rewrite time_unix_shift. cbn [t_isec t_nsec].
    destruct (Z.rem nanos e9 <? 0) eqn:E2; [unfold e9 in *; lia|]. destruct Hdm as [-> ->].
    replace (Z.quot nanos e9) with 0 in * by (unfold e9 in *; lia). rewrite Z.add_0_r.
    split; [split; [apply wrap64_range | unfold e9 in *; lia]|]. split; [lia | reflexivity].
Qed.

(* for valid nanos and every int64 seconds: New(AsTime(x)) = x *)
Theorem timestamp_as_new_inverse secs nanos :
  in_int64 secs -> 0 <= nanos < e9 -> ts_new (as_time secs nanos) = (secs, nanos).
Proof.
  intros Hs Hn. unfold e9 in Hn.
  destruct (as_time_spec secs nanos Hs) as [_ [En Eu]]; [unfold in_int32, min_int32, max_int32; lia|].
  unfold ts_new, time_nanosecond. rewrite Eu, En. unfold e9.
  rewrite Z.div_small, Z.mod_small, Z.add_0_r by lia. now rewrite (wrap64_id secs Hs), wrap32_id by lia.
Qed.

End Wrap.

Theorem ts_check_ranges_exact secs nanos :
  ts_check secs nanos = 0 <->
  (-62135596800 <= secs <= 253402300799 /\ 0 <= nanos <= 999999999).
Proof. unfold ts_check, min_timestamp, max_timestamp, e9. split_ifs. Qed.

Theorem ts_check_classes secs nanos :
  (ts_check secs nanos = 2 <-> secs < -62135596800) /\
  (ts_check secs nanos = 3 <-> secs > 253402300799) /\
  (ts_check secs nanos = 4 <-> -62135596800 <= secs <= 253402300799 /\ (nanos < 0 \/ nanos >= 1000000000)).
Proof. unfold ts_check, min_timestamp, max_timestamp, e9. split_ifs. Qed.
