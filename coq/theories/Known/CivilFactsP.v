(* Facts about the calendar algorithms that CivilP.v needs: the year-of-era computation (by
   monotonicity and a check of the 400 years of an era) and the month/day tables (finite, by
   evaluation), plus the bounded-forall combinator the checks use. *)
From Coq Require Import ZArith NArith Bool Lia.
From Coq Require Import ZifyBool.
From PB Require Import Known.CivilModel.
Open Scope Z_scope.

(* every lemma here is about / and mod; the division hook of lia is set for this section only *)
Section CalendarFacts.
Ltac Zify.zify_post_hook ::= Z.to_euclidean_division_equations.

Definition forall_below (n : N) (f : Z -> bool) : bool :=
  snd (N.iter n (fun '(k, ok) => (k + 1, ok && f k)) (0, true)).

Lemma forall_below_spec n f : forall_below n f = true -> forall k, 0 <= k < Z.of_N n -> f k = true.
Proof.
  unfold forall_below.
  set (step := fun '(k, ok) => (k + 1, ok && f k)).
  assert (forall m, let r := N.iter m step (0, true) in
                    fst r = Z.of_N m /\ (snd r = true -> forall k, 0 <= k < Z.of_N m -> f k = true)) as H.
  { intros m. induction m as [|m IH] using N.peano_ind.
    - cbn. split; [reflexivity|]. intros _ k Hk. lia.
    - rewrite N.iter_succ. cbv zeta in *. destruct (N.iter m step (0, true)) as [k0 ok] eqn:E.
      cbn [fst snd] in IH. destruct IH as [IH1 IH2]. cbn [step fst snd]. split; [lia|].
      rewrite andb_true_iff. intros [H1 H2] k Hk.
      destruct (Z.eq_dec k k0) as [->|Hne]; [exact H2|]. apply IH2; [exact H1 | lia]. }
  intros Hs. apply (H n). exact Hs.
Qed.

(* ---- day of era <-> (year of era, day of year) ----
   Year yoe of an era occupies the days [g_yoe yoe, g_yoe yoe + ylen yoe).  yoe_of_doe is
   monotone, so it is enough to evaluate it on the first and last day of each of the 400 years;
   a sweep over the 146097 days of the era proves the same and is far slower to re-check. *)
Definition leap_yoe (yoe : Z) : bool := is_leap (yoe + 1).
Definition g_yoe (yoe : Z) : Z := 365 * yoe + yoe / 4 - yoe / 100.
Definition ylen (yoe : Z) : Z := 365 + (if leap_yoe yoe then 1 else 0).

Lemma yoe_of_doe_mono a b : 0 <= a <= b -> yoe_of_doe a <= yoe_of_doe b.
Proof. intros H. unfold yoe_of_doe. apply Z.div_le_mono; lia. Qed.

Lemma g_yoe_succ yoe : 0 <= yoe < 399 -> g_yoe (yoe + 1) = g_yoe yoe + ylen yoe.
Proof.
  intros H. unfold g_yoe, ylen, leap_yoe.
  destruct (is_leap (yoe + 1)) eqn:E; unfold is_leap in E; lia.
Qed.

Definition year_check (yoe : Z) : bool :=
  (yoe_of_doe (g_yoe yoe) =? yoe) && (yoe_of_doe (g_yoe yoe + ylen yoe - 1) =? yoe).

Lemma year_facts_computed : forall_below 400 year_check = true.
Proof. vm_compute. reflexivity. Qed.

Lemma yd_facts yoe doy : 0 <= yoe <= 399 -> 0 <= doy <= 364 + (if leap_yoe yoe then 1 else 0) ->
  yoe_of_doe (g_yoe yoe + doy) = yoe /\ 0 <= g_yoe yoe + doy < 146097.
Proof.
  intros Hy Hd.
  assert (0 <= yoe < Z.of_N 400) as Hk by lia.
  pose proof (forall_below_spec _ _ year_facts_computed _ Hk) as C. unfold year_check, ylen in C.
  assert (0 <= g_yoe yoe <= 145731) as G by (unfold g_yoe; lia).
  pose proof (yoe_of_doe_mono (g_yoe yoe) (g_yoe yoe + doy)).
  pose proof (yoe_of_doe_mono (g_yoe yoe + doy) (g_yoe yoe + (365 + (if leap_yoe yoe then 1 else 0)) - 1)).
  destruct (leap_yoe yoe); lia.
Qed.

Lemma doe_year doe : 0 <= doe < 146097 ->
  exists yoe, 0 <= yoe <= 399 /\ g_yoe yoe <= doe < g_yoe yoe + ylen yoe.
Proof.
  intros H.
  assert (forall n, 0 <= n -> n <= 399 -> doe < g_yoe n + ylen n ->
          exists yoe, 0 <= yoe <= 399 /\ g_yoe yoe <= doe < g_yoe yoe + ylen yoe) as A.
  { intros n Hn. pattern n. apply natlike_ind; [| |exact Hn].
    - intros _ Hd. exists 0. change (g_yoe 0) with 0 in *. lia.
    - intros x Hx IH Hle Hd. destruct (Z_lt_le_dec doe (g_yoe (Z.succ x))) as [L|L].
      + apply IH; [lia|]. rewrite <- g_yoe_succ by lia. exact L.
      + exists (Z.succ x). lia. }
  apply (A 399); [lia|lia|]. change (g_yoe 399 + ylen 399) with 146097. lia.
Qed.

Lemma doe_facts doe : 0 <= doe < 146097 ->
  let yoe := yoe_of_doe doe in let doy := doe - g_yoe yoe in
  0 <= yoe <= 399 /\ 0 <= doy <= 364 + (if leap_yoe yoe then 1 else 0).
Proof.
  intros H. destruct (doe_year doe H) as (y & Hy & Hd). unfold ylen in Hd.
  destruct (yd_facts y (doe - g_yoe y) Hy ltac:(lia)) as [E _].
  replace (g_yoe y + (doe - g_yoe y)) with doe in E by lia.
  cbv zeta. rewrite E. lia.
Qed.

(* month / day-of-month <-> day-of-year (March-based), all 12 * 31 cases *)
Definition mlen (mp : Z) : Z := (153 * (mp + 1) + 2) / 5 - (153 * mp + 2) / 5.

Definition md_check (k : Z) : bool :=
  let mp := k / 31 in let d := k mod 31 + 1 in
  let doy := (153 * mp + 2) / 5 + d - 1 in
  if (mp <=? 11) && (d <=? mlen mp) then ((5 * doy + 2) / 153 =? mp) && (doy - (153 * ((5 * doy + 2) / 153) + 2) / 5 + 1 =? d) else true.
Lemma md_facts_computed : forall_below 372 md_check = true.
Proof. vm_compute. reflexivity. Qed.

Lemma md_facts mp d : 0 <= mp <= 11 -> 1 <= d <= mlen mp ->
  let doy := (153 * mp + 2) / 5 + d - 1 in
  (5 * doy + 2) / 153 = mp /\ doy - (153 * mp + 2) / 5 + 1 = d.
Proof.
  intros Hm Hd.
  assert (0 <= mp * 31 + (d - 1) < Z.of_N 372) as Hk by (unfold mlen in Hd; lia).
  pose proof (forall_below_spec _ _ md_facts_computed _ Hk) as C. unfold md_check in C.
  assert ((mp * 31 + (d - 1)) / 31 = mp) as E1 by (unfold mlen in Hd; lia).
  assert ((mp * 31 + (d - 1)) mod 31 + 1 = d) as E2 by (unfold mlen in Hd; lia).
  rewrite E1, E2 in C.
  replace ((mp <=? 11) && (d <=? mlen mp)) with true in C by lia. cbv zeta. lia.
Qed.

(* day-of-year -> (mp, d) : all 366 cases *)
Definition doy_check (doy : Z) : bool :=
  let mp := (5 * doy + 2) / 153 in
  let d := doy - (153 * mp + 2) / 5 + 1 in
  (0 <=? mp) && (mp <=? 11) && (1 <=? d) && (d <=? mlen mp).
Lemma doy_facts_computed : forall_below 366 doy_check = true.
Proof. vm_compute. reflexivity. Qed.
Lemma doy_facts doy : 0 <= doy <= 365 ->
  let mp := (5 * doy + 2) / 153 in let d := doy - (153 * mp + 2) / 5 + 1 in
  0 <= mp <= 11 /\ 1 <= d <= mlen mp.
Proof.
  intros H. assert (0 <= doy < Z.of_N 366) as Hk by lia.
  pose proof (forall_below_spec _ _ doy_facts_computed _ Hk) as C. unfold doy_check in C. cbv zeta. lia.
Qed.
End CalendarFacts.
