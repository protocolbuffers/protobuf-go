(* Tier T for C43 / C23: the Gallina translation of the Go source (Gen/KnownGo.v, regenerated
   from /repo on every check by srcmodel_known) computes exactly the hand-written models
   Known/DurationModel.v and Known/TimestampModel.v on all int64 / int32 inputs, and the
   constants of the source are those of the models. *)
From Coq Require Import ZArith Bool Lia.
From Coq Require Import ZifyBool.
From PB Require Import Base.GoInt Gen.KnownGo Known.DurationModel Known.DurationP Known.TimestampModel Known.TimestampP
  Known.WktJsonModel Known.TsJsonModel.
Open Scope Z_scope.

Lemma wrap_i64_wrap64 z : wrap_i64 z = wrap64 z.
Proof. reflexivity. Qed.
Lemma wrap_i32_wrap32 z : wrap_i32 z = wrap32 z.
Proof. reflexivity. Qed.

(* ---- constants ---- *)
Theorem known_constants_match_source :
  c_dur_check_absDuration = abs_duration /\
  c_ts_check_minTimestamp = min_timestamp /\ c_ts_check_maxTimestamp = max_timestamp /\
  (c_dur_invalidNil, c_dur_invalidUnderflow, c_dur_invalidOverflow, c_dur_invalidNanosRange, c_dur_invalidNanosSign) = (1, 2, 3, 4, 5) /\
  (c_ts_invalidNil, c_ts_invalidUnderflow, c_ts_invalidOverflow, c_ts_invalidNanos) = (1, 2, 3, 4).
Proof. repeat split; reflexivity. Qed.

Theorem json_constants_match_source :
  c_pj_secondsInNanos = seconds_in_nanos /\ c_pj_maxSecondsInDuration = max_seconds_in_duration /\
  c_pj_maxTimestampSeconds = max_timestamp_seconds /\ c_pj_minTimestampSeconds = min_timestamp_seconds /\
  (* the JSON layer and the helper layer agree on the ranges *)
  c_pj_maxSecondsInDuration = c_dur_check_absDuration /\
  c_pj_maxTimestampSeconds = c_ts_check_maxTimestamp /\ c_pj_minTimestampSeconds = c_ts_check_minTimestamp.
Proof. repeat split; reflexivity. Qed.

(* ---- durationpb ---- *)
Lemma wrap_i64_id z : in_int64 z -> wrap_i64 z = z.
Proof. intros H. rewrite wrap_i64_wrap64. now apply wrap64_id. Qed.

Theorem go_dur_New_model d : in_int64 d -> go_dur_New d = dur_new d.
Proof.
  intros H. unfold go_dur_New, dur_new, e9. cbv zeta. rewrite !(wrap_i64_id d H).
  assert (in_int64 (Z.quot d 1000000000)) as Hq.
  { unfold in_int64, min_int64, max_int64 in *.
    pose proof (Z.quot_rem' d 1000000000). pose proof (Z.rem_bound_abs d 1000000000). lia. }
  rewrite !(wrap_i64_id _ Hq). reflexivity.
Qed.

Theorem go_dur_getters x_nil secs nanos :
  go_dur_Duration_GetSeconds x_nil secs nanos = (if x_nil then 0 else secs) /\
  go_dur_Duration_GetNanos x_nil secs nanos = (if x_nil then 0 else nanos).
Proof. destruct x_nil; split; reflexivity. Qed.

Theorem go_dur_AsDuration_model secs nanos :
  in_int64 secs -> in_int32 nanos -> go_dur_Duration_AsDuration false secs nanos = as_duration secs nanos.
Proof.
  intros Hs Hn. unfold go_dur_Duration_AsDuration, as_duration, e9. cbn [go_dur_Duration_GetSeconds go_dur_Duration_GetNanos negb].
  cbv zeta. rewrite !(wrap_i64_id secs Hs).
  assert (in_int64 nanos) as Hn64 by (unfold in_int64, in_int32, min_int64, max_int64, min_int32, max_int32 in *; lia).
  rewrite !(wrap_i64_id nanos Hn64), Z.mul_1_r, !(wrap_i64_id nanos Hn64).
  assert (in_int64 (Z.quot (wrap_i64 (secs * 1000000000)) 1000000000)) as Hq.
  { rewrite wrap_i64_wrap64. pose proof (wrap64_range (secs * 1000000000)) as Hr.
    generalize dependent (wrap64 (secs * 1000000000)). intros w Hr. unfold in_int64, min_int64, max_int64 in *.
    pose proof (Z.quot_rem' w 1000000000). pose proof (Z.rem_bound_abs w 1000000000). lia. }
  rewrite (wrap_i64_id _ Hq). reflexivity.
Qed.

Theorem go_dur_AsDuration_nil secs nanos : go_dur_Duration_AsDuration true secs nanos = 0.
Proof. reflexivity. Qed.

Theorem go_dur_check_model x_nil secs nanos :
  go_dur_Duration_check x_nil secs nanos = dur_check_opt (if x_nil then None else Some (secs, nanos)).
Proof.
  destruct x_nil; [reflexivity|].
  unfold go_dur_Duration_check, dur_check_opt, dur_check, abs_duration, e9.
  cbn [go_dur_Duration_GetSeconds go_dur_Duration_GetNanos negb]. reflexivity.
Qed.

Theorem go_dur_IsValid_model x_nil secs nanos :
  go_dur_Duration_IsValid x_nil secs nanos = (dur_check_opt (if x_nil then None else Some (secs, nanos)) =? 0).
Proof. unfold go_dur_Duration_IsValid. now rewrite go_dur_check_model. Qed.

(* ---- timestamppb ---- *)
Theorem go_ts_New_model t : time_ok t -> go_ts_New (time_unix t) (time_nanosecond t) = ts_new t.
Proof.
  intros [H1 H2]. unfold go_ts_New, ts_new.
  rewrite (wrap_i64_id (time_unix t)); [reflexivity|]. unfold time_unix. apply wrap64_range.
Qed.

Theorem go_ts_check_model x_nil secs nanos :
  go_ts_Timestamp_check x_nil secs nanos = ts_check_opt (if x_nil then None else Some (secs, nanos)).
Proof.
  destruct x_nil; [reflexivity|].
  unfold go_ts_Timestamp_check, ts_check_opt, ts_check, min_timestamp, max_timestamp, e9.
  cbn [go_ts_Timestamp_GetSeconds go_ts_Timestamp_GetNanos negb]. reflexivity.
Qed.

Theorem go_ts_IsValid_model x_nil secs nanos :
  go_ts_Timestamp_IsValid x_nil secs nanos = (ts_check_opt (if x_nil then None else Some (secs, nanos)) =? 0).
Proof. unfold go_ts_Timestamp_IsValid. now rewrite go_ts_check_model. Qed.

(* ---- the headline theorems on the translated source ---- *)
Theorem go_duration_new_as_inverse d :
  in_int64 d -> let '(s, n) := go_dur_New d in go_dur_Duration_AsDuration false s n = d.
Proof.
  intros H. rewrite (go_dur_New_model d H). pose proof (duration_new_as_inverse d H) as R.
  rewrite (dur_new_spec d H) in *.
  rewrite go_dur_AsDuration_model; [exact R | |];
    unfold in_int64, in_int32, min_int64, max_int64, min_int32, max_int32, e9 in *; lia.
Qed.

Theorem go_as_duration_exact_clamped_except_F4 secs nanos :
  in_int64 secs -> in_int32 nanos -> f4_class secs nanos = false ->
  go_dur_Duration_AsDuration false secs nanos = clamp64 (secs * e9 + nanos).
Proof. intros. rewrite go_dur_AsDuration_model by assumption. now apply as_duration_exact_clamped_except_F4. Qed.
