(* Proofs about numValidPaths / IsValid / Append / New of the FieldMask model (C44). *)
From Coq Require Import List NArith Bool Lia Arith.
From Coq Require Import ZifyBool ZifyNat ZifyN.
From PB Require Import Base.PBytes Base.ListP Known.FieldMaskModel Known.ByteEqP Known.FieldMaskP.
Import ListNotations.

Fixpoint join_on (sep : byte) (segs : list (list byte)) : list byte :=
  match segs with
  | [] => []
  | s :: rest => match rest with [] => s | _ :: _ => s ++ sep :: join_on sep rest end
  end.
Definition join_dots := join_on dot.
Definition nosep (sep : byte) (s : list byte) : Prop := ~ In sep s.
Definition nodot := nosep dot.

Lemma split_on_nonnil sep p : split_on sep p <> [].
Proof.
  destruct p as [|c t]; cbn [split_on]; [discriminate|].
  destruct (beq c sep); [discriminate|]. destruct (split_on sep t); discriminate.
Qed.

Lemma join_on_cons sep s rest : rest <> [] -> join_on sep (s :: rest) = s ++ sep :: join_on sep rest.
Proof. destruct rest; [congruence | reflexivity]. Qed.

Lemma join_split_on sep p : join_on sep (split_on sep p) = p.
Proof.
  induction p as [|c t IH]; cbn [split_on]; [reflexivity|].
  destruct (beq c sep) eqn:E.
  - apply beq_true in E; subst c. rewrite join_on_cons by apply split_on_nonnil. now rewrite IH.
  - pose proof (split_on_nonnil sep t). destruct (split_on sep t) as [|h r] eqn:S; [congruence|].
    destruct r as [|h2 r2].
    + cbn [join_on] in *. now rewrite IH.
    + rewrite join_on_cons in * by discriminate. cbn [app]. now rewrite IH.
Qed.

Lemma split_on_nosep sep p : Forall (nosep sep) (split_on sep p).
Proof.
  induction p as [|c t IH]; cbn [split_on].
  - constructor; [intros []|constructor].
  - destruct (beq c sep) eqn:E.
    + constructor; [intros []|exact IH].
    + pose proof (split_on_nonnil sep t). destruct (split_on sep t) as [|h r]; [congruence|].
      inversion IH; subst. constructor; [|assumption].
      intros [->|Hin]; [now rewrite beq_refl in E | contradiction].
Qed.

Lemma split_on_nosep_seg sep s : nosep sep s -> split_on sep s = [s].
Proof.
  induction s as [|c t IH]; intros H; cbn [split_on]; [reflexivity|].
  destruct (beq c sep) eqn:E; [apply beq_true in E; subst; exfalso; apply H; now left|].
  rewrite IH; [reflexivity|]. intros Hin. apply H. now right.
Qed.

Lemma split_on_app_sep sep s rest : nosep sep s -> split_on sep (s ++ sep :: rest) = s :: split_on sep rest.
Proof.
  induction s as [|c t IH]; intros H; cbn [split_on app].
  - now rewrite beq_refl.
  - destruct (beq c sep) eqn:E; [apply beq_true in E; subst; exfalso; apply H; now left|].
    rewrite IH; [reflexivity|]. intros Hin. apply H. now right.
Qed.

Lemma split_join_on sep segs : segs <> [] -> Forall (nosep sep) segs -> split_on sep (join_on sep segs) = segs.
Proof.
  induction segs as [|s rest IH]; [congruence|]. intros _ H. inversion H; subst.
  cbn [join_on]. destruct rest as [|s' rest'].
  - now apply split_on_nosep_seg.
  - rewrite split_on_app_sep by assumption. f_equal. apply IH; [discriminate | assumption].
Qed.

(* the code's rule: segment [seg] selects field [fd] of message [md] *)
Definition names (sc : schema) (md : nat) (seg : list byte) (fd : field) : Prop :=
  exists m, nth_error sc md = Some m /\
  ((by_name (m_fields m) seg = Some fd /\ f_text fd = seg) \/
   (by_name (m_fields m) seg = None /\ by_name (m_fields m) (lower seg) = Some fd /\ f_text fd = seg)).

Lemma lookup_seg_names sc md seg fd : lookup_seg sc md seg = Some fd <-> names sc md seg fd.
Proof.
  unfold lookup_seg, names. destruct (nth_error sc md) as [m|].
  2:{ split; [discriminate | intros [m [H _]]; discriminate]. }
  split.
  - intros H. exists m. split; [reflexivity|].
    destruct (by_name (m_fields m) seg) as [f|] eqn:B.
    + left. destruct (bytes_eqb (f_text f) seg) eqn:T; [|discriminate]. inversion H; subst.
      split; [reflexivity | now apply bytes_eqb_true].
    + right. split; [reflexivity|].
      destruct (by_name (m_fields m) (lower seg)) as [g|]; [|discriminate].
      destruct (bytes_eqb (f_text g) seg) eqn:T; [|discriminate]. inversion H; subst.
      split; [reflexivity | now apply bytes_eqb_true].
  - intros [m' [E H]]. inversion E; subst m'. clear E.
    destruct H as [[B T]|[B [L T]]].
    + rewrite B. apply bytes_eqb_true in T. now rewrite T.
    + rewrite B, L. apply bytes_eqb_true in T. now rewrite T.
Qed.

(* the property's rule: [seg] is the text-format name of a field of the message *)
Definition names_text (sc : schema) (md : nat) (seg : list byte) (fd : field) : Prop :=
  exists m, nth_error sc md = Some m /\ In fd (m_fields m) /\ f_text fd = seg.

(* the segments name a chain of fields; every non-final one is a singular message field *)
Inductive reachN (N : nat -> list byte -> field -> Prop) : nat -> list (list byte) -> Prop :=
| reach_last md seg fd : N md seg fd -> reachN N md [seg]
| reach_step md seg fd md' rest :
    N md seg fd -> f_rep fd = false -> kind_msg (f_kind fd) = Some md' ->
    rest <> [] -> reachN N md' rest -> reachN N md (seg :: rest).
Definition reach (sc : schema) := reachN (names sc).
Definition reach_text (sc : schema) := reachN (names_text sc).

Lemma walk_reach sc segs : segs <> [] -> forall md, walk sc (Some md) segs = true <-> reach sc md segs.
Proof.
  induction segs as [|seg rest IH]; [congruence|]. intros _ md. cbn [walk].
  split.
  - destruct (lookup_seg sc md seg) as [fd|] eqn:L; [|discriminate].
    apply lookup_seg_names in L. destruct rest as [|s2 r2]; [intros _; eapply (reach_last (names sc)); eauto|].
    destruct (f_rep fd) eqn:R; [cbn [walk]; discriminate|].
    destruct (kind_msg (f_kind fd)) as [md'|] eqn:K; [|cbn [walk]; discriminate].
    intros H. eapply (reach_step (names sc)); eauto; [discriminate|]. apply IH; [discriminate | exact H].
  - intros H. inversion H; subst.
    + apply lookup_seg_names in H2. rewrite H2. reflexivity.
    + apply lookup_seg_names in H2. rewrite H2, H3, H4. apply IH; assumption.
Qed.

Theorem valid_paths_exact sc root p :
  path_valid sc root p = true <->
  exists segs, segs <> [] /\ Forall nodot segs /\ p = join_dots segs /\ reach sc root segs.
Proof.
  unfold path_valid, split_dots, join_dots, nodot. rewrite walk_reach by apply split_on_nonnil. split.
  - intros H. exists (split_on dot p). repeat split; auto using split_on_nonnil, split_on_nosep.
    now rewrite join_split_on.
  - intros [segs [H1 [H2 [-> H4]]]]. now rewrite split_join_on.
Qed.

(* numValidPaths = length of the longest prefix of valid paths *)
Theorem num_valid_paths_spec sc root paths :
  let n := num_valid_paths sc root paths in
  (n <= length paths)%nat /\
  Forall (fun p => path_valid sc root p = true) (firstn n paths) /\
  (forall p, nth_error paths n = Some p -> path_valid sc root p = false).
Proof.
  induction paths as [|a t IH]; cbn [num_valid_paths length].
  - repeat split; [lia | constructor | intros p H; discriminate].
  - destruct (path_valid sc root a) eqn:V; cbn [firstn nth_error].
    + destruct IH as [IH0 [IH1 IH2]]. repeat split; [lia | constructor; auto | exact IH2].
    + repeat split; [lia | constructor | intros p H; now inversion H; subst].
Qed.

Theorem is_valid_exact sc root paths :
  fm_is_valid sc root paths = true <-> Forall (fun p => path_valid sc root p = true) paths.
Proof.
  unfold fm_is_valid. rewrite Nat.eqb_eq.
  destruct (num_valid_paths_spec sc root paths) as [Hle [H1 H2]]. cbv zeta in *. split.
  - intros E. now rewrite E, firstn_all in H1.
  - intros H. destruct (nth_error paths (num_valid_paths sc root paths)) as [p|] eqn:Ep.
    + rewrite Forall_forall in H. pose proof (H2 p eq_refl) as C. rewrite (H p (nth_error_In _ _ Ep)) in C. discriminate C.
    + apply nth_error_None in Ep. lia.
Qed.

Theorem append_exact sc root have paths :
  let '(out, err) := fm_append sc root have paths in
  exists pre post, paths = pre ++ post /\ out = have ++ pre /\
    Forall (fun p => path_valid sc root p = true) pre /\
    (err = false <-> post = []) /\
    (forall p post', post = p :: post' -> path_valid sc root p = false).
Proof.
  unfold fm_append. set (n := num_valid_paths sc root paths).
  exists (firstn n paths), (skipn n paths).
  destruct (num_valid_paths_spec sc root paths) as [Hle [H1 H2]]. fold n in Hle, H1, H2.
  repeat split.
  - now rewrite firstn_skipn.
  - exact H1.
  - rewrite negb_false_iff, Nat.eqb_eq. intros ->. apply skipn_all.
  - intros H. rewrite negb_false_iff, Nat.eqb_eq.
    assert (length (skipn n paths) = 0%nat) by now rewrite H. rewrite skipn_length in H0. lia.
  - intros p post' H. apply H2. rewrite <- (firstn_skipn n paths) at 1.
    rewrite nth_error_app2; rewrite firstn_length_le by exact Hle; [|lia].
    now rewrite Nat.sub_diag, H.
Qed.

(* Descriptor well-formedness as far as path lookup is concerned: field names and text names
   are unique within a message, and TextName is the field name or (group-like fields) a
   message name whose lower-casing is the field name. *)
Definition schema_wf (sc : schema) : Prop :=
  forall m, In m sc ->
    NoDup (map f_name (m_fields m)) /\ NoDup (map f_text (m_fields m)) /\
    forall f, In f (m_fields m) -> f_text f = f_name f \/ lower (f_text f) = f_name f.

Lemma by_name_some fs n f : by_name fs n = Some f -> In f fs /\ f_name f = n.
Proof.
  induction fs as [|g t IH]; cbn [by_name]; [discriminate|].
  destruct (bytes_eqb (f_name g) n) eqn:E.
  - intros H; inversion H; subst. split; [now left | now apply bytes_eqb_true].
  - intros H. destruct (IH H). split; [now right | assumption].
Qed.
Lemma by_name_unique fs f : NoDup (map f_name fs) -> In f fs -> by_name fs (f_name f) = Some f.
Proof.
  induction fs as [|g t IH]; [intros _ []|]. cbn [map by_name]. intros ND Hin. inversion ND; subst.
  destruct (bytes_eqb (f_name g) (f_name f)) eqn:E.
  - apply bytes_eqb_true in E. destruct Hin as [->|Hin]; [reflexivity|].
    exfalso. apply H1. rewrite E. now apply in_map.
  - destruct Hin as [->|Hin]; [|now apply IH].
    assert (bytes_eqb (f_name f) (f_name f) = true) by now apply bytes_eqb_true. congruence.
Qed.

Lemma lower_byte_idem b : lower_byte (lower_byte b) = lower_byte b.
Proof.
  unfold lower_byte. cbv zeta. pose proof (b2n_lt b).
  destruct ((65 <=? b2n b) && (b2n b <=? 90))%N eqn:E; [|now rewrite E].
  rewrite b2n_n2b by lia. now replace ((65 <=? b2n b + 32) && (b2n b + 32 <=? 90))%N with false by lia.
Qed.
Lemma lower_idem s : lower (lower s) = lower s.
Proof. unfold lower. rewrite map_map. apply map_ext. apply lower_byte_idem. Qed.

(* the code's lookup (ByName, then ByName(ToLower), each checked against TextName) finds
   exactly the field whose text-format name is the segment *)
Theorem names_text_exact sc md seg fd : schema_wf sc -> (names sc md seg fd <-> names_text sc md seg fd).
Proof.
  intros WF. unfold names, names_text. split.
  - intros [m [Em H]]. exists m. split; [exact Em|].
    destruct H as [[B T]|[_ [L T]]].
    + destruct (by_name_some _ _ _ B). auto.
    + destruct (by_name_some _ _ _ L). auto.
  - intros [m [Em [Hin T]]]. exists m. split; [exact Em|].
    destruct (WF m (nth_error_In _ _ Em)) as [ND1 [ND2 TX]].
    destruct (TX fd Hin) as [Hn|Hn].
    + left. rewrite <- T, Hn. split; [now apply by_name_unique | congruence].
    + rewrite T in Hn.
      destruct (by_name (m_fields m) seg) as [g|] eqn:B.
      * left. destruct (by_name_some _ _ _ B) as [Hg Hgn].
        assert (g = fd) as ->; [|auto].
        destruct (TX g Hg) as [Tg|Tg].
        -- apply (list_nodup_map_inj f_text (m_fields m)); auto. congruence.
        -- apply (list_nodup_map_inj f_name (m_fields m)); auto.
           rewrite <- Hn, Hgn. rewrite <- Hgn, <- Tg. symmetry. apply lower_idem.
      * right. split; [reflexivity|]. split; [|exact T]. rewrite Hn. now apply by_name_unique.
Qed.

Lemma reachN_iff (N1 N2 : nat -> list byte -> field -> Prop) :
  (forall md seg fd, N1 md seg fd <-> N2 md seg fd) -> forall md segs, reachN N1 md segs <-> reachN N2 md segs.
Proof.
  intros H md segs. split; induction 1.
  - eapply reach_last. apply H; eauto.
  - eapply reach_step; eauto. apply H; eauto.
  - eapply reach_last. apply H; eauto.
  - eapply reach_step; eauto. apply H; eauto.
Qed.

(* New / Append / IsValid accept exactly the paths whose segments are the text-format names of
   a chain of fields in which every non-final field is a singular message field *)
Theorem valid_paths_text_name_exact sc root p :
  schema_wf sc ->
  (path_valid sc root p = true <->
   exists segs, segs <> [] /\ Forall nodot segs /\ p = join_dots segs /\ reach_text sc root segs).
Proof.
  intros WF. rewrite valid_paths_exact. unfold reach, reach_text.
  split; intros [segs [H1 [H2 [H3 H4]]]]; exists segs; repeat split; auto;
    eapply reachN_iff; try exact H4; intros; [symmetry|]; now apply names_text_exact.
Qed.
