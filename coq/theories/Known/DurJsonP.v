(* Proofs about the protojson Duration model (C23): grammar of parseDuration,
   marshal/parse round trip. *)
From Coq Require Import List NArith ZArith Bool Lia Arith.
From Coq Require Import ZifyBool ZifyNat ZifyN.
From PB Require Import Base.PBytes Base.ListEqbP Known.FieldMaskModel Known.ByteEqP Known.DurationModel Known.DurationP Known.WktJsonModel.
Import ListNotations.
Open Scope Z_scope.

Definition D (b : byte) : Prop := is_digit b = true.

(* digit_byte d is the byte 48 + d; the facts below are about that number *)
Lemma b2n_digit_byte d : 0 <= d <= 9 -> b2n (digit_byte d) = Z.to_N (48 + d).
Proof. intros H. apply b2n_n2b. lia. Qed.

Lemma digit_byte_is_digit d : 0 <= d <= 9 -> D (digit_byte d).
Proof. intros H. unfold D, is_digit. rewrite b2n_digit_byte by assumption. lia. Qed.
Lemma digit_val_byte d : 0 <= d <= 9 -> digit_val (digit_byte d) = d.
Proof. intros H. unfold digit_val. rewrite b2n_digit_byte by assumption. lia. Qed.
Lemma digit_byte_19 d : 0 <= d <= 9 -> is_digit19 (digit_byte d) = (1 <=? d).
Proof. intros H. unfold is_digit19. rewrite b2n_digit_byte by assumption. lia. Qed.
Lemma digit_byte_zero d : 0 <= d <= 9 -> beq (digit_byte d) c0 = (d =? 0).
Proof. intros H. unfold beq. rewrite b2n_digit_byte by assumption. change (b2n c0) with 48%N. lia. Qed.

Lemma is_digit_range b : D b -> 0 <= digit_val b <= 9.
Proof. unfold D, is_digit, digit_val. lia. Qed.
Lemma digit_not_special b : D b -> beq b dot = false /\ beq b ch_minus = false /\ beq b ch_plus = false /\ beq b ch_s = false.
Proof.
  unfold D, is_digit, beq. intros H.
  change (b2n dot) with 46%N. change (b2n ch_minus) with 45%N. change (b2n ch_plus) with 43%N. change (b2n ch_s) with 115%N.
  lia.
Qed.
Lemma is_digit19_digit b : is_digit19 b = true -> D b.
Proof. unfold D, is_digit19, is_digit. lia. Qed.
Lemma is_digit_zero_or_19 b : D b -> beq b c0 = true \/ is_digit19 b = true.
Proof. unfold D, is_digit, is_digit19, beq. change (b2n c0) with 48%N. lia. Qed.
Lemma c0_not_19 : is_digit19 c0 = false.
Proof. reflexivity. Qed.
Lemma digit19_not_zero b : is_digit19 b = true -> beq b c0 = false.
Proof. unfold is_digit19, beq. change (b2n c0) with 48%N. lia. Qed.
Lemma dot_not_digit : is_digit dot = false.
Proof. reflexivity. Qed.
Lemma digit_val_c0 : digit_val c0 = 0.
Proof. reflexivity. Qed.

Lemma dec_value_fold a ds : fold_left (fun a b => a * 10 + digit_val b) ds a = a * 10 ^ Z.of_nat (length ds) + dec_value ds.
Proof.
  unfold dec_value. revert a. induction ds as [|d ds IH]; intros a; cbn [fold_left length].
  - cbn. lia.
  - rewrite IH. rewrite (IH (0 * 10 + digit_val d)). rewrite Nat2Z.inj_succ, Z.pow_succ_r by lia. ring.
Qed.
Lemma dec_value_cons d ds : dec_value (d :: ds) = digit_val d * 10 ^ Z.of_nat (length ds) + dec_value ds.
Proof. unfold dec_value at 1. cbn [fold_left]. rewrite dec_value_fold. lia. Qed.
Lemma dec_value_app a b : dec_value (a ++ b) = dec_value a * 10 ^ Z.of_nat (length b) + dec_value b.
Proof. unfold dec_value at 1. rewrite fold_left_app. fold (dec_value a). apply dec_value_fold. Qed.
Lemma dec_value_snoc a d : dec_value (a ++ [d]) = dec_value a * 10 + digit_val d.
Proof.
  rewrite dec_value_app. change (dec_value [d]) with (0 * 10 + digit_val d).
  change (10 ^ Z.of_nat (length [d])) with 10. lia.
Qed.
Lemma dec_value_nonneg ds : Forall D ds -> 0 <= dec_value ds.
Proof.
  induction 1 as [|d ds Hd Hds IH]; [cbn; lia|]. rewrite dec_value_cons.
  pose proof (is_digit_range _ Hd). assert (0 <= 10 ^ Z.of_nat (length ds)) by (apply Z.pow_nonneg; lia). nia.
Qed.
Lemma dec_value_bound ds : Forall D ds -> dec_value ds < 10 ^ Z.of_nat (length ds).
Proof.
  induction 1 as [|d ds Hd Hds IH]; [cbn; lia|]. rewrite dec_value_cons. cbn [length].
  rewrite Nat2Z.inj_succ, Z.pow_succ_r by lia.
  pose proof (is_digit_range _ Hd). assert (0 < 10 ^ Z.of_nat (length ds)) by (apply Z.pow_pos_nonneg; lia). nia.
Qed.
Lemma dec_value_zeros k : dec_value (repeat c0 k) = 0.
Proof. induction k; [reflexivity|]. cbn [repeat]. rewrite dec_value_cons, IHk, digit_val_c0. lia. Qed.
Lemma repeat_c0_digits k : Forall D (repeat c0 k).
Proof. induction k; constructor; auto. reflexivity. Qed.

Lemma trim_left_zeros_value l : dec_value (trim_left_zeros l) = dec_value l.
Proof.
  induction l as [|c r IH]; cbn [trim_left_zeros]; [reflexivity|].
  destruct (beq c c0) eqn:E; [|reflexivity].
  apply beq_true in E; subst c. rewrite IH, dec_value_cons, digit_val_c0. lia.
Qed.

(* integer literal: "0" or a non-zero digit followed by digits *)
Definition int_lit (ip : list byte) : Prop :=
  ip = [c0] \/ exists c ds, ip = c :: ds /\ is_digit19 c = true /\ Forall D ds.

Lemma int_lit_head ip : int_lit ip -> exists c r, ip = c :: r /\ D c /\ Forall D r.
Proof.
  intros [->|[c [ds [-> [H1 H2]]]]].
  - exists c0, []. repeat split; auto.
  - exists c, ds. repeat split; auto. now apply is_digit19_digit.
Qed.
Lemma int_lit_digits ip : int_lit ip -> Forall D ip.
Proof. intros H. destruct (int_lit_head _ H) as [c [r [-> [Hc Hr]]]]. now constructor. Qed.

(* a literal of non-zero value stays one when a digit is appended *)
Lemma int_lit_snoc ip d : int_lit ip -> dec_value ip <> 0 -> D d -> int_lit (ip ++ [d]).
Proof.
  intros [->|[c [ds [-> [Hc Hds]]]]] Hv Hd; [now contradiction Hv|].
  right. exists c, (ds ++ [d]). repeat split; auto. apply Forall_app. split; auto.
Qed.

(* the lemmas about n / 10 and n mod 10; a redefinition inside a section ends with it, so lia gets
   the division hook here and nowhere else *)
Section Formatting.
Ltac Zify.zify_post_hook ::= Z.to_euclidean_division_equations.

Lemma dec_fuel_S f n acc :
  dec_fuel (S f) n acc =
  if n <? 10 then digit_byte (n mod 10) :: acc else dec_fuel f (n / 10) (digit_byte (n mod 10) :: acc).
Proof. reflexivity. Qed.

Lemma one_digit_lit n : 0 <= n <= 9 -> int_lit [digit_byte n] /\ dec_value [digit_byte n] = n.
Proof.
  intros H. split.
  - destruct (Z.eq_dec n 0) as [->|N]; [now left|]. right. exists (digit_byte n), [].
    rewrite digit_byte_19 by lia. repeat split; auto; lia.
  - unfold dec_value. cbn [fold_left]. rewrite digit_val_byte; lia.
Qed.

Lemma dec_fuel_spec f : forall n acc, 0 <= n < 10 ^ Z.of_nat (S f) ->
  exists ip, dec_fuel (S f) n acc = ip ++ acc /\ int_lit ip /\ dec_value ip = n.
Proof.
  induction f as [|f IH]; intros n acc Hn; rewrite dec_fuel_S; destruct (n <? 10) eqn:E.
  - replace (n mod 10) with n by lia. exists [digit_byte n]. split; [reflexivity | apply one_digit_lit; lia].
  - change (10 ^ Z.of_nat 1) with 10 in Hn. lia.
  - replace (n mod 10) with n by lia. exists [digit_byte n]. split; [reflexivity | apply one_digit_lit; lia].
  - (* at least two digits: those of n / 10, then the last one *)
    rewrite Nat2Z.inj_succ, Z.pow_succ_r in Hn by lia. assert (0 <= n mod 10 <= 9) as Hd by lia.
    destruct (IH (n / 10) (digit_byte (n mod 10) :: acc)) as [ip [E1 [E2 E3]]]; [lia|].
    exists (ip ++ [digit_byte (n mod 10)]). rewrite E1, <- app_assoc. split; [reflexivity|]. split.
    + apply int_lit_snoc; [exact E2 | lia | now apply digit_byte_is_digit].
    + rewrite dec_value_snoc, E3, digit_val_byte; lia.
Qed.

Lemma dec_spec n : 0 <= n <= max_int64 -> int_lit (dec n) /\ dec_value (dec n) = n.
Proof.
  intros H. unfold dec. destruct (dec_fuel_spec 19 n []) as [ip [E R]].
  - unfold max_int64 in H. change (10 ^ Z.of_nat 20) with 100000000000000000000. lia.
  - now rewrite E, app_nil_r.
Qed.

Lemma pad_dec_acc k : forall n acc, pad_dec k n acc = pad_dec k n [] ++ acc.
Proof.
  induction k as [|k IH]; intros n acc; cbn [pad_dec]; [reflexivity|].
  rewrite IH, (IH _ [_]), <- app_assoc. reflexivity.
Qed.

Lemma pad_dec_digits k : forall n, Forall D (pad_dec k n []) /\ length (pad_dec k n []) = k.
Proof.
  induction k as [|k IH]; intros n; cbn [pad_dec]; [split; constructor|].
  rewrite pad_dec_acc. destruct (IH (n / 10)) as [H1 H2]. split.
  - apply Forall_app. split; [exact H1|]. repeat constructor. apply digit_byte_is_digit. lia.
  - rewrite app_length, H2. cbn [length]. lia.
Qed.

Lemma pad_dec_value k : forall n, 0 <= n < 10 ^ Z.of_nat k -> dec_value (pad_dec k n []) = n.
Proof.
  induction k as [|k IH]; intros n H; cbn [pad_dec].
  - change (10 ^ Z.of_nat 0) with 1 in H. cbn. lia.
  - rewrite Nat2Z.inj_succ, Z.pow_succ_r in H by lia.
    rewrite pad_dec_acc, dec_value_snoc, IH, digit_val_byte; lia.
Qed.

(* the last k of j + k digits are those of n, the first j those of n / 10^k *)
Lemma pad_dec_add j k : forall n acc, pad_dec (j + k) n acc = pad_dec j (n / 10 ^ Z.of_nat k) (pad_dec k n acc).
Proof.
  induction k as [|k IH]; intros n acc.
  - rewrite Nat.add_0_r. change (10 ^ Z.of_nat 0) with 1. now rewrite Z.div_1_r.
  - rewrite Nat.add_succ_r. cbn [pad_dec]. rewrite IH, Nat2Z.inj_succ, Z.pow_succ_r, Z.div_div by lia.
    reflexivity.
Qed.

Lemma pad_dec_zeros_value k j m : 0 <= m < 10 ^ Z.of_nat k ->
  dec_value (pad_dec k m [] ++ repeat c0 j) = m * 10 ^ Z.of_nat j.
Proof. intros H. now rewrite dec_value_app, dec_value_zeros, repeat_length, pad_dec_value, Z.add_0_r. Qed.

Lemma digit_byte_inj0 d : 0 <= d <= 9 -> digit_byte d = c0 -> d = 0.
Proof.
  intros H E. apply (f_equal b2n) in E. rewrite b2n_digit_byte in E by assumption.
  change (b2n c0) with 48%N in E. lia.
Qed.

Lemma pad3_zero m : pad_dec 3 m [] = z3 <-> m mod 1000 = 0.
Proof.
  unfold z3. cbn [pad_dec]. split.
  - intros E. injection E as E1 E2 E3. apply digit_byte_inj0 in E1, E2, E3; lia.
  - intros E. replace (m mod 10) with 0 by lia. replace (m / 10 mod 10) with 0 by lia.
    replace (m / 10 / 10 mod 10) with 0 by lia. reflexivity.
Qed.

Lemma strip_prefix_app pre s : strip_prefix pre (pre ++ s) = Some s.
Proof. exact (list_strip_prefix_app beq beq_refl pre s). Qed.
Lemma strip_prefix_sound pre : forall s r, strip_prefix pre s = Some r -> s = pre ++ r.
Proof.
  induction pre as [|a pre IH]; intros s r; cbn [strip_prefix app]; [now intros [= ->]|].
  destruct s as [|b s]; [discriminate|]. destruct (beq a b) eqn:E; [|discriminate].
  apply beq_true in E. subst b. intros H. now rewrite (IH _ _ H).
Qed.

Lemma trim_suffix_hit x suf : trim_suffix (x ++ suf) suf = x.
Proof. unfold trim_suffix. rewrite rev_app_distr, strip_prefix_app. apply rev_involutive. Qed.

Lemma app_same_length_l {A} (a c b d : list A) : length a = length c -> a ++ b = c ++ d -> a = c.
Proof.
  revert c; induction a as [|x a IH]; intros [|y c] L E; try discriminate L; [reflexivity|].
  injection E as -> E. f_equal. apply IH; [now injection L | exact E].
Qed.

(* x keeps its end t when t differs from the end of the suffix *)
Lemma trim_suffix_miss pre t s0 suf : length t = length suf -> t <> suf ->
  trim_suffix (pre ++ t) (s0 ++ suf) = pre ++ t.
Proof.
  intros L N. unfold trim_suffix. destruct (strip_prefix _ _) as [r|] eqn:E; [|reflexivity].
  apply strip_prefix_sound in E. rewrite !rev_app_distr, <- app_assoc in E.
  apply app_same_length_l in E; [|now rewrite !rev_length].
  contradiction N. now rewrite <- (rev_involutive t), E, rev_involutive.
Qed.

(* the fraction that marshalDuration / marshalTimestamp print for n nanoseconds:
   nine digits, cut by groups of three zeros *)
Definition frac_out (n : Z) : list byte :=
  if n =? 0 then []
  else if n mod 1000000 =? 0 then dot :: pad_dec 3 (n / 1000 / 1000) []
  else if n mod 1000 =? 0 then dot :: pad_dec 6 (n / 1000) []
  else dot :: pad_dec 9 n [].

Lemma trim_frac_spec pre n : 0 <= n < 1000000000 ->
  trim_frac (pre ++ dot :: pad_dec 9 n []) = pre ++ frac_out n.
Proof.
  intros H. unfold trim_frac, frac_out.
  set (A := pad_dec 3 (n / 1000 / 1000) []). set (B := pad_dec 3 (n / 1000) []). set (C := pad_dec 3 n []).
  assert (pad_dec 6 (n / 1000) [] = A ++ B) as -> by (rewrite (pad_dec_add 3 3); apply pad_dec_acc).
  assert (pad_dec 9 n [] = (A ++ B) ++ C) as ->.
  { rewrite (pad_dec_add 6 3), pad_dec_acc. f_equal. rewrite (pad_dec_add 3 3). apply pad_dec_acc. }
  replace (pre ++ dot :: (A ++ B) ++ C) with ((((pre ++ [dot]) ++ A) ++ B) ++ C) by (now rewrite <- !app_assoc).
  assert (length A = 3 /\ length B = 3 /\ length C = 3)%nat as [LA [LB LC]] by (repeat split; apply pad_dec_digits).
  pose proof (pad3_zero (n / 1000 / 1000)) as ZA. pose proof (pad3_zero (n / 1000)) as ZB.
  pose proof (pad3_zero n) as ZC. fold A in ZA. fold B in ZB. fold C in ZC.
  destruct (n mod 1000 =? 0) eqn:Ec.
  - rewrite (proj2 ZC), trim_suffix_hit by lia.
    destruct (n mod 1000000 =? 0) eqn:Eb.
    + rewrite (proj2 ZB), trim_suffix_hit by lia.
      destruct (n =? 0) eqn:Ea.
      * rewrite (proj2 ZA), <- app_assoc by lia. change ([dot] ++ z3) with dot_z3.
        now rewrite trim_suffix_hit, app_nil_r.
      * rewrite (trim_suffix_miss _ A [dot] z3) by (rewrite ?ZA; auto; lia). now rewrite <- app_assoc.
    + assert (B <> z3) as NB by (rewrite ZB; lia). assert (n =? 0 = false) as -> by lia.
      rewrite (trim_suffix_miss _ B [] z3), (trim_suffix_miss _ B [dot] z3) by auto.
      now rewrite <- !app_assoc.
  - assert (C <> z3) as NC by (rewrite ZC; lia).
    assert (n =? 0 = false) as -> by lia. assert (n mod 1000000 =? 0 = false) as -> by lia.
    rewrite (trim_suffix_miss _ C [] z3), (trim_suffix_miss _ C [] z3), (trim_suffix_miss _ C [dot] z3) by auto.
    now rewrite <- !app_assoc.
Qed.

Lemma frac_digits k m n : (k = 3 \/ k = 6 \/ k = 9)%nat -> 0 <= m < 10 ^ Z.of_nat k -> m * 10 ^ Z.of_nat (9 - k) = n ->
  exists fd, dot :: pad_dec k m [] = (match fd with [] => [] | _ => dot :: fd end) /\ Forall D fd /\
             (length fd = 0 \/ length fd = 3 \/ length fd = 6 \/ length fd = 9)%nat /\
             dec_value (fd ++ repeat c0 (9 - length fd)) = n.
Proof.
  intros Hk Hm <-. exists (pad_dec k m []). destruct (pad_dec_digits k m) as [Hd Hl]. rewrite Hl.
  split; [destruct (pad_dec k m []); [cbn in Hl; lia | reflexivity]|]. split; [exact Hd|]. split; [lia|].
  now apply pad_dec_zeros_value.
Qed.

(* frac_out n is empty or '.' followed by 3, 6 or 9 digits; its digits, right-padded with
   zeros to 9, have the value n *)
Lemma frac_out_spec n : 0 <= n < 1000000000 ->
  exists fd, frac_out n = (match fd with [] => [] | _ => dot :: fd end) /\ Forall D fd /\
             (length fd = 0 \/ length fd = 3 \/ length fd = 6 \/ length fd = 9)%nat /\
             dec_value (fd ++ repeat c0 (9 - length fd)) = n.
Proof.
  intros H. unfold frac_out. destruct (n =? 0) eqn:E0.
  { exists []. repeat split; auto. cbn [app length]. rewrite dec_value_zeros. lia. }
  destruct (n mod 1000000 =? 0) eqn:E1; [|destruct (n mod 1000 =? 0) eqn:E2].
  - apply (frac_digits 3); [auto | change (10 ^ Z.of_nat 3) with 1000; lia | change (10 ^ Z.of_nat (9 - 3)) with 1000000; lia].
  - apply (frac_digits 6); [auto | change (10 ^ Z.of_nat 6) with 1000000; lia | change (10 ^ Z.of_nat (9 - 6)) with 1000; lia].
  - apply (frac_digits 9); [auto | change (10 ^ Z.of_nat 9) with 1000000000; lia | change (10 ^ Z.of_nat (9 - 9)) with 1; lia].
Qed.
End Formatting.
Lemma split_last_spec l i x : split_last l = Some (i, x) <-> l = i ++ [x].
Proof.
  split.
  - revert i; induction l as [|a t IH]; intros i; cbn [split_last]; [discriminate|].
    destruct t as [|b t']; [intros H; inversion H; reflexivity|].
    destruct (split_last (b :: t')) as [[i' y]|]; [|discriminate].
    intros H; inversion H; subst. cbn [app]. f_equal. now apply IH.
  - intros ->. induction i as [|a i IH]; [reflexivity|].
    cbn [app split_last]. destruct (i ++ [x]) eqn:E; [destruct i; discriminate|]. now rewrite IH.
Qed.

(* "rest does not start with a digit" *)
Definition stops (rest : list byte) : Prop := match rest with [] => True | c :: _ => is_digit c = false end.

Lemma span_digits_app ds rest : Forall D ds -> stops rest -> span_digits (ds ++ rest) = (ds, rest).
Proof.
  induction 1 as [|d ds Hd Hds IH]; intros Hs; cbn [app span_digits].
  - destruct rest as [|c r]; [reflexivity|]. cbn [stops] in Hs. cbn [span_digits]. now rewrite Hs.
  - rewrite Hd, (IH Hs). reflexivity.
Qed.
Lemma span_digits_sound b : forall ds rest, span_digits b = (ds, rest) -> b = ds ++ rest /\ Forall D ds /\ stops rest.
Proof.
  induction b as [|c r IH]; intros ds rest; cbn [span_digits].
  - intros H; inversion H; subst. repeat split; constructor.
  - destruct (is_digit c) eqn:E.
    + destruct (span_digits r) as [ds' rest'] eqn:S. intros H; inversion H; subst.
      destruct (IH _ _ eq_refl) as [-> [H1 H2]]. repeat split; auto.
    + intros H; inversion H; subst. repeat split; [constructor | exact E].
Qed.

Lemma span_digits_max_all k ds : Forall D ds -> (length ds <= k)%nat -> span_digits_max k ds = (ds, []).
Proof.
  revert ds; induction k as [|k IH]; intros ds Hd Hl.
  - destruct ds; [reflexivity | cbn in Hl; lia].
  - destruct ds as [|d ds]; [reflexivity|]. inversion Hd; subst. cbn [span_digits_max].
    rewrite H1, IH; auto. cbn in Hl. lia.
Qed.
Lemma span_digits_max_sound k : forall b ds rest, span_digits_max k b = (ds, rest) ->
  b = ds ++ rest /\ Forall D ds /\ (length ds <= k)%nat.
Proof.
  induction k as [|k IH]; intros b ds rest; cbn [span_digits_max].
  - intros H; inversion H; subst. repeat split; auto.
  - destruct b as [|c r]; [intros H; inversion H; subst; repeat split; auto; cbn; lia|].
    destruct (is_digit c) eqn:E.
    + destruct (span_digits_max k r) as [ds' rest'] eqn:S. intros H; inversion H; subst.
      destruct (IH _ _ _ S) as [-> [H1 H2]]. repeat split; auto. cbn. lia.
    + intros H; inversion H; subst. repeat split; auto. cbn; lia.
Qed.

(* s = sign ip frac "s":  [+-]? ( int_lit ( "." d{0,9} )? | "." d{1,9} ) "s" *)
Definition dur_syntax (s : list byte) (neg : bool) (ip : list byte) (fo : option (list byte)) : Prop :=
  exists sign,
    ((sign = [] /\ neg = false) \/ (sign = [ch_plus] /\ neg = false) \/ (sign = [ch_minus] /\ neg = true)) /\
    s = sign ++ ip ++ (match fo with None => [] | Some fd => dot :: fd end) ++ [ch_s] /\
    (int_lit ip \/ ip = []) /\
    match fo with
    | None => ip <> []
    | Some fd => Forall D fd /\ (length fd <= 9)%nat /\ (ip = [] -> fd <> [])
    end.

Definition frac_value (fo : option (list byte)) : Z :=
  match fo with None => 0 | Some fd => dec_value (fd ++ repeat c0 (9 - length fd)) end.
Definition apply_sign (neg : bool) (v : Z) : Z := if neg then - v else v.

Definition frac_text (fo : option (list byte)) : list byte :=
  match fo with None => [] | Some fd => dot :: fd end.

Lemma frac_text_stops fo : stops (frac_text fo).
Proof. destruct fo; [reflexivity | exact I]. Qed.
Lemma frac_stops fo : stops ((match fo with None => [] | Some fd => dot :: fd end) ++ [ch_s]).
Proof. destruct fo; cbn; reflexivity. Qed.

(* take_sign removes one leading sign; a first byte that is no sign stays *)
Lemma take_sign_spec b neg r :
  take_sign b = (neg, r) <->
  exists sign, ((sign = [] /\ neg = false) \/ (sign = [ch_plus] /\ neg = false) \/ (sign = [ch_minus] /\ neg = true)) /\
               b = sign ++ r /\
               (sign = [] -> match r with c :: _ => beq c ch_minus = false /\ beq c ch_plus = false | [] => True end).
Proof.
  split.
  - destruct b as [|c b']; cbn [take_sign]; [intros [= <- <-]; exists []; auto|].
    destruct (beq c ch_minus) eqn:Em; [|destruct (beq c ch_plus) eqn:Ep]; intros [= <- <-].
    + apply beq_true in Em. subst c. exists [ch_minus]. repeat split; auto. discriminate.
    + apply beq_true in Ep. subst c. exists [ch_plus]. repeat split; auto. discriminate.
    + exists []. auto.
  - intros [sign [[[-> ->]|[[-> ->]|[-> ->]]] [-> Hr]]]; [|reflexivity|reflexivity].
    destruct r as [|c r]; [reflexivity|]. cbn [app take_sign]. destruct (Hr eq_refl) as [-> ->]. reflexivity.
Qed.

(* int_part splits off an integer literal ip (possibly none, before a '.'); the digits it
   hands to ParseInt are ip without a leading "0" *)
Lemma int_part_spec b intp hasInt rest : stops rest ->
  (int_part b = Some (intp, hasInt, rest) <->
   exists ip, b = ip ++ rest /\ (int_lit ip \/ ip = [] /\ exists r, rest = dot :: r) /\
              hasInt = (match ip with [] => false | _ :: _ => true end) /\ intp = trim_left_zeros ip).
Proof.
  intros Hst. split.
  - destruct b as [|c r]; [discriminate|]. cbn [int_part].
    destruct (beq c c0) eqn:E0; [|destruct (is_digit19 c) eqn:E19; [|destruct (beq c dot) eqn:Ed; [|discriminate]]].
    + apply beq_true in E0. subst c. intros [= <- <- <-]. exists [c0]. repeat split. left. now left.
    + destruct (span_digits r) as [ds rest'] eqn:SD. intros [= <- <- <-].
      destruct (span_digits_sound _ _ _ SD) as [-> [Hds _]]. exists (c :: ds). split; [reflexivity|].
      split; [left; right; exists c, ds; auto|]. split; [reflexivity|]. cbn [trim_left_zeros]. now rewrite E0.
    + apply beq_true in Ed. subst c. intros [= <- <- <-]. exists []. repeat split. right. eauto.
  - intros [ip [-> [[[->|[c [ds [-> [Hc Hds]]]]]|[-> [r ->]]] [-> ->]]]].
    + reflexivity.
    + cbn [app int_part trim_left_zeros]. now rewrite (digit19_not_zero _ Hc), Hc, (span_digits_app ds rest Hds Hst).
    + reflexivity.
Qed.

Lemma frac_part_spec hasInt b fo :
  frac_part hasInt b = Some fo <->
  b = frac_text fo /\
  match fo with None => True | Some fd => Forall D fd /\ (length fd <= 9)%nat /\ (hasInt = false -> fd <> []) end.
Proof.
  split.
  - destruct b as [|c r]; cbn [frac_part]; [intros [= <-]; auto|].
    destruct (beq c dot) eqn:Ed; [|discriminate]. apply beq_true in Ed. subst c. cbn [negb].
    destruct (span_digits_max 9 r) as [fd rest] eqn:SM. destruct rest; [|discriminate].
    destruct (span_digits_max_sound _ _ _ _ SM) as [-> [Hd Hl]]. rewrite app_nil_r.
    destruct ((length fd =? 0)%nat && negb hasInt) eqn:E; [discriminate|]. intros [= <-].
    repeat split; auto. intros -> ->. discriminate E.
  - intros [-> H]. destruct fo as [fd|]; [|reflexivity]. destruct H as [Hd [Hl Hne]].
    cbn [frac_text frac_part]. rewrite beq_refl, (span_digits_max_all 9 fd Hd Hl). cbn [negb].
    destruct hasInt; [now rewrite andb_false_r|]. destruct fd; [now contradiction Hne|reflexivity].
Qed.

(* ParseInt after bytes.TrimLeft(.., "0"), with the empty string read as 0 *)
Lemma parse_trimmed maxv l : 0 <= maxv ->
  (match trim_left_zeros l with [] => Some 0 | _ :: _ => parse_int_digits maxv (trim_left_zeros l) end) =
  parse_int_digits maxv l.
Proof.
  intros H. unfold parse_int_digits. rewrite trim_left_zeros_value.
  destruct (trim_left_zeros l) eqn:E; [|reflexivity].
  rewrite <- (trim_left_zeros_value l), E. change (dec_value []) with 0. now replace (maxv <? 0) with false by lia.
Qed.

Lemma frac_nanos_spec fd : Forall D fd -> (length fd <= 9)%nat ->
  frac_nanos fd = Some (frac_value (Some fd)) /\ 0 <= frac_value (Some fd) < 1000000000.
Proof.
  intros Hd Hl. unfold frac_nanos, frac_value.
  set (padded := fd ++ repeat c0 (9 - length fd)).
  assert (Forall D padded) as Hp by (apply Forall_app; split; auto using repeat_c0_digits).
  assert (length padded = 9%nat) as L9 by (unfold padded; rewrite app_length, repeat_length; lia).
  pose proof (dec_value_nonneg _ Hp) as H0. pose proof (dec_value_bound _ Hp) as H1. rewrite L9 in H1.
  change (10 ^ Z.of_nat 9) with 1000000000 in H1. split; [|lia].
  cbv zeta. rewrite parse_trimmed by (unfold max_int32; lia). unfold parse_int_digits, max_int32.
  now replace (2 ^ 31 - 1 <? dec_value padded) with false by lia.
Qed.

Lemma int_value_nonneg ip : int_lit ip \/ ip = [] -> 0 <= dec_value ip.
Proof. intros [H| ->]; [apply dec_value_nonneg, int_lit_digits, H | cbn; lia]. Qed.

(* completeness: everything the grammar describes is accepted, with the described value *)
Lemma parse_duration_complete s neg ip fo :
  dur_syntax s neg ip fo -> dec_value ip <= max_int64 ->
  parse_duration s = Some (apply_sign neg (dec_value ip), apply_sign neg (frac_value fo)).
Proof.
  intros [sign [Hsign [-> [Hip Hfo]]]] Hmax. fold (frac_text fo). unfold parse_duration.
  replace (sign ++ ip ++ frac_text fo ++ [ch_s]) with ((sign ++ ip ++ frac_text fo) ++ [ch_s]) by (now rewrite <- !app_assoc).
  rewrite (proj2 (split_last_spec _ _ _) eq_refl), beq_refl. cbn [negb].
  assert (ip = [] -> exists fd, fo = Some fd /\ fd <> []) as Hnil.
  { intros ->. destruct fo as [fd|]; [exists fd; split; [reflexivity | now apply Hfo] | now contradiction Hfo]. }
  assert (take_sign (sign ++ ip ++ frac_text fo) = (neg, ip ++ frac_text fo)) as Hts.
  { apply take_sign_spec. exists sign. repeat split; auto. intros _. destruct Hip as [Hl| ->].
    - destruct (int_lit_head _ Hl) as [c [r [-> [Hc _]]]]. now destruct (digit_not_special _ Hc) as [_ [? [? _]]].
    - destruct (Hnil eq_refl) as [fd [-> _]]. split; reflexivity. }
  destruct (sign ++ ip ++ frac_text fo) as [|b0 body].
  { injection Hts as _ E. symmetry in E. apply app_eq_nil in E. destruct E as [E1 E2].
    destruct (Hnil E1) as [fd [-> _]]. discriminate E2. }
  rewrite Hts.
  assert (int_part (ip ++ frac_text fo) =
          Some (trim_left_zeros ip, match ip with [] => false | _ :: _ => true end, frac_text fo)) as ->.
  { apply int_part_spec; [apply frac_text_stops|]. exists ip. repeat split.
    destruct Hip as [Hl| ->]; [now left|right]. split; [reflexivity|].
    destruct (Hnil eq_refl) as [fd [-> _]]. now exists fd. }
  assert (frac_part (match ip with [] => false | _ :: _ => true end) (frac_text fo) = Some fo) as ->.
  { apply frac_part_spec. split; [reflexivity|]. destruct fo as [fd|]; [|exact I].
    destruct Hfo as [H1 [H2 H3]]. repeat split; auto. intros E. apply H3. destruct ip; [reflexivity | discriminate E]. }
  rewrite parse_trimmed by (unfold max_int64; lia). unfold parse_int_digits at 1.
  replace (max_int64 <? dec_value ip) with false by lia.
  assert ((match fo with None => Some 0 | Some fd => frac_nanos fd end) = Some (frac_value fo) /\
          0 <= frac_value fo < 1000000000) as [-> Hnr].
  { destruct fo as [fd|]; [|cbn; split; [reflexivity | lia]]. destruct Hfo as [H1 [H2 _]]. now apply frac_nanos_spec. }
  pose proof (int_value_nonneg ip Hip) as Hnn.
  unfold apply_sign. rewrite wrap32_id by (destruct (neg && (0 <? frac_value fo)); lia).
  destruct neg; cbn [andb]; [|reflexivity].
  destruct (0 <? dec_value ip) eqn:E1, (0 <? frac_value fo) eqn:E2; do 2 f_equal; lia.
Qed.

(* soundness: whatever is accepted has the shape of the grammar *)
Lemma parse_duration_sound s secs nanos :
  parse_duration s = Some (secs, nanos) ->
  exists neg ip fo, dur_syntax s neg ip fo /\ dec_value ip <= max_int64.
Proof.
  unfold parse_duration.
  destruct (split_last s) as [[body last]|] eqn:SL; [|discriminate]. apply split_last_spec in SL. subst s.
  destruct (beq last ch_s) eqn:El; [|discriminate]. apply beq_true in El; subst last. cbn [negb].
  destruct body as [|b0 body']; [discriminate|].
  destruct (take_sign (b0 :: body')) as [neg b] eqn:TS. apply take_sign_spec in TS.
  destruct TS as [sign [Hsign [-> _]]].
  destruct (int_part b) as [[[intp hasInt] rest]|] eqn:IP; [|discriminate].
  destruct (frac_part hasInt rest) as [fo|] eqn:FP; [|discriminate].
  apply frac_part_spec in FP. destruct FP as [-> Hfo].
  apply int_part_spec in IP; [|apply frac_text_stops]. destruct IP as [ip [-> [Hip [-> ->]]]].
  rewrite parse_trimmed by (unfold max_int64; lia). unfold parse_int_digits.
  destruct (max_int64 <? dec_value ip) eqn:Emax; [discriminate|]. intros _.
  exists neg, ip, fo. split; [|lia]. exists sign. split; [exact Hsign|]. split; [now rewrite <- !app_assoc|].
  split; [destruct Hip as [?|[? _]]; auto|].
  destruct fo as [fd|].
  - destruct Hfo as [H1 [H2 H3]]. repeat split; auto. intros ->. now apply H3.
  - intros ->. destruct Hip as [Hl|[_ [r Hr]]]; [|discriminate Hr].
    destruct (int_lit_head _ Hl) as [c [r [E _]]]. discriminate E.
Qed.

Theorem duration_grammar s secs nanos :
  parse_duration s = Some (secs, nanos) <->
  exists neg ip fo, dur_syntax s neg ip fo /\ dec_value ip <= max_int64 /\
                    secs = apply_sign neg (dec_value ip) /\ nanos = apply_sign neg (frac_value fo).
Proof.
  split.
  - intros H. destruct (parse_duration_sound _ _ _ H) as [neg [ip [fo [Hs Hm]]]].
    exists neg, ip, fo. rewrite (parse_duration_complete _ _ _ _ Hs Hm) in H. inversion H. auto.
  - intros [neg [ip [fo [Hs [Hm [-> ->]]]]]]. now apply parse_duration_complete.
Qed.

Theorem duration_unmarshal_grammar s secs nanos :
  unmarshal_duration s = UOk secs nanos <->
  exists neg ip fo, dur_syntax s neg ip fo /\ dec_value ip <= 315576000000 /\
                    secs = apply_sign neg (dec_value ip) /\ nanos = apply_sign neg (frac_value fo).
Proof.
  unfold unmarshal_duration. split.
  - destruct (parse_duration s) as [[s0 n0]|] eqn:P; [|intros X; discriminate X].
    apply duration_grammar in P. destruct P as [neg [ip [fo [Hs [Hm [-> ->]]]]]].
    unfold max_seconds_in_duration.
    match goal with |- context[if ?c then _ else _] => destruct c eqn:E end; [intros X; discriminate X|].
    intros H; inversion H; subst. exists neg, ip, fo. repeat split; auto.
    unfold apply_sign in E. destruct neg; lia.
  - intros [neg [ip [fo [Hs [Hm [-> ->]]]]]].
    assert (0 <= dec_value ip) as Hnn by (destruct Hs as [sign [_ [_ [Hip _]]]]; now apply int_value_nonneg).
    rewrite (parse_duration_complete _ _ _ _ Hs) by (unfold max_int64; lia).
    unfold max_seconds_in_duration, apply_sign.
    destruct neg; match goal with |- context[if ?c then _ else _] => destruct c eqn:E end; try reflexivity; lia.
Qed.

Definition after_dot_len (out : list byte) : nat :=
  (fix go (l : list byte) : nat :=
     match l with [] => O | c :: r => if beq c dot then Nat.pred (length r) else go r end) out.

Lemma marshal_duration_shape secs nanos : dur_check secs nanos = 0 ->
  let neg := (secs <? 0) || (nanos <? 0) in
  let s := Z.abs secs in let n := Z.abs nanos in
  marshal_duration secs nanos = MOk ((if neg then [ch_minus] else []) ++ dec s ++ frac_out n ++ [ch_s]).
Proof.
  intros H. apply dur_check_ranges_exact in H. destruct H as [Hs [Hn [H1 H2]]].
  unfold marshal_duration, max_seconds_in_duration, seconds_in_nanos.
  do 3 (match goal with |- (if ?c then _ else _) = _ => destruct c eqn:?E; [exfalso; lia|] end).
  cbv zeta.
  assert ((if (secs <? 0) || (nanos <? 0) then -1 * secs else secs) = Z.abs secs) as -> by (destruct ((secs <? 0) || (nanos <? 0)) eqn:EE; lia).
  assert ((if (secs <? 0) || (nanos <? 0) then -1 * nanos else nanos) = Z.abs nanos) as -> by (destruct ((secs <? 0) || (nanos <? 0)) eqn:EE; lia).
  f_equal.
  rewrite app_assoc. rewrite trim_frac_spec by lia. now rewrite <- !app_assoc.
Qed.

Theorem marshal_duration_accepts secs nanos :
  (exists out, marshal_duration secs nanos = MOk out) <-> dur_check secs nanos = 0.
Proof.
  split.
  - intros [out H]. apply dur_check_ranges_exact. unfold marshal_duration in H. revert H.
    destruct ((secs <? - max_seconds_in_duration) || (max_seconds_in_duration <? secs)) eqn:E1; [intros X; discriminate X|].
    destruct ((nanos <? - seconds_in_nanos) || (seconds_in_nanos <? nanos)) eqn:E2; [intros X; discriminate X|].
    destruct (((0 <? secs) && (nanos <? 0)) || ((secs <? 0) && (0 <? nanos))) eqn:E3; [intros X; discriminate X|].
    unfold max_seconds_in_duration, seconds_in_nanos in *. lia.
  - intros H. rewrite (marshal_duration_shape _ _ H). eauto.
Qed.

Theorem duration_json_roundtrip secs nanos :
  dur_check secs nanos = 0 ->
  exists out, marshal_duration secs nanos = MOk out /\
              parse_duration out = Some (secs, nanos) /\
              unmarshal_duration out = UOk secs nanos.
Proof.
  intros H. rewrite (marshal_duration_shape _ _ H).
  apply dur_check_ranges_exact in H. destruct H as [Hs [Hn [H1 H2]]].
  eexists. split; [reflexivity|].
  set (neg := (secs <? 0) || (nanos <? 0)).
  destruct (dec_spec (Z.abs secs)) as [Ld Vd]; [unfold max_int64; lia|].
  destruct (frac_out_spec (Z.abs nanos)) as [fd [Efd [Dfd [Lfd Vfd]]]]; [lia|].
  (* the syntax triple of the output *)
  set (fo := match fd with [] => None | _ :: _ => Some fd end).
  assert (frac_value fo = Z.abs nanos) as Vfo.
  { destruct fd; [|exact Vfd]. cbn [app length] in Vfd. now rewrite dec_value_zeros in Vfd. }
  assert (dur_syntax ((if neg then [ch_minus] else []) ++ dec (Z.abs secs) ++ frac_out (Z.abs nanos) ++ [ch_s]) neg (dec (Z.abs secs)) fo) as Hsyn.
  { exists (if neg then [ch_minus] else []). split; [destruct neg; auto|].
    split; [rewrite Efd; destruct fd; reflexivity|]. split; [now left|].
    destruct fd; [intros E; rewrite E in Ld; now destruct (int_lit_head _ Ld) as [? [? [? _]]]|].
    repeat split; auto; [lia | discriminate]. }
  assert (apply_sign neg (Z.abs secs) = secs /\ apply_sign neg (Z.abs nanos) = nanos) as [As An].
  { unfold apply_sign, neg. destruct ((secs <? 0) || (nanos <? 0)) eqn:E; lia. }
  split.
  - rewrite (parse_duration_complete _ _ _ _ Hsyn) by (rewrite Vd; unfold max_int64; lia).
    now rewrite Vd, Vfo, As, An.
  - apply duration_unmarshal_grammar. exists neg, (dec (Z.abs secs)), fo. rewrite Vd, Vfo, As, An. repeat split; auto. lia.
Qed.

(* the output has 0, 3, 6 or 9 fractional digits *)
Theorem duration_json_frac_digits secs nanos :
  dur_check secs nanos = 0 ->
  exists pre fd, marshal_duration secs nanos = MOk (pre ++ (match fd with [] => [] | _ => dot :: fd end) ++ [ch_s]) /\
                 ~ In dot pre /\ Forall D fd /\
                 (length fd = 0 \/ length fd = 3 \/ length fd = 6 \/ length fd = 9)%nat.
Proof.
  intros H. rewrite (marshal_duration_shape _ _ H).
  apply dur_check_ranges_exact in H. destruct H as [Hs [Hn [H1 H2]]].
  destruct (dec_spec (Z.abs secs)) as [Ld _]; [unfold max_int64; lia|]. apply int_lit_digits in Ld.
  destruct (frac_out_spec (Z.abs nanos)) as [fd [-> [Dfd [Lfd _]]]]; [lia|].
  exists ((if (secs <? 0) || (nanos <? 0) then [ch_minus] else []) ++ dec (Z.abs secs)), fd.
  rewrite <- app_assoc. repeat split; auto.
  intros Hin. apply in_app_or in Hin. destruct Hin as [Hin|Hin].
  - destruct ((secs <? 0) || (nanos <? 0)); [destruct Hin as [E|[]]; discriminate E | destruct Hin].
  - rewrite Forall_forall in Ld. apply Ld in Hin. discriminate Hin.
Qed.
