(* Equality tests on bytes and byte strings ([beq], [bytes_eqb] of FieldMaskModel) decide equality. *)
From Coq Require Import List NArith Bool.
From PB Require Import Base.PBytes Base.PBytesP Base.ListEqbP Known.FieldMaskModel.
Import ListNotations.
Open Scope N_scope.

Lemma beq_true a b : beq a b = true <-> a = b.
Proof.
  unfold beq. rewrite N.eqb_eq. split; [apply b2n_inj | now intros ->].
Qed.
Lemma beq_false a b : beq a b = false <-> a <> b.
Proof.
  unfold beq. rewrite N.eqb_neq. split; intros H E; apply H; [now subst | now apply b2n_inj].
Qed.
Lemma beq_refl a : beq a a = true.
Proof. now apply beq_true. Qed.
Lemma beq_sym a b : beq a b = beq b a.
Proof. unfold beq. apply N.eqb_sym. Qed.

Lemma bytes_eqb_true x y : bytes_eqb x y = true <-> x = y.
Proof. exact (list_eqb_eq beq beq_true x y). Qed.
