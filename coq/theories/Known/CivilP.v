(* days_from_civil and civil_from_days are mutually inverse (all years). *)
From Coq Require Import ZArith NArith Bool Lia.
From Coq Require Import ZifyBool.
From PB Require Import Known.CivilModel Known.CivilFactsP.
Open Scope Z_scope.

(* every lemma here is about / and mod; the division hook of lia is set for this section only *)
Section Calendar.
Ltac Zify.zify_post_hook ::= Z.to_euclidean_division_equations.

Lemma is_leap_shift y k : is_leap (y + k * 400) = is_leap y.
Proof.
  unfold is_leap.
  replace ((y + k * 400) mod 4) with (y mod 4) by lia.
  replace ((y + k * 400) mod 100) with (y mod 100) by lia.
  replace ((y + k * 400) mod 400) with (y mod 400) by lia. reflexivity.
Qed.

(* the twelve rows of a table indexed by the month *)
Lemma month_cases (P : Z -> Prop) :
  P 1 -> P 2 -> P 3 -> P 4 -> P 5 -> P 6 -> P 7 -> P 8 -> P 9 -> P 10 -> P 11 -> P 12 ->
  forall m, 1 <= m <= 12 -> P m.
Proof.
  intros ? ? ? ? ? ? ? ? ? ? ? ? m H.
  assert (m = 1 \/ m = 2 \/ m = 3 \/ m = 4 \/ m = 5 \/ m = 6 \/ m = 7 \/ m = 8 \/ m = 9 \/ m = 10 \/ m = 11 \/ m = 12) as C by lia.
  destruct C as [->|[->|[->|[->|[->|[->|[->|[->|[->|[->|[->| ->]]]]]]]]]]]; assumption.
Qed.

(* month numbering: March = 0 ... February = 11 *)
Lemma mp_of_m m : 1 <= m <= 12 -> let mp := (m + 9) mod 12 in
  0 <= mp <= 11 /\ (if mp <? 10 then mp + 3 else mp - 9) = m /\ (m <=? 2) = (10 <=? mp).
Proof. intros H. cbv zeta. destruct ((m + 9) mod 12 <? 10) eqn:E; lia. Qed.
Lemma m_of_mp mp : 0 <= mp <= 11 -> let m := if mp <? 10 then mp + 3 else mp - 9 in
  1 <= m <= 12 /\ (m + 9) mod 12 = mp /\ (m <=? 2) = (10 <=? mp).
Proof. intros H. cbv zeta. destruct (mp <? 10) eqn:E; lia. Qed.

Lemma days_in_range m y : 28 <= days_in m y <= 31.
Proof.
  unfold days_in. destruct (m =? 2); [destruct (is_leap y); lia|].
  destruct ((m =? 4) || (m =? 6) || (m =? 9) || (m =? 11)); lia.
Qed.

(* length of the March-based month vs days_in *)
Lemma mlen_days_in y : forall m, 1 <= m <= 12 ->
  mlen ((m + 9) mod 12) = if m =? 2 then 30 else days_in m y.
Proof. apply month_cases; reflexivity. Qed.

(* the day of the March-based year: January and February come last *)
Lemma doy_range y d : forall m, 1 <= m <= 12 -> 1 <= d <= days_in m y ->
  let doy := (153 * ((m + 9) mod 12) + 2) / 5 + d - 1 in
  if m <=? 2 then 306 <= doy <= 364 + (if is_leap y then 1 else 0) else 0 <= doy <= 305.
Proof.
  intros m Hm. pattern m. revert m Hm. apply month_cases; unfold days_in; cbn [Z.eqb Pos.eqb orb Z.leb Z.compare Pos.compare Pos.compare_cont]; destruct (is_leap y); lia.
Qed.

Theorem days_from_civil_from_days z :
  let '(y, m, d) := civil_from_days z in days_from_civil y m d = z /\ valid_date y m d.
Proof.
  unfold civil_from_days. cbv zeta.
  set (era := (z + 719468) / 146097). set (doe := z + 719468 - era * 146097).
  assert (0 <= doe < 146097) as Hdoe by (unfold doe, era; lia).
  destruct (doe_facts doe Hdoe) as [Hy Hd]. cbv zeta in Hy, Hd.
  set (yoe := yoe_of_doe doe) in *. unfold g_yoe in Hd.
  set (doy := doe - (365 * yoe + yoe / 4 - yoe / 100)) in *.
  assert (0 <= doy <= 365) as Hd' by (destruct (leap_yoe yoe); lia).
  destruct (doy_facts doy Hd') as [Hmp Hdd]. cbv zeta in Hmp, Hdd.
  set (mp := (5 * doy + 2) / 153) in *. set (d := doy - (153 * mp + 2) / 5 + 1) in *.
  destruct (m_of_mp mp Hmp) as [Hm [Hmp' Hle]]. cbv zeta in Hm, Hmp', Hle.
  set (m := if mp <? 10 then mp + 3 else mp - 9) in *.
  split.
  - (* divisions stay folded: what remains is a ring identity *)
    unfold days_from_civil. cbv zeta. rewrite Hmp'.
    replace (if m <=? 2 then (if m <=? 2 then yoe + era * 400 + 1 else yoe + era * 400) - 1
             else (if m <=? 2 then yoe + era * 400 + 1 else yoe + era * 400)) with (yoe + era * 400)
      by (destruct (m <=? 2); ring).
    rewrite Z.div_add, (Z.div_small yoe 400) by (clear - Hy; lia).
    replace (yoe + era * 400 - (0 + era) * 400) with yoe by ring.
    unfold d, doy, doe. ring.
  - unfold valid_date. split; [exact Hm|].
    rewrite <- Hmp' in Hdd. rewrite (mlen_days_in (if m <=? 2 then yoe + era * 400 + 1 else yoe + era * 400) m Hm) in Hdd.
    destruct (m =? 2) eqn:E2; [|exact Hdd].
    (* February: day 29 only in leap years *)
    assert (mp = 11) as Emp by (clear - Hmp' E2; lia).
    replace (m <=? 2) with true by (clear - E2; lia).
    unfold days_in. rewrite E2.
    assert (is_leap (yoe + era * 400 + 1) = leap_yoe yoe) as ->.
    { unfold leap_yoe. replace (yoe + era * 400 + 1) with (yoe + 1 + era * 400) by ring. apply is_leap_shift. }
    unfold d in *. rewrite Emp in *. change ((153 * 11 + 2) / 5) with 337 in *.
    clear - Hd Hdd. destruct (leap_yoe yoe); lia.
Qed.

Theorem civil_from_days_from_civil y m d :
  valid_date y m d -> civil_from_days (days_from_civil y m d) = (y, m, d).
Proof.
  intros [Hm Hd]. unfold days_from_civil. cbv zeta.
  destruct (mp_of_m m Hm) as [Hmp [Hm' Hle]]. cbv zeta in Hmp, Hm', Hle.
  set (mp := (m + 9) mod 12) in *.
  set (y' := if m <=? 2 then y - 1 else y).
  set (era := y' / 400). set (yoe := y' - era * 400).
  assert (0 <= yoe <= 399) as Hy by (unfold yoe, era; lia).
  set (doy := (153 * mp + 2) / 5 + d - 1).
  (* d within the March-based month *)
  assert (1 <= d <= mlen mp) as Hdm.
  { unfold mp. rewrite (mlen_days_in y m Hm). destruct (m =? 2) eqn:E; [|lia].
    unfold days_in in Hd. rewrite E in Hd. destruct (is_leap y); lia. }
  assert (is_leap y = leap_yoe yoe \/ 3 <= m) as Hleap.
  { destruct (m <=? 2) eqn:E; [left|right; lia].
    unfold leap_yoe. replace (yoe + 1) with (y + (- era) * 400) by (unfold yoe, y'; lia).
    symmetry. apply is_leap_shift. }
  assert (0 <= doy <= 364 + (if leap_yoe yoe then 1 else 0)) as Hdoy.
  { pose proof (doy_range y d m Hm Hd) as R. cbv zeta in R. fold mp in R. fold doy in R.
    destruct (m <=? 2) eqn:E; [|destruct (leap_yoe yoe); lia].
    destruct Hleap as [<-|?]; lia. }
  destruct (yd_facts yoe doy Hy Hdoy) as [Hyoe Hdoe]. unfold g_yoe in Hyoe, Hdoe.
  destruct (md_facts mp d Hmp Hdm) as [Hmp2 Hd2]. cbv zeta in Hmp2, Hd2. fold doy in Hmp2, Hd2.
  unfold civil_from_days. cbv zeta.
  set (doe := yoe * 365 + yoe / 4 - yoe / 100 + doy) in *.
  assert (doe = 365 * yoe + yoe / 4 - yoe / 100 + doy) as Edoe by (unfold doe; ring).
  rewrite <- Edoe in Hyoe, Hdoe.
  replace (era * 146097 + doe - 719468 + 719468) with (doe + era * 146097) by ring.
  rewrite Z.div_add, (Z.div_small doe 146097), Z.add_simpl_r by (clear - Hdoe; lia). cbn [Z.add].
  rewrite Hyoe.
  replace (doe - (365 * yoe + yoe / 4 - yoe / 100)) with doy by (rewrite Edoe; ring).
  rewrite Hmp2, Hm'.
  replace (doy - (153 * mp + 2) / 5 + 1) with d by (unfold doy; ring).
  f_equal. f_equal. unfold yoe, y'. destruct (m <=? 2); ring.
Qed.

(* the years 1..9999 are the days from 0001-01-01 to 9999-12-31 *)
Lemma civil_year_range y m d :
  valid_date y m d -> -719162 <= days_from_civil y m d <= 2932896 -> 1 <= y <= 9999.
Proof.
  intros [Hm Hd]. pose proof (doy_range y d m Hm Hd) as R. revert R.
  unfold days_from_civil. cbv zeta. generalize ((153 * ((m + 9) mod 12) + 2) / 5 + d - 1). intros doy.
  destruct (m <=? 2); destruct (is_leap y); lia.
Qed.
End Calendar.
