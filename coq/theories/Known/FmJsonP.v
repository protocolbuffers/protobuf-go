(* Proofs about the protojson FieldMask model (C23): marshal succeeds exactly on
   valid reversible paths, and unmarshal inverts it. *)
From Coq Require Import List NArith Bool Lia.
From Coq Require Import ZifyBool ZifyN.
From PB Require Import Base.PBytes Known.FieldMaskModel Known.ByteEqP Known.FieldMaskP Known.FieldMaskValidP Known.WktJsonModel.
Import ListNotations.

(* letters (without '_'), digits and '.' : what a camel-cased valid path consists of *)
Definition Q (c : byte) : bool := is_lower c || is_upper c || is_digit c || beq c dot.
(* ... plus the separator *)
Definition Qsep (c : byte) : bool := Q c || beq c ch_comma.

Definition path_ok (p : path) : Prop := fullname_valid p = true /\ json_snake_case (json_camel_case p) = p.

(* the character classes are ranges of byte values: these are facts about numbers *)
Lemma Q_not_us c : Q c = true -> beq c ch_us = false.
Proof.
  unfold Q, is_lower, is_upper, is_digit, beq. change (b2n ch_us) with 95%N. change (b2n dot) with 46%N. lia.
Qed.
Lemma Q_not_comma c : Q c = true -> c <> ch_comma.
Proof. intros H ->. discriminate H. Qed.
Lemma to_upper_Q c : is_lower c = true -> Q (to_upper c) = true.
Proof.
  unfold Q, is_lower, is_upper, to_upper. intros H. rewrite b2n_n2b by (pose proof (b2n_lt c); lia). lia.
Qed.
Lemma idchar_Q c : is_letter_digit c || beq c dot = true -> beq c ch_us = false -> Q c = true.
Proof. unfold Q, is_letter_digit, is_letter. intros H1 H2. rewrite H2 in H1. exact H1. Qed.

Lemma fullname_chars s : forall start, fullname_aux start s = true -> Forall (fun c => is_letter_digit c || beq c dot = true) s.
Proof.
  induction s as [|c r IH]; intros start; [constructor|]. cbn [fullname_aux].
  destruct start.
  - rewrite andb_true_iff. intros [H1 H2]. constructor; [|eauto].
    cbv beta. unfold is_letter_digit. now rewrite H1.
  - destruct (beq c dot) eqn:E.
    + intros H. constructor; [|eauto]. cbv beta. apply orb_true_iff. right. apply beq_true. now apply beq_true in E.
    + rewrite andb_true_iff. intros [H1 H2]. constructor; [|eauto]. cbv beta. now rewrite H1.
Qed.

Lemma camel_Q s : Forall (fun c => is_letter_digit c || beq c dot = true) s ->
  forall w, Forall (fun c => Q c = true) (camel_aux w s).
Proof.
  induction 1 as [|c r Hc Hr IH]; intros w; cbn [camel_aux]; [constructor|].
  destruct (beq c ch_us) eqn:E; [apply IH|].
  constructor; [|apply IH].
  destruct (w && is_lower c) eqn:E2.
  - apply andb_true_iff in E2. now apply to_upper_Q.
  - now apply idchar_Q.
Qed.

Lemma existsb_us_false l : Forall (fun c => Q c = true) l -> existsb (fun c => beq c ch_us) l = false.
Proof.
  induction 1 as [|c r Hc Hr IH]; [reflexivity|]. cbn [existsb]. now rewrite (Q_not_us _ Hc), IH.
Qed.

Lemma camel_paths_spec paths :
  (forall l, camel_paths paths = inr l -> Forall path_ok paths /\ l = map json_camel_case paths) /\
  (Forall path_ok paths -> camel_paths paths = inr (map json_camel_case paths)).
Proof.
  induction paths as [|p t [IH1 IH2]]; cbn [camel_paths map].
  - split; [intros l H; inversion H; auto | reflexivity].
  - split.
    + intros l. destruct (fullname_valid p) eqn:V; cbn [negb]; [|discriminate].
      destruct (bytes_eqb p (json_snake_case (json_camel_case p))) eqn:B; cbn [negb]; [|discriminate].
      apply bytes_eqb_true in B.
      destruct (camel_paths t) as [e|l'] eqn:C; [discriminate|].
      intros H; inversion H; subst. destruct (IH1 _ eq_refl) as [H1 ->].
      split; [constructor; [split; auto|exact H1] | reflexivity].
    + intros H. inversion H as [|? ? [V B] Ht]; subst. rewrite V. cbn [negb].
      assert (bytes_eqb p (json_snake_case (json_camel_case p)) = true) as -> by (apply bytes_eqb_true; auto).
      cbn [negb]. now rewrite (IH2 Ht).
Qed.

(* marshal succeeds <-> every path is a valid full name whose camel-casing is reversible *)
Theorem marshal_fieldmask_accepts paths :
  (exists out, marshal_fieldmask paths = MOk out) <-> Forall path_ok paths.
Proof.
  unfold marshal_fieldmask. destruct (camel_paths_spec paths) as [H1 H2]. split.
  - intros [out H]. destruct (camel_paths paths) as [e|l] eqn:C; [discriminate|]. now destruct (H1 _ eq_refl).
  - intros H. rewrite (H2 H). eauto.
Qed.

Lemma marshal_fieldmask_value paths : Forall path_ok paths ->
  marshal_fieldmask paths = MOk (join_bytes ch_comma (map json_camel_case paths)).
Proof. intros H. unfold marshal_fieldmask. destruct (camel_paths_spec paths) as [_ H2]. now rewrite (H2 H). Qed.

Lemma join_bytes_join_on sep l : join_bytes sep l = join_on sep l.
Proof. induction l as [|s r IH]; [reflexivity|]. cbn [join_bytes join_on]. destruct r; [reflexivity|]. now rewrite IH. Qed.

(* no byte of class Qsep starts or ends a white-space sequence *)
Lemma Qsep_no_space c r : Qsep c = true -> space_prefix_len (c :: r) = 0%nat /\ space_suffix_len (c :: r) = 0%nat.
Proof. destruct c; intros H; try discriminate H; split; reflexivity. Qed.

Lemma trim_space_id s : Forall (fun c => Qsep c = true) s -> trim_space s = s.
Proof.
  intros H. unfold trim_space.
  assert (trim_left_space (length s) s = s) as ->.
  { destruct s as [|c r]; [reflexivity|]. inversion H; subst. cbn [length trim_left_space].
    now rewrite (proj1 (Qsep_no_space c r H2)). }
  assert (Forall (fun c => Qsep c = true) (rev s)) as Hr by (apply Forall_rev; exact H).
  assert (trim_right_space_rev (length s) (rev s) = rev s) as ->.
  { rewrite <- rev_length. destruct (rev s) as [|c r]; [reflexivity|]. inversion Hr; subst.
    cbn [length trim_right_space_rev]. now rewrite (proj2 (Qsep_no_space c r H2)). }
  apply rev_involutive.
Qed.

Lemma join_R l : Forall (fun s => Forall (fun c => Q c = true) s) l ->
  Forall (fun c => Qsep c = true) (join_on ch_comma l).
Proof.
  induction 1 as [|s r Hs Hr IH]; [constructor|]. cbn [join_on].
  assert (Forall (fun c => Qsep c = true) s) as Hs'.
  { eapply Forall_impl; [|exact Hs]. intros c Hc. unfold Qsep. now rewrite Hc. }
  destruct r; [exact Hs'|]. apply Forall_app. split; [exact Hs'|]. constructor; [reflexivity | exact IH].
Qed.

Lemma snake_paths_camel paths : Forall path_ok paths ->
  snake_paths (map json_camel_case paths) = Some paths.
Proof.
  induction 1 as [|p t [V B] Ht IH]; [reflexivity|]. cbn [map snake_paths].
  rewrite B, V. cbn [negb].
  rewrite existsb_us_false; [|apply camel_Q; eapply fullname_chars; exact V].
  cbn [orb]. now rewrite IH.
Qed.

(* ... and then unmarshal returns the original paths *)
Theorem fieldmask_json_reversible paths :
  Forall path_ok paths ->
  exists out, marshal_fieldmask paths = MOk out /\ unmarshal_fieldmask out = Some paths.
Proof.
  intros H. rewrite (marshal_fieldmask_value _ H). eexists. split; [reflexivity|].
  rewrite join_bytes_join_on. unfold unmarshal_fieldmask.
  assert (Forall (fun s => Forall (fun c => Q c = true) s) (map json_camel_case paths)) as HQ.
  { apply Forall_map. eapply Forall_impl; [|exact H]. intros p [V _]. apply camel_Q. eapply fullname_chars; exact V. }
  rewrite trim_space_id by (apply join_R; exact HQ).
  destruct paths as [|p t]; [reflexivity|].
  assert (join_on ch_comma (map json_camel_case (p :: t)) <> []) as Hne.
  { inversion H as [|? ? [V B] Ht]; subst. cbn [map join_on].
    assert (json_camel_case p <> []) as Hc.
    { intros E. rewrite E in B. cbn in B. subst p. discriminate V. }
    destruct (map json_camel_case t); [exact Hc|]. destruct (json_camel_case p); [congruence | discriminate]. }
  destruct (join_on ch_comma (map json_camel_case (p :: t))) as [|c0' r0] eqn:EJ; [congruence|].
  rewrite <- EJ. rewrite split_join_on.
  - now apply snake_paths_camel.
  - discriminate.
  - eapply Forall_impl; [|exact HQ]. intros s Hs Hin. rewrite Forall_forall in Hs.
    apply Hs in Hin. discriminate Hin.
Qed.
