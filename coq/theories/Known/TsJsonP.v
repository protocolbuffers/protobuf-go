(* Proofs about the protojson Timestamp model (C23): accepted range, format/parse round trip. *)
From Coq Require Import List NArith ZArith Bool Lia Arith.
From Coq Require Import ZifyBool ZifyNat ZifyN.
From PB Require Import Base.PBytes Known.FieldMaskModel Known.ByteEqP Known.DurationModel Known.DurationP
  Known.TimestampModel Known.TimestampP Known.WktJsonModel Known.DurJsonP Known.CivilModel Known.CivilP Known.TsJsonModel
  Known.TsGrammarP.
Import ListNotations.
Open Scope Z_scope.

Definition pre_civil (y m d hh mi ss : Z) : list byte :=
  pad_dec 4 y [] ++ ch_minus :: pad_dec 2 m [] ++ ch_minus :: pad_dec 2 d [] ++ ch_T ::
  pad_dec 2 hh [] ++ ch_colon :: pad_dec 2 mi [] ++ ch_colon :: pad_dec 2 ss [].

Lemma pre_civil_no_dot y m d hh mi ss : Forall (fun c => beq c dot = false) (pre_civil y m d hh mi ss).
Proof.
  assert (forall k v, Forall (fun c => beq c dot = false) (pad_dec k v [])) as P.
  { intros k v. eapply Forall_impl; [|apply (pad_dec_digits k v)]. intros c Hc. now destruct (digit_not_special _ Hc). }
  unfold pre_civil. repeat (apply Forall_app; split; [apply P|]; constructor; [reflexivity|]). apply P.
Qed.

(* what was printed is read back: it has the strict syntax, with the printed fields as values *)
Lemma pre_civil_syntax y m d hh mi ss fd :
  0 <= y <= 9999 -> valid_date y m d -> 0 <= hh <= 23 -> 0 <= mi <= 59 -> 0 <= ss <= 59 -> Forall D fd ->
  ts_syntax false (pre_civil y m d hh mi ss ++ (match fd with [] => [] | _ => dot :: fd end) ++ [ch_Z])
            y m d hh mi ss (match fd with [] => None | _ :: _ => Some fd end) 0.
Proof.
  intros Hy [Hm Hd] Hh Hmi Hss Hfd. pose proof (days_in_range m y) as Hdi.
  assert (forall k v, digits_n k (pad_dec k v [])) as Dg by (intros; apply pad_dec_digits).
  assert (forall v, 0 <= v <= 99 -> v = dec_value (pad_dec 2 v [])) as V2.
  { intros v Hv. symmetry. apply pad_dec_value. change (10 ^ Z.of_nat 2) with 100. lia. }
  exists (pad_dec 4 y []), (pad_dec 2 m []), (pad_dec 2 d []), (pad_dec 2 hh []), (pad_dec 2 mi []), (pad_dec 2 ss []), dot, [ch_Z].
  split. { unfold pre_civil. destruct fd; repeat (rewrite <- app_assoc; cbn [app]); reflexivity. }
  split; [apply Dg|]. split; [symmetry; apply pad_dec_value; change (10 ^ Z.of_nat 4) with 10000; lia|].
  split; [apply Dg|]. split; [apply V2; lia|]. split; [exact Hm|].
  split; [apply Dg|]. split; [apply V2; lia|]. split; [exact Hd|].
  split; [apply Dg|]. split; [left; apply Dg|]. split; [apply V2; lia|]. split; [lia|].
  split; [apply Dg|]. split; [apply V2; lia|]. split; [lia|].
  split; [apply Dg|]. split; [apply V2; lia|]. split; [lia|].
  split; [reflexivity|]. split; [destruct fd; [exact I | split; [exact Hfd | discriminate]]|]. constructor.
Qed.

Lemma last_index_aux_none p s : Forall (fun c => p c = false) s -> forall i acc, last_index_aux p s i acc = acc.
Proof. induction 1 as [|c r Hc Hr IH]; intros i acc; cbn [last_index_aux]; [reflexivity|]. now rewrite Hc, IH. Qed.
Lemma last_index_aux_last p a x b : p x = true -> Forall (fun c => p c = false) b ->
  forall i acc, last_index_aux p (a ++ x :: b) i acc = i + Z.of_nat (length a).
Proof.
  intros Hx Hb. induction a as [|c a IH]; intros i acc; cbn [app last_index_aux length].
  - rewrite Hx, last_index_aux_none by assumption. lia.
  - rewrite IH. lia.
Qed.

(* the check "more than nine fractional digits" of unmarshalTimestamp passes: the last '.'
   is followed by at most nine digits and the final 'Z' *)
Lemma frac_length_ok pre fd :
  Forall (fun c => beq c dot = false) pre -> Forall D fd -> (length fd <= 9)%nat ->
  let s := pre ++ (match fd with [] => [] | _ => dot :: fd end) ++ [ch_Z] in
  let i := last_index (fun c => beq c dot) s in
  let j := last_index (fun c => beq c ch_Z || beq c ch_minus || beq c ch_plus) s in
  (0 <=? i) && (i <=? j) && (10 <? j - i) = false.
Proof.
  intros Hpre Hfd Hl. cbv zeta. unfold last_index.
  assert (Forall (fun c => beq c dot = false) (fd ++ [ch_Z])) as NoDot.
  { apply Forall_app. split; [|repeat constructor].
    eapply Forall_impl; [|exact Hfd]. intros c Hc. now destruct (digit_not_special _ Hc). }
  destruct fd as [|f0 fd'].
  - rewrite last_index_aux_none; [reflexivity|]. apply Forall_app. split; [exact Hpre | exact NoDot].
  - set (F := f0 :: fd') in *.
    rewrite (last_index_aux_last (fun c => beq c dot) pre dot (F ++ [ch_Z])) by (reflexivity || exact NoDot).
    rewrite app_assoc, (last_index_aux_last _ (pre ++ dot :: F) ch_Z []) by (reflexivity || constructor).
    rewrite app_length. cbn [length]. lia.
Qed.

(* seconds of the day by / and mod: the division hook of lia is set for this section only *)
Section Clock.
Ltac Zify.zify_post_hook ::= Z.to_euclidean_division_equations.

(* the civil date, hour, minute and second that marshalTimestamp prints *)
Lemma marshal_timestamp_shape secs nanos : ts_check secs nanos = 0 ->
  exists y m d hh mi ss,
    marshal_timestamp secs nanos = MOk (pre_civil y m d hh mi ss ++ frac_out nanos ++ [ch_Z]) /\
    1 <= y <= 9999 /\ valid_date y m d /\ 0 <= hh <= 23 /\ 0 <= mi <= 59 /\ 0 <= ss <= 59 /\
    secs = days_from_civil y m d * 86400 + hh * 3600 + mi * 60 + ss.
Proof.
  intros H. apply ts_check_ranges_exact in H. destruct H as [Hs Hn].
  unfold marshal_timestamp, min_timestamp_seconds, max_timestamp_seconds, seconds_in_nanos.
  do 2 (match goal with |- context[if ?c then _ else _] => destruct c eqn:?E; [exfalso; lia|] end).
  unfold format_civil.
  pose proof (days_from_civil_from_days (secs / 86400)) as Hciv.
  destruct (civil_from_days (secs / 86400)) as [[y m] d]. destruct Hciv as [Ed Hv].
  exists y, m, d, (secs mod 86400 / 3600), (secs mod 86400 / 60 mod 60), (secs mod 86400 mod 60).
  split.
  { rewrite app_assoc, <- trim_frac_spec by lia. unfold pre_civil. repeat (rewrite <- app_assoc; cbn [app]). reflexivity. }
  split; [apply (civil_year_range y m d Hv); lia|]. split; [exact Hv|]. lia.
Qed.
End Clock.

Theorem marshal_timestamp_accepts secs nanos :
  (exists out, marshal_timestamp secs nanos = MOk out) <-> ts_check secs nanos = 0.
Proof.
  split.
  - intros [out H]. apply ts_check_ranges_exact. unfold marshal_timestamp in H. revert H.
    destruct ((secs <? min_timestamp_seconds) || (max_timestamp_seconds <? secs)) eqn:E1; [intros X; discriminate X|].
    destruct ((nanos <? 0) || (seconds_in_nanos <? nanos)) eqn:E2; [intros X; discriminate X|].
    unfold min_timestamp_seconds, max_timestamp_seconds, seconds_in_nanos in *. lia.
  - intros H. destruct (marshal_timestamp_shape _ _ H) as [y [m [d [hh [mi [ss [E _]]]]]]]. rewrite E. eauto.
Qed.

Theorem timestamp_format_parse_roundtrip secs nanos :
  ts_check secs nanos = 0 ->
  exists out, marshal_timestamp secs nanos = MOk out /\
              parse_ts false out = Some (secs, nanos) /\
              unmarshal_timestamp out = UOk secs nanos.
Proof.
  intros H. destruct (marshal_timestamp_shape _ _ H) as [y [m [d [hh [mi [ss [-> [Hy [Hv [Hh [Hmi [Hss Es]]]]]]]]]]]].
  apply ts_check_ranges_exact in H. destruct H as [Hs Hn].
  eexists. split; [reflexivity|].
  destruct (frac_out_spec nanos) as [fd [-> [Dfd [Lfd Vfd]]]]; [lia|].
  assert (parse_ts false (pre_civil y m d hh mi ss ++ (match fd with [] => [] | _ => dot :: fd end) ++ [ch_Z]) =
          Some (secs, nanos)) as Hparse.
  { apply timestamp_grammar. exists y, m, d, hh, mi, ss, (match fd with [] => None | _ :: _ => Some fd end), 0.
    split; [apply pre_civil_syntax; auto; lia|]. unfold ts_value. f_equal; [lia|].
    destruct fd as [|f0 fd']; [cbn [app length] in Vfd; now rewrite dec_value_zeros in Vfd|].
    unfold firstn9_value. rewrite firstn_all2 by lia. now rewrite Vfd. }
  split; [exact Hparse|].
  unfold unmarshal_timestamp, parse_go. rewrite Hparse.
  unfold min_timestamp_seconds, max_timestamp_seconds.
  match goal with |- (if ?c then _ else _) = _ => destruct c eqn:?E; [exfalso; lia|] end.
  rewrite wrap32_id by lia.
  now rewrite (frac_length_ok _ fd (pre_civil_no_dot y m d hh mi ss) Dfd) by lia.
Qed.

(* output shape: strict RFC 3339, UTC "Z", 0/3/6/9 fractional digits *)
Theorem timestamp_json_shape secs nanos :
  ts_check secs nanos = 0 ->
  exists y m d hh mi ss fd,
    marshal_timestamp secs nanos = MOk (pre_civil y m d hh mi ss ++ (match fd with [] => [] | _ => dot :: fd end) ++ [ch_Z]) /\
    1 <= y <= 9999 /\ valid_date y m d /\ 0 <= hh <= 23 /\ 0 <= mi <= 59 /\ 0 <= ss <= 59 /\
    secs = days_from_civil y m d * 86400 + hh * 3600 + mi * 60 + ss /\
    Forall D fd /\ (length fd = 0 \/ length fd = 3 \/ length fd = 6 \/ length fd = 9)%nat.
Proof.
  intros H. destruct (marshal_timestamp_shape _ _ H) as [y [m [d [hh [mi [ss [-> R]]]]]]].
  apply ts_check_ranges_exact in H. destruct H as [Hs Hn].
  destruct (frac_out_spec nanos) as [fd [-> [Dfd [Lfd _]]]]; [lia|].
  exists y, m, d, hh, mi, ss, fd. tauto.
Qed.
