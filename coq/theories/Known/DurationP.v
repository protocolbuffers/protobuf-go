(* durationpb (C43): New is (quot, rem) without any wrap and AsDuration inverts it; AsDuration equals
   the clamped exact value exactly outside the class F4; what check() accepts. *)
From Coq Require Import ZArith Bool Lia.
From Coq Require Import ZifyBool.
From PB Require Import Known.DurationModel.
Open Scope Z_scope.
Ltac split_ifs :=
  repeat match goal with |- context[if ?c then _ else _] => destruct c eqn:? end; lia.

(* wrap64, quot and rem are about division: the hook of lia is set for this section only *)
Section Wrap.
Ltac Zify.zify_post_hook ::= Z.to_euclidean_division_equations.

(* the bounds are written out so that [rewrite wrap64_id by lia] needs no unfolding *)
Lemma wrap64_id z : -9223372036854775808 <= z <= 9223372036854775807 -> wrap64 z = z.
Proof. unfold wrap64. lia. Qed.
Lemma wrap32_id z : -2147483648 <= z <= 2147483647 -> wrap32 z = z.
Proof. unfold wrap32. lia. Qed.
Lemma wrap64_range z : in_int64 (wrap64 z).
Proof. unfold in_int64, min_int64, max_int64, wrap64. lia. Qed.
Lemma wrap64_cong z : exists k, wrap64 z = z + k * 2^64.
Proof. unfold wrap64. exists (- ((z + 2^63) / 2^64)). lia. Qed.

(* New computes the truncated quotient and remainder: no operation wraps *)
Lemma dur_new_spec d : in_int64 d -> dur_new d = (Z.quot d e9, Z.rem d e9).
Proof.
  unfold in_int64, min_int64, max_int64, dur_new, e9. intros H.
  rewrite (wrap64_id (Z.quot d 1000000000 * 1000000000)) by lia.
  replace (d - Z.quot d 1000000000 * 1000000000) with (Z.rem d 1000000000) by lia.
  now rewrite wrap64_id, wrap32_id by lia.
Qed.

Theorem duration_new_as_inverse d :
  in_int64 d -> let '(s, n) := dur_new d in as_duration s n = d.
Proof.
  intros H. rewrite (dur_new_spec d H).
  unfold in_int64, min_int64, max_int64 in H.
  unfold as_duration, e9.
  set (s := Z.quot d 1000000000). set (n := Z.rem d 1000000000).
  assert (d = s * 1000000000 + n /\ (0 <= d -> 0 <= s /\ 0 <= n) /\ (d <= 0 -> s <= 0 /\ n <= 0)) as [Hd [Hp Hm]]
    by (unfold s, n; lia).
  rewrite (wrap64_id (s * 1000000000)) by lia.
  rewrite Z.quot_mul, Z.eqb_refl by lia. cbn [negb orb].
  rewrite <- Hd, (wrap64_id d) by lia.
  replace ((s <? 0) && (n <? 0) && (0 <? d)) with false by lia.
  now replace ((0 <? s) && (0 <? n) && (d <? 0)) with false by lia.
Qed.

(* what AsDuration computes, by cases on the exact product *)
Lemma as_duration_product_in_range secs nanos :
  in_int64 secs -> in_int32 nanos -> in_int64 (secs * e9) ->
  as_duration secs nanos = clamp64 (secs * e9 + nanos).
Proof.
  unfold in_int64, in_int32, min_int64, max_int64, min_int32, max_int32, e9.
  intros Hs Hn Hp. unfold as_duration, e9.
  rewrite (wrap64_id (secs * 1000000000)), Z.quot_mul, Z.eqb_refl by lia. cbn [negb orb].
  unfold clamp64, min_int64, max_int64.
  destruct (wrap64_cong (secs * 1000000000 + nanos)) as [k Hk].
  pose proof (wrap64_range (secs * 1000000000 + nanos)) as Hr.
  unfold in_int64, min_int64, max_int64 in Hr.
  set (w := wrap64 (secs * 1000000000 + nanos)) in *.
  (* the exact sum is below, above or inside the int64 range; this fixes k and both overflow tests *)
  destruct (secs * 1000000000 + nanos <? - 2 ^ 63) eqn:L; [|destruct (2 ^ 63 - 1 <? secs * 1000000000 + nanos) eqn:G].
  - replace ((secs <? 0) && (nanos <? 0) && (0 <? w)) with true by lia. cbn [orb].
    now replace (secs <? 0) with true by lia.
  - replace ((secs <? 0) && (nanos <? 0) && (0 <? w)) with false by lia.
    replace ((0 <? secs) && (0 <? nanos) && (w <? 0)) with true by lia. cbn [orb].
    replace (secs <? 0) with false by lia. now replace (0 <? secs) with true by lia.
  - replace ((secs <? 0) && (nanos <? 0) && (0 <? w)) with false by lia.
    replace ((0 <? secs) && (0 <? nanos) && (w <? 0)) with false by lia. cbn [orb]. lia.
Qed.

Lemma as_duration_product_overflows secs nanos :
  in_int64 secs -> in_int32 nanos -> ~ in_int64 (secs * e9) ->
  as_duration secs nanos = if secs <? 0 then min_int64 else max_int64.
Proof.
  unfold in_int64, in_int32, min_int64, max_int64, min_int32, max_int32, e9.
  intros Hs Hn Hp. unfold as_duration, e9.
  destruct (wrap64_cong (secs * 1000000000)) as [k Hk].
  pose proof (wrap64_range (secs * 1000000000)) as Hr.
  unfold in_int64, min_int64, max_int64 in Hr.
  set (w := wrap64 (secs * 1000000000)) in *.
  assert (k <> 0) as Hk0 by lia.
  assert ((Z.quot w 1000000000 =? secs) = false) as ->.
  { apply Z.eqb_neq. intros E.
    assert (-1000000000 < w - secs * 1000000000 < 1000000000) by (rewrite <- E; lia).
    lia. }
  cbn [negb orb]. unfold min_int64, max_int64.
  destruct (secs <? 0) eqn:E1; [reflexivity|].
  assert (0 <? secs = true) as -> by lia. reflexivity.
Qed.

(* AsDuration returns the exact clamped value exactly outside the class F4 *)
Theorem as_duration_exact_iff secs nanos :
  in_int64 secs -> in_int32 nanos ->
  (as_duration secs nanos = clamp64 (secs * e9 + nanos) <-> f4_class secs nanos = false).
Proof.
  intros Hs Hn. destruct (in_int64b (secs * e9)) eqn:E.
  - split; intros _; [|apply as_duration_product_in_range; auto]; unfold f4_class, in_int64b, in_int64 in *; lia.
  - rewrite as_duration_product_overflows; auto; [|unfold in_int64b, in_int64 in *; lia].
    unfold f4_class, in_int64b, clamp64, in_int64, in_int32, min_int64, max_int64, min_int32, max_int32, e9 in *.
    destruct (secs <? 0) eqn:E1;
      destruct (secs * 1000000000 + nanos <? - 2 ^ 63) eqn:E2;
      destruct (2 ^ 63 - 1 <? secs * 1000000000 + nanos) eqn:E3; split; lia.
Qed.

Theorem as_duration_exact_clamped_except_F4 secs nanos :
  in_int64 secs -> in_int32 nanos -> f4_class secs nanos = false ->
  as_duration secs nanos = clamp64 (secs * e9 + nanos).
Proof. intros Hs Hn. apply as_duration_exact_iff; assumption. Qed.

(* the exclusion is exact: on every input of the class the result is NOT the clamped exact value *)
Theorem as_duration_wrong_on_F4 secs nanos :
  in_int64 secs -> in_int32 nanos -> f4_class secs nanos = true ->
  as_duration secs nanos <> clamp64 (secs * e9 + nanos).
Proof. intros Hs Hn HF E. apply as_duration_exact_iff in E; [congruence | assumption | assumption]. Qed.

Theorem as_duration_exact_clamped_refuted :
  exists secs nanos, in_int64 secs /\ in_int32 nanos /\
    as_duration secs nanos <> clamp64 (secs * e9 + nanos) /\
    as_duration secs nanos = max_int64 /\ secs * e9 + nanos = 9223372036000000001 /\
    in_int64 (secs * e9 + nanos).
Proof.
  exists 9223372037, (-999999999).
  unfold in_int64, in_int32. vm_compute. repeat split; congruence.
Qed.

Theorem as_duration_exact_clamped_refuted_mirror :
  as_duration (-9223372037) 999999999 = min_int64 /\
  clamp64 (-9223372037 * e9 + 999999999) = -9223372036000000001.
Proof. vm_compute. split; reflexivity. Qed.

(* the class is tiny: |secs| within 3 of MaxInt64/10^9, signs opposite.
   9223372037 is the least secs with secs * 10^9 > MaxInt64, 9223372039 the greatest from which int32
   nanos can lead back; 145224192 = 9223372037 * 10^9 - 2^63, the least excess to be undone. *)
Lemma f4_class_narrow secs nanos :
  in_int32 nanos -> f4_class secs nanos = true ->
  (9223372037 <= secs <= 9223372039 /\ nanos < -145224192) \/
  (-9223372039 <= secs <= -9223372037 /\ 145224192 < nanos).
Proof.
  unfold f4_class, in_int32, min_int64, max_int64, min_int32, max_int32, e9. lia.
Qed.

End Wrap.

Theorem dur_check_ranges_exact secs nanos :
  dur_check secs nanos = 0 <->
  (- 315576000000 <= secs <= 315576000000 /\ - 999999999 <= nanos <= 999999999 /\
   ~ (secs > 0 /\ nanos < 0) /\ ~ (secs < 0 /\ nanos > 0)).
Proof. unfold dur_check, abs_duration, e9. split_ifs. Qed.

Theorem dur_check_classes secs nanos :
  (dur_check secs nanos = 2 <-> secs < -315576000000) /\
  (dur_check secs nanos = 3 <-> secs > 315576000000) /\
  (dur_check secs nanos = 4 <-> -315576000000 <= secs <= 315576000000 /\ (nanos <= -1000000000 \/ nanos >= 1000000000)).
Proof. unfold dur_check, abs_duration, e9. split_ifs. Qed.

(* below the int64 limit no clamping happens (a *valid* Duration of up to 10000 years
   may well exceed time.Duration's range of about 292 years and is then clamped).
   9223372034 is the greatest secs with secs * 10^9 + nanos inside int64 for every int32 nanos. *)
Theorem as_duration_small_exact secs nanos :
  - 9223372034 <= secs <= 9223372034 -> in_int32 nanos -> as_duration secs nanos = secs * e9 + nanos.
Proof.
  intros H Hn.
  rewrite as_duration_product_in_range; auto;
    unfold clamp64, in_int64, in_int32, min_int64, max_int64, min_int32, max_int32, e9 in *; try lia.
  destruct (secs * 1000000000 + nanos <? - 2 ^ 63) eqn:E2;
    destruct (2 ^ 63 - 1 <? secs * 1000000000 + nanos) eqn:E3; lia.
Qed.
