(* The grammar of the Timestamp parser model (C23): parse_ts len s succeeds exactly on
   yyyy-mm-ddThh:mm:ss[.d+](Z|[+-]hh:mm) with the field ranges of RFC 3339 (len = false),
   resp. with the four leniencies of the layout-driven time.Parse (len = true). *)
From Coq Require Import List NArith ZArith Bool Lia Arith.
From Coq Require Import ZifyBool ZifyNat ZifyN.
From PB Require Import Base.PBytes Known.FieldMaskModel Known.ByteEqP Known.DurationModel
  Known.WktJsonModel Known.DurJsonP Known.CivilModel Known.TsJsonModel.
Import ListNotations.
Open Scope Z_scope.

Definition digits_n (k : nat) (ds : list byte) : Prop := Forall D ds /\ length ds = k.

Lemma take_digits_app k : forall ds rest, digits_n k ds -> take_digits k (ds ++ rest) = Some (ds, rest).
Proof.
  induction k as [|k IH]; intros ds rest [Hd Hl].
  - destruct ds; [reflexivity | discriminate].
  - destruct ds as [|c ds]; [discriminate|]. inversion Hd; subst. cbn [app take_digits].
    rewrite H1, IH; [reflexivity|]. split; [assumption | now injection Hl].
Qed.

Lemma take_digits_sound k : forall s ds rest, take_digits k s = Some (ds, rest) -> s = ds ++ rest /\ digits_n k ds.
Proof.
  induction k as [|k IH]; intros s ds rest; cbn [take_digits].
  - intros H; inversion H; subst. repeat split; constructor.
  - destruct s as [|c r]; [discriminate|]. destruct (is_digit c) eqn:E; [|discriminate].
    destruct (take_digits k r) as [[ds' rest']|] eqn:T; [|discriminate].
    intros H; inversion H; subst. destruct (IH _ _ _ T) as [-> [H1 H2]].
    repeat split; [constructor; auto | cbn; now rewrite H2].
Qed.

Lemma digits_n_range k ds : digits_n k ds -> 0 <= dec_value ds < 10 ^ Z.of_nat k.
Proof. intros [Hd <-]. split; [now apply dec_value_nonneg | now apply dec_value_bound]. Qed.

Lemma num_spec k lo hi s v rest :
  num k lo hi s = Some (v, rest) <->
  exists ds, s = ds ++ rest /\ digits_n k ds /\ v = dec_value ds /\ lo <= v <= hi.
Proof.
  unfold num, in_range. split.
  - destruct (take_digits k s) as [[ds r]|] eqn:T; [|discriminate].
    destruct (take_digits_sound _ _ _ _ T) as [-> [Hd Hl]].
    destruct ((lo <=? dec_value ds) && (dec_value ds <=? hi)) eqn:E; [|discriminate].
    intros H; inversion H; subst. exists ds. split; [reflexivity|]. split; [split; auto|]. split; [reflexivity|]. lia.
  - intros [ds [-> [Hd [-> Hr]]]]. rewrite take_digits_app by assumption.
    now replace ((lo <=? dec_value ds) && (dec_value ds <=? hi)) with true by lia.
Qed.

Lemma num_app k lo hi ds tl : digits_n k ds -> lo <= dec_value ds <= hi ->
  num k lo hi (ds ++ tl) = Some (dec_value ds, tl).
Proof. intros Hd Hr. apply num_spec. exists ds. auto. Qed.

Lemma expect_hit c r : expect c (c :: r) = Some r.
Proof. cbn [expect]. now rewrite beq_refl. Qed.

Lemma expect_spec c s r : expect c s = Some r <-> s = c :: r.
Proof.
  unfold expect. destruct s as [|x t]; [split; discriminate|].
  destruct (beq x c) eqn:E.
  - apply beq_true in E; subst. split; intros H; inversion H; reflexivity.
  - split; [discriminate|]. intros H; inversion H; subst. now rewrite beq_refl in E.
Qed.

Lemma digits2_nonneg ds : Forall D ds -> 0 <= dec_value ds.
Proof. apply dec_value_nonneg. Qed.

(* the test "no second digit follows" of the one-digit hour *)
Lemma stops_match {A} (x : A) r :
  stops r -> match r with c2 :: _ => if is_digit c2 then None else Some x | [] => Some x end = Some x.
Proof. destruct r as [|c2 r2]; [reflexivity|]. cbn [stops]. now intros ->. Qed.

Lemma hour_spec len s v rest : stops rest ->
  (hour_num len s = Some (v, rest) <->
   exists H, s = H ++ rest /\ Forall D H /\ (length H = 2 \/ (len = true /\ length H = 1))%nat /\
             v = dec_value H /\ v <= 23).
Proof.
  intros Hst. unfold hour_num. split.
  - destruct (num 2 0 23 s) as [[v' r']|] eqn:N.
    + intros [= -> ->]. apply num_spec in N. destruct N as [ds [-> [[Hd Hl] [-> Hr]]]].
      exists ds. repeat split; auto; lia.
    + destruct len; [|discriminate]. destruct s as [|c r]; [discriminate|].
      destruct (is_digit c) eqn:Ec; [|discriminate]. intros H.
      assert (v = digit_val c /\ rest = r) as [-> ->].
      { destruct r as [|c2 r2]; [|destruct (is_digit c2); [discriminate|]]; now injection H as <- <-. }
      pose proof (is_digit_range c Ec). exists [c]. split; [reflexivity|]. split; [repeat constructor; exact Ec|].
      split; [right; auto|]. unfold dec_value; cbn [fold_left]. split; lia.
  - intros [H [-> [Hd [[Hl|[-> Hl]] [-> Hr]]]]].
    + rewrite num_app; [reflexivity | split; assumption | split; [now apply dec_value_nonneg | assumption]].
    + destruct H as [|c [|? ?]]; try discriminate Hl. inversion Hd; subst.
      replace (num 2 0 23 ([c] ++ rest)) with (@None (Z * list byte)).
      * cbn [app]. rewrite H1. now apply stops_match.
      * unfold num. cbn [app take_digits]. rewrite H1. destruct rest as [|c2 r2]; [reflexivity|].
        cbn [stops] in Hst. cbn [take_digits]. now rewrite Hst.
Qed.

Inductive zone_syntax (len : bool) : list byte -> Z -> Prop :=
| zs_Z : zone_syntax len [ch_Z] 0
| zs_off sg HH MM :
    (sg = ch_plus \/ sg = ch_minus) -> digits_n 2 HH -> digits_n 2 MM ->
    dec_value HH <= (if len then 24 else 23) -> dec_value MM <= (if len then 60 else 59) ->
    zone_syntax len (sg :: HH ++ ch_colon :: MM)
      ((if beq sg ch_plus then 1 else -1) * ((dec_value HH * 60 + dec_value MM) * 60)).

(* the sign of an offset: '+' or '-', anything else is rejected *)
Lemma zone_sign_spec sg v r :
  (if beq sg ch_plus then Some v else if beq sg ch_minus then Some (- v) else None) = Some r <->
  (sg = ch_plus \/ sg = ch_minus) /\ r = (if beq sg ch_plus then 1 else -1) * v.
Proof.
  destruct (beq sg ch_plus) eqn:Ep; [|destruct (beq sg ch_minus) eqn:Em].
  - apply beq_true in Ep. split; [intros [= <-]; split; [auto | lia] | intros [_ ->]; f_equal; lia].
  - apply beq_true in Em. split; [intros [= <-]; split; [auto | lia] | intros [_ ->]; f_equal; lia].
  - apply beq_false in Ep, Em. split; [discriminate | intros [[?|?] _]; contradiction].
Qed.

Lemma zone_spec len s off : zone len s = Some off <-> zone_syntax len s off.
Proof.
  split.
  - unfold zone. destruct s as [|sg r]; [discriminate|].
    destruct r as [|r0 r'].
    + destruct (beq sg ch_Z) eqn:E; [|discriminate]. apply beq_true in E; subst.
      intros [= <-]. constructor.
    + destruct (num 2 0 (if len then 24 else 23) (r0 :: r')) as [[hh r1]|] eqn:N1; [|discriminate].
      destruct (expect ch_colon r1) as [r2|] eqn:Ex; [|discriminate].
      destruct (num 2 0 (if len then 60 else 59) r2) as [[mm r3]|] eqn:N2; [|discriminate].
      destruct r3; [|discriminate].
      apply num_spec in N1. destruct N1 as [HH [-> [D1 [-> R1]]]].
      apply expect_spec in Ex. subst r1.
      apply num_spec in N2. destruct N2 as [MM [E2 [D2 [-> R2]]]]. rewrite app_nil_r in E2. subst r2.
      intros H. apply zone_sign_spec in H. destruct H as [Hsg ->]. constructor; auto; lia.
  - intros [|sg HH MM Hsg D1 D2 R1 R2]; [reflexivity|].
    pose proof (digits_n_range _ _ D1) as B1. pose proof (digits_n_range _ _ D2) as B2.
    unfold zone. destruct HH as [|h0 HH'] eqn:EH; [destruct D1 as [_ L]; discriminate L|].
    change (sg :: (h0 :: HH') ++ ch_colon :: MM) with (sg :: h0 :: HH' ++ ch_colon :: MM). cbv iota.
    change (h0 :: HH' ++ ch_colon :: MM) with ((h0 :: HH') ++ ch_colon :: MM).
    rewrite num_app, expect_hit, <- (app_nil_r MM), num_app by (assumption || lia).
    rewrite app_nil_r. apply zone_sign_spec. auto.
Qed.

Definition is_sep (len : bool) (c : byte) : bool := beq c dot || (len && beq c ch_comma).

(* a zone starts with 'Z', '+' or '-': neither a digit nor a fraction separator *)
Definition zone_start (s : list byte) : Prop :=
  match s with c :: _ => is_digit c = false /\ forall len, is_sep len c = false | [] => True end.
Lemma zone_syntax_start len s off : zone_syntax len s off -> zone_start s.
Proof. intros [|sg HH MM [-> | ->]]; split; try reflexivity; intros []; reflexivity. Qed.

(* the complete syntactic description *)
Definition ts_syntax (len : bool) (s : list byte) (y m d hh mi ss : Z) (fr : option (list byte)) (off : Z) : Prop :=
  exists Y M Dd H MI S sep Zs,
    s = Y ++ ch_minus :: M ++ ch_minus :: Dd ++ ch_T :: H ++ ch_colon :: MI ++ ch_colon :: S ++
        (match fr with None => [] | Some fd => sep :: fd end) ++ Zs /\
    digits_n 4 Y /\ y = dec_value Y /\
    digits_n 2 M /\ m = dec_value M /\ 1 <= m <= 12 /\
    digits_n 2 Dd /\ d = dec_value Dd /\ 1 <= d <= days_in m y /\
    Forall D H /\ (length H = 2 \/ (len = true /\ length H = 1))%nat /\ hh = dec_value H /\ hh <= 23 /\
    digits_n 2 MI /\ mi = dec_value MI /\ mi <= 59 /\
    digits_n 2 S /\ ss = dec_value S /\ ss <= 59 /\
    is_sep len sep = true /\
    (match fr with None => True | Some fd => Forall D fd /\ fd <> [] end) /\
    zone_syntax len Zs off.

Definition ts_value (y m d hh mi ss : Z) (fr : option (list byte)) (off : Z) : Z * Z :=
  (days_from_civil y m d * 86400 + hh * 3600 + mi * 60 + ss - off,
   match fr with None => 0 | Some fd => firstn9_value fd end).

(* The same description with the eight parts and their facts as the arguments of one constructor
   and the values substituted, so that proofs name the facts instead of matching a 29-fold
   conjunction. *)
Inductive ts_parts (len : bool) : list byte -> Z -> Z -> Z -> Z -> Z -> Z -> option (list byte) -> Z -> Prop :=
| ts_parts_intro Y M Dd H MI S sep fr Zs off :
    digits_n 4 Y -> digits_n 2 M -> 1 <= dec_value M <= 12 ->
    digits_n 2 Dd -> 1 <= dec_value Dd <= days_in (dec_value M) (dec_value Y) ->
    Forall D H -> (length H = 2 \/ (len = true /\ length H = 1))%nat -> dec_value H <= 23 ->
    digits_n 2 MI -> dec_value MI <= 59 -> digits_n 2 S -> dec_value S <= 59 ->
    is_sep len sep = true -> (match fr with None => True | Some fd => Forall D fd /\ fd <> [] end) ->
    zone_syntax len Zs off ->
    ts_parts len (Y ++ ch_minus :: M ++ ch_minus :: Dd ++ ch_T :: H ++ ch_colon :: MI ++ ch_colon :: S ++
                  (match fr with None => [] | Some fd => sep :: fd end) ++ Zs)
             (dec_value Y) (dec_value M) (dec_value Dd) (dec_value H) (dec_value MI) (dec_value S) fr off.

Lemma ts_syntax_parts len s y m d hh mi ss fr off :
  ts_syntax len s y m d hh mi ss fr off <-> ts_parts len s y m d hh mi ss fr off.
Proof.
  split.
  - intros (Y & M & Dd & H & MI & S & sep & Zs & -> & DY & -> & DM & -> & RM & DD & -> & RD & DH & LH & -> & RH &
            DMI & -> & RMI & DS & -> & RS & Hsep & Hfr & Hz).
    now constructor.
  - intros [Y M Dd H MI S sep fr' Zs off']. exists Y, M, Dd, H, MI, S, sep, Zs.
    repeat (split; [assumption || reflexivity|]). assumption.
Qed.

(* the optional fraction in front of a zone: a separator and all the digits that follow *)
Lemma frac_spec len s ns rest : zone_start rest ->
  (frac_sec len s = (ns, rest) <->
   exists sep fr, is_sep len sep = true /\ s = (match fr with None => [] | Some fd => sep :: fd end) ++ rest /\
                  (match fr with None => True | Some fd => Forall D fd /\ fd <> [] end) /\
                  ns = match fr with None => 0 | Some fd => firstn9_value fd end).
Proof.
  intros Hz. unfold frac_sec. split.
  - assert ((0, s) = (ns, rest) -> exists sep fr, is_sep len sep = true /\
              s = (match fr with None => [] | Some fd => sep :: fd end) ++ rest /\
              (match fr with None => True | Some fd => Forall D fd /\ fd <> [] end) /\
              ns = match fr with None => 0 | Some fd => firstn9_value fd end) as Hnone.
    { intros [= <- <-]. exists dot, None. repeat split. }
    destruct s as [|c r]; [exact Hnone|]. destruct (beq c dot || len && beq c ch_comma) eqn:Es; [|exact Hnone].
    destruct r as [|d0 r']; [exact Hnone|]. destruct (is_digit d0) eqn:Ed; [|exact Hnone].
    destruct (span_digits (d0 :: r')) as [ds rest'] eqn:SD. intros [= <- <-].
    destruct (span_digits_sound _ _ _ SD) as [E [Hd _]].
    exists c, (Some ds). rewrite E. repeat split; auto.
    intros ->. cbn [span_digits] in SD. rewrite Ed in SD. destruct (span_digits r'); discriminate SD.
  - intros [sep [[fd|] [Hsep [-> [Hfr ->]]]]]; cbn [app].
    + destruct Hfr as [Dfd Nfd]. unfold is_sep in Hsep. rewrite Hsep. destruct fd as [|f0 fd']; [congruence|]. cbn [app].
      rewrite (Forall_inv Dfd). change (f0 :: fd' ++ rest) with ((f0 :: fd') ++ rest).
      rewrite (span_digits_app _ _ Dfd); [reflexivity|]. destruct rest; [exact I | apply Hz].
    + destruct rest as [|c r]; [reflexivity|]. destruct Hz as [_ Hz]. specialize (Hz len). unfold is_sep in Hz. now rewrite Hz.
Qed.

Theorem timestamp_grammar len s secs ns :
  parse_ts len s = Some (secs, ns) <->
  exists y m d hh mi ss fr off, ts_syntax len s y m d hh mi ss fr off /\ (secs, ns) = ts_value y m d hh mi ss fr off.
Proof.
  split.
  - unfold parse_ts.
    destruct (num 4 0 9999 s) as [[y s1]|] eqn:N1; [|discriminate].
    destruct (expect ch_minus s1) as [s2|] eqn:X1; [|discriminate].
    destruct (num 2 1 12 s2) as [[m s3]|] eqn:N2; [|discriminate].
    destruct (expect ch_minus s3) as [s4|] eqn:X2; [|discriminate].
    destruct (num 2 1 (days_in m y) s4) as [[d s5]|] eqn:N3; [|discriminate].
    destruct (expect ch_T s5) as [s6|] eqn:X3; [|discriminate].
    destruct (hour_num len s6) as [[hh s7]|] eqn:N4; [|discriminate].
    destruct (expect ch_colon s7) as [s8|] eqn:X4; [|discriminate].
    destruct (num 2 0 59 s8) as [[mi s9]|] eqn:N5; [|discriminate].
    destruct (expect ch_colon s9) as [s10|] eqn:X5; [|discriminate].
    destruct (num 2 0 59 s10) as [[ss s11]|] eqn:N6; [|discriminate].
    destruct (frac_sec len s11) as [ns' s12] eqn:FS.
    destruct (zone len s12) as [off|] eqn:Zn; [|discriminate].
    intros [= <- <-].
    apply num_spec in N1. destruct N1 as [Y [-> [DY [-> _]]]].
    apply expect_spec in X1. apply num_spec in N2. destruct N2 as [M [E2 [DM [-> RM]]]].
    apply expect_spec in X2. apply num_spec in N3. destruct N3 as [Dd [E3 [DD [-> RD]]]].
    apply expect_spec in X3. apply expect_spec in X4. subst s7.
    apply (hour_spec len s6 hh (ch_colon :: s8)) in N4; [|reflexivity]. destruct N4 as [H [E4 [DH [LH [-> RH]]]]].
    apply num_spec in N5. destruct N5 as [MI [E5 [DMI [-> [_ RMI]]]]].
    apply expect_spec in X5. apply num_spec in N6. destruct N6 as [S [E6 [DS [-> [_ RS]]]]].
    apply zone_spec in Zn. apply frac_spec in FS; [|exact (zone_syntax_start _ _ _ Zn)].
    destruct FS as [sep [fr [Hsep [E7 [Hfr ->]]]]]. subst.
    exists (dec_value Y), (dec_value M), (dec_value Dd), (dec_value H), (dec_value MI), (dec_value S), fr, off.
    split; [|reflexivity]. apply ts_syntax_parts. now constructor.
  - intros (y & m & d & hh & mi & ss & fr & off & Hsyn & Hval). unfold ts_value in Hval. injection Hval as -> ->.
    apply ts_syntax_parts in Hsyn.
    destruct Hsyn as [Y M Dd H MI S sep fr Zs off DY DM RM DD RD DH LH RH DMI RMI DS RS Hsep Hfr Hz].
    pose proof (digits_n_range _ _ DY) as BY. change (10 ^ Z.of_nat 4) with 10000 in BY.
    pose proof (digits_n_range _ _ DMI) as BMI. pose proof (digits_n_range _ _ DS) as BS.
    unfold parse_ts.
    rewrite num_app, expect_hit by (assumption || lia). rewrite num_app, expect_hit by (assumption || lia).
    rewrite num_app, expect_hit by (assumption || lia).
    rewrite (proj2 (hour_spec len _ (dec_value H) (ch_colon :: _) eq_refl)), expect_hit by (exists H; auto).
    rewrite num_app, expect_hit by (assumption || lia). rewrite num_app by (assumption || lia).
    rewrite (proj2 (frac_spec len _ _ Zs (zone_syntax_start _ _ _ Hz))) by (exists sep, fr; auto).
    apply zone_spec in Hz. now rewrite Hz.
Qed.

(* the strict grammar is contained in the lenient one *)
Lemma ts_syntax_false_true s y m d hh mi ss fr off :
  ts_syntax false s y m d hh mi ss fr off -> ts_syntax true s y m d hh mi ss fr off.
Proof.
  rewrite !ts_syntax_parts.
  intros [Y M Dd H MI S sep fr' Zs off' DY DM RM DD RD DH LH RH DMI RMI DS RS Hsep Hfr Hz]. constructor; try assumption.
  - destruct LH as [?|[C _]]; [now left | discriminate C].
  - unfold is_sep in *. destruct (beq sep dot); [reflexivity | discriminate Hsep].
  - destruct Hz as [|sg HH MM Hsg B1 B2 R1 R2]; constructor; auto; lia.
Qed.

Definition f3b_deviation (s : list byte) : Prop :=
  exists y m d hh mi ss fr off, ts_syntax true s y m d hh mi ss fr off /\ ~ ts_syntax false s y m d hh mi ss fr off.

(* everything the lenient (layout-driven) parser accepts is either accepted, with the same
   value, by the strict RFC 3339 parser, or has the lenient shape but not the strict one *)
Theorem timestamp_lenient_only_f3b s secs ns :
  parse_ts true s = Some (secs, ns) -> parse_ts false s = Some (secs, ns) \/ f3b_deviation s.
Proof.
  intros H. pose proof H as H0. apply timestamp_grammar in H. destruct H as [y [m [d [hh [mi [ss [fr [off [Hs Hv]]]]]]]]].
  destruct (parse_ts false s) as [[a b]|] eqn:E.
  - apply timestamp_grammar in E. destruct E as [y' [m' [d' [hh' [mi' [ss' [fr' [off' [Hs' Hv']]]]]]]]].
    assert (parse_ts true s = Some (a, b)) as Ht.
    { apply timestamp_grammar. exists y', m', d', hh', mi', ss', fr', off'. split; [|exact Hv'].
      now apply ts_syntax_false_true. }
    rewrite Ht in H0. inversion H0; subst. now left.
  - right. exists y, m, d, hh, mi, ss, fr, off. split; [exact Hs|].
    intros Hf. assert (parse_ts false s = Some (secs, ns)) as C.
    { apply timestamp_grammar. exists y, m, d, hh, mi, ss, fr, off. auto. }
    congruence.
Qed.

(* witnesses of the F3b leniencies (replayed on the implementation by the harness corpus) *)
Theorem timestamp_strict_grammar_refuted :
  exists s1 s2 s3 s4,
    parse_ts false s1 = None /\ unmarshal_timestamp s1 = UOk 946684800 123456789 /\   (* "2000-01-01T00:00:00,1234567890123Z" *)
    parse_ts false s2 = None /\ unmarshal_timestamp s2 = UOk 946688400 0 /\           (* "2000-01-01T1:00:00Z" *)
    parse_ts false s3 = None /\ unmarshal_timestamp s3 = UOk 946598400 0 /\           (* "2000-01-01T00:00:00+24:00" *)
    parse_ts false s4 = None /\ unmarshal_timestamp s4 = UOk 946681200 0.             (* "2000-01-01T00:00:00+00:60" *)
Proof.
  exists [x32;x30;x30;x30;x2d;x30;x31;x2d;x30;x31;x54;x30;x30;x3a;x30;x30;x3a;x30;x30;x2c;x31;x32;x33;x34;x35;x36;x37;x38;x39;x30;x31;x32;x33;x5a],
         [x32;x30;x30;x30;x2d;x30;x31;x2d;x30;x31;x54;x31;x3a;x30;x30;x3a;x30;x30;x5a],
         [x32;x30;x30;x30;x2d;x30;x31;x2d;x30;x31;x54;x30;x30;x3a;x30;x30;x3a;x30;x30;x2b;x32;x34;x3a;x30;x30],
         [x32;x30;x30;x30;x2d;x30;x31;x2d;x30;x31;x54;x30;x30;x3a;x30;x30;x3a;x30;x30;x2b;x30;x30;x3a;x36;x30].
  vm_compute. repeat split; reflexivity.
Qed.

Theorem timestamp_accepts_except_f3b :
  forall s secs nanos, unmarshal_timestamp s = UOk secs nanos ->
  (exists ns, parse_ts false s = Some (secs, ns)) \/
  (parse_ts false s = None /\ exists ns, parse_ts true s = Some (secs, ns)).
Proof.
  intros s secs nanos. unfold unmarshal_timestamp, parse_go.
  destruct (parse_ts false s) as [[a b]|] eqn:E1.
  - destruct ((a <? min_timestamp_seconds) || (max_timestamp_seconds <? a)); [discriminate|].
    match goal with |- context[if ?c then _ else _] => destruct c end; [discriminate|].
    intros H; inversion H; subst. left. eauto.
  - destruct (parse_ts true s) as [[a b]|] eqn:E2; [|discriminate].
    destruct ((a <? min_timestamp_seconds) || (max_timestamp_seconds <? a)); [discriminate|].
    match goal with |- context[if ?c then _ else _] => destruct c end; [discriminate|].
    intros H; inversion H; subst. right. eauto.
Qed.

