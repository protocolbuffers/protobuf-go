(* anypb (C45): MessageIs is the suffix rule after the last '/'; FullName.IsValid accepts exactly
   ident ("." ident)*; New / MessageIs / MessageName agree; pack and unpack round-trip relative to a codec. *)
From Coq Require Import List NArith Bool Arith Lia.
From Coq Require Import ZifyBool ZifyNat ZifyN.
Require Import PB.Base.PBytes PB.Base.PBytesP PB.Base.ListEqbP PB.Known.AnyModel.
Import ListNotations.
Open Scope nat_scope.

Lemma byte_eqb_eq a b : byte_eqb a b = true <-> a = b.
Proof. unfold byte_eqb. rewrite N.eqb_eq. split; [apply b2n_inj | now intros ->]. Qed.

Lemma byte_eqb_refl a : byte_eqb a a = true.
Proof. now apply byte_eqb_eq. Qed.

Lemma bytes_eqb_eq : forall a b, bytes_eqb a b = true <-> a = b.
Proof. exact (list_eqb_eq byte_eqb byte_eqb_eq). Qed.

Lemma has_suffix_spec s suf : has_suffix s suf = true <-> exists p, s = p ++ suf.
Proof.
  unfold has_suffix. rewrite andb_true_iff, Nat.leb_le, bytes_eqb_eq. split.
  - intros [Hl He]. exists (firstn (length s - length suf) s).
    rewrite <- He at 2. symmetry. apply firstn_skipn.
  - intros [p ->]. rewrite app_length. split; [lia|].
    replace (length p + length suf - length suf) with (length p) by lia.
    rewrite skipn_app, skipn_all, Nat.sub_diag. reflexivity.
Qed.

Theorem message_is_suffix_rule :
  forall url name, message_is url name = true <-> (url = name \/ exists p, url = p ++ slash :: name).
Proof.
  intros url name. unfold message_is. split.
  - destruct (has_suffix url name) eqn:S; [|discriminate].
    apply has_suffix_spec in S. destruct S as [p ->]. rewrite app_length.
    induction p as [|c p' _] using rev_ind; intros H; [left; reflexivity|].
    rewrite app_length in H. cbn [length] in H.
    apply orb_prop in H. destruct H as [H|H].
    + apply Nat.eqb_eq in H. lia.
    + replace (length p' + 1 + length name - length name - 1) with (length p') in H by lia.
      rewrite <- app_assoc in H. rewrite nth_error_app2 in H by lia. rewrite Nat.sub_diag in H. cbn in H.
      apply byte_eqb_eq in H. subst c.
      right. exists p'. now rewrite <- app_assoc.
  - intros [->|[p ->]].
    + assert (has_suffix name name = true) as -> by (apply has_suffix_spec; now exists []).
      now rewrite Nat.eqb_refl.
    + assert (has_suffix (p ++ slash :: name) name = true) as ->.
      { apply has_suffix_spec. exists (p ++ [slash]). now rewrite <- app_assoc. }
      rewrite app_length. cbn [length].
      replace (length p + S (length name) - length name - 1) with (length p) by lia.
      rewrite nth_error_app2 by lia. rewrite Nat.sub_diag. cbn [nth_error]. rewrite byte_eqb_refl. apply orb_true_r.
Qed.

Definition no_slash (s : list byte) : Prop := Forall (fun c => byte_eqb c slash = false) s.

Lemma after_last_slash_none s : no_slash s -> after_last_slash s = None.
Proof.
  induction 1 as [|c r Hc Hr IH]; [reflexivity|]. cbn [after_last_slash]. now rewrite IH, Hc.
Qed.

Lemma after_last_slash_some p t : no_slash t -> after_last_slash (p ++ slash :: t) = Some t.
Proof.
  intros Ht. induction p as [|c p IH]; cbn [app after_last_slash].
  - rewrite (after_last_slash_none t Ht). now rewrite byte_eqb_refl.
  - now rewrite IH.
Qed.

Lemma url_name_no_slash s : no_slash s -> url_name s = s.
Proof. intros H. unfold url_name. now rewrite after_last_slash_none. Qed.

Lemma url_name_after_slash p t : no_slash t -> url_name (p ++ slash :: t) = t.
Proof. intros H. unfold url_name. now rewrite after_last_slash_some. Qed.

(* the part after the last slash never contains a slash, and is a suffix *)
Lemma after_last_slash_spec s t :
  after_last_slash s = Some t -> no_slash t /\ exists p, s = p ++ slash :: t.
Proof.
  revert t. induction s as [|c r IH]; intros t H; [discriminate|]. cbn [after_last_slash] in H.
  destruct (after_last_slash r) as [t'|] eqn:E.
  - inversion H; subst. destruct (IH t eq_refl) as [Hn [p ->]]. split; [assumption|].
    exists (c :: p). reflexivity.
  - destruct (byte_eqb c slash) eqn:Ec; [|discriminate]. inversion H; subst.
    apply byte_eqb_eq in Ec. subst c. split; [|exists []; reflexivity].
    clear IH H. induction t as [|x t IHt]; [constructor|].
    cbn [after_last_slash] in E. destruct (after_last_slash t); [discriminate|].
    destruct (byte_eqb x slash) eqn:Ex; [discriminate|]. constructor; [assumption|now apply IHt].
Qed.

(* the grammar of FullName.IsValid: ident ( "." ident )*, ident = letter (letter | digit)* *)
Inductive ident : list byte -> Prop :=
  | ident_intro c r : is_letter c = true -> Forall (fun x => is_letter_digit x = true) r -> ident (c :: r).

Inductive full_name : list byte -> Prop :=
  | fn_one i : ident i -> full_name i
  | fn_more i r : ident i -> full_name r -> full_name (i ++ dot :: r).

Lemma dot_not_letter_digit : is_letter_digit dot = false.
Proof. vm_compute. reflexivity. Qed.

Lemma skip_letter_digits_split s :
  exists p, s = p ++ skip_letter_digits s /\ Forall (fun x => is_letter_digit x = true) p /\
            (skip_letter_digits s = [] \/ exists c t, skip_letter_digits s = c :: t /\ is_letter_digit c = false).
Proof.
  induction s as [|c r [p [Hp [Hf Hr]]]].
  - exists []. split; [reflexivity|]. split; [constructor|now left].
  - cbn [skip_letter_digits]. destruct (is_letter_digit c) eqn:E.
    + exists (c :: p). split; [cbn; now rewrite <- Hp|]. split; [now constructor|exact Hr].
    + exists []. split; [reflexivity|]. split; [constructor|]. right. now exists c, r.
Qed.

Lemma consume_ident_split s r :
  consume_ident s = Some r ->
  exists i, s = i ++ r /\ ident i /\ (r = [] \/ exists c t, r = c :: t /\ is_letter_digit c = false).
Proof.
  destruct s as [|c t]; [discriminate|]. cbn [consume_ident].
  destruct (is_letter c) eqn:E; [|discriminate]. intros H. inversion H; subst.
  destruct (skip_letter_digits_split t) as [p [Hp [Hf Hr]]].
  exists (c :: p). split; [cbn; now rewrite <- Hp|]. split; [constructor; assumption|exact Hr].
Qed.

Lemma skip_letter_digits_app p r :
  Forall (fun x => is_letter_digit x = true) p ->
  (r = [] \/ exists c t, r = c :: t /\ is_letter_digit c = false) ->
  skip_letter_digits (p ++ r) = r.
Proof.
  intros Hp Hr. induction Hp as [|x p Hx Hp IH]; cbn [app skip_letter_digits].
  - destruct Hr as [->|[c [t [-> Hc]]]]; [reflexivity|]. cbn [skip_letter_digits]. now rewrite Hc.
  - now rewrite Hx.
Qed.

Lemma consume_ident_app i r :
  ident i -> (r = [] \/ exists c t, r = c :: t /\ is_letter_digit c = false) ->
  consume_ident (i ++ r) = Some r.
Proof.
  intros [c p Hc Hp] Hr. cbn [app consume_ident]. rewrite Hc. now rewrite skip_letter_digits_app.
Qed.

Lemma full_name_rest_sound fuel : forall r,
  full_name_rest fuel r = true -> r = [] \/ exists t, r = dot :: t /\ full_name t.
Proof.
  induction fuel as [|f IH]; intros r H; destruct r as [|c r1]; auto; cbn [full_name_rest] in H;
    destruct (byte_eqb c dot) eqn:Ec; try discriminate;
    destruct (consume_ident r1) as [r'|] eqn:Er; try discriminate.
  apply byte_eqb_eq in Ec. subst c. right. exists r1. split; [reflexivity|].
  destruct (consume_ident_split r1 r' Er) as [i [-> [Hi _]]].
  destruct (IH r' H) as [->|[t [-> Ht]]].
  - rewrite app_nil_r. now constructor.
  - now apply fn_more.
Qed.

Lemma ident_nonempty i : ident i -> 1 <= length i.
Proof. intros [c p _ _]. cbn. lia. Qed.

Lemma full_name_rest_complete t :
  full_name t -> forall fuel, length t <= fuel -> full_name_rest fuel (dot :: t) = true.
Proof.
  induction 1 as [i Hi|i r Hi Hr IH]; intros fuel Hf.
  - pose proof (ident_nonempty i Hi). destruct fuel as [|f]; [lia|].
    cbn [full_name_rest]. rewrite byte_eqb_refl.
    rewrite <- (app_nil_r i). rewrite consume_ident_app by auto. destruct f; reflexivity.
  - pose proof (ident_nonempty i Hi). rewrite app_length in Hf. cbn [length] in Hf.
    destruct fuel as [|f]; [lia|].
    cbn [full_name_rest]. rewrite byte_eqb_refl.
    rewrite consume_ident_app; [|assumption|right; exists dot, r; split; [reflexivity|apply dot_not_letter_digit]].
    apply IH. lia.
Qed.

(* FullName.IsValid accepts exactly the grammar; in particular the fuel of the model's loop never runs out *)
Theorem full_name_valid_iff s : full_name_valid s = true <-> full_name s.
Proof.
  unfold full_name_valid. split.
  - destruct (consume_ident s) as [r|] eqn:E; [|discriminate]. intros H.
    destruct (consume_ident_split s r E) as [i [-> [Hi _]]].
    destruct (full_name_rest_sound _ _ H) as [->|[t [-> Ht]]].
    + rewrite app_nil_r. now constructor.
    + now apply fn_more.
  - intros H. destruct H as [i Hi|i r Hi Hr].
    + rewrite <- (app_nil_r i) at 1. rewrite consume_ident_app by auto.
      destruct (length i); reflexivity.
    + rewrite consume_ident_app; [|assumption|right; exists dot, r; split; [reflexivity|apply dot_not_letter_digit]].
      apply full_name_rest_complete; [assumption|]. rewrite app_length. cbn. lia.
Qed.

Definition name_char (c : byte) : bool := is_letter_digit c || byte_eqb c dot.

Lemma name_char_not_slash c : name_char c = true -> byte_eqb c slash = false.
Proof.
  intros H. destruct (byte_eqb c slash) eqn:E; [|reflexivity].
  apply byte_eqb_eq in E. subst c. vm_compute in H. discriminate.
Qed.

Lemma ident_chars i : ident i -> Forall (fun c => name_char c = true) i.
Proof.
  intros [c r Hc Hr]. constructor; [unfold name_char, is_letter_digit; now rewrite Hc|].
  eapply Forall_impl; [|exact Hr]. intros x Hx. unfold name_char. now rewrite Hx.
Qed.

Theorem full_name_valid_chars s : full_name_valid s = true -> Forall (fun c => name_char c = true) s.
Proof.
  intros H. apply full_name_valid_iff in H. induction H as [i Hi|i r Hi Hr IH]; [now apply ident_chars|].
  apply Forall_app. split; [now apply ident_chars|]. constructor; [|exact IH].
  unfold name_char. rewrite byte_eqb_refl. apply orb_true_r.
Qed.

Lemma full_name_valid_no_slash s : full_name_valid s = true -> no_slash s.
Proof.
  intros H. apply full_name_valid_chars in H. unfold no_slash.
  eapply Forall_impl; [|exact H]. intros c. apply name_char_not_slash.
Qed.

Lemma full_name_valid_nonempty s : full_name_valid s = true -> s <> [].
Proof. intros H ->. vm_compute in H. discriminate. Qed.

Definition url_prefix_body : list byte := removelast url_prefix.

Lemma url_prefix_split : url_prefix = url_prefix_body ++ [slash].
Proof. vm_compute. reflexivity. Qed.

Lemma any_new_url_split name : any_new_url name = url_prefix_body ++ slash :: name.
Proof. unfold any_new_url. rewrite url_prefix_split, <- app_assoc. reflexivity. Qed.

(* MessageIs holds right after New, whatever the name is *)
Theorem message_is_name : forall name, message_is (any_new_url name) name = true.
Proof.
  intros name. apply message_is_suffix_rule. right. exists url_prefix_body. apply any_new_url_split.
Qed.

(* MessageName recovers the full name after New *)
Theorem message_name_new : forall name, full_name_valid name = true -> message_name (any_new_url name) = name.
Proof.
  intros name H. unfold message_name. rewrite any_new_url_split.
  rewrite url_name_after_slash by now apply full_name_valid_no_slash. now rewrite H.
Qed.

(* MessageName and MessageIs agree on valid names *)
Theorem message_is_then_name :
  forall url name, full_name_valid name = true -> message_is url name = true -> message_name url = name.
Proof.
  intros url name Hv H. pose proof (full_name_valid_no_slash name Hv) as Hn.
  apply message_is_suffix_rule in H. unfold message_name. destruct H as [->|[p ->]].
  - rewrite url_name_no_slash by assumption. now rewrite Hv.
  - rewrite url_name_after_slash by assumption. now rewrite Hv.
Qed.

Theorem message_name_then_is :
  forall url, message_name url <> [] -> message_is url (message_name url) = true.
Proof.
  intros url H. unfold message_name in *. destruct (full_name_valid (url_name url)) eqn:Hv; [|congruence].
  apply message_is_suffix_rule. unfold url_name in *.
  destruct (after_last_slash url) as [t|] eqn:E.
  - right. destruct (after_last_slash_spec url t E) as [_ [p ->]]. now exists p.
  - now left.
Qed.

(* a message of a different (valid) name is not the packed one *)
Theorem message_is_other_false :
  forall name other, full_name_valid name = true -> full_name_valid other = true -> other <> name ->
  message_is (any_new_url name) other = false.
Proof.
  intros name other Hn Ho Hne. destruct (message_is (any_new_url name) other) eqn:E; [|reflexivity].
  exfalso. apply Hne. rewrite <- (message_is_then_name _ _ Ho E). now apply message_name_new.
Qed.

Section AnyRoundTrip.
  Variable msg : Type.
  Variable name_of : msg -> list byte.
  Variable marshal : msg -> option (list byte).
  Variable unmarshal : list byte -> list byte -> option msg.
  Variable resolve : list byte -> bool.
  (* C03 for the codec: decoding the encoding into a fresh message of the same type gives the message back *)
  Hypothesis codec_roundtrip : forall m b, marshal m = Some b -> unmarshal (name_of m) b = Some m.

  Theorem any_roundtrip_to :
    forall m a, any_new msg name_of marshal m = Some a ->
    unmarshal_to msg unmarshal a (name_of m) = Some m.
  Proof.
    intros m a H. unfold any_new in H. destruct (marshal m) as [b|] eqn:E; [|discriminate].
    inversion H; subst. unfold unmarshal_to. cbn [type_url value].
    rewrite message_is_name. now apply codec_roundtrip.
  Qed.

  Theorem any_roundtrip_new :
    forall m a, any_new msg name_of marshal m = Some a ->
    full_name_valid (name_of m) = true -> resolve (name_of m) = true ->
    unmarshal_new msg unmarshal resolve a = Some m.
  Proof.
    intros m a H Hv Hr. unfold any_new in H. destruct (marshal m) as [b|] eqn:E; [|discriminate].
    inversion H; subst. unfold unmarshal_new. cbn [type_url value].
    rewrite any_new_url_split. rewrite url_name_after_slash by now apply full_name_valid_no_slash.
    rewrite Hr. destruct (url_prefix_body ++ slash :: name_of m) eqn:El.
    - destruct url_prefix_body; discriminate.
    - now apply codec_roundtrip.
  Qed.

  Theorem any_wrong_type_rejected :
    forall m a other, any_new msg name_of marshal m = Some a ->
    full_name_valid (name_of m) = true -> full_name_valid other = true -> other <> name_of m ->
    unmarshal_to msg unmarshal a other = None.
  Proof.
    intros m a other H Hv Ho Hne. unfold any_new in H. destruct (marshal m) as [b|] eqn:E; [|discriminate].
    inversion H; subst. unfold unmarshal_to. cbn [type_url value].
    now rewrite message_is_other_false.
  Qed.
End AnyRoundTrip.

Theorem message_is_name_both :
  forall name, message_is (any_new_url name) name = true /\
               (full_name_valid name = true -> message_name (any_new_url name) = name).
Proof. intros name. split; [exact (message_is_name name)|exact (message_name_new name)]. Qed.

Theorem message_name_is_agree :
  (forall url name, full_name_valid name = true -> message_is url name = true -> message_name url = name) /\
  (forall url, message_name url <> [] -> message_is url (message_name url) = true).
Proof. split; [exact message_is_then_name|exact message_name_then_is]. Qed.

Theorem any_roundtrip_all :
  forall (msg : Type) (name_of : msg -> list byte) (marshal : msg -> option (list byte))
         (unmarshal : list byte -> list byte -> option msg) (resolve : list byte -> bool),
  (forall m b, marshal m = Some b -> unmarshal (name_of m) b = Some m) ->
  forall m a, any_new msg name_of marshal m = Some a ->
  unmarshal_to msg unmarshal a (name_of m) = Some m /\
  (full_name_valid (name_of m) = true -> resolve (name_of m) = true ->
   unmarshal_new msg unmarshal resolve a = Some m) /\
  (forall other, full_name_valid (name_of m) = true -> full_name_valid other = true -> other <> name_of m ->
   unmarshal_to msg unmarshal a other = None).
Proof.
  intros msg name_of marshal unmarshal resolve Hc m a Ha. repeat split.
  - exact (any_roundtrip_to msg name_of marshal unmarshal Hc m a Ha).
  - exact (any_roundtrip_new msg name_of marshal unmarshal resolve Hc m a Ha).
  - intros other. exact (any_wrong_type_rejected msg name_of marshal unmarshal m a other Ha).
Qed.
