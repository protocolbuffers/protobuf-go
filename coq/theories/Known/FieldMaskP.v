(* The FieldMask model (C44): lessPath is a strict total order, so sorting has one result; hasPathPrefix
   and the paths a mask covers; normalize = sort, then drop every path covered by the last kept one,
   yields THE sorted prefix-free list with the same cover; Union and Intersect in terms of cover. *)
From Coq Require Import List NArith ZArith Bool Lia Sorted Permutation.
From Coq Require Import ZifyBool ZifyNat ZifyN.
From PB Require Import Base.PBytes Base.PBytesP Known.FieldMaskModel Known.ByteEqP.
Import ListNotations.
Open Scope N_scope.

Lemma key_inj a b : key a = key b -> a = b.
Proof.
  unfold key. intros H. apply b2n_inj.
  pose proof (b2n_lt a). pose proof (b2n_lt b). lia.
Qed.

Lemma key_dot : key dot = 0.
Proof. reflexivity. Qed.

Lemma less_irrefl x : less_path x x = false.
Proof. induction x as [|a x IH]; cbn [less_path]; [reflexivity|]. now rewrite beq_refl. Qed.

Lemma less_trans x y z : less_path x y = true -> less_path y z = true -> less_path x z = true.
Proof.
  revert y z; induction x as [|a x IH]; intros [|b y] [|c z]; cbn [less_path]; try congruence.
  destruct (beq a b) eqn:Eab.
  - apply beq_true in Eab; subst b. destruct (beq a c) eqn:Eac; [apply IH | auto].
  - destruct (beq b c) eqn:Ebc.
    + apply beq_true in Ebc; subst c. rewrite Eab. auto.
    + intros H1 H2. destruct (beq a c) eqn:Eac.
      * apply beq_true in Eac; subst c. apply N.ltb_lt in H1, H2. lia.
      * apply N.ltb_lt in H1, H2. apply N.ltb_lt. lia.
Qed.

Lemma less_total x y : less_path x y = false -> less_path y x = false -> x = y.
Proof.
  revert y; induction x as [|a x IH]; intros [|b y]; cbn [less_path]; try congruence.
  rewrite (beq_sym b a). destruct (beq a b) eqn:E.
  - apply beq_true in E; subst b. intros H1 H2. f_equal. now apply IH.
  - intros H1 H2. apply N.ltb_ge in H1, H2. exfalso. apply beq_false in E. apply E, key_inj. lia.
Qed.

Lemma less_asym x y : less_path x y = true -> less_path y x = false.
Proof.
  intros H. destruct (less_path y x) eqn:E; [|reflexivity].
  pose proof (less_trans _ _ _ H E) as C. now rewrite less_irrefl in C.
Qed.

Definition lt_path (x y : path) : Prop := less_path x y = true.
Definition le_path (x y : path) : Prop := less_path y x = false.

Theorem less_path_strict_total :
  (forall x, ~ lt_path x x) /\
  (forall x y z, lt_path x y -> lt_path y z -> lt_path x z) /\
  (forall x y, lt_path x y \/ x = y \/ lt_path y x) /\
  (* '.' is the least byte, every other byte is ordered by (b - '.') mod 256 *)
  (forall a b x y, a <> b -> (lt_path (a :: x) (b :: y) <-> (b2n a + 210) mod 256 < (b2n b + 210) mod 256)) /\
  (forall a x y, lt_path (a :: x) (a :: y) <-> lt_path x y) /\
  (forall y, lt_path [] y <-> y <> []).
Proof.
  unfold lt_path. split; [|split; [|split; [|split; [|split]]]].
  - intros x. now rewrite less_irrefl.
  - apply less_trans.
  - intros x y. destruct (less_path x y) eqn:E1; [now left|].
    destruct (less_path y x) eqn:E2; [now right; right|]. right; left. now apply less_total.
  - intros a b x y H. cbn [less_path]. apply beq_false in H. rewrite H. unfold key. apply N.ltb_lt.
  - intros a x y. cbn [less_path]. now rewrite beq_refl.
  - intros y. destruct y; cbn [less_path]; split; congruence.
Qed.

Lemma le_path_refl x : le_path x x.
Proof. apply less_irrefl. Qed.

Lemma le_path_trans x y z : le_path x y -> le_path y z -> le_path x z.
Proof.
  unfold le_path. intros H1 H2. destruct (less_path z x) eqn:E; [|reflexivity]. exfalso.
  destruct (less_path y z) eqn:E3.
  - pose proof (less_trans _ _ _ E3 E). congruence.
  - pose proof (less_total _ _ E3 H2). subst. congruence.
Qed.

Lemma le_path_antisym x y : le_path x y -> le_path y x -> x = y.
Proof. unfold le_path. intros. now apply less_total. Qed.

Lemma lt_le_path x y : less_path x y = true -> le_path x y.
Proof. apply less_asym. Qed.

Lemma le_path_cases x y : le_path x y \/ le_path y x.
Proof.
  unfold le_path. destruct (less_path y x) eqn:E; [right; now apply less_asym | now left].
Qed.

Lemma ins_perm x l : Permutation (x :: l) (ins_path x l).
Proof.
  induction l as [|h t IH]; cbn [ins_path]; [reflexivity|].
  destruct (less_path h x); [|reflexivity].
  rewrite perm_swap. now constructor.
Qed.

Lemma sort_perm l : Permutation l (sort_paths l).
Proof.
  induction l as [|x t IH]; cbn [sort_paths]; [constructor|].
  rewrite <- ins_perm. now constructor.
Qed.

Lemma ins_sorted x l : StronglySorted le_path l -> StronglySorted le_path (ins_path x l).
Proof.
  induction 1 as [|h t Hs IH Hf]; cbn [ins_path]; [repeat constructor|].
  destruct (less_path h x) eqn:E.
  - constructor; [exact IH|].
    apply (Permutation_Forall (ins_perm x t)). constructor; [now apply lt_le_path | exact Hf].
  - constructor; [now constructor|].
    constructor; [exact E|].
    eapply Forall_impl; [|exact Hf]. intros y Hy. now apply (le_path_trans _ h).
Qed.

Lemma sort_sorted l : StronglySorted le_path (sort_paths l).
Proof. induction l; cbn [sort_paths]; [constructor | now apply ins_sorted]. Qed.

Lemma sorted_sort_id l : StronglySorted le_path l -> sort_paths l = l.
Proof.
  induction 1 as [|h t Hs IH Hf]; cbn [sort_paths]; [reflexivity|].
  rewrite IH. destruct t as [|k t']; [reflexivity|]. cbn [ins_path].
  inversion Hf; subst. unfold le_path in H1. now rewrite H1.
Qed.

Lemma sorted_head_le a l x : StronglySorted le_path (a :: l) -> In x (a :: l) -> le_path a x.
Proof.
  inversion 1 as [|? ? _ Hf]; subst. intros [->|Hx]; [apply le_path_refl|].
  rewrite Forall_forall in Hf. now apply Hf.
Qed.

(* a sorted permutation is unique: whatever sort.Slice does internally, if it
   returns a lessPath-sorted permutation it returns [sort_paths] *)
Lemma sorted_perm_unique l1 l2 :
  StronglySorted le_path l1 -> StronglySorted le_path l2 -> Permutation l1 l2 -> l1 = l2.
Proof.
  intros H1; revert l2; induction H1 as [|a t1 Hs1 IH Hf1]; intros l2 H2 HP.
  - apply Permutation_nil in HP. now subst.
  - destruct l2 as [|b t2]; [apply Permutation_sym, Permutation_nil in HP; discriminate|].
    assert (a = b).
    { apply le_path_antisym.
      - apply (sorted_head_le a t1); [now constructor|]. apply (Permutation_in _ (Permutation_sym HP)). now left.
      - apply (sorted_head_le b t2 a H2). apply (Permutation_in _ HP). now left. }
    subst b. f_equal. apply IH; [now inversion H2|]. now apply Permutation_cons_inv in HP.
Qed.

Theorem sort_spec_unique (srt : list path -> list path) :
  (forall l, Permutation l (srt l) /\ StronglySorted le_path (srt l)) ->
  forall l, srt l = sort_paths l.
Proof.
  intros H l. destruct (H l) as [HP HS].
  apply sorted_perm_unique; [exact HS | apply sort_sorted|].
  rewrite <- HP. apply sort_perm.
Qed.

Lemma hpp_spec p q : has_path_prefix p q = true <-> (q = p \/ exists w, p = q ++ dot :: w).
Proof.
  revert p; induction q as [|b q IH]; intros [|a p]; cbn [has_path_prefix app].
  - split; auto.
  - rewrite beq_true. split.
    + intros ->. right. now exists p.
    + intros [H|[w H]]; [discriminate | now inversion H].
  - split; [discriminate|]. intros [H|[w H]]; discriminate.
  - rewrite andb_true_iff, beq_true, IH. split.
    + intros [-> [->|[w' ->]]]; [now left | right; now exists w'].
    + intros [H|[w' H]]; inversion H; subst; split; auto. right; now exists w'.
Qed.

Lemma hpp_refl p : has_path_prefix p p = true.
Proof. apply hpp_spec. now left. Qed.

Lemma hpp_trans p q r : has_path_prefix p q = true -> has_path_prefix q r = true -> has_path_prefix p r = true.
Proof.
  rewrite !hpp_spec. intros [->|[w ->]] [->|[v ->]]; eauto.
  right. exists (v ++ dot :: w). now rewrite <- !app_assoc.
Qed.

(* a prefix is not greater than the path *)
Lemma hpp_le p q : has_path_prefix p q = true -> le_path q p.
Proof.
  unfold le_path. revert p; induction q as [|b q IH]; intros [|a p]; cbn [has_path_prefix less_path]; try congruence.
  rewrite andb_true_iff, beq_true. intros [-> H]. rewrite beq_refl. now apply IH.
Qed.

Lemma hpp_antisym p q : has_path_prefix p q = true -> has_path_prefix q p = true -> p = q.
Proof. intros H1 H2. apply le_path_antisym; now apply hpp_le. Qed.

(* the paths covered by [a] form a contiguous block that starts at [a] *)
Lemma covered_block_contiguous a b c :
  le_path a b -> le_path b c -> has_path_prefix c a = true -> has_path_prefix b a = true.
Proof.
  unfold le_path. revert b c; induction a as [|h a IH]; intros b c.
  - destruct c as [|x c]; cbn [has_path_prefix].
    + destruct b; cbn [less_path]; [reflexivity|congruence].
    + rewrite beq_true. intros _ Hbc ->. destruct b as [|y b]; [reflexivity|].
      cbn [has_path_prefix]. cbn [less_path] in Hbc.
      destruct (beq dot y) eqn:E; [rewrite beq_sym; exact E|].
      rewrite key_dot in Hbc. apply N.ltb_ge in Hbc.
      assert (key y = key dot) by (rewrite key_dot; lia). apply key_inj in H. subst.
      now rewrite beq_refl in E.
  - destruct c as [|x c]; cbn [has_path_prefix]; [congruence|].
    rewrite andb_true_iff, beq_true. intros Hab Hbc [-> Hc].
    destruct b as [|y b]; cbn [less_path] in Hab, Hbc; [congruence|].
    cbn [has_path_prefix].
    destruct (beq h y) eqn:E.
    + apply beq_true in E; subst y. rewrite beq_refl in *. cbn [andb]. now apply (IH b c).
    + rewrite beq_sym in Hab. rewrite E in Hab. apply N.ltb_ge in Hab, Hbc.
      assert (key h = key y) by lia. apply key_inj in H. subst. now rewrite beq_refl in E.
Qed.

Lemma hpp_comparable p a b :
  has_path_prefix p a = true -> has_path_prefix p b = true ->
  has_path_prefix a b = true \/ has_path_prefix b a = true.
Proof.
  intros Ha Hb. destruct (le_path_cases a b) as [L|L].
  - right. apply (covered_block_contiguous a b p); auto. now apply hpp_le.
  - left. apply (covered_block_contiguous b a p); auto. now apply hpp_le.
Qed.

Definition covers (mask : list path) (p : path) : Prop :=
  exists q, In q mask /\ (q = p \/ exists w, p = q ++ dot :: w).

Lemma covers_hpp mask p : covers mask p <-> exists q, In q mask /\ has_path_prefix p q = true.
Proof. unfold covers. split; intros [q [H1 H2]]; exists q; split; auto; now apply hpp_spec. Qed.

Lemma covers_perm l1 l2 p : Permutation l1 l2 -> covers l1 p -> covers l2 p.
Proof. intros HP [q [H1 H2]]. exists q. split; auto. now apply (Permutation_in _ HP). Qed.

Lemma covers_app l1 l2 p : covers (l1 ++ l2) p <-> covers l1 p \/ covers l2 p.
Proof.
  unfold covers. split.
  - intros [q [H1 H2]]. apply in_app_or in H1. destruct H1; [left|right]; exists q; auto.
  - intros [[q [H1 H2]]|[q [H1 H2]]]; exists q; split; auto; apply in_or_app; auto.
Qed.

Lemma covers_concat ms p : covers (concat ms) p <-> exists m, In m ms /\ covers m p.
Proof.
  unfold covers. split.
  - intros [q [H1 H2]]. apply in_concat in H1. destruct H1 as [m [Hm Hq]]. exists m. split; auto. exists q; auto.
  - intros [m [Hm [q [H1 H2]]]]. exists q. split; auto. apply in_concat. exists m; auto.
Qed.

Lemma elide_incl prev l x : In x (elide prev l) -> In x l.
Proof.
  revert prev; induction l as [|p t IH]; intros prev; cbn [elide]; [auto|].
  destruct (match prev with Some q => has_path_prefix p q | None => false end).
  - intros H. right. eauto.
  - intros [->|H]; [now left | right; eauto].
Qed.

(* every input path is covered by a kept path (or by the previous kept one) *)
Lemma elide_keeps_cover prev l x :
  In x l -> exists k, (In k (elide prev l) \/ prev = Some k) /\ has_path_prefix x k = true.
Proof.
  revert prev; induction l as [|p t IH]; intros prev; cbn [elide]; [intros []|].
  intros [->|Hin].
  - destruct prev as [q|].
    + destruct (has_path_prefix x q) eqn:E.
      * exists q. auto.
      * exists x. split; [left; now left | apply hpp_refl].
    + exists x. split; [left; now left | apply hpp_refl].
  - destruct (match prev with Some q => has_path_prefix p q | None => false end) eqn:E.
    + apply IH; exact Hin.
    + destruct (IH (Some p) Hin) as [k [[Hk|Hk] Hc]].
      * exists k. split; [left; now right | exact Hc].
      * inversion Hk; subst k. exists p. split; [left; now left | exact Hc].
Qed.

Theorem normalize_same_cover paths p : covers (normalize paths) p <-> covers paths p.
Proof.
  unfold normalize. rewrite !covers_hpp. split.
  - intros [q [H1 H2]]. exists q. split; auto.
    apply elide_incl in H1. now apply (Permutation_in _ (Permutation_sym (sort_perm paths))).
  - intros [q [H1 H2]].
    apply (Permutation_in _ (sort_perm paths)) in H1.
    destruct (elide_keeps_cover None _ _ H1) as [k [[Hk|Hk] Hc]]; [|discriminate].
    exists k. split; auto. now apply (hpp_trans _ q).
Qed.

(* "nc" = not covered.  adj_nc: no element is covered by its left neighbour (by prev, for the first);
   nc a x, below: a <= x and a does not cover x.  A sorted list with adj_nc is StronglySorted nc. *)
Fixpoint adj_nc (prev : option path) (l : list path) : Prop :=
  match l with
  | [] => True
  | h :: t => (match prev with Some q => has_path_prefix h q = false | None => True end) /\ adj_nc (Some h) t
  end.

Lemma elide_adj prev l : adj_nc prev (elide prev l).
Proof.
  revert prev; induction l as [|p t IH]; intros prev; cbn [elide]; [exact I|].
  destruct (match prev with Some q => has_path_prefix p q | None => false end) eqn:E; [apply IH|].
  cbn [adj_nc]. split; [|apply IH]. destruct prev; auto.
Qed.

Lemma adj_elide_id prev l : adj_nc prev l -> elide prev l = l.
Proof.
  revert prev; induction l as [|p t IH]; intros prev; cbn [elide adj_nc]; [reflexivity|].
  intros [H1 H2]. destruct prev as [q|]; [rewrite H1|]; now rewrite IH.
Qed.

Lemma elide_sorted R prev l : StronglySorted R l -> StronglySorted R (elide prev l).
Proof.
  intros H; revert prev; induction H as [|p t Hs IH Hf]; intros prev; cbn [elide]; [constructor|].
  destruct (match prev with Some q => has_path_prefix p q | None => false end); [apply IH|].
  constructor; [apply IH|]. rewrite Forall_forall in *. intros x Hx. apply Hf. eapply elide_incl; eauto.
Qed.

(* in a sorted list whose neighbours do not cover each other, no element covers a later one *)
Definition nc (a x : path) : Prop := le_path a x /\ has_path_prefix x a = false.

Lemma adj_nc_all a l :
  StronglySorted le_path (a :: l) -> adj_nc (Some a) l -> Forall (nc a) l.
Proof.
  intros Hs Ha. inversion Hs as [|? ? Hs' Hf]; subst.
  destruct l as [|b t]; [constructor|]. cbn [adj_nc] in Ha. destruct Ha as [Hb _].
  rewrite Forall_forall in *. intros x Hx. split; [now apply Hf|].
  destruct (has_path_prefix x a) eqn:E; [|reflexivity].
  rewrite <- Hb. symmetry. apply (covered_block_contiguous a b x); auto.
  - apply Hf. now left.
  - destruct Hx as [->|Hx]; [apply le_path_refl|].
    inversion Hs' as [|? ? _ Hf']; subst. rewrite Forall_forall in Hf'. now apply Hf'.
Qed.

Lemma adj_nc_weaken prev l : adj_nc prev l -> adj_nc None l.
Proof. destruct l; cbn [adj_nc]; tauto. Qed.

Lemma adj_nc_pairwise l :
  StronglySorted le_path l -> adj_nc None l -> StronglySorted nc l.
Proof.
  induction 1 as [|a t Hs IH Hf]; intros Ha; [constructor|].
  cbn [adj_nc] in Ha. destruct Ha as [_ Ha]. constructor.
  - apply IH. eapply adj_nc_weaken; eauto.
  - apply adj_nc_all; auto. now constructor.
Qed.

Lemma ssorted_cases {A} (R : A -> A -> Prop) l x y :
  StronglySorted R l -> In x l -> In y l -> x = y \/ R x y \/ R y x.
Proof.
  induction 1 as [|a t Hs IH Hf]; intros Hx Hy; [destruct Hx|].
  rewrite Forall_forall in Hf.
  destruct Hx as [->|Hx], Hy as [->|Hy]; auto.
Qed.

Definition sorted_prefix_free (l : list path) : Prop :=
  StronglySorted lt_path l /\
  (forall x y, In x l -> In y l -> has_path_prefix x y = true -> x = y).

Lemma nc_lt a x : nc a x -> lt_path a x.
Proof.
  intros [H1 H2]. unfold lt_path. destruct (less_path a x) eqn:E; [reflexivity|].
  pose proof (less_total _ _ E H1). subst. now rewrite hpp_refl in H2.
Qed.

Lemma ssorted_impl {A} (R S : A -> A -> Prop) l :
  (forall a b, R a b -> S a b) -> StronglySorted R l -> StronglySorted S l.
Proof.
  intros H; induction 1; constructor; auto. eapply Forall_impl; [|eassumption]. auto.
Qed.

Lemma nc_sorted_prefix_free l : StronglySorted nc l -> sorted_prefix_free l.
Proof.
  intros H. split.
  - eapply ssorted_impl; [|exact H]. apply nc_lt.
  - intros x y Hx Hy Hc.
    destruct (ssorted_cases _ _ _ _ H Hx Hy) as [E|[[H1 H2]|[H1 H2]]]; auto.
    + apply le_path_antisym; auto. now apply hpp_le.
    + congruence.
Qed.

Lemma normalize_nc paths : StronglySorted nc (normalize paths).
Proof.
  unfold normalize. apply adj_nc_pairwise.
  - apply elide_sorted, sort_sorted.
  - apply elide_adj.
Qed.

Theorem normalize_sorted_prefix_free paths : sorted_prefix_free (normalize paths).
Proof. apply nc_sorted_prefix_free, normalize_nc. Qed.

Lemma nc_fixed l : StronglySorted nc l -> normalize l = l.
Proof.
  intros H. unfold normalize.
  assert (StronglySorted le_path l) as Hs by (eapply ssorted_impl; [|exact H]; now intros a b [? _]).
  rewrite (sorted_sort_id _ Hs).
  apply adj_elide_id.
  clear Hs. induction H as [|a t Hs IH Hf]; cbn [adj_nc]; [exact I|]. split; [exact I|].
  destruct t as [|b t']; [exact I|]. cbn [adj_nc] in *. destruct IH as [_ IH]. split; [|exact IH].
  inversion Hf; subst. now destruct H1.
Qed.

Theorem normalize_idempotent paths : normalize (normalize paths) = normalize paths.
Proof. apply nc_fixed, normalize_nc. Qed.

(* a sorted prefix-free list is a fixed point: normalize yields THE canonical form *)
Lemma sorted_prefix_free_nc l : sorted_prefix_free l -> StronglySorted nc l.
Proof.
  intros [Hs Hp]. induction Hs as [|a t Hs IH Hf]; [constructor|].
  constructor.
  - apply IH. intros x y Hx Hy. apply Hp; now right.
  - rewrite Forall_forall in *. intros x Hx. split.
    + apply lt_le_path. now apply Hf.
    + destruct (has_path_prefix x a) eqn:E; [|reflexivity].
      assert (x = a) by (apply Hp; auto; [now right | now left]). subst.
      specialize (Hf _ Hx). unfold lt_path in Hf. now rewrite less_irrefl in Hf.
Qed.

Theorem normalize_canonical l : sorted_prefix_free l <-> normalize l = l.
Proof.
  split.
  - intros H. now apply nc_fixed, sorted_prefix_free_nc.
  - intros H. rewrite <- H. apply normalize_sorted_prefix_free.
Qed.

Theorem union_cover mx my ms p :
  covers (fm_union mx my ms) p <-> covers mx p \/ covers my p \/ exists m, In m ms /\ covers m p.
Proof.
  unfold fm_union. now rewrite normalize_same_cover, !covers_app, covers_concat.
Qed.

Lemma isect_eq s1 t1 s2 t2 :
  isect (s1 :: t1) (s2 :: t2) =
  if has_path_prefix s1 s2 then s1 :: isect t1 (s2 :: t2)
  else if has_path_prefix s2 s1 then s2 :: isect (s1 :: t1) t2
  else if less_path s1 s2 then isect t1 (s2 :: t2)
  else isect (s1 :: t1) t2.
Proof. reflexivity. Qed.
Lemma isect_nil_l l2 : isect [] l2 = [].
Proof. destruct l2; reflexivity. Qed.
Lemma isect_nil_r l1 : isect l1 [] = [].
Proof. destruct l1; reflexivity. Qed.

(* x is an element of one list that an element of the other list covers *)
Definition meet (l1 l2 : list path) (x : path) : Prop :=
  exists a b, In a l1 /\ In b l2 /\
    (x = a /\ has_path_prefix a b = true \/ x = b /\ has_path_prefix b a = true).

Lemma meet_mono l1 l1' l2 l2' x : incl l1 l1' -> incl l2 l2' -> meet l1 l2 x -> meet l1' l2' x.
Proof. intros I1 I2 (a & b & Ha & Hb & H). exists a, b. auto. Qed.

Lemma isect_sound l1 l2 x : In x (isect l1 l2) -> meet l1 l2 x.
Proof.
  revert l2; induction l1 as [|s1 t1 IH1]; intros l2; [rewrite isect_nil_l; intros []|].
  induction l2 as [|s2 t2 IH2]; [rewrite isect_nil_r; intros []|].
  rewrite isect_eq.
  assert (forall (s : path) t, incl t (s :: t)) as I by (intros; apply incl_tl, incl_refl).
  destruct (has_path_prefix s1 s2) eqn:E1; [|destruct (has_path_prefix s2 s1) eqn:E2; [|destruct (less_path s1 s2)]].
  - intros [<-|H]; [exists s1, s2; split; [now left|]; split; [now left | auto]|].
    apply (meet_mono t1 _ (s2 :: t2) _); auto using incl_refl.
  - intros [<-|H]; [exists s1, s2; split; [now left|]; split; [now left | auto]|].
    apply (meet_mono (s1 :: t1) _ t2 _); auto using incl_refl.
  - intros H. apply (meet_mono t1 _ (s2 :: t2) _); auto using incl_refl.
  - intros H. apply (meet_mono (s1 :: t1) _ t2 _); auto using incl_refl.
Qed.

Lemma nc_tail a l : StronglySorted nc (a :: l) -> StronglySorted nc l.
Proof. now inversion 1. Qed.

Lemma nc_head_le a l x : StronglySorted nc (a :: l) -> In x (a :: l) -> le_path a x.
Proof. intros H. apply sorted_head_le. revert H. apply ssorted_impl. now intros ? ? [? _]. Qed.

Lemma nc_prefix_free l x y :
  StronglySorted nc l -> In x l -> In y l -> has_path_prefix x y = true -> x = y.
Proof. intros H. apply nc_sorted_prefix_free in H. destruct H as [_ H]. apply H. Qed.

(* The two facts behind each step of the merge, about a path s and a sorted prefix-free list
   with head s'; each serves both lists, with the roles of s1 and s2 exchanged. *)
(* s is covered by s': an element that s covers is s itself *)
Lemma nc_absorb s s' l b :
  has_path_prefix s s' = true -> StronglySorted nc (s' :: l) -> In b (s' :: l) ->
  has_path_prefix b s = true -> b = s.
Proof.
  intros E N Hb C.
  assert (b = s') by (apply (nc_prefix_free _ _ _ N Hb); [now left | now apply (hpp_trans _ s)]).
  subst b. now apply hpp_antisym.
Qed.
(* s <= s' and neither covers the other: s is in no covering pair with the list *)
Lemma nc_no_pair s s' l b :
  le_path s s' -> has_path_prefix s s' = false -> has_path_prefix s' s = false ->
  StronglySorted nc (s' :: l) -> In b (s' :: l) ->
  has_path_prefix s b = false /\ has_path_prefix b s = false.
Proof.
  intros L E1 E2 N Hb. pose proof (nc_head_le _ _ _ N Hb) as L2. split.
  - destruct (has_path_prefix s b) eqn:C; [|reflexivity]. apply hpp_le in C.
    assert (s = s') by (apply le_path_antisym; [assumption | now apply (le_path_trans _ b)]).
    subst. now rewrite hpp_refl in E1.
  - destruct (has_path_prefix b s) eqn:C; [|reflexivity].
    now rewrite (covered_block_contiguous s s' b L L2 C) in E2.
Qed.

Lemma isect_complete l1 l2 x :
  StronglySorted nc l1 -> StronglySorted nc l2 -> meet l1 l2 x -> In x (isect l1 l2).
Proof.
  revert l2; induction l1 as [|s1 t1 IH1]; intros l2 N1; [intros _ (a & _ & [] & _)|].
  induction l2 as [|s2 t2 IH2]; intros N2 (a & b & Ha & Hb & H); [destruct Hb|].
  rewrite isect_eq.
  pose proof (nc_tail _ _ N1) as N1'. pose proof (nc_tail _ _ N2) as N2'.
  destruct (has_path_prefix s1 s2) eqn:E1; [|destruct (has_path_prefix s2 s1) eqn:E2; [|destruct (less_path s1 s2) eqn:E3]].
  - (* s1 is emitted *)
    destruct Ha as [<-|Ha]; [|right; apply IH1; auto; now exists a, b].
    left. destruct H as [[-> _]|[-> C]]; [reflexivity | symmetry; now apply (nc_absorb s1 s2 t2)].
  - (* s2 is emitted *)
    destruct Hb as [<-|Hb]; [|right; apply IH2; auto; now exists a, b].
    left. destruct H as [[-> C]|[-> _]]; [symmetry; now apply (nc_absorb s2 s1 t1) | reflexivity].
  - (* s1 < s2 is dropped *)
    destruct Ha as [<-|Ha]; [|apply IH1; auto; now exists a, b].
    destruct (nc_no_pair s1 s2 t2 b (lt_le_path _ _ E3) E1 E2 N2 Hb) as [C1 C2]. destruct H as [[_ C]|[_ C]]; congruence.
  - (* s2 <= s1 is dropped *)
    destruct Hb as [<-|Hb]; [|apply IH2; auto; now exists a, b].
    destruct (nc_no_pair s2 s1 t1 a E3 E2 E1 N1 Ha) as [C1 C2]. destruct H as [[_ C]|[_ C]]; congruence.
Qed.

Definition both_cover (l1 l2 : list path) (p : path) : Prop := covers l1 p /\ covers l2 p.

Lemma isect_cover l1 l2 p :
  StronglySorted nc l1 -> StronglySorted nc l2 ->
  (covers (isect l1 l2) p <-> covers l1 p /\ covers l2 p).
Proof.
  intros N1 N2. rewrite !covers_hpp. split.
  - intros [x [Hx Hc]]. destruct (isect_sound _ _ _ Hx) as (a & b & Ha & Hb & [[-> C]|[-> C]]).
    + split; [exists a; auto | exists b; split; auto; now apply (hpp_trans _ a)].
    + split; [exists a; split; auto; now apply (hpp_trans _ b) | exists b; auto].
  - intros [[a [Ha Hpa]] [b [Hb Hpb]]].
    destruct (hpp_comparable _ _ _ Hpa Hpb) as [C|C]; [exists a | exists b];
      (split; [apply isect_complete; auto; exists a, b; auto | assumption]).
Qed.

Lemma isect_step_cover out inp p :
  covers (isect_step out inp) p <-> covers inp p /\ covers out p.
Proof.
  unfold isect_step. rewrite isect_cover by apply normalize_nc.
  now rewrite !normalize_same_cover.
Qed.

Lemma fold_isect_cover ms out p :
  covers (fold_left isect_step ms out) p <-> covers out p /\ forall m, In m ms -> covers m p.
Proof.
  revert out; induction ms as [|m ms IH]; intros out; cbn [fold_left].
  - split; [intros H; split; [exact H | intros ? []] | tauto].
  - rewrite IH, isect_step_cover. split.
    + intros [[Hm Ho] Hall]. split; auto. intros m' [<-|Hin]; auto.
    + intros [Ho Hall]. split; [split; auto; apply Hall; now left | intros m' Hin; apply Hall; now right].
Qed.

Theorem intersect_cover mx my ms p :
  covers (fm_intersect mx my ms) p <->
  covers mx p /\ covers my p /\ forall m, In m ms -> covers m p.
Proof.
  unfold fm_intersect. rewrite normalize_same_cover, fold_isect_cover, !isect_step_cover, union_cover.
  tauto.
Qed.

Theorem intersect_sorted_prefix_free mx my ms : sorted_prefix_free (fm_intersect mx my ms).
Proof. apply normalize_sorted_prefix_free. Qed.
Theorem union_sorted_prefix_free mx my ms : sorted_prefix_free (fm_union mx my ms).
Proof. apply normalize_sorted_prefix_free. Qed.

