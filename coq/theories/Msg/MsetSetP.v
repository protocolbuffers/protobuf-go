(* Message-level proofs about the MessageSet model: the Unmarshal loop, the
   unknown-section re-framing, encode/decode round trip, Size, fast vs slow. *)
From Coq Require Import List Arith NArith ZArith Lia Bool.
From Coq Require Import ZifyBool ZifyNat ZifyN.
From PB Require Import Base.PBytes Base.ListP Wire.WireModel Wire.WireGrammar Wire.VarintP Wire.PrimP Wire.ScanP Msg.MsetModel Msg.MsetWireP Msg.MsetP.
Import ListNotations.
Open Scope N_scope.

(* an item whose message subfield is spelled [raw] *)
Definition gen_item (id : N) (raw : list byte) : list byte :=
  enc_tag 1 3 ++ enc_tag 2 0 ++ enc_varint id ++ enc_tag 3 2 ++ raw ++ enc_tag 1 4.

Lemma append_item_gen id p : append_item id p = gen_item id (enc_bytes p).
Proof.
  unfold append_item, gen_item, append_field_start, append_field_end, field_item, field_type_id, field_message.
  now rewrite <- !app_assoc.
Qed.

Lemma enc_tag_1_3 : enc_tag 1 3 = [x0b]. Proof. reflexivity. Qed.

Definition witem := (N * list byte * list byte)%type.   (* id, raw, payload *)
Definition witem_ok (e : witem) : Prop :=
  let '(id, raw, p) := e in valid_id id /\ lp raw p /\ N.of_nat (length p) < 2^64.
Definition witem_bytes (e : witem) : list byte := let '(id, raw, _) := e in gen_item id raw.
Definition witem_val (wl : bool) (e : witem) : list byte := let '(_, raw, p) := e in if wl then raw else p.

Fixpoint fold_items {S : Type} (wl : bool) (fn : N -> list byte -> S -> mres S) (items : list witem) (s : S) : mres S :=
  match items with
  | [] => MOk s
  | e :: r =>
      match fn (fst (fst e)) (witem_val wl e) s with
      | MOk s' => fold_items wl fn r s'
      | MErr err => MErr err
      end
  end.

Lemma unmarshal_loop_items {S : Type} wl (fn : N -> list byte -> S -> mres S) :
  forall items g s,
  (length items < length g)%nat ->
  Forall witem_ok items ->
  unmarshal_loop wl fn g (flat_map witem_bytes items) s = fold_items wl fn items s.
Proof.
  induction items as [|[[id raw] p] items IH]; intros g s Hg Hok.
  - destruct g; [cbn [length] in Hg; lia|]. reflexivity.
  - destruct g as [|g0 g]; [cbn [length] in Hg; lia|]. cbn [length] in Hg.
    inversion Hok as [|? ? Hx Hok']; subst. destruct Hx as (Hid & Hlp & Hp).
    cbn [flat_map witem_bytes]. unfold gen_item at 1. rewrite <- !app_assoc.
    rewrite enc_tag_1_3 at 1. cbn [app unmarshal_loop].
    change (x0b :: ?t) with ([x0b] ++ t). rewrite <- enc_tag_1_3.
    rewrite dec_tag_enc by (unfold num_ok; lia).
    unfold field_item. change ((1 =? 1) && (3 =? 3)) with true. cbv iota.
    rewrite (gen_item_consume wl id raw p) by assumption.
    assert (Hid0 : (id =? 0) = false) by (unfold valid_id in Hid; lia).
    rewrite Hid0. cbn [fold_items fst witem_val].
    destruct (fn id (if wl then raw else p) s) as [s'|e]; [|reflexivity].
    apply IH; [lia|exact Hok'].
Qed.

Lemma witem_bytes_length items : (length items <= length (flat_map witem_bytes items))%nat.
Proof. apply flat_map_length_ge. intros [[id raw] p]. apply enc_tag_app_nonempty. Qed.

Lemma unmarshal_items {S : Type} wl (fn : N -> list byte -> S -> mres S) items s :
  Forall witem_ok items ->
  unmarshal wl fn (flat_map witem_bytes items) s = fold_items wl fn items s.
Proof.
  intros Hok. unfold unmarshal. apply unmarshal_loop_items; [|exact Hok].
  cbn [length]. pose proof (witem_bytes_length items). lia.
Qed.

Definition uentry_raw (e : witem) : list byte := let '(id, raw, _) := e in enc_tag id 2 ++ raw.
Definition uentry_norm (e : witem) : list byte := let '(id, _, p) := e in unknown_entry id p.

Lemma valid_id_num id : valid_id id -> valid_num id.
Proof. unfold valid_id, valid_num, max_int32. lia. Qed.

Lemma append_unknown_loop_step g0 g u acc :
  u <> [] ->
  append_unknown_loop (g0 :: g) u acc =
  match dec_tag u with
  | Err _ => MErr MUnknownData
  | Ok (num, typ, r) =>
      if negb (typ =? 2) then MErr MUnknownData else
      match dec_bytes r with
      | Err _ => MErr MUnknownData
      | Ok (_, r') =>
          append_unknown_loop g r'
            (acc ++ append_field_start num ++ enc_tag field_message 2
                 ++ firstn (length r - length r') r ++ append_field_end)
      end
  end.
Proof. destruct u; [congruence|reflexivity]. Qed.

Lemma append_unknown_loop_items : forall items g acc,
  (length items < length g)%nat ->
  Forall witem_ok items ->
  append_unknown_loop g (flat_map uentry_raw items) acc = MOk (acc ++ flat_map witem_bytes items).
Proof.
  induction items as [|[[id raw] p] items IH]; intros g acc Hg Hok.
  - destruct g; [cbn [length] in Hg; lia|]. cbn [flat_map append_unknown_loop]. now rewrite app_nil_r.
  - destruct g as [|g0 g]; [cbn [length] in Hg; lia|]. cbn [length] in Hg.
    inversion Hok as [|? ? Hx Hok']; subst. destruct Hx as (Hid & Hlp & Hp).
    cbn [flat_map uentry_raw witem_bytes]. rewrite <- !app_assoc.
    rewrite append_unknown_loop_step by apply enc_tag_app_nonempty.
    rewrite dec_tag_enc by (auto using valid_id_num; lia).
    change (negb (2 =? 2)) with false. cbv iota.
    rewrite Hlp. rewrite firstn_consumed.
    rewrite IH by (auto; lia).
    f_equal. unfold gen_item, append_field_start, append_field_end, field_item, field_type_id, field_message.
    now rewrite <- !app_assoc.
Qed.

Lemma uentry_raw_length items : (length items <= length (flat_map uentry_raw items))%nat.
Proof. apply flat_map_length_ge. intros [[id raw] p]. apply enc_tag_app_nonempty. Qed.

Lemma append_unknown_items items :
  Forall witem_ok items ->
  append_unknown (flat_map uentry_raw items) = MOk (flat_map witem_bytes items).
Proof.
  intros Hok. unfold append_unknown.
  rewrite append_unknown_loop_items; [reflexivity| |exact Hok].
  cbn [length]. pose proof (uentry_raw_length items). lia.
Qed.

(* SizeUnknown agrees with AppendUnknown on EVERY unknown section: the length of
   the output when it succeeds, 0 when it reports invalid data. *)
Lemma item_frame_length num raw :
  valid_num num ->
  N.of_nat (length (append_field_start num ++ enc_tag field_message 2 ++ raw ++ append_field_end))
  = size_field num + size_tag field_message + N.of_nat (length raw).
Proof.
  intros Hn. unfold append_field_start, append_field_end, size_field, field_item, field_type_id, field_message.
  rewrite !app_length, !Nat2N.inj_add.
  rewrite (enc_varint_length num) by (unfold valid_num in Hn; change (2^64) with 18446744073709551616; lia).
  change (size_tag 1) with 1. change (size_tag 2) with 1. change (size_tag 3) with 1.
  change (length (enc_tag 1 3)) with 1%nat. change (length (enc_tag 2 0)) with 1%nat.
  change (length (enc_tag 3 2)) with 1%nat. change (length (enc_tag 1 4)) with 1%nat.
  lia.
Qed.

Lemma size_append_unknown_loop : forall g u n acc,
  match append_unknown_loop g u acc with
  | MOk bs => size_unknown_loop g u n + N.of_nat (length acc) = n + N.of_nat (length bs)
  | MErr _ => size_unknown_loop g u n = 0
  end.
Proof.
  induction g as [|g0 g IH]; intros u n acc; [reflexivity|].
  cbn [append_unknown_loop size_unknown_loop].
  destruct u as [|u0 u]; [lia|].
  destruct (dec_tag (u0 :: u)) as [[[num typ] r]|e] eqn:Et; [|reflexivity].
  destruct (negb (typ =? 2)); [reflexivity|].
  destruct (dec_bytes r) as [[m r']|e] eqn:Eb; [|reflexivity].
  apply dec_tag_sound in Et. destruct Et as (_ & _ & _ & _ & _ & Hn).
  specialize (IH r' (n + size_field num + size_tag field_message + N.of_nat (length r - length r'))
                 (acc ++ append_field_start num ++ enc_tag field_message 2 ++ firstn (length r - length r') r ++ append_field_end)).
  destruct (append_unknown_loop g r' _) as [bs|e]; [|exact IH].
  rewrite app_length in IH. rewrite Nat2N.inj_add in IH.
  rewrite (item_frame_length num _ Hn) in IH.
  apply dec_bytes_len in Eb.
  rewrite firstn_length in IH.
  replace (Nat.min (length r - length r') (length r)) with (length r - length r')%nat in IH by lia.
  lia.
Qed.

Theorem size_unknown_spec u :
  match append_unknown u with
  | MOk bs => size_unknown u = N.of_nat (length bs)
  | MErr _ => size_unknown u = 0
  end.
Proof.
  unfold append_unknown, size_unknown.
  pose proof (size_append_unknown_loop (x00 :: u) u 0 []) as H.
  destruct (append_unknown_loop (x00 :: u) u []); [|exact H]. cbn [length] in H. lia.
Qed.

Fixpoint sorted_ids (l : list (N * list byte)) : Prop :=
  match l with
  | [] => True
  | e :: r => Forall (fun x => fst e < fst x) r /\ sorted_ids r
  end.

Lemma ext_merge_snoc id p l :
  Forall (fun x => fst x < id) l -> ext_merge id p l = l ++ [(id, p)].
Proof.
  induction l as [|[i q] r IH]; intros H; [reflexivity|].
  inversion H; subst. cbn [fst] in *. cbn [ext_merge app].
  replace (id <? i) with false by lia. replace (id =? i) with false by lia.
  now rewrite IH.
Qed.

Definition ext_ok (kn : N -> bool) (pok : list byte -> bool) (e : N * list byte) : Prop :=
  valid_id (fst e) /\ kn (fst e) = true /\ pok (snd e) = true /\ N.of_nat (length (snd e)) < 2^64.
Definition unk_ok (kn : N -> bool) (e : witem) : Prop := witem_ok e /\ kn (fst (fst e)) = false.

Definition ext_witem (e : N * list byte) : witem := (fst e, enc_bytes (snd e), snd e).

Lemma encode_exts_witems l : encode_exts l = flat_map witem_bytes (map ext_witem l).
Proof.
  unfold encode_exts. induction l as [|[id p] r IH]; [reflexivity|].
  cbn [flat_map map ext_witem witem_bytes fst snd]. now rewrite IH, append_item_gen.
Qed.

Lemma ext_witem_ok kn pok e : ext_ok kn pok e -> witem_ok (ext_witem e).
Proof.
  destruct e as [id p]. unfold ext_ok, ext_witem, witem_ok. cbn [fst snd].
  intros (Hid & _ & _ & Hp). split; [exact Hid|]. split; [now apply lp_enc_bytes|exact Hp].
Qed.

(* folding the fast / slow callback over the extension items of a sorted list *)
Lemma fold_exts wl kn pok : forall todo done u,
  Forall (ext_ok kn pok) todo ->
  sorted_ids (done ++ todo) ->
  fold_items wl (if wl then fn_fast kn pok else fn_slow kn pok) (map ext_witem todo)
    {| m_ext := done; m_unknown := u |}
  = MOk {| m_ext := done ++ todo; m_unknown := u |}.
Proof.
  induction todo as [|[id p] todo IH]; intros done u Hok Hs.
  - cbn [map fold_items]. now rewrite app_nil_r.
  - inversion Hok as [|? ? Hx Hok']; subst. destruct Hx as (Hid & Hkn & Hpok & Hp). cbn [fst snd] in *.
    cbn [map fold_items ext_witem fst snd witem_val].
    assert (Hbelow : Forall (fun x => fst x < id) done).
    { clear -Hs. induction done as [|d done IHd]; [constructor|].
      cbn [app sorted_ids] in Hs. destruct Hs as [H1 H2]. constructor.
      - apply Forall_app in H1. destruct H1 as [_ H1]. apply Forall_inv in H1. exact H1.
      - apply IHd. exact H2. }
    assert (Hstep : forall v, (if wl then v = enc_bytes p else v = p) ->
       (if wl then fn_fast kn pok else fn_slow kn pok) id v {| m_ext := done; m_unknown := u |}
       = MOk {| m_ext := done ++ [(id, p)]; m_unknown := u |}).
    { intros v Hv. destruct wl; subst v.
      - unfold fn_fast. rewrite Hkn.
        rewrite <- (app_nil_r (enc_bytes p)), (proj1 (bytes_roundtrip p [] Hp)).
        rewrite Hpok. cbn [m_ext m_unknown]. now rewrite ext_merge_snoc.
      - unfold fn_slow. rewrite Hkn, Hpok. cbn [m_ext m_unknown]. now rewrite ext_merge_snoc. }
    rewrite Hstep by (destruct wl; reflexivity).
    rewrite IH; [|exact Hok'|now rewrite <- app_assoc].
    now rewrite <- app_assoc.
Qed.

Lemma fn_unknown (wl : bool) kn pok id raw p s :
  kn id = false ->
  (if wl then fn_fast kn pok else fn_slow kn pok) id (if wl then raw else p) s
  = MOk {| m_ext := m_ext s; m_unknown := m_unknown s ++ (if wl then uentry_raw else uentry_norm) (id, raw, p) |}.
Proof. intros H. destruct wl; [unfold fn_fast|unfold fn_slow]; rewrite H; reflexivity. Qed.

Lemma fold_unks (wl : bool) kn pok : forall items ext u,
  Forall (unk_ok kn) items ->
  fold_items wl (if wl then fn_fast kn pok else fn_slow kn pok) items {| m_ext := ext; m_unknown := u |}
  = MOk {| m_ext := ext; m_unknown := u ++ flat_map (if wl then uentry_raw else uentry_norm) items |}.
Proof.
  induction items as [|[[id raw] p] items IH]; intros ext u Hok.
  - cbn [fold_items flat_map]. now rewrite app_nil_r.
  - inversion Hok as [|? ? [Hw Hkn] Hok']; subst. cbn [fst] in Hkn.
    cbn [fold_items fst witem_val]. rewrite fn_unknown by exact Hkn. cbn [m_ext m_unknown].
    rewrite IH by exact Hok'. cbn [flat_map]. now rewrite <- !app_assoc.
Qed.

Lemma fold_items_app {S} wl (fn : N -> list byte -> S -> mres S) a b s :
  fold_items wl fn (a ++ b) s =
  match fold_items wl fn a s with MOk s' => fold_items wl fn b s' | MErr e => MErr e end.
Proof.
  revert s. induction a as [|x a IH]; intros s; [reflexivity|].
  cbn [app fold_items]. destruct (fn (fst (fst x)) (witem_val wl x) s); [apply IH|reflexivity].
Qed.

(* a MessageSet message as a decoder can produce it *)
Definition content_ok (kn : N -> bool) (pok : list byte -> bool) (exts : list (N * list byte)) (unks : list witem) : Prop :=
  Forall (ext_ok kn pok) exts /\ sorted_ids exts /\ Forall (unk_ok kn) unks.

Definition mk_mset (exts : list (N * list byte)) (unks : list witem) : mset :=
  {| m_ext := exts; m_unknown := flat_map uentry_raw unks |}.
Definition mk_mset_norm (exts : list (N * list byte)) (unks : list witem) : mset :=
  {| m_ext := exts; m_unknown := flat_map uentry_norm unks |}.

Definition content_bytes (exts : list (N * list byte)) (unks : list witem) : list byte :=
  flat_map witem_bytes (map ext_witem exts ++ unks).

Theorem encode_content kn pok exts unks :
  content_ok kn pok exts unks ->
  encode (mk_mset exts unks) = MOk (content_bytes exts unks).
Proof.
  intros (He & Hs & Hu). unfold encode, mk_mset, content_bytes. cbn [m_ext m_unknown].
  rewrite append_unknown_items.
  - now rewrite encode_exts_witems, flat_map_app.
  - eapply Forall_impl; [|exact Hu]. now intros a [H _].
Qed.

Lemma content_items_ok kn pok exts unks :
  content_ok kn pok exts unks -> Forall witem_ok (map ext_witem exts ++ unks).
Proof.
  intros (He & Hs & Hu). apply Forall_app. split.
  - apply Forall_map. eapply Forall_impl; [|exact He]. intros a. apply ext_witem_ok.
  - eapply Forall_impl; [|exact Hu]. now intros a [H _].
Qed.

Lemma decode_content (wl : bool) kn pok exts unks :
  content_ok kn pok exts unks ->
  unmarshal wl (if wl then fn_fast kn pok else fn_slow kn pok) (content_bytes exts unks) mset_empty
  = MOk {| m_ext := exts; m_unknown := flat_map (if wl then uentry_raw else uentry_norm) unks |}.
Proof.
  intros Hc. pose proof (content_items_ok _ _ _ _ Hc) as Hok. destruct Hc as (He & Hs & Hu).
  unfold content_bytes. rewrite unmarshal_items by exact Hok.
  rewrite fold_items_app. unfold mset_empty.
  rewrite (fold_exts wl kn pok exts [] []) by assumption.
  cbn [app]. now rewrite fold_unks by exact Hu.
Qed.

Theorem decode_fast_content kn pok exts unks :
  content_ok kn pok exts unks ->
  decode_fast kn pok (content_bytes exts unks) mset_empty = MOk (mk_mset exts unks).
Proof. exact (decode_content true kn pok exts unks). Qed.

Theorem decode_slow_content kn pok exts unks :
  content_ok kn pok exts unks ->
  decode_slow kn pok (content_bytes exts unks) mset_empty = MOk (mk_mset_norm exts unks).
Proof. exact (decode_content false kn pok exts unks). Qed.

(* canonical unknown items: minimal length prefixes; then raw = normalised *)
Definition canon (e : witem) : Prop := let '(_, raw, p) := e in raw = enc_bytes p.

Lemma canon_raw_norm unks : Forall canon unks -> flat_map uentry_raw unks = flat_map uentry_norm unks.
Proof.
  induction 1 as [|[[id raw] p] r Hc _ IH]; [reflexivity|].
  cbn [flat_map uentry_raw uentry_norm]. unfold canon in Hc. subst raw. unfold unknown_entry.
  now rewrite IH.
Qed.

Lemma append_item_length id p :
  valid_id id -> N.of_nat (length p) < 2^64 ->
  N.of_nat (length (append_item id p)) = size_item id (N.of_nat (length p)).
Proof.
  intros Hid Hp. unfold append_item, size_item, size_bytes.
  rewrite (item_frame_length id (enc_bytes p)) by (now apply valid_id_num).
  unfold enc_bytes. rewrite app_length, Nat2N.inj_add.
  rewrite enc_varint_length by exact Hp. lia.
Qed.

Lemma encode_exts_length l :
  Forall (fun e => valid_id (fst e) /\ N.of_nat (length (snd e)) < 2^64) l ->
  N.of_nat (length (encode_exts l)) = size_exts l.
Proof.
  unfold encode_exts, size_exts.
  induction 1 as [|[id p] r [Hid Hp] _ IH]; [reflexivity|].
  cbn [flat_map fold_right fst snd] in *. rewrite app_length, Nat2N.inj_add.
  rewrite append_item_length by assumption. now rewrite IH.
Qed.

Theorem size_eq_length m bs :
  Forall (fun e => valid_id (fst e) /\ N.of_nat (length (snd e)) < 2^64) (m_ext m) ->
  encode m = MOk bs -> size m = N.of_nat (length bs).
Proof.
  intros He. unfold encode, size.
  pose proof (size_unknown_spec (m_unknown m)) as Hu.
  destruct (append_unknown (m_unknown m)) as [u|e]; [|discriminate].
  intros H; inversion H; subst.
  rewrite app_length, Nat2N.inj_add, encode_exts_length by exact He. now rewrite Hu.
Qed.

(* marshal: the two paths write the same bytes and compute the same size *)
Theorem encode_fast_slow m : encode_slow m = encode m.
Proof.
  unfold encode_slow, encode, encode_exts.
  destruct (append_unknown (m_unknown m)); [|reflexivity].
  f_equal. f_equal. apply flat_map_ext. intros [id p].
  unfold append_item_slow, append_item, enc_bytes. cbn [fst snd]. now rewrite <- !app_assoc.
Qed.

Theorem size_fast_slow m : size_slow m = size m.
Proof.
  unfold size_slow, size, size_exts, size_item. reflexivity.
Qed.

(* unmarshal: same acceptance, same error, same extensions; the unknown
   sections hold the same items in the same order and differ at most in the
   spelling of a length prefix (the fast path keeps the bytes of a single
   message chunk as they were, the slow path re-encodes the length) *)
Inductive unk_rel : list byte -> list byte -> Prop :=
| unk_refl u : unk_rel u u
| unk_snoc u nu id v p : unk_rel u nu -> lp v p ->
    unk_rel (u ++ enc_tag id 2 ++ v) (nu ++ unknown_entry id p).

Definition st_rel (f s : mset) : Prop := m_ext f = m_ext s /\ unk_rel (m_unknown f) (m_unknown s).

Lemma unmarshal_loop_sim {S T : Type} (R : S -> T -> Prop)
    (fn_t : N -> list byte -> S -> mres S) (fn_f : N -> list byte -> T -> mres T) :
  (forall id v p s t, R s t -> lp v p -> valid_id id ->
     match fn_f id p t with
     | MOk t' => exists s', fn_t id v s = MOk s' /\ R s' t'
     | MErr e => fn_t id v s = MErr e /\ e <> MFuel /\ e <> MImpossible
     end) ->
  forall g bs s t, (length bs < length g)%nat -> N.of_nat (length bs) < 2^64 -> R s t ->
  match unmarshal_loop false fn_f g bs t with
  | MOk t' => exists s', unmarshal_loop true fn_t g bs s = MOk s' /\ R s' t'
  | MErr e => unmarshal_loop true fn_t g bs s = MErr e /\ e <> MFuel /\ e <> MImpossible
  end.
Proof.
  intros Hfn. induction g as [|g0 g IH]; intros bs s t Hg Hlen HR; [cbn [length] in Hg; lia|].
  cbn [length] in Hg. cbn [unmarshal_loop].
  destruct bs as [|b0 bs']; [exists s; auto|].
  set (bs := b0 :: bs') in *.
  destruct (dec_tag bs) as [[[num typ] r]|e] eqn:Et; [|split; [reflexivity|split; discriminate]].
  pose proof (dec_tag_len _ _ _ _ Et) as Hr.
  destruct ((num =? field_item) && (typ =? 3)).
  - pose proof (consume_item_sim r ltac:(lia)) as Hsim.
    destruct (consume_item false r) as [[[id p] r']|e].
    + destruct Hsim as (v & Hv & Hlp & Hid & Hr'). rewrite Hv.
      destruct (id =? 0) eqn:E0.
      * apply IH; [lia|lia|exact HR].
      * assert (Hvid : valid_id id) by (unfold valid_id; lia).
        specialize (Hfn id v p s t HR Hlp Hvid).
        destruct (fn_f id p t) as [t'|e].
        -- destruct Hfn as (s' & Hs' & HR'). rewrite Hs'. apply IH; [lia|lia|exact HR'].
        -- destruct Hfn as (Hs' & Hne). rewrite Hs'. auto.
    + destruct Hsim as (Hv & Hne). rewrite Hv. auto.
  - destruct (parse_val default_dep num typ r) as [[v0 r']|e] eqn:Ep; [|split; [reflexivity|split; discriminate]].
    pose proof (parse_val_len _ _ _ _ _ _ Ep) as Hr'.
    apply IH; [lia|lia|exact HR].
Qed.

Lemma fn_fast_slow_sim kn pok id v p s t :
  st_rel s t -> lp v p -> valid_id id ->
  match fn_slow kn pok id p t with
  | MOk t' => exists s', fn_fast kn pok id v s = MOk s' /\ st_rel s' t'
  | MErr e => fn_fast kn pok id v s = MErr e /\ e <> MFuel /\ e <> MImpossible
  end.
Proof.
  intros [He Hu] Hlp Hid. unfold fn_slow, fn_fast.
  destruct (kn id).
  - pose proof (Hlp []) as Hd. rewrite app_nil_r in Hd. rewrite Hd.
    destruct (pok p).
    + eexists. split; [reflexivity|]. split; cbn [m_ext m_unknown]; [now rewrite He|exact Hu].
    + split; [reflexivity|split; discriminate].
  - eexists. split; [reflexivity|]. split; cbn [m_ext m_unknown]; [exact He|].
    now apply unk_snoc.
Qed.

Theorem decode_fast_slow_agree kn pok bs s :
  N.of_nat (length bs) < 2^64 ->
  match decode_slow kn pok bs s with
  | MOk t' => exists s', decode_fast kn pok bs s = MOk s' /\ st_rel s' t'
  | MErr e => decode_fast kn pok bs s = MErr e /\ e <> MFuel /\ e <> MImpossible
  end.
Proof.
  intros Hlen. unfold decode_slow, decode_fast, unmarshal.
  apply (unmarshal_loop_sim st_rel (fn_fast kn pok) (fn_slow kn pok)).
  - intros. now apply fn_fast_slow_sim.
  - cbn [length]. lia.
  - exact Hlen.
  - split; [reflexivity|apply unk_refl].
Qed.

(* fuel is never exhausted (the loops of the model are total on every input a Go slice can hold) *)
Corollary decode_no_fuel kn pok bs s :
  N.of_nat (length bs) < 2^64 ->
  decode_slow kn pok bs s <> MErr MFuel /\ decode_fast kn pok bs s <> MErr MFuel
  /\ decode_fast kn pok bs s <> MErr MImpossible.
Proof.
  intros Hlen. pose proof (decode_fast_slow_agree kn pok bs s Hlen) as H.
  destruct (decode_slow kn pok bs s) as [t'|e].
  - destruct H as (s' & -> & _). repeat split; discriminate.
  - destruct H as (-> & H1 & H2). repeat split; congruence.
Qed.

Theorem item_roundtrip wl id p rest :
  valid_id id -> N.of_nat (length p) < 2^64 ->
  exists body,
    dec_tag (append_item id p ++ rest) = Ok (1, 3, body) /\
    consume_item wl body = MOk (id, if wl then enc_bytes p else p, rest).
Proof.
  intros Hid Hp. exists (item_body id p ++ rest). split.
  - rewrite append_item_body, <- app_assoc. apply dec_tag_enc; [unfold num_ok|]; lia.
  - now apply item_body_roundtrip.
Qed.

Theorem mset_unknown_preserved kn pok exts unks :
  content_ok kn pok exts unks ->
  exists bs, encode (mk_mset exts unks) = MOk bs /\
             decode_fast kn pok bs mset_empty = MOk (mk_mset exts unks) /\
             decode_slow kn pok bs mset_empty = MOk (mk_mset_norm exts unks).
Proof.
  intros Hc. exists (content_bytes exts unks).
  split; [now apply (encode_content kn pok)|]. split; [now apply decode_fast_content|now apply decode_slow_content].
Qed.

Theorem mset_roundtrip kn pok exts unks :
  content_ok kn pok exts unks -> Forall canon unks ->
  exists bs, encode (mk_mset exts unks) = MOk bs /\
             decode_fast kn pok bs mset_empty = MOk (mk_mset exts unks) /\
             decode_slow kn pok bs mset_empty = MOk (mk_mset exts unks).
Proof.
  intros Hc Hcan. destruct (mset_unknown_preserved kn pok exts unks Hc) as (bs & He & Hf & Hs).
  exists bs. split; [exact He|]. split; [exact Hf|].
  rewrite Hs. unfold mk_mset, mk_mset_norm. now rewrite canon_raw_norm.
Qed.

(* FJ1: on an unresolved item whose length prefix is not minimal the two paths
   store different unknown bytes (equal content, different spelling) *)
Definition fj1_witness : list byte :=
  [x0b; x10; x88; x27; x1a; x82; x00; xaa; xbb; x0c].
Theorem fast_slow_unknown_differ :
  exists f s, decode_fast (fun _ => false) (fun _ => true) fj1_witness mset_empty = MOk f /\
              decode_slow (fun _ => false) (fun _ => true) fj1_witness mset_empty = MOk s /\
              m_unknown f <> m_unknown s.
Proof.
  eexists. eexists. split; [vm_compute; reflexivity|]. split; [vm_compute; reflexivity|].
  cbn [m_unknown]. discriminate.
Qed.

(* a length-delimited spelling with an arbitrary (possibly non-minimal) length varint *)
Lemma lp_of_prefix pre p :
  (forall y, dec_varint (pre ++ y) = Ok (N.of_nat (length p), y)) -> lp (pre ++ p) p.
Proof.
  intros H y. unfold dec_bytes. rewrite <- app_assoc, H. rewrite app_length.
  replace (N.of_nat (length p + length y) <? N.of_nat (length p)) with false by lia.
  rewrite Nat2N.id, take_app. reflexivity.
Qed.

Lemma encode_size_fast_slow m : encode_slow m = encode m /\ size_slow m = size m.
Proof. split; [apply encode_fast_slow|apply size_fast_slow]. Qed.
