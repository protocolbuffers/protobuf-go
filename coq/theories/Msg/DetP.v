(* DetP — proofs for C05 (deterministic marshaling is a function of message content).

   1. the key order of deterministic marshaling is a strict total order on each key kind
      (and [det_kcmp] on all scalars);
   2. a list sorted with respect to a strict order is determined by its elements
      ([det_sorted_unique]): whatever correct sorting routine Go's sort.Slice is, it returns this list;
   3. insertion sort computes it ([det_sort_perm_eq]: permuting the input does not change the output,
      provided the keys are pairwise distinct).
   Msg/DetHistP.v draws the consequences for the encoder. *)
From Coq Require Import List Arith NArith ZArith Lia Bool Permutation Sorting.Sorted.
From Coq Require Import ZifyBool ZifyNat ZifyN.
From PB Require Import Base.PBytes Base.PBytesP Base.ListP Wire.WireModel.
From PB Require Import Msg.MsgSchema Msg.MsgValue Msg.MsgEnc Msg.MsgDec.
From PB Require Import Msg.DetModel.
Import ListNotations.
Open Scope N_scope.

Lemma det_bytes_cmp_refl a : msg_bytes_cmp a a = Eq.
Proof. induction a as [|x a IH]; cbn [msg_bytes_cmp]; [reflexivity|]. now rewrite N.compare_refl. Qed.

Lemma det_bytes_cmp_eq a : forall b, msg_bytes_cmp a b = Eq -> a = b.
Proof.
  induction a as [|x a IH]; intros [|y b]; cbn [msg_bytes_cmp]; try discriminate; [reflexivity|].
  destruct (b2n x ?= b2n y) eqn:E; try discriminate.
  intros H. apply N.compare_eq in E. apply b2n_inj in E. subst. f_equal. now apply IH.
Qed.

Lemma det_bytes_cmp_antisym a : forall b, msg_bytes_cmp b a = CompOpp (msg_bytes_cmp a b).
Proof.
  induction a as [|x a IH]; intros [|y b]; cbn [msg_bytes_cmp CompOpp]; try reflexivity.
  rewrite (N.compare_antisym (b2n x) (b2n y)).
  destruct (b2n x ?= b2n y); cbn [CompOpp]; [apply IH|reflexivity|reflexivity].
Qed.

Lemma det_bytes_cmp_trans a : forall b c,
  msg_bytes_cmp a b = Lt -> msg_bytes_cmp b c = Lt -> msg_bytes_cmp a c = Lt.
Proof.
  induction a as [|x a IH]; intros [|y b] [|z c]; cbn [msg_bytes_cmp]; try discriminate; try reflexivity.
  destruct (b2n x ?= b2n y) eqn:E1; try discriminate;
  destruct (b2n y ?= b2n z) eqn:E2; try discriminate; intros H1 H2.
  - apply N.compare_eq in E1, E2. rewrite E1, E2, N.compare_refl. eapply IH; eassumption.
  - apply N.compare_eq in E1. now rewrite E1, E2.
  - apply N.compare_eq in E2. now rewrite <- E2, E1.
  - rewrite N.compare_lt_iff in E1, E2. assert (b2n x < b2n z) as H by lia.
    apply N.compare_lt_iff in H. now rewrite H.
Qed.

(* [msg_scmp] restricted to one key kind *)
Definition det_same_kind (a b : scalar) : Prop := det_tag a = det_tag b.

Lemma det_scmp_refl a : msg_scmp a a = Eq.
Proof.
  destruct a as [z|n|[|]|bs]; cbn [msg_scmp]; try reflexivity.
  - apply Z.compare_refl. - apply N.compare_refl. - apply det_bytes_cmp_refl.
Qed.

Lemma det_scmp_eq a b : det_same_kind a b -> msg_scmp a b = Eq -> a = b.
Proof.
  unfold det_same_kind.
  destruct a as [x|x|x|x], b as [y|y|y|y]; cbn [det_tag msg_scmp]; try discriminate; intros _ H.
  - apply Z.compare_eq in H. now subst.
  - apply N.compare_eq in H. now subst.
  - destruct x, y; try discriminate; reflexivity.
  - apply det_bytes_cmp_eq in H. now subst.
Qed.

Lemma det_scmp_antisym a b : msg_scmp b a = CompOpp (msg_scmp a b).
Proof.
  destruct a as [x|x|x|x], b as [y|y|y|y]; cbn [msg_scmp CompOpp]; try reflexivity.
  - apply Z.compare_antisym. - apply N.compare_antisym.
  - destruct x, y; reflexivity. - apply det_bytes_cmp_antisym.
Qed.

Lemma det_scmp_trans a b c :
  det_same_kind a b -> det_same_kind b c ->
  msg_scmp a b = Lt -> msg_scmp b c = Lt -> msg_scmp a c = Lt.
Proof.
  unfold det_same_kind.
  destruct a as [x|x|x|x], b as [y|y|y|y], c as [z|z|z|z]; cbn [det_tag msg_scmp]; try discriminate; intros _ _.
  - rewrite !Z.compare_lt_iff. lia.
  - rewrite !N.compare_lt_iff. lia.
  - destruct x, y, z; try discriminate; reflexivity.
  - apply det_bytes_cmp_trans.
Qed.

(* the total order on all scalars *)
Lemma det_kcmp_refl a : det_kcmp a a = Eq.
Proof. unfold det_kcmp. rewrite N.compare_refl. apply det_scmp_refl. Qed.

Lemma det_kcmp_eq a b : det_kcmp a b = Eq -> a = b.
Proof.
  unfold det_kcmp. destruct (det_tag a ?= det_tag b) eqn:E; try discriminate.
  apply N.compare_eq in E. now apply det_scmp_eq.
Qed.

Lemma det_kcmp_antisym a b : det_kcmp b a = CompOpp (det_kcmp a b).
Proof.
  unfold det_kcmp. rewrite (N.compare_antisym (det_tag a) (det_tag b)).
  destruct (det_tag a ?= det_tag b); cbn [CompOpp]; [apply det_scmp_antisym|reflexivity|reflexivity].
Qed.

Lemma det_kcmp_trans a b c : det_kcmp a b = Lt -> det_kcmp b c = Lt -> det_kcmp a c = Lt.
Proof.
  unfold det_kcmp.
  destruct (det_tag a ?= det_tag b) eqn:E1; try discriminate;
  destruct (det_tag b ?= det_tag c) eqn:E2; try discriminate; intros H1 H2.
  - pose proof E1 as E1'. pose proof E2 as E2'. apply N.compare_eq in E1', E2'.
    replace (det_tag a ?= det_tag c) with Eq by (symmetry; rewrite E1', E2'; apply N.compare_refl).
    eapply det_scmp_trans; eassumption.
  - apply N.compare_eq in E1. now rewrite E1, E2.
  - apply N.compare_eq in E2. now rewrite <- E2, E1.
  - rewrite N.compare_lt_iff in E1, E2. assert (det_tag a < det_tag c) as H by lia.
    apply N.compare_lt_iff in H. now rewrite H.
Qed.

Lemma det_kcmp_same_kind a b : det_same_kind a b -> det_kcmp a b = msg_scmp a b.
Proof. unfold det_same_kind, det_kcmp. intros ->. now rewrite N.compare_refl. Qed.

Lemma det_key_eqb_eq a b : det_key_eqb a b = true <-> a = b.
Proof.
  unfold det_key_eqb. split.
  - destruct (det_kcmp a b) eqn:E; try discriminate. intros _. now apply det_kcmp_eq.
  - intros ->. now rewrite det_kcmp_refl.
Qed.

(* strict total order, stated for a comparison function on a carrier [P] *)
Definition det_strict_total {A} (P : A -> Prop) (cmp : A -> A -> comparison) : Prop :=
  (forall a, P a -> cmp a a = Eq) /\
  (forall a b, P a -> P b -> cmp a b = Eq -> a = b) /\
  (forall a b, P a -> P b -> cmp b a = CompOpp (cmp a b)) /\
  (forall a b c, P a -> P b -> P c -> cmp a b = Lt -> cmp b c = Lt -> cmp a c = Lt).

Lemma det_scmp_strict_total (P : scalar -> Prop) (t : N) :
  (forall s, P s -> det_tag s = t) -> det_strict_total P msg_scmp.
Proof.
  intros HP. split; [|split; [|split]].
  - intros a _. apply det_scmp_refl.
  - intros a b Ha Hb. apply det_scmp_eq. unfold det_same_kind. now rewrite (HP _ Ha), (HP _ Hb).
  - intros a b _ _. apply det_scmp_antisym.
  - intros a b c Ha Hb Hc. apply det_scmp_trans; unfold det_same_kind.
    + now rewrite (HP _ Ha), (HP _ Hb).
    + now rewrite (HP _ Hb), (HP _ Hc).
Qed.

Lemma det_key_order_strict_total :
  det_strict_total (fun s => exists b, s = SB b) msg_scmp /\
  det_strict_total (fun s => exists z, s = SZ z) msg_scmp /\
  det_strict_total (fun s => exists n, s = SN n) msg_scmp /\
  det_strict_total (fun s => exists bs, s = SBy bs) msg_scmp /\
  det_strict_total (fun _ => True) det_kcmp.
Proof.
  split; [|split; [|split; [|split]]].
  - apply (det_scmp_strict_total _ 0). intros s [x ->]. reflexivity.
  - apply (det_scmp_strict_total _ 1). intros s [x ->]. reflexivity.
  - apply (det_scmp_strict_total _ 2). intros s [x ->]. reflexivity.
  - apply (det_scmp_strict_total _ 3). intros s [x ->]. reflexivity.
  - split; [|split; [|split]].
    + intros a _. apply det_kcmp_refl.
    + intros a b _ _. apply det_kcmp_eq.
    + intros a b _ _. apply det_kcmp_antisym.
    + intros a b c _ _ _. apply det_kcmp_trans.
Qed.

Section SortUnique.
  Context {A : Type} (lt : A -> A -> Prop).

  (* a sorted (w.r.t. a strict order) permutation of a list is unique: the only assumption made
     about Go's sort.Slice is that it returns a sorted permutation of its input.  The order need
     only be strict on the carrier [ok] of the elements *)
  Lemma det_sorted_unique_ok (ok : A -> Prop) :
    (forall a b, ok a -> ok b -> lt a b -> lt b a -> False) ->
    forall l1 l2, Forall ok l1 -> StronglySorted lt l1 -> StronglySorted lt l2 -> Permutation l1 l2 -> l1 = l2.
  Proof.
    intros lt_asym. induction l1 as [|a l1 IH]; intros l2 O1 S1 S2 P.
    - apply Permutation_nil in P. now subst.
    - destruct l2 as [|b l2]; [apply Permutation_sym, Permutation_nil in P; discriminate|].
      inversion S1 as [|? ? S1' F1]; subst. inversion S2 as [|? ? S2' F2]; subst.
      inversion O1 as [|? ? Oa Ol]; subst.
      assert (a = b) as ->.
      { assert (In a (b :: l2)) as Ha by (eapply Permutation_in; [exact P|now left]).
        assert (In b (a :: l1)) as Hb by (eapply Permutation_in; [apply Permutation_sym; exact P|now left]).
        destruct Ha as [->|Ha]; [reflexivity|]. destruct Hb as [->|Hb]; [reflexivity|].
        rewrite Forall_forall in F1, F2, Ol. exfalso.
        eapply (lt_asym a b); [exact Oa|now apply Ol|apply F1; exact Hb|apply F2; exact Ha]. }
      f_equal. apply IH; try assumption. eapply Permutation_cons_inv; exact P.
  Qed.

  Hypothesis lt_asym : forall a b, lt a b -> lt b a -> False.

  Lemma det_sorted_unique : forall l1 l2,
    StronglySorted lt l1 -> StronglySorted lt l2 -> Permutation l1 l2 -> l1 = l2.
  Proof.
    intros l1 l2. apply (det_sorted_unique_ok (fun _ => True)).
    - intros a b _ _. apply lt_asym.
    - apply Forall_forall. trivial.
  Qed.
End SortUnique.

Section SortP.
  Context {A : Type} (ltb : A -> A -> bool).
  Let lt a b := ltb a b = true.
  (* the elements being sorted are pairwise comparable: distinct keys *)
  Variable ok : A -> Prop.
  Hypothesis lt_trans : forall a b c, ok a -> ok b -> ok c -> lt a b -> lt b c -> lt a c.
  Hypothesis lt_asym : forall a b, ok a -> ok b -> lt a b -> lt b a -> False.

  Lemma det_insert_perm x l : Permutation (det_insert ltb x l) (x :: l).
  Proof.
    induction l as [|y r IH]; cbn [det_insert]; [reflexivity|].
    destruct (ltb y x); [|reflexivity].
    rewrite IH. apply perm_swap.
  Qed.

  Lemma det_sort_perm l : Permutation (det_sort ltb l) l.
  Proof.
    induction l as [|x r IH]; cbn [det_sort]; [reflexivity|].
    rewrite det_insert_perm. now constructor.
  Qed.

  (* x is comparable with every element of l, in one direction or the other *)
  Definition det_total_with (x : A) (l : list A) : Prop := forall y, In y l -> lt x y \/ lt y x.

  Lemma det_insert_sorted x l :
    ok x -> Forall ok l -> det_total_with x l ->
    StronglySorted lt l -> StronglySorted lt (det_insert ltb x l).
  Proof.
    intros Hx Hok Ht S. induction S as [|y r S IH F]; cbn [det_insert].
    - constructor; constructor.
    - inversion Hok as [|? ? Hy Hr]; subst.
      destruct (ltb y x) eqn:E.
      + constructor.
        * apply IH; [assumption|]. intros z Hz. apply Ht. now right.
        * rewrite Forall_forall. intros z Hz.
          apply (Permutation_in _ (det_insert_perm x r)) in Hz. destruct Hz as [<-|Hz]; [exact E|].
          rewrite Forall_forall in F. now apply F.
      + constructor; [constructor; assumption|].
        assert (lt x y) as Hxy.
        { destruct (Ht y (or_introl eq_refl)) as [H|H]; [exact H|]. unfold lt in H. congruence. }
        constructor; [exact Hxy|].
        rewrite Forall_forall in F |- *. intros z Hz.
        rewrite Forall_forall in Hr. eapply lt_trans; [exact Hx|exact Hy|now apply Hr|exact Hxy|now apply F].
  Qed.

  Fixpoint det_pairwise (l : list A) : Prop :=
    match l with
    | [] => True
    | x :: r => det_total_with x r /\ det_pairwise r
    end.

  Lemma det_total_with_perm x l l' : Permutation l l' -> det_total_with x l -> det_total_with x l'.
  Proof. intros P H y Hy. apply H. eapply Permutation_in; [apply Permutation_sym; exact P|exact Hy]. Qed.

  Lemma det_sort_sorted l : Forall ok l -> det_pairwise l -> StronglySorted lt (det_sort ltb l).
  Proof.
    induction l as [|x r IH]; cbn [det_sort det_pairwise]; intros Hok Hp; [constructor|].
    inversion Hok as [|? ? Hokx Hokr]; subst. destruct Hp as [Ht Hp].
    apply det_insert_sorted; try assumption.
    - rewrite Forall_forall in *. intros y Hy. apply Hokr. eapply Permutation_in; [apply det_sort_perm|exact Hy].
    - eapply det_total_with_perm; [apply Permutation_sym, det_sort_perm|exact Ht].
    - now apply IH.
  Qed.

  Lemma det_pairwise_perm l l' : Permutation l l' -> det_pairwise l -> det_pairwise l'.
  Proof.
    induction 1 as [|x l l' P IH|x y l|l l' l'' P1 IH1 P2 IH2]; cbn [det_pairwise]; intros H.
    - exact I.
    - destruct H as [H1 H2]. split; [eapply det_total_with_perm; eassumption|now apply IH].
    - destruct H as [Hy [Hx Hl]]. repeat split.
      + intros z [<-|Hz]; [|apply Hx; exact Hz].
        destruct (Hy x (or_introl eq_refl)) as [H|H]; [now right|now left].
      + intros z Hz. apply Hy. now right.
      + exact Hl.
    - auto.
  Qed.

  (* permuting the input of the sort does not change its output *)
  Lemma det_sort_perm_eq l l' :
    Forall ok l -> det_pairwise l -> Permutation l l' -> det_sort ltb l = det_sort ltb l'.
  Proof.
    intros Hok Hp P.
    assert (Forall ok l') as Hok' by (rewrite Forall_forall in *; intros y Hy; apply Hok; eapply Permutation_in; [apply Permutation_sym; exact P|exact Hy]).
    apply (det_sorted_unique_ok lt ok lt_asym).
    - rewrite Forall_forall in *. intros y Hy. apply Hok. eapply Permutation_in; [apply det_sort_perm|exact Hy].
    - now apply det_sort_sorted.
    - apply det_sort_sorted; [exact Hok'|]. eapply det_pairwise_perm; eassumption.
    - rewrite det_sort_perm, det_sort_perm. exact P.
  Qed.
End SortP.
