(* ReflectFlavP — all representations of one message agree (C29): corollaries of the refinement
   theorems of Msg/ReflectCellP.v and of the codecs being functions of the abstract message. *)
From Coq Require Import List NArith ZArith Bool.
From PB Require Import Base.PBytes Wire.WireModel Msg.MsgSchema Msg.MsgValue Msg.MsgEnc.
From PB Require Import Msg.ReflectModel Msg.ReflectP Msg.ReflectCellModel Msg.ReflectCellP.
Import ListNotations.
Open Scope N_scope.

Section TwoRepresentations.
  Variables (cellA cellB : Type) (opsA : cellops cellA) (opsB : cellops cellB).
  Variables (invA : fdesc -> cellA -> Prop) (invB : fdesc -> cellB -> Prop).
  Hypothesis LA : celllaws cellA opsA invA.
  Hypothesis LB : celllaws cellB opsB invB.
  Variable S : schema.
  Variable D : rdefs.
  Let md := nth O S [].
  (* the abstract message a concrete state stands for; the statements below (and C29) are written
     with these two abbreviations *)
  Notation absA st := (refl_val_of (cm_abs cellA opsA md st)).
  Notation absB st := (refl_val_of (cm_abs cellB opsB md st)).

  (* same content now: same deterministic bytes, same size, same value of every function of the
     abstract message (the JSON and text encoders of the codec models are such functions) *)
  Theorem same_abstraction_same_encodings : forall (a : cmsg cellA) (b : cmsg cellB),
    absA a = absB b ->
    msg_encode S O (absA a) = msg_encode S O (absB b) /\
    msg_size_body S O (absA a) = msg_size_body S O (absB b) /\
    forall (X : Type) (F : value -> X), F (absA a) = F (absB b).
  Proof. intros a b E. rewrite E. repeat split. Qed.

  (* the same history on two representations of the same content: same results of every
     operation, same content afterwards *)
  Theorem flavours_agree_along_histories : forall steps (a : cmsg cellA) (b : cmsg cellB),
    md_ok md -> CInv cellA invA md (cm_cells a) -> CInv cellB invB md (cm_cells b) ->
    absA a = absB b ->
    absA (fst (cm_run cellA opsA S D a steps)) = absB (fst (cm_run cellB opsB S D b steps)) /\
    snd (cm_run cellA opsA S D a steps) = snd (cm_run cellB opsB S D b steps).
  Proof.
    intros steps a b Hok Ha Hb E.
    destruct (cm_run_refines cellA opsA invA LA md S D steps a eq_refl Hok Ha) as [A1 [A2 _]].
    destruct (cm_run_refines cellB opsB invB LB md S D steps b eq_refl Hok Hb) as [B1 [B2 _]].
    rewrite A1, B1, A2, B2, E. auto.
  Qed.

  Theorem flavours_agree : forall steps (a : cmsg cellA) (b : cmsg cellB),
    md_ok md -> CInv cellA invA md (cm_cells a) -> CInv cellB invB md (cm_cells b) ->
    absA a = absB b ->
    let a' := fst (cm_run cellA opsA S D a steps) in
    let b' := fst (cm_run cellB opsB S D b steps) in
    msg_encode S O (absA a') = msg_encode S O (absB b') /\
    msg_size_body S O (absA a') = msg_size_body S O (absB b') /\
    (forall (X : Type) (F : value -> X), F (absA a') = F (absB b')) /\
    snd (cm_run cellA opsA S D a steps) = snd (cm_run cellB opsB S D b steps).
  Proof.
    intros steps a b Hok Ha Hb E a' b'.
    destruct (flavours_agree_along_histories steps a b Hok Ha Hb E) as [E' O'].
    destruct (same_abstraction_same_encodings a' b' E') as [P1 [P2 P3]]. auto.
  Qed.
End TwoRepresentations.

(* dynamicpb and opaque generated messages built by the same calls from empty messages *)
Theorem dynamic_and_opaque_agree : forall (S : schema) (D : rdefs) (steps : list rstep),
  md_ok (nth O S []) ->
  let a' := fst (cm_run dyncell dyn_ops S D (mkCM [] []) steps) in
  let b' := fst (cm_run ocell opq_ops S D (mkCM [] []) steps) in
  msg_encode S O (refl_val_of (cm_abs dyncell dyn_ops (nth O S []) a')) =
  msg_encode S O (refl_val_of (cm_abs ocell opq_ops (nth O S []) b')) /\
  snd (cm_run dyncell dyn_ops S D (mkCM [] []) steps) = snd (cm_run ocell opq_ops S D (mkCM [] []) steps).
Proof.
  intros S D steps Hok a' b'.
  destruct (flavours_agree dyncell ocell dyn_ops opq_ops dyn_inv opq_inv dyn_laws opq_laws S D steps
              (mkCM [] []) (mkCM [] []) Hok) as [P1 [_ [_ P4]]]; auto.
  - apply (cinv_empty S).
  - apply (cinv_empty S).
Qed.
