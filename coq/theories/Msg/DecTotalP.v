(* DecTotalP — the binary decoder of Msg/MsgDec.v (both paths) is total and never reads beyond
   its input:
     - it never runs out of fuel ([DFuel], which also stands for the slice-bounds panic of the
       reflection path's ConsumeGroup post-processing),
     - on a well-formed schema table it never reports [DSchema] (a dangling type index, a wire
       value that does not fit the kind it was parsed for),
     - what it leaves unread is a suffix of what it was given. *)
From Coq Require Import List Arith NArith ZArith Lia Bool.
From Coq Require Import ZifyBool ZifyNat ZifyN.
From PB Require Import Base.PBytes Wire.WireModel Wire.VarintP Wire.ScanP.
From PB Require Import Msg.MsgSchema Msg.MsgValue Msg.MsgUtf8 Msg.MsgDec Msg.MsgDecP.
Import ListNotations.
Open Scope N_scope.

Definition dt_schema_wf (S : schema) : Prop :=
  forall md fd, In md S -> In fd md ->
    match f_kind fd with KMsg t | KGrp t => nth_error S t <> None | KS _ => True end.

Definition dt_suffix (r bs : list byte) : Prop := exists p, bs = p ++ r.
Lemma dt_suffix_refl bs : dt_suffix bs bs. Proof. exists []. reflexivity. Qed.
Lemma dt_suffix_trans a b c : dt_suffix a b -> dt_suffix b c -> dt_suffix a c.
Proof. intros (p & ->) (q & ->). exists (q ++ p). now rewrite app_assoc. Qed.
Lemma dt_suffix_len r bs : dt_suffix r bs -> (length r <= length bs)%nat.
Proof. intros (p & ->). rewrite app_length. lia. Qed.

Lemma dt_dec_tag_suffix bs num typ r : dec_tag bs = Ok (num, typ, r) -> dt_suffix r bs.
Proof. intros H. apply dec_tag_sound in H. destruct H as (p & -> & _). exists p. reflexivity. Qed.
Lemma dt_dec_bytes_suffix bs v r : dec_bytes bs = Ok (v, r) -> dt_suffix r bs.
Proof. intros H. apply dec_bytes_sound in H. destruct H as (p & -> & _). exists (p ++ v). now rewrite app_assoc. Qed.

(* Outcome of a step or a loop.  [W] stands for "the schema is well formed"; it is a parameter so
   that one induction ([dt_main]) gives both theorems: with W := False the clause about DSchema
   is void and "never DFuel, never over-read" holds of every schema; with W := dt_schema_wf S the
   same proof adds "never DSchema". *)
Definition dt_ok (W : Prop) (A : Type) (d : dres A) (rest : A -> list byte) (bs : list byte) : Prop :=
  match d with
  | DOk m => dt_suffix (rest m) bs
  | DErr e => e <> DFuel /\ (W -> e <> DSchema)
  end.

(* closes the error cases of [dt_ok] *)
Ltac dt_err := split; [discriminate|intros; discriminate].

(* a packable kind reads a varint or a fixed-width value: at least one byte, and a value it accepts *)
Lemma dt_packed_elem sk bs w r :
  msg_packable sk = true -> parse_val 0 1 (sk_wt sk) bs = Ok (w, r) ->
  (exists s, sk_dec sk w = Some s) /\ (length r < length bs)%nat.
Proof.
  intros Hp. rewrite parse_val_eq.
  destruct sk; try discriminate Hp; cbn [sk_wt]; cbv iota;
    first [ (* wire type 0 *)
            destruct (dec_varint bs) as [[v r0]|e] eqn:E; [|discriminate]; intros H; inversion H; subst;
            apply dec_varint_suffix in E; destruct E as (p & -> & Hl)
          | (* wire types 1 and 5 *)
            destruct (take _ bs) as [[b r0]|] eqn:E; [|discriminate]; intros H; inversion H; subst;
            apply take_some in E; destruct E as [-> Hl] ];
    (split; [cbn [sk_dec]; eauto|rewrite app_length; lia]).
Qed.

Lemma dt_packed_loop sk : msg_packable sk = true -> forall g bs acc, (length bs < length g)%nat ->
  match msg_dec_packed g sk bs acc with DOk _ => True | DErr e => e = DParse end.
Proof.
  intros Hp. induction g as [|x g IH]; intros bs acc Hl; [cbn in Hl; lia|].
  cbn [msg_dec_packed]. destruct bs as [|b0 t0] eqn:Ebs; [exact I|]. rewrite <- Ebs in *. clear Ebs b0 t0.
  destruct (parse_val 0 1 (sk_wt sk) bs) as [[w r]|e] eqn:Ep; [|reflexivity].
  destruct (dt_packed_elem sk bs w r Hp Ep) as [(s & ->) Hr]. apply IH. cbn [length] in Hl. lia.
Qed.

Lemma dt_packed sk : msg_packable sk = true -> forall payload,
  match msg_dec_packed (x00 :: payload) sk payload [] with DOk _ => True | DErr e => e = DParse end.
Proof. intros Hp payload. apply (dt_packed_loop sk Hp). cbn [length]. lia. Qed.

Lemma dt_dec_scalar_err sk u w e : msg_dec_scalar sk u w = Some (DErr e) -> e = DUtf8.
Proof.
  unfold msg_dec_scalar. destruct (sk_dec sk w) as [s|]; [|discriminate].
  destruct sk, s; try discriminate. destruct (_ && _); intros H; inversion H; reflexivity.
Qed.

Section Entry.
  Variable W : Prop.
  Variables (kk : skind) (kutf8 : bool) (vk : kind) (vutf8 : bool).
  Variable dm : list byte -> value -> dres value.
  Hypothesis Hdm : forall tid p v, vk = KMsg tid ->
    match dm p v with DOk _ => True | DErr e => e <> DFuel /\ (W -> e <> DSchema) end.

  Lemma dt_entry : forall g bs key val, (length bs < length g)%nat ->
    match msg_dec_entry g kk kutf8 vk vutf8 dm bs key val with
    | DOk _ => True
    | DErr e => e <> DFuel /\ (W -> e <> DSchema)
    end.
  Proof.
    induction g as [|x g IH]; intros bs key val Hl; [cbn in Hl; lia|].
    cbn [msg_dec_entry]. destruct bs as [|b0 t0] eqn:Ebs; [exact I|].
    rewrite <- Ebs in *. clear Ebs b0 t0.
    destruct (dec_tag bs) as [[[num typ] r]|e] eqn:Et; [|dt_err].
    pose proof (dec_tag_len _ _ _ _ Et) as Hr.
    destruct (msg_max_num <? num); [dt_err|].
    destruct (parse_val default_dep num typ r) as [[w r']|e] eqn:Ep; [|dt_err].
    pose proof (parse_val_len _ _ _ _ _ _ Ep) as Hp.
    assert (Hrec : forall key' val', match msg_dec_entry g kk kutf8 vk vutf8 dm r' key' val' with
                                     | DOk _ => True | DErr e => e <> DFuel /\ (W -> e <> DSchema) end).
    { intros. apply IH. cbn [length] in Hl. lia. }
    destruct (num =? 1).
    - destruct (msg_dec_scalar kk kutf8 w) as [[s|e]|] eqn:Es; try apply Hrec.
      apply dt_dec_scalar_err in Es. subst e. dt_err.
    - destruct (num =? 2); [|apply Hrec].
      destruct vk as [sk|tid|tid] eqn:Evk.
      + destruct (msg_dec_scalar sk vutf8 w) as [[s|e]|] eqn:Es; try apply Hrec.
        apply dt_dec_scalar_err in Es. subst e. dt_err.
      + destruct w; try apply Hrec.
        pose proof (Hdm tid b val eq_refl) as H. destruct (dm b val); [apply Hrec|exact H].
      + apply Hrec.
  Qed.
End Entry.

Section Step.
  Variable slow : bool.
  Variable S : schema.
  Variable W : Prop.
  Hypothesis HW : W -> dt_schema_wf S.
  Variable md : mdesc.
  Hypothesis Hmd : In md S.
  Variable dsub : msg_dec_t.
  Variable dsub2 : option msg_dec_t.

  Definition dt_sub_ok (dm : msg_dec_t) : Prop :=
    forall tid grp g bs acc, (length bs < length g)%nat ->
      match dm tid grp g bs acc with
      | DOk (_, r) => dt_suffix r bs
      | DErr e => e <> DFuel /\ (W -> nth_error S tid <> None -> e <> DSchema)
      end.
  Hypothesis Hsub : dt_sub_ok dsub.
  Hypothesis Hsub2 : match dsub2 with Some dm2 => dt_sub_ok dm2 | None => True end.

  Lemma dt_unknown tagraw num typ r acc :
    dt_ok W _ (msg_unknown tagraw num typ r acc) snd r.
  Proof.
    unfold msg_unknown. destruct (parse_val default_dep num typ r) as [[w r']|e] eqn:E; cbn [dt_ok snd].
    - eapply parse_val_suffix; eauto.
    - dt_err.
  Qed.

  Lemma dt_whole (dm : msg_dec_t) tid payload old : dt_sub_ok dm ->
    match msg_whole dm tid payload old with
    | DOk _ => True
    | DErr e => e <> DFuel /\ (W -> nth_error S tid <> None -> e <> DSchema)
    end.
  Proof.
    intros H. unfold msg_whole. pose proof (H tid 0 (x00 :: payload) payload old ltac:(cbn [length]; lia)) as H1.
    destruct (dm tid 0 (x00 :: payload) payload old) as [[m r]|e]; [exact I|exact H1].
  Qed.

  (* a type index that a field of this message names is valid when the schema is well formed *)
  Lemma dt_field_tid fd num tid :
    msg_find_field md num = Some fd -> f_kind fd = KMsg tid \/ f_kind fd = KGrp tid ->
    W -> nth_error S tid <> None.
  Proof.
    intros Hf Hk w. pose proof (HW w md fd Hmd (msg_find_field_in _ _ _ Hf)) as H.
    destruct Hk as [Hk|Hk]; rewrite Hk in H; exact H.
  Qed.

  Lemma dt_err_tid e tid :
    (W -> nth_error S tid <> None) ->
    e <> DFuel /\ (W -> nth_error S tid <> None -> e <> DSchema) -> e <> DFuel /\ (W -> e <> DSchema).
  Proof. intros Ht [H1 H2]. split; [exact H1|]. intros w. apply H2; [exact w|apply Ht; exact w]. Qed.

  Lemma dt_step tagraw num typ r acc :
    dt_ok W _ (msg_step slow md dsub dsub2 tagraw num typ r acc) snd r.
  Proof.
    rewrite msg_step_route. pose proof (msg_route_field md num typ) as Hr. cbv zeta in Hr.
    destruct (msg_route md num typ) as [|fd sk|fd sk|fd tid|fd tid|fd kk kutf8 vdef|].
    - apply dt_unknown.
    - destruct (parse_val 0 num typ r) as [[w r']|e] eqn:Ep; [|cbn [dt_ok]; dt_err].
      destruct (msg_dec_scalar sk (msg_field_utf8 slow fd) w) as [[s|e]|] eqn:Es.
      + cbn [dt_ok snd]. eapply parse_val_suffix; eauto.
      + apply dt_dec_scalar_err in Es. subst e. cbn [dt_ok]. dt_err.
      + apply dt_unknown.
    - destruct Hr as (_ & _ & Hp & _).
      destruct (dec_bytes r) as [[payload r']|e] eqn:Eb; [|cbn [dt_ok]; dt_err].
      pose proof (dt_packed sk Hp payload) as Hpk.
      destruct (msg_dec_packed (x00 :: payload) sk payload []) as [vs|e].
      + cbn [dt_ok snd]. eapply dt_dec_bytes_suffix; eauto.
      + subst e. cbn [dt_ok]. dt_err.
    - destruct Hr as ((Hf & Hk) & _).
      destruct (dec_bytes r) as [[payload r']|e] eqn:Eb; [|cbn [dt_ok]; dt_err].
      pose proof (dt_whole dsub tid payload (msg_old_sub fd (fst acc)) Hsub) as H1.
      destruct (msg_whole dsub tid payload (msg_old_sub fd (fst acc))) as [m|e]; cbn [dt_ok snd].
      + eapply dt_dec_bytes_suffix; eauto.
      + exact (dt_err_tid e tid (dt_field_tid fd num tid Hf (or_introl Hk)) H1).
    - destruct Hr as ((Hf & Hk) & _).
      pose proof (dt_field_tid fd num tid Hf (or_intror Hk)) as Htid.
      destruct slow.
      + destruct (consume_group num r) as [[[content|] n]|e] eqn:Eg;
          [ |exfalso; eapply consume_group_no_panic; eauto|cbn [dt_ok]; dt_err].
        pose proof (dt_whole dsub tid content (msg_old_sub fd (fst acc)) Hsub) as H1.
        destruct (msg_whole dsub tid content (msg_old_sub fd (fst acc))) as [m|e]; cbn [dt_ok snd].
        * exists (firstn (N.to_nat n) r). symmetry. apply firstn_skipn.
        * exact (dt_err_tid e tid Htid H1).
      + pose proof (Hsub tid num (x00 :: r) r (msg_old_sub fd (fst acc)) ltac:(cbn [length]; lia)) as H1.
        destruct (dsub tid num (x00 :: r) r (msg_old_sub fd (fst acc))) as [[m r']|e]; cbn [dt_ok snd].
        * exact H1.
        * exact (dt_err_tid e tid Htid H1).
    - destruct Hr as (Hf & _).
      destruct dsub2 as [dm2|]; [|cbn [dt_ok]; dt_err].
      destruct (dec_bytes r) as [[payload r']|e] eqn:Eb; [|cbn [dt_ok]; dt_err].
      assert (Hdm : forall tid p v, f_kind fd = KMsg tid ->
                match msg_entry_dm dm2 (f_kind fd) p v with
                | DOk _ => True | DErr e => e <> DFuel /\ (W -> e <> DSchema) end).
      { intros tid p v Ek. unfold msg_entry_dm. rewrite Ek.
        pose proof (dt_whole dm2 tid p (msg_macc_of v) Hsub2) as H1.
        destruct (msg_whole dm2 tid p (msg_macc_of v)) as [m|e]; [exact I|].
        exact (dt_err_tid e tid (dt_field_tid fd num tid Hf (or_introl Ek)) H1). }
      pose proof (dt_entry W kk kutf8 (f_kind fd) (f_utf8 fd) (msg_entry_dm dm2 (f_kind fd)) Hdm
                    (x00 :: payload) payload (sk_zero kk) (msg_entry_default (f_kind fd) vdef)
                    ltac:(cbn [length]; lia)) as He.
      destruct (msg_dec_entry _ _ _ _ _ _ _ _ _) as [[key v]|e]; cbn [dt_ok snd].
      + eapply dt_dec_bytes_suffix; eauto.
      + exact He.
    - destruct dsub2; [apply dt_unknown|cbn [dt_ok]; dt_err].
  Qed.
End Step.

Section Main.
  Variable slow : bool.
  Variable S : schema.
  Variable W : Prop.
  Hypothesis HW : W -> dt_schema_wf S.
  Notation dm := (msg_decode_msg slow S).

  Theorem dt_main : forall d, dt_sub_ok S W (dm d).
  Proof.
    induction d as [d IHd] using lt_wf_ind.
    intros tid grp g bs acc Hl. destruct d as [|d].
    { cbn [msg_decode_msg]. dt_err. }
    destruct (nth_error S tid) as [md|] eqn:Hmd.
    2: { cbn [msg_decode_msg]. rewrite Hmd. split; [discriminate|]. intros _ H. congruence. }
    assert (Hin : In md S) by (eapply nth_error_In; eauto).
    assert (Hsub : dt_sub_ok S W (dm d)) by (apply IHd; lia).
    assert (Hsub2 : match msg_sub2 slow S d with Some dm2 => dt_sub_ok S W dm2 | None => True end).
    { destruct d as [|d1]; cbn [msg_sub2]; [exact I|]. apply IHd. lia. }
    revert bs acc Hl. induction g as [|x g IH]; intros bs acc Hl; [cbn in Hl; lia|].
    rewrite (msg_dm_unfold slow S _ _ _ _ _ _ _ _ Hmd).
    destruct bs as [|b0 t0] eqn:Ebs.
    { destruct (grp =? 0); [apply dt_suffix_refl|dt_err]. }
    rewrite <- Ebs in *. clear Ebs b0 t0.
    destruct (dec_tag bs) as [[[num typ] r]|e] eqn:Et; [|dt_err].
    pose proof (dec_tag_len _ _ _ _ Et) as Hr. pose proof (dt_dec_tag_suffix _ _ _ _ Et) as Hsf.
    destruct (msg_max_num <? num); [dt_err|].
    destruct ((typ =? 4) && negb slow).
    { destruct (num =? grp); [exact Hsf|dt_err]. }
    cbv zeta.
    pose proof (dt_step slow S W HW md Hin (dm d) (msg_sub2 slow S d) Hsub Hsub2
                  (if slow then firstn (length bs - length r) bs else enc_tag num typ) num typ r acc) as Hs.
    unfold dt_ok in Hs.
    destruct (msg_step slow md (dm d) (msg_sub2 slow S d) _ num typ r acc) as [[acc' r']|e].
    - cbn [snd] in Hs. pose proof (dt_suffix_len _ _ Hs) as Hl'.
      specialize (IH r' acc' ltac:(cbn [length] in Hl; lia)).
      destruct (dm (Datatypes.S d) tid grp g r' acc') as [[m r0]|e].
      + eapply dt_suffix_trans; [exact IH|]. eapply dt_suffix_trans; eauto.
      + exact IH.
    - destruct Hs as [H1 H2]. split; [exact H1|]. intros w _. apply H2. exact w.
  Qed.
End Main.

Theorem dt_decode_total slow S limit tid bs old :
  dt_schema_wf S -> nth_error S tid <> None ->
  msg_decode_into slow S limit tid bs old <> DErr DFuel /\
  msg_decode_into slow S limit tid bs old <> DErr DSchema.
Proof.
  intros Hwf Htid.
  pose proof (dt_main slow S (dt_schema_wf S) (fun w => w) limit tid 0 (x00 :: bs) bs (msg_macc_of old)
                (Nat.lt_succ_diag_r _)) as H.
  split; intros E; apply msg_decode_into_err in E; unfold msg_run in E; rewrite E in H; destruct H as [H1 H2];
    [apply H1|apply (H2 Hwf Htid)]; reflexivity.
Qed.

Theorem dt_decode_never_fuel slow S limit tid bs old :
  msg_decode_into slow S limit tid bs old <> DErr DFuel.
Proof.
  pose proof (dt_main slow S False (fun w => match w with end) limit tid 0 (x00 :: bs) bs (msg_macc_of old)
                (Nat.lt_succ_diag_r _)) as H.
  intros E. apply msg_decode_into_err in E. unfold msg_run in E. rewrite E in H. apply (proj1 H). reflexivity.
Qed.

(* no over-read: whatever the tag loop of a message or group leaves unread is a suffix of its
   input -- consumed = length input - length rest <= length input *)
Theorem dt_no_overread slow S dep tid grp bs acc m r :
  msg_decode_msg slow S dep tid grp (x00 :: bs) bs acc = DOk (m, r) ->
  exists consumed, bs = consumed ++ r.
Proof.
  intros E.
  pose proof (dt_main slow S False (fun w => match w with end) dep tid grp (x00 :: bs) bs acc
                ltac:(cbn [length]; lia)) as H.
  rewrite E in H. exact H.
Qed.

Definition dt_schema_wfb (S : schema) : bool :=
  forallb (fun md => forallb (fun fd => match f_kind fd with
                                        | KMsg t | KGrp t => Nat.ltb t (length S)
                                        | KS _ => true end) md) S.
Lemma dt_schema_wfb_spec S : dt_schema_wfb S = true -> dt_schema_wf S.
Proof.
  unfold dt_schema_wfb. intros H md fd Hmd Hfd. rewrite forallb_forall in H. specialize (H md Hmd).
  rewrite forallb_forall in H. specialize (H fd Hfd).
  destruct (f_kind fd); [exact I| |]; apply Nat.ltb_lt in H; apply nth_error_Some; exact H.
Qed.
