(* Utf8EnforceP — where the codecs test strings for UTF-8 (Msg/Utf8EnforceModel.v, C13): a position whose
   consulted enforcement bit is set rejects every ill-formed string and accepts every well-formed one
   unchanged; the codecs that consult the bit pass other strings and all bytes fields through; the
   places where the declared bit is not consulted (FL1, FL2) as witnesses; the validator against the
   table-driven decoder; and strs.EnforceUTF8 as a decision table ([enforce_table]). *)
From Coq Require Import List NArith Bool.
Require Import PB.Base.PBytes PB.Base.Utf8Valid PB.Base.Utf8ValidP PB.Msg.Utf8EnforceModel.
Import ListNotations.

Lemma valid_false_iff bs : utf8_valid bs = false <-> ~ is_utf8 bs.
Proof.
  rewrite <- utf8_valid_spec. destruct (utf8_valid bs); split; intros; try congruence; tauto.
Qed.

(* a string position whose consulted enforcement bit is set rejects every ill-formed string, in every codec *)
Lemma enforced_positions_reject c p e bs :
  consulted c p e = true -> ~ is_utf8 bs -> verdict_of c KString p e bs = Reject.
Proof.
  intros C H. apply valid_false_iff in H.
  unfold verdict_of. destruct c; unfold reject_if; rewrite ?utf8_valid_dec_eq, ?C, H; reflexivity.
Qed.

(* well-formed UTF-8 is accepted unchanged by every codec in every position, string or bytes *)
Lemma valid_accepted c k p e bs :
  is_utf8 bs -> verdict_of c k p e bs = Accept bs.
Proof.
  intros H. apply utf8_valid_spec in H.
  unfold verdict_of. destruct k, c; unfold reject_if; rewrite ?utf8_valid_dec_eq, ?H, ?andb_false_r; reflexivity.
Qed.

(* exactness for the codecs that consult the enforcement bit *)
Lemma string_verdict_exact c p e bs :
  passthrough_codec c = true ->
  (verdict_of c KString p e bs = Reject <-> consulted c p e = true /\ ~ is_utf8 bs) /\
  (verdict_of c KString p e bs <> Reject -> verdict_of c KString p e bs = Accept bs).
Proof.
  intros P. rewrite <- valid_false_iff.
  destruct c; try discriminate; unfold verdict_of, reject_if;
    destruct (consulted _ p e), (utf8_valid bs); cbn; (split; [split; [intros; try discriminate; auto | intros [? ?]; congruence] | tauto]).
Qed.

(* non-validated string fields: arbitrary bytes pass through binary and text codecs unchanged *)
Lemma nonenforced_passthrough c p e bs :
  passthrough_codec c = true -> consulted c p e = false -> verdict_of c KString p e bs = Accept bs.
Proof.
  intros P C. destruct c; try discriminate; unfold verdict_of, reject_if; rewrite C; reflexivity.
Qed.

(* bytes fields: never validated; arbitrary bytes pass through binary, JSON (base64) and text codecs *)
Lemma bytes_passthrough c p e bs :
  c <> TextUnmarshalRaw -> verdict_of c KBytes p e bs = Accept bs.
Proof. intros H. destruct c; try reflexivity. congruence. Qed.

(* protojson refuses ill-formed strings whether or not the field is validated *)
Lemma json_rejects_all_invalid p e bs :
  ~ is_utf8 bs ->
  verdict_of JsonMarshal KString p e bs = Reject /\ verdict_of JsonUnmarshal KString p e bs = Reject.
Proof.
  intros H. apply valid_false_iff in H. unfold verdict_of, reject_if. rewrite utf8_valid_dec_eq, H. auto.
Qed.

(* the validator agrees with the table-driven decoder whenever the map field and its
   entry fields carry the same enforcement bit (protoc propagates the option/feature),
   except at repeated string extensions (FL1) *)
Lemma validator_agrees k p e bs :
  e_map e = e_self e -> p <> PExtensionList ->
  verdict_of Validator k p e bs = verdict_of BinUnmarshalFast k p e bs.
Proof.
  intros H NE. unfold verdict_of, consulted, declared. destruct k; [|reflexivity]. rewrite H.
  destruct p; try reflexivity. congruence.
Qed.

(* the full statement "declared and ill-formed -> rejected" does not hold of the code: FL1, FL2 *)
Lemma enforced_positions_reject_refuted :
  exists c p e bs, declared c p e = true /\ ~ is_utf8 bs /\ verdict_of c KString p e bs <> Reject.
Proof.
  exists BinUnmarshalFast, PExtensionList, {| e_self := true; e_map := true |}, [xff].
  split; [reflexivity|]. split; [|vm_compute; discriminate].
  rewrite <- utf8_valid_spec. vm_compute. discriminate.
Qed.
Lemma enforced_positions_reject_refuted_FL2 :
  exists bs, declared TextUnmarshalEsc PAnyTypeUrl {| e_self := true; e_map := true |} = true /\ ~ is_utf8 bs /\
             verdict_of TextUnmarshalEsc KString PAnyTypeUrl {| e_self := true; e_map := true |} bs <> Reject.
Proof.
  exists [xff]. split; [reflexivity|]. split; [|vm_compute; discriminate].
  rewrite <- utf8_valid_spec. vm_compute. discriminate.
Qed.

(* ... and holds everywhere else *)
Lemma enforced_positions_reject_except c p e bs :
  excl_FL1 c p = false -> excl_FL2 c p = false ->
  declared c p e = true -> ~ is_utf8 bs -> verdict_of c KString p e bs = Reject.
Proof.
  intros X1 X2 D H. apply enforced_positions_reject; [|assumption].
  unfold consulted. now rewrite D, X1, X2.
Qed.

Lemma consulted_declared c p e : consulted c p e = true -> declared c p e = true.
Proof. unfold consulted. destruct (declared c p e); [auto|discriminate]. Qed.

(* ... and only then: with differing bits there is a map-key string on which they differ *)
Lemma validator_disagrees_on_unpropagated_bits :
  exists e bs, verdict_of Validator KString PMapKey e bs <> verdict_of BinUnmarshalFast KString PMapKey e bs.
Proof.
  exists {| e_self := false; e_map := true |}, [xff]. vm_compute. discriminate.
Qed.

Lemma enforce_proto3_plain fd : fd_syntax fd = Proto3 -> enforce_utf8 false fd = true.
Proof. intros H. unfold enforce_utf8. rewrite H. reflexivity. Qed.
Lemma enforce_proto2_plain fd : fd_syntax fd = Proto2 -> enforce_utf8 false fd = false.
Proof. intros H. unfold enforce_utf8. rewrite H. reflexivity. Qed.
Lemma enforce_editions fd : fd_syntax fd = Editions -> fd_has_method fd = true ->
  enforce_utf8 false fd = fd_validated fd /\ enforce_utf8 true fd = fd_validated fd.
Proof. intros H M. unfold enforce_utf8. rewrite H, M. auto. Qed.
Lemma enforce_legacy fd : fd_has_method fd = true -> enforce_utf8 true fd = fd_validated fd.
Proof. intros M. unfold enforce_utf8. now rewrite M. Qed.
Lemma enforce_no_method legacy fd : fd_has_method fd = false -> enforce_utf8 legacy fd = is_proto3 (fd_syntax fd).
Proof. intros M. unfold enforce_utf8. now rewrite M, andb_false_r. Qed.

(* the decision table, complete: EnforceUTF8 is determined by these five rows *)
Lemma enforce_table legacy fd :
  enforce_utf8 legacy fd =
  match fd_has_method fd, legacy, fd_syntax fd with
  | true, _, Editions => fd_validated fd
  | true, true, _ => fd_validated fd
  | _, _, Proto3 => true
  | _, _, _ => false
  end.
Proof. unfold enforce_utf8. destruct fd as [s m v]; destruct s, m, legacy; reflexivity. Qed.
