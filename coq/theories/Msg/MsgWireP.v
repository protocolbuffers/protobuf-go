(* MsgWireP — the facts of Wire/*P.v in the form the message codec proofs use them: equations for
   the parsers on encoder output and on extended input, with plain bounds as hypotheses. *)
From Coq Require Import List Arith NArith ZArith Lia Bool.
From Coq Require Import ZifyBool ZifyNat ZifyN.
From PB Require Import Base.PBytes Wire.WireModel Wire.WireGrammar Wire.VarintP Wire.PrimP Wire.ScanP.
Import ListNotations.
Open Scope N_scope.

(* length of a tag: any wire type, any field number (0 included) that keeps the tag a uint64 *)
Lemma msgw_enc_tag_length num t :
  num < 2^61 -> N.of_nat (length (enc_tag num t)) = size_tag num.
Proof.
  intros Hn. unfold enc_tag, encode_tag.
  pose proof (N.mod_lt t 8 ltac:(lia)) as Ht.
  rewrite enc_varint_length by (change (2^64) with (2^61 * 8); lia).
  destruct (N.eq_dec num 0) as [->|Hnz]; [|apply size_tag_eq; lia].
  unfold size_tag, encode_tag. cbn [N.mul N.add]. change (0 mod 8) with 0.
  pose proof (size_varint_upper (t mod 8) 1 ltac:(lia) ltac:(cbn; lia)).
  pose proof (size_varint_range (t mod 8) ltac:(change (2^64) with 18446744073709551616; lia)).
  change (size_varint 0) with 1. lia.
Qed.

Lemma msgw_take_len k (b rest : list byte) : length b = k -> take k (b ++ rest) = Some (b, rest).
Proof. intros <-. apply take_app. Qed.

(* 2147483647 = 2^31 - 1, the bound of [num_ok] *)
Lemma msgw_dec_tag_enc num typ rest :
  1 <= num -> num <= 2147483647 -> typ < 8 ->
  dec_tag (enc_tag num typ ++ rest) = Ok (num, typ, rest).
Proof. intros Hlo Hhi Ht. exact (dec_tag_enc num typ rest (conj Hlo Hhi) Ht). Qed.

Lemma msgw_dec_bytes_enc b rest :
  N.of_nat (length b) < 2^64 -> dec_bytes (enc_bytes b ++ rest) = Ok (b, rest).
Proof. intros H. exact (proj1 (bytes_roundtrip b rest H)). Qed.

Theorem msgw_parse_val_ext dep num typ bs ext v r :
  parse_val dep num typ bs = Ok (v, r) ->
  parse_val dep num typ (bs ++ ext) = Ok (v, r ++ ext) /\ (length r <= length bs)%nat.
Proof.
  intros H. split; [exact (parse_val_ext_ok _ _ _ _ ext _ _ H)|exact (parse_val_len _ _ _ _ _ _ H)].
Qed.

(* 536870911 = 2^29 - 1 = msg_max_num (MsgSchema is not imported here) *)
Lemma msgw_consume_group_enc num body tail w :
  1 <= num -> num <= 536870911 ->
  parse_val default_dep num 3 (body ++ enc_tag num 4) = Ok (w, []) ->
  consume_group num (body ++ enc_tag num 4 ++ tail) =
    Ok (Some body, N.of_nat (length (body ++ enc_tag num 4))) /\
  skipn (length (body ++ enc_tag num 4)) (body ++ enc_tag num 4 ++ tail) = tail.
Proof.
  intros Hlo Hhi Hp. split.
  - destruct (msgw_parse_val_ext _ _ _ _ tail _ _ Hp) as [Hp' _]. cbn [app] in Hp'.
    rewrite <- app_assoc in Hp'. rewrite app_length.
    apply (consume_group_parts num body (enc_tag num 4) tail w Hp').
    apply enc_tag_is_tag; [split; lia|reflexivity].
  - rewrite app_assoc, skipn_app, Nat.sub_diag, skipn_all. reflexivity.
Qed.
