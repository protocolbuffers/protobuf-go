(* ReflectCellP — the concrete representations refine the protoreflect contract model (C28).

   Part 1: a message-level machine over representation cells ([cm_focus], Msg/ReflectCellModel.v)
   simulates the abstract model step by step through the abstraction function [cm_abs], for
   every operation at every path, given the CELL LAWS [celllaws] (what Set / Clear / Mutable /
   reads / writes through a composite do to the values the accessors read).
   Part 2: the dynamicpb cells and the opaque cells satisfy the cell laws. *)
From Coq Require Import List NArith ZArith Bool Lia.
From PB Require Import Base.PBytes Wire.WireModel Msg.MsgSchema Msg.MsgValue Msg.ReflectModel Msg.AssocP
  Msg.ReflectP Msg.ReflectCellModel.
Import ListNotations.
Open Scope N_scope.

Lemma refl_get_eq : forall D tid fd fs,
  refl_get D tid fd fs = refl_get_of D tid fd (msg_fget fs (f_num fd)).
Proof. intros. unfold refl_get, refl_get_of. destruct (msg_fget fs (f_num fd)); reflexivity. Qed.

(* update of the abstract field list by the values of one cell *)
Definition upd (fs : fields) (n : N) (vs : list value) : fields :=
  match vs with [] => msg_fdel fs n | _ => msg_fset fs n vs end.

Lemma fset_lt_all : forall fs n vs lo,
  refl_keys_sorted (Some lo) fs = true -> n <= lo -> msg_fset fs n vs = (n, vs) :: fs.
Proof. intros fs n vs lo Hs. apply ks_split in Hs. exact (aput_below _ fs n vs lo (proj1 Hs)). Qed.

Lemma fdel_lt_all : forall fs n lo,
  refl_keys_sorted (Some lo) fs = true -> n <= lo -> msg_fdel fs n = fs.
Proof. intros fs n lo Hs. apply ks_split in Hs. exact (adel_below _ fs n lo (proj1 Hs)). Qed.

Lemma fget_lt_all : forall fs n lo,
  refl_keys_sorted (Some lo) fs = true -> n <= lo -> msg_fget fs n = [].
Proof. intros fs n lo Hs. apply ks_split in Hs. exact (aget_below _ [] fs n lo (proj1 Hs)). Qed.

Lemma fset_same : forall fs lo n,
  refl_keys_sorted lo fs = true -> msg_fget fs n <> [] -> msg_fset fs n (msg_fget fs n) = fs.
Proof.
  induction fs as [|[k x] r IH]; intros lo n Hs Hne; cbn [msg_fget msg_fset] in *; [congruence|].
  apply ks_cons in Hs. destruct Hs as [H1 [H2 H3]].
  destruct (N.eqb_spec n k).
  - subst. rewrite N.ltb_irrefl. reflexivity.
  - destruct (N.ltb_spec n k).
    + exfalso. apply Hne. eapply fget_lt_all; eauto; lia.
    + f_equal. eapply IH; eauto.
Qed.

Lemma fdel_absent : forall fs lo n,
  refl_keys_sorted lo fs = true -> msg_fget fs n = [] -> msg_fdel fs n = fs.
Proof.
  induction fs as [|[k x] r IH]; intros lo n Hs He; cbn [msg_fget msg_fdel] in *; auto.
  apply ks_cons in Hs. destruct Hs as [H1 [H2 H3]].
  destruct (N.eqb_spec n k); [congruence|]. f_equal. eapply IH; eauto.
Qed.

Lemma upd_same : forall fs lo n,
  refl_keys_sorted lo fs = true -> upd fs n (msg_fget fs n) = fs.
Proof.
  intros. unfold upd. destruct (msg_fget fs n) eqn:E.
  - eapply fdel_absent; eauto.
  - rewrite <- E. eapply fset_same; eauto. rewrite E. discriminate.
Qed.

Section Generic.
  Variable cell : Type.
  Variable ops : cellops cell.
  Variable inv : fdesc -> cell -> Prop.

  Record celllaws : Prop := mkLaws {
    l_zero_inv : forall fd, inv fd (c_zero ops);
    l_zero : forall fd, c_vals ops fd (c_zero ops) = [];
    l_has : forall fd c, inv fd c -> c_has ops fd c = negb (refl_is_nil (c_vals ops fd c));
    l_set : forall fd vs c, refl_fd_ok fd = true -> inv fd c -> refl_set_shape fd vs = true ->
              c_vals ops fd (c_set ops fd vs c) = refl_norm fd vs /\ inv fd (c_set ops fd vs c);
    l_clear : forall fd c, inv fd c -> c_vals ops fd (c_clear ops fd c) = [] /\ inv fd (c_clear ops fd c);
    l_mutable : forall fd c, refl_fd_ok fd = true -> inv fd c ->
              c_vals ops fd (c_mutable ops fd c) =
                match c_vals ops fd c with [] => if refl_is_msg fd then [msg_empty] else [] | vs => vs end
              /\ inv fd (c_mutable ops fd c);
    l_touch : forall fd c, inv fd c ->
              c_vals ops fd (c_touch ops fd c) = c_vals ops fd c /\ inv fd (c_touch ops fd c);
    l_update_list : forall fd vs c, refl_fd_ok fd = true -> inv fd c -> refl_is_map fd || refl_is_list fd = true ->
              c_vals ops fd (c_update ops fd vs c) = vs /\ inv fd (c_update ops fd vs c);
    l_update_msg : forall fd (m : msg_macc) c, refl_fd_ok fd = true -> inv fd c -> refl_is_msg fd = true ->
              c_vals ops fd (c_update ops fd [refl_val_of m] c) = [refl_val_of m] /\
              inv fd (c_update ops fd [refl_val_of m] c)
  }.
  Hypothesis L : celllaws.

  Notation cells := (list (N * cell)).
  Notation absf := (cm_abs_fields cell ops).

  (* [cs_sorted] is [asorted] of Msg/AssocP.v written out at the cell type (the statements of C28
     name it); [cs_put] = [aput] and [cs_get] = [aget (c_zero ops)], all by conversion *)
  Fixpoint cs_sorted (lo : option N) (cs : cells) : Prop :=
    match cs with
    | [] => True
    | (k, _) :: r => lo_lt lo k /\ cs_sorted (Some k) r
    end.

  Lemma cs_get_put : forall cs n c m, cs_get cell ops (cs_put cell cs n c) m = if m =? n then c else cs_get cell ops cs m.
  Proof. exact (aget_aput cell (c_zero ops)). Qed.

  Variable md : mdesc.

  Lemma abs_entry_key : forall p q, In q (cm_abs_entry cell ops md p) -> fst q = fst p /\ snd q <> [].
  Proof.
    intros [k c] q Hin. unfold cm_abs_entry in Hin. cbn [fst snd] in *.
    destruct (msg_find_field md k); [|destruct Hin].
    destruct (c_vals ops f c) eqn:E; [destruct Hin|].
    destruct Hin as [<-|[]]. cbn. split; auto. discriminate.
  Qed.

  Lemma abs_sorted : forall cs lo, cs_sorted lo cs -> refl_keys_sorted lo (absf md cs) = true.
  Proof.
    induction cs as [|[k c] r IH]; intros lo Hs; cbn; auto.
    cbn in Hs. destruct Hs as [H1 H2]. specialize (IH _ H2).
    unfold cm_abs_entry. cbn [fst snd].
    destruct (msg_find_field md k).
    - destruct (c_vals ops f c) eqn:E; cbn [app].
      + eapply ks_weaken; [|exact IH]. intros k' Hk'. cbn in Hk'. destruct lo; cbn in *; auto. lia.
      + apply ks_cons. repeat split; auto. discriminate.
    - cbn [app]. eapply ks_weaken; [|exact IH]. intros k' Hk'. cbn in Hk'. destruct lo; cbn in *; auto. lia.
  Qed.

  Lemma abs_get : forall cs lo n fd, cs_sorted lo cs -> msg_find_field md n = Some fd ->
    msg_fget (absf md cs) n = c_vals ops fd (cs_get cell ops cs n).
  Proof.
    induction cs as [|[k c] r IH]; intros lo n fd Hs Hf; cbn [cm_abs_fields flat_map cs_get].
    - cbn. rewrite (l_zero L). reflexivity.
    - cbn in Hs. destruct Hs as [H1 H2]. fold (cm_abs_fields cell ops md r).
      pose proof (abs_sorted r _ H2) as Hsr.
      unfold cm_abs_entry. cbn [fst snd].
      destruct (N.eqb_spec n k).
      + subst k. rewrite Hf. destruct (c_vals ops fd c) eqn:E; cbn [app].
        * eapply fget_lt_all; eauto; lia.
        * cbn [msg_fget]. rewrite N.eqb_refl. reflexivity.
      + destruct (msg_find_field md k) as [fdk|].
        * destruct (c_vals ops fdk c); cbn [app]; [eapply IH; eauto|].
          cbn [msg_fget]. destruct (N.eqb_spec n k); [congruence|]. eapply IH; eauto.
        * cbn [app]. eapply IH; eauto.
  Qed.

  Lemma abs_put : forall cs lo n fd c', cs_sorted lo cs -> msg_find_field md n = Some fd ->
    absf md (cs_put cell cs n c') = upd (absf md cs) n (c_vals ops fd c').
  Proof.
    induction cs as [|[k c] r IH]; intros lo n fd c' Hs Hf; cbn [cs_put].
    - cbn. unfold cm_abs_entry. cbn [fst snd]. rewrite Hf. unfold upd.
      destruct (c_vals ops fd c'); reflexivity.
    - cbn in Hs. destruct Hs as [H1 H2].
      pose proof (abs_sorted r _ H2) as Hsr.
      destruct (N.ltb_spec n k).
      + (* inserted in front *)
        change (absf md ((n, c') :: (k, c) :: r)) with (cm_abs_entry cell ops md (n, c') ++ absf md ((k, c) :: r)).
        assert (Hall : refl_keys_sorted (Some n) (absf md ((k, c) :: r)) = true).
        { apply (abs_sorted ((k, c) :: r) (Some n)). cbn. auto. }
        unfold cm_abs_entry at 1. cbn [fst snd]. rewrite Hf. unfold upd.
        destruct (c_vals ops fd c') eqn:E; cbn [app].
        * symmetry. eapply fdel_lt_all; eauto; lia.
        * symmetry. eapply fset_lt_all; eauto; lia.
      + destruct (N.eqb_spec n k).
        * subst k. cbn [cm_abs_fields flat_map]. fold (cm_abs_fields cell ops md r).
          unfold cm_abs_entry. cbn [fst snd]. rewrite Hf. unfold upd.
          destruct (c_vals ops fd c') eqn:E; destruct (c_vals ops fd c) eqn:E0; cbn [app].
          -- symmetry. eapply fdel_lt_all; eauto; lia.
          -- cbn [msg_fdel]. rewrite N.eqb_refl. reflexivity.
          -- symmetry. eapply fset_lt_all; eauto; lia.
          -- cbn [msg_fset]. rewrite N.ltb_irrefl, N.eqb_refl. reflexivity.
        * cbn [cm_abs_fields flat_map]. fold (cm_abs_fields cell ops md r).
          fold (cm_abs_fields cell ops md (cs_put cell r n c')).
          rewrite (IH (Some k) n fd c' H2 Hf).
          unfold cm_abs_entry. cbn [fst snd].
          destruct (msg_find_field md k) as [fdk|]; [|reflexivity].
          destruct (c_vals ops fdk c); [reflexivity|]. cbn [app]. unfold upd.
          destruct (c_vals ops fd c'); cbn [msg_fdel msg_fset].
          -- destruct (N.eqb_spec n k); [congruence|reflexivity].
          -- destruct (N.ltb_spec n k); [lia|]. destruct (N.eqb_spec n k); [congruence|reflexivity].
  Qed.

  Lemma abs_clear_others : forall fd cs,
    absf md (cs_clear_others cell md fd cs) = refl_oneof_clear md fd (absf md cs).
  Proof.
    intros fd cs. unfold cs_clear_others, refl_oneof_clear. destruct (f_oneof fd) as [i|]; auto.
    induction cs as [|[k c] r IH]; cbn [filter cm_abs_fields flat_map]; auto.
    fold (cm_abs_fields cell ops md r). rewrite filter_app, <- IH. cbn [fst].
    destruct (negb (refl_in_oneof md i k) || (k =? f_num fd)) eqn:P.
    - cbn [cm_abs_fields flat_map]. f_equal.
      unfold cm_abs_entry. cbn [fst snd]. destruct (msg_find_field md k); auto.
      destruct (c_vals ops f c); auto. cbn [filter fst]. rewrite P. reflexivity.
    - unfold cm_abs_entry. cbn [fst snd]. destruct (msg_find_field md k); auto.
      destruct (c_vals ops f c); auto. cbn [filter fst]. rewrite P. reflexivity.
  Qed.

  Definition md_ok : Prop := NoDup (map f_num md) /\ forall fd, In fd md -> refl_fd_ok fd = true.
  Definition CInv (cs : cells) : Prop :=
    cs_sorted None cs /\ forall k c fd, In (k, c) cs -> msg_find_field md k = Some fd -> inv fd c.

  Lemma cinv_get : forall cs n fd, CInv cs -> msg_find_field md n = Some fd -> inv fd (cs_get cell ops cs n).
  Proof.
    intros cs n fd [_ Hi] Hf. destruct (aget_cases cell (c_zero ops) cs n) as [[c [A B]]|[A _]];
      change (aget (c_zero ops) cs n) with (cs_get cell ops cs n) in *.
    - rewrite B. eapply Hi; eauto.
    - rewrite A. apply (l_zero_inv L).
  Qed.

  Lemma cinv_put : forall cs n fd c', CInv cs -> msg_find_field md n = Some fd -> inv fd c' ->
    CInv (cs_put cell cs n c').
  Proof.
    intros cs n fd c' [Hs Hi] Hf Hc. split.
    - apply (aput_sorted cell); cbn; auto.
    - intros k c fd' Hin Hf'. destruct (proj1 (in_aput cell _ _ _ _ _ _ Hs) Hin) as [[-> ->]|[_ Hin']].
      + rewrite Hf in Hf'. inversion Hf'; subst; auto.
      + eapply Hi; eauto.
  Qed.

  Lemma cinv_clear_others : forall cs fd, CInv cs -> CInv (cs_clear_others cell md fd cs).
  Proof.
    intros cs fd [Hs Hi]. unfold cs_clear_others. destruct (f_oneof fd); [|split; auto]. split.
    - apply (afilter_sorted cell); auto.
    - intros k c fd' Hin Hf'. apply filter_In in Hin. destruct Hin as [Hin _]. eapply Hi; eauto.
  Qed.

  (* writing one cell updates the abstraction by what the accessors read from it *)
  Lemma cell_put : forall cs fd c', CInv cs -> msg_find_field md (f_num fd) = Some fd -> inv fd c' ->
    absf md (cs_put cell cs (f_num fd) c') = upd (absf md cs) (f_num fd) (c_vals ops fd c') /\
    CInv (cs_put cell cs (f_num fd) c').
  Proof.
    intros cs fd c' Hc Hf Hi. split; [apply (abs_put cs None _ fd c' (proj1 Hc) Hf) | eapply cinv_put; eauto].
  Qed.

  Lemma refl_has_eq : forall fs n, refl_has fs n = negb (refl_is_nil (msg_fget fs n)).
  Proof. intros. unfold refl_has. destruct (msg_fget fs n); reflexivity. Qed.

  (* ... and changes nothing if they read what they read before *)
  Lemma cell_keep : forall cs fd c', CInv cs -> msg_find_field md (f_num fd) = Some fd -> inv fd c' ->
    c_vals ops fd c' = c_vals ops fd (cs_get cell ops cs (f_num fd)) ->
    absf md (cs_put cell cs (f_num fd) c') = absf md cs /\ CInv (cs_put cell cs (f_num fd) c') /\
    c_has ops fd c' = refl_has (absf md cs) (f_num fd).
  Proof.
    intros cs fd c' Hc Hf Hi E. destruct (cell_put cs fd c' Hc Hf Hi) as [A B]. pose proof Hc as [Hs _].
    pose proof (abs_get cs None _ fd Hs Hf) as G. split; [|split; [exact B|]].
    - rewrite A, E, <- G. eapply upd_same, abs_sorted, Hs.
    - rewrite (l_has L fd c' Hi), E, refl_has_eq, G. reflexivity.
  Qed.

  Lemma fd_ok_of_find : forall n fd, md_ok -> msg_find_field md n = Some fd -> refl_fd_ok fd = true.
  Proof. intros n fd [_ H] Hf. apply H. eapply find_some_in; eauto. Qed.

  Lemma has_abs : forall cs fd, CInv cs -> msg_find_field md (f_num fd) = Some fd ->
    c_has ops fd (cs_get cell ops cs (f_num fd)) = refl_has (absf md cs) (f_num fd).
  Proof. intros cs fd Hc Hf. apply (cell_keep cs fd _ Hc Hf (cinv_get cs _ fd Hc Hf) eq_refl). Qed.

  Lemma range_abs : forall cs, CInv cs -> cm_range cell ops md cs = absf md cs.
  Proof.
    intros cs [_ Hi]. induction cs as [|[k c] r IH]; cbn [cm_range cm_abs_fields flat_map]; auto.
    fold (cm_range cell ops md r). fold (cm_abs_fields cell ops md r).
    rewrite IH by (intros; eapply Hi; eauto; right; eauto). f_equal.
    unfold cm_abs_entry. cbn [fst snd]. destruct (msg_find_field md k) as [fd|] eqn:Hf; auto.
    rewrite (l_has L) by (eapply Hi; eauto; left; auto).
    destruct (c_vals ops fd c); reflexivity.
  Qed.

  Lemma which_abs : forall cs o, md_ok -> CInv cs ->
    forall md', (forall fd, In fd md' -> In fd md) ->
    cm_which cell ops md' o cs = refl_which md' o (absf md cs).
  Proof.
    intros cs o [Hnd _] Hc. induction md' as [|fd r IH]; intros Hsub; cbn [cm_which refl_which]; auto.
    assert (Hf : msg_find_field md (f_num fd) = Some fd) by (apply find_in; auto; apply Hsub; left; auto).
    rewrite (has_abs cs fd Hc Hf). rewrite IH by (intros; apply Hsub; right; auto). reflexivity.
  Qed.

  Lemma oneof_none_of_list : forall fd, refl_fd_ok fd = true -> refl_is_map fd || refl_is_list fd = true ->
    f_oneof fd = None.
  Proof.
    intros fd Hok Hl. unfold refl_fd_ok in Hok. destruct (f_oneof fd); auto.
    rewrite Hl in Hok. cbn in Hok. discriminate.
  Qed.

  Lemma oneof_clear_none : forall fd fs, f_oneof fd = None -> refl_oneof_clear md fd fs = fs.
  Proof. intros. unfold refl_oneof_clear. rewrite H. reflexivity. Qed.

  Lemma store_eq_upd : forall fd fs vs, f_oneof fd = None -> refl_store md fd fs vs = upd fs (f_num fd) vs.
  Proof. intros. unfold refl_store, upd. rewrite oneof_clear_none; auto. Qed.

  Lemma store_nonnil : forall fd fs vs, f_oneof fd = None -> vs <> [] ->
    refl_store md fd fs vs = msg_fset fs (f_num fd) vs.
  Proof.
    intros fd fs vs Ho Hne. unfold refl_store. rewrite oneof_clear_none by exact Ho.
    destruct vs; [congruence|reflexivity].
  Qed.

  Lemma set_eq : forall fd fs vs, refl_fd_ok fd = true -> refl_set_shape fd vs = true ->
    refl_set md fd fs vs = upd (refl_oneof_clear md fd fs) (f_num fd) (refl_norm fd vs).
  Proof.
    intros fd fs vs Hok Hsh. unfold refl_set, refl_norm.
    assert (Hnil : vs = [] -> refl_oneof_clear md fd fs = fs).
    { intros ->. apply oneof_clear_none. apply oneof_none_of_list; auto.
      unfold refl_set_shape in Hsh. rewrite orb_false_r in Hsh. auto. }
    destruct (f_card fd) eqn:Hc;
      try (unfold refl_store, upd; destruct vs; [rewrite Hnil; auto|reflexivity]).
    (* implicit presence: not a oneof member *)
    assert (Hn : f_oneof fd = None).
    { unfold refl_fd_ok in Hok. rewrite Hc in Hok. destruct (f_oneof fd); auto.
      rewrite andb_false_r in Hok. discriminate. }
    rewrite (oneof_clear_none fd fs Hn).
    destruct vs as [|[s| |] [|]]; try (apply store_eq_upd; auto).
    destruct (msg_scalar_is_zero s); [reflexivity|apply store_eq_upd; auto].
  Qed.

  Lemma list_not_msg : forall fd, refl_is_map fd || refl_is_list fd = true -> refl_is_msg fd = false.
  Proof.
    intros fd H. unfold refl_is_msg. apply orb_true_iff in H.
    destruct H as [-> | ->]; cbn; rewrite ?andb_false_r; reflexivity.
  Qed.

  (* A list or map is opened by a read (Get) or by Mutable: either way the accessors read from
     the opened cell what the abstraction holds, and an edit is written back like [refl_store] *)
  Lemma composite_view : forall cs fd c1,
    CInv cs -> msg_find_field md (f_num fd) = Some fd -> refl_fd_ok fd = true ->
    refl_is_map fd || refl_is_list fd = true ->
    c1 = c_touch ops fd (cs_get cell ops cs (f_num fd)) \/ c1 = c_mutable ops fd (cs_get cell ops cs (f_num fd)) ->
    c_vals ops fd c1 = msg_fget (absf md cs) (f_num fd) /\
    c_has ops fd c1 = refl_has (absf md cs) (f_num fd) /\
    forall r : option (list value),
      let c2 := match r with Some vs' => c_update ops fd vs' c1 | None => c1 end in
      absf md (cs_put cell cs (f_num fd) c2) =
        match r with Some vs' => refl_store md fd (absf md cs) vs' | None => absf md cs end /\
      CInv (cs_put cell cs (f_num fd) c2).
  Proof.
    intros cs fd c1 Hc Hf Hok Hml H1. pose proof (cinv_get cs _ fd Hc Hf) as Hcell.
    assert (VI : c_vals ops fd c1 = c_vals ops fd (cs_get cell ops cs (f_num fd)) /\ inv fd c1).
    { destruct H1 as [-> | ->]; [exact (l_touch L fd _ Hcell)|].
      destruct (l_mutable L fd _ Hok Hcell) as [Mv Mi]. split; [|exact Mi].
      rewrite Mv, (list_not_msg fd Hml). destruct (c_vals ops fd (cs_get cell ops cs (f_num fd))); reflexivity. }
    destruct VI as [V1 I1]. destruct (cell_keep cs fd c1 Hc Hf I1 V1) as (K1 & K2 & K3).
    split; [rewrite V1; symmetry; apply (abs_get cs None _ fd (proj1 Hc) Hf)|]. split; [exact K3|].
    intros [vs'|]; cbv zeta; [|auto].
    destruct (l_update_list L fd vs' c1 Hok I1 Hml) as [Uv Ui].
    destruct (cell_put cs fd _ Hc Hf Ui) as [A B]. split; [|exact B].
    rewrite A, Uv, store_eq_upd; auto. apply oneof_none_of_list; auto.
  Qed.

  Variable S : schema.
  Variable D : rdefs.

  Notation cabs := (cm_abs cell ops md).

  Lemma cm_step_sim : forall tid op st st' out,
    md = nth tid S [] -> md_ok -> CInv (cm_cells st) ->
    cm_step cell ops S D tid op st = (st', out) ->
    refl_step S D tid false op (cabs st) = (cabs st', out) /\ CInv (cm_cells st').
  Proof.
    intros tid op [cs unk] st' out Hmd Hok Hc E. cbn [cm_cells] in Hc.
    unfold cm_step in E. unfold refl_step, cm_abs. cbn [cm_cells cm_unk] in *. rewrite <- Hmd in *.
    destruct (refl_op_wf S md op) eqn:Hop; cbn [negb] in *; [|inversion E; subst; auto].
    pose proof Hc as [Hs Hi].
    destruct op; cbn beta iota zeta in *;
      try (destruct (msg_find_field md f) as [fd|] eqn:Hf; [|inversion E; subst; auto];
           pose proof (find_field_num _ _ _ Hf) as Hn;
           pose proof (fd_ok_of_find _ _ Hok Hf) as Hfdok;
           pose proof (cinv_get cs f fd Hc Hf) as Hcell; subst f).
    - (* Has *)
      destruct (l_touch L fd _ Hcell) as [Tv Ti]. inversion E; subst st' out. cbn [cm_cells cm_unk].
      destruct (cell_keep cs fd _ Hc Hf Ti Tv) as (A & B & H). rewrite A, H. auto.
    - (* Get *)
      destruct (l_touch L fd _ Hcell) as [Tv Ti]. inversion E; subst st' out. cbn [cm_cells cm_unk].
      destruct (cell_keep cs fd _ Hc Hf Ti Tv) as (A & B & _). split; [|exact B].
      rewrite A, refl_get_eq, (abs_get cs None (f_num fd) fd Hs Hf), (l_has L), Tv by auto.
      unfold refl_get_of. destruct (c_vals ops fd (cs_get cell ops cs (f_num fd))); reflexivity.
    - (* Set *)
      cbn in Hop. rewrite Hf in Hop. apply andb_true_iff in Hop. destruct Hop as [_ Hsh].
      destruct (l_set L fd vs _ Hfdok Hcell Hsh) as [Sv Si]. inversion E; subst st' out. cbn [cm_cells cm_unk].
      destruct (cell_put _ fd _ (cinv_clear_others cs fd Hc) Hf Si) as [A B].
      rewrite A, Sv, abs_clear_others, set_eq by auto. auto.
    - (* Clear *)
      destruct (l_clear L fd _ Hcell) as [Cv Ci]. inversion E; subst st' out. cbn [cm_cells cm_unk].
      destruct (cell_put cs fd _ Hc Hf Ci) as [A B]. rewrite A, Cv. auto.
    - (* Mutable *)
      destruct (l_mutable L fd _ Hfdok Hcell) as [Mv Mi].
      destruct (refl_is_map fd || refl_is_list fd) eqn:Hl.
      + destruct (composite_view cs fd _ Hc Hf Hfdok Hl (or_intror eq_refl)) as (V & _ & W).
        inversion E; subst st' out. cbn [cm_cells cm_unk]. destruct (W None) as [A B]. rewrite A, V. auto.
      + destruct (refl_kind_is_msg (f_kind fd)) eqn:Hk; [|inversion E; subst; auto].
        assert (Hm : refl_is_msg fd = true).
        { unfold refl_is_msg. apply orb_false_iff in Hl. destruct Hl as [-> ->]. rewrite Hk. reflexivity. }
        rewrite Hm in Mv. rewrite (abs_get cs None (f_num fd) fd Hs Hf).
        rewrite (l_has L) in E by auto.
        destruct (c_vals ops fd (cs_get cell ops cs (f_num fd))) as [|v0 vr] eqn:Ev; cbn [refl_is_nil negb] in E;
          inversion E; subst st' out; cbn [cm_cells cm_unk].
        * destruct (cell_put _ fd _ (cinv_clear_others cs fd Hc) Hf Mi) as [A B].
          rewrite A, Mv, abs_clear_others. auto.
        * destruct (cell_keep cs fd _ Hc Hf Mi) as (A & B & _); [rewrite Mv, Ev; auto|]. rewrite A, Mv. auto.
    - (* NewField *) inversion E; subst; auto.
    - (* Which *) inversion E; subst. split; auto. rewrite (which_abs cs o Hok Hc md); auto.
    - (* Range *) inversion E; subst. split; auto. rewrite range_abs; auto.
    - (* GetUnknown *) inversion E; subst; auto.
    - (* SetUnknown *) inversion E; subst; auto.
    - (* list operations *)
      destruct (refl_is_list fd) eqn:Hl; cbn [negb] in *; [|inversion E; subst; auto].
      assert (Hml : refl_is_map fd || refl_is_list fd = true) by (rewrite Hl; apply orb_true_r).
      destruct (composite_view cs fd (if viaget then c_touch ops fd (cs_get cell ops cs (f_num fd))
                                      else c_mutable ops fd (cs_get cell ops cs (f_num fd))) Hc Hf Hfdok Hml)
        as (V & H & W); [destruct viaget; auto|].
      rewrite H, V in E. rewrite andb_false_l. unfold refl_list_op.
      destruct (refl_list_edit D tid fd _ o (msg_fget (absf md cs) (f_num fd))) as [r o'].
      inversion E; subst st' out; cbn [cm_cells cm_unk]. destruct (W r) as [A B]. rewrite A. auto.
    - (* map operations *)
      destruct (refl_is_map fd) eqn:Hl; cbn [negb] in *; [|inversion E; subst; auto].
      assert (Hml : refl_is_map fd || refl_is_list fd = true) by (rewrite Hl; reflexivity).
      destruct (composite_view cs fd (if viaget then c_touch ops fd (cs_get cell ops cs (f_num fd))
                                      else c_mutable ops fd (cs_get cell ops cs (f_num fd))) Hc Hf Hfdok Hml)
        as (V & H & W); [destruct viaget; auto|].
      rewrite H, V in E. rewrite andb_false_l. unfold refl_map_op.
      destruct (refl_map_edit fd _ o (msg_fget (absf md cs) (f_num fd))) as [r o'].
      inversion E; subst st' out; cbn [cm_cells cm_unk]. destruct (W r) as [A B]. rewrite A. auto.
  Qed.

  (* navigation: the first step is concrete, the rest abstract *)
  Lemma hd_vals : forall (vs : list value), vs <> [] -> exists v r, vs = v :: r /\ hd msg_empty vs = v.
  Proof. destruct vs; intros; [congruence|]. eauto. Qed.

  Lemma cm_focus_sim : forall w path tid op st st' out,
    md = nth tid S [] -> md_ok -> CInv (cm_cells st) ->
    cm_focus cell ops S D w path tid op st = (st', out) ->
    refl_focus S D w path tid false op (cabs st) = (cabs st', out) /\ CInv (cm_cells st').
  Proof.
    intros w path tid op st st' out Hmd Hok Hc E.
    destruct path as [|stp rest]; [eapply cm_step_sim; eauto|].
    destruct st as [cs unk]. cbn [cm_cells] in Hc. pose proof Hc as [Hs Hi].
    cbn [cm_focus] in E. cbn [refl_focus]. unfold cm_abs at 1. cbn [cm_cells cm_unk] in *.
    cbv zeta in *. rewrite <- Hmd in *.
    destruct (msg_find_field md match stp with PF f => f | PL f _ => f | PM f _ => f end) as [fd|] eqn:Hf;
      [|inversion E; subst; auto].
    pose proof (fd_ok_of_find _ _ Hok Hf) as Hfdok.
    destruct stp as [f|f i|f k].
    - (* PF *)
      pose proof (cinv_get cs f fd Hc Hf) as Hcell. pose proof (find_field_num _ _ _ Hf) as Hn. subst f.
      destruct (refl_is_msg fd) eqn:Hm; cbn [negb] in *; [|inversion E; subst; auto].
      rewrite (abs_get cs None _ fd Hs Hf).
      destruct w.
      + destruct (l_mutable L fd _ Hfdok Hcell) as [Mv Mi]. rewrite Hm in Mv.
        rewrite (l_has L) in E by auto. rewrite Mv in E.
        destruct (c_vals ops fd (cs_get cell ops cs (f_num fd))) as [|v0 vr] eqn:Ev; cbn [refl_is_nil negb hd] in E.
        * cbn [andb]. cbn [msg_macc_of msg_empty] in E.
          destruct (refl_focus S D true rest (refl_kind_tid (f_kind fd)) false op ([], [])) as [sub' o'] eqn:Es.
          inversion E; subst st' out. unfold cm_abs. cbn [cm_cells cm_unk].
          destruct (l_update_msg L fd sub' _ Hfdok Mi Hm) as [Uv Ui].
          destruct (cell_put _ fd _ (cinv_clear_others cs fd Hc) Hf Ui) as [A B].
          rewrite A, Uv, abs_clear_others. auto.
        * destruct (refl_focus S D true rest (refl_kind_tid (f_kind fd)) false op (msg_macc_of v0)) as [sub' o'] eqn:Es.
          inversion E; subst st' out. unfold cm_abs. cbn [cm_cells cm_unk].
          destruct (l_update_msg L fd sub' _ Hfdok Mi Hm) as [Uv Ui].
          destruct (cell_put cs fd _ Hc Hf Ui) as [A B]. rewrite A, Uv. auto.
      + destruct (l_touch L fd _ Hcell) as [Tv Ti].
        rewrite (l_has L) in E by auto. rewrite Tv in E.
        destruct (c_vals ops fd (cs_get cell ops cs (f_num fd))) as [|v0 vr] eqn:Ev; cbn [refl_is_nil negb hd] in E.
        * rewrite andb_false_r.
          destruct (refl_focus S D false rest (refl_kind_tid (f_kind fd)) true op ([], [])) as [sub' o'] eqn:Es.
          inversion E; subst st' out. unfold cm_abs. cbn [cm_cells cm_unk].
          destruct (cell_keep cs fd _ Hc Hf Ti) as (A & B & _); [rewrite Ev; exact Tv|]. rewrite A. auto.
        * destruct (refl_focus S D false rest (refl_kind_tid (f_kind fd)) false op (msg_macc_of v0)) as [sub' o'] eqn:Es.
          inversion E; subst st' out. unfold cm_abs. cbn [cm_cells cm_unk].
          destruct (l_update_msg L fd sub' _ Hfdok Ti Hm) as [Uv Ui].
          destruct (cell_put cs fd _ Hc Hf Ui) as [A B]. rewrite A, Uv. auto.
    - (* PL *)
      pose proof (find_field_num _ _ _ Hf) as Hn. subst f. rewrite andb_false_l.
      destruct (refl_is_list fd) eqn:Hl; cbn [negb] in *; [|inversion E; subst; auto].
      destruct (refl_kind_is_msg (f_kind fd)) eqn:Hk; cbn [negb] in *; [|inversion E; subst; auto].
      assert (Hml : refl_is_map fd || refl_is_list fd = true) by (rewrite Hl; apply orb_true_r).
      destruct (composite_view cs fd (if w then c_mutable ops fd (cs_get cell ops cs (f_num fd))
                                      else c_touch ops fd (cs_get cell ops cs (f_num fd))) Hc Hf Hfdok Hml)
        as (V & _ & W); [destruct w; auto|].
      rewrite V in E. set (vs := msg_fget (absf md cs) (f_num fd)) in *.
      destruct (nth_error vs (N.to_nat i)) as [sub|] eqn:En.
      + destruct (refl_focus S D w rest (refl_kind_tid (f_kind fd)) false op (msg_macc_of sub)) as [sub' o'] eqn:Es.
        inversion E; subst st' out. unfold cm_abs. cbn [cm_cells cm_unk].
        destruct (W (Some (refl_replace_nth vs (N.to_nat i) (refl_val_of sub')))) as [A B].
        rewrite A, store_nonnil; auto using oneof_none_of_list.
        apply replace_nth_nonnil. intros Z. rewrite Z in En. destruct (N.to_nat i); discriminate.
      + inversion E; subst st' out. unfold cm_abs. cbn [cm_cells cm_unk].
        destruct (W None) as [A B]. rewrite A. auto.
    - (* PM *)
      pose proof (find_field_num _ _ _ Hf) as Hn. subst f. rewrite andb_false_l.
      destruct (refl_is_map fd) eqn:Hl; cbn [negb] in *; [|inversion E; subst; auto].
      destruct (refl_kind_is_msg (f_kind fd)) eqn:Hk; cbn [negb] in *; [|inversion E; subst; auto].
      assert (Hml : refl_is_map fd || refl_is_list fd = true) by (rewrite Hl; reflexivity).
      destruct (composite_view cs fd (if w then c_mutable ops fd (cs_get cell ops cs (f_num fd))
                                      else c_touch ops fd (cs_get cell ops cs (f_num fd))) Hc Hf Hfdok Hml)
        as (V & _ & W); [destruct w; auto|].
      rewrite V in E. set (es := msg_fget (absf md cs) (f_num fd)) in *.
      destruct (refl_map_get es k) as [sub|] eqn:En.
      + destruct (refl_focus S D w rest (refl_kind_tid (f_kind fd)) false op (msg_macc_of sub)) as [sub' o'] eqn:Es.
        inversion E; subst st' out. unfold cm_abs. cbn [cm_cells cm_unk].
        destruct (W (Some (refl_map_replace es k (refl_val_of sub')))) as [A B].
        rewrite A, store_nonnil; auto using oneof_none_of_list.
        apply map_replace_nonnil. intros Z. rewrite Z in En. discriminate.
      + inversion E; subst st' out. unfold cm_abs. cbn [cm_cells cm_unk].
        destruct (W None) as [A B]. rewrite A. auto.
  Qed.

  Theorem cm_run_refines : forall steps st,
    md = nth O S [] -> md_ok -> CInv (cm_cells st) ->
    refl_val_of (cabs (fst (cm_run cell ops S D st steps))) =
      fst (refl_run S D (refl_val_of (cabs st)) steps) /\
    snd (cm_run cell ops S D st steps) = map fst (snd (refl_run S D (refl_val_of (cabs st)) steps)) /\
    CInv (cm_cells (fst (cm_run cell ops S D st steps))).
  Proof.
    induction steps as [|s r IH]; intros st Hmd Hok Hc; cbn [cm_run refl_run].
    - cbn. auto.
    - destruct (cm_focus cell ops S D (rs_w s) (rs_path s) O (rs_op s) st) as [st1 out] eqn:E.
      destruct (cm_focus_sim _ _ _ _ _ _ _ Hmd Hok Hc E) as [Hsim Hc1].
      unfold refl_apply.
      replace (msg_macc_of (refl_val_of (cabs st))) with (cabs st) by (destruct (cabs st); reflexivity).
      rewrite Hsim. destruct (IH st1 Hmd Hok Hc1) as [A [B C]].
      destruct (cm_run cell ops S D st1 r) as [st2 outs]. cbn [fst snd] in *.
      destruct (refl_run S D (refl_val_of (cabs st1)) r) as [m2 outs'] eqn:Er. cbn [fst snd] in *.
      split; [auto|]. split; [cbn; f_equal; auto|exact C].
  Qed.
End Generic.

(* invariant of a dynamicpb cell: an extension registered in [ext] has an entry in [known]; a
   singular field holds a singular value *)
Definition dyn_inv (fd : fdesc) (c : dyncell) : Prop :=
  (f_ext fd = true -> dc_ext c = true -> dc_known c <> None) /\
  (refl_is_map fd || refl_is_list fd = false ->
     match dc_known c with Some (DList _) | Some (DMap _) => False | _ => True end) /\
  (refl_is_msg fd = true -> match dc_known c with Some (DOne (VS _)) => False | _ => True end).

Lemma fd_ok_ext_card : forall fd, refl_fd_ok fd = true -> f_ext fd = true ->
  f_oneof fd = None /\ f_card fd <> CImp /\ refl_is_map fd = false.
Proof.
  intros fd H He. unfold refl_fd_ok in H. rewrite He in H. apply andb_true_iff in H. destruct H as [H1 H2].
  cbn in H2. repeat split.
  - destruct (f_oneof fd); auto. rewrite andb_false_r in H1. cbn in H1. discriminate.
  - intros Z. rewrite Z in H2. discriminate.
  - unfold refl_is_map. destruct (f_card fd); auto; discriminate.
Qed.

Lemma fd_ok_oneof_card : forall fd i, refl_fd_ok fd = true -> f_oneof fd = Some i ->
  f_card fd <> CImp /\ refl_is_map fd || refl_is_list fd = false /\ f_ext fd = false.
Proof.
  intros fd i H Ho. unfold refl_fd_ok in H. rewrite Ho in H. apply andb_true_iff in H. destruct H as [H1 _].
  apply andb_true_iff in H1. destruct H1 as [H1 H3]. apply andb_true_iff in H1. destruct H1 as [H1 H2].
  apply negb_true_iff in H1. apply negb_true_iff in H2. repeat split; auto.
  intros Z. rewrite Z in H3. discriminate.
Qed.

Lemma dyn_isset_singular : forall fd v,
  refl_fd_ok fd = true -> refl_is_map fd || refl_is_list fd = false ->
  dyn_isset fd (DOne v) =
    match f_card fd, v with CImp, VS s => negb (msg_scalar_is_zero s) | _, _ => true end.
Proof.
  intros fd v Hok Hl. apply orb_false_iff in Hl. destruct Hl as [Hm Hl].
  unfold dyn_isset. rewrite Hm, Hl.
  destruct (f_oneof fd) as [i|] eqn:Ho.
  - destruct (fd_ok_oneof_card fd i Hok Ho) as [Hc _]. destruct (f_card fd); try reflexivity; congruence.
  - destruct (f_card fd) eqn:Hc; try reflexivity.
    destruct (f_ext fd) eqn:He.
    + destruct (fd_ok_ext_card fd Hok He) as [_ [Hc' _]]. congruence.
    + destruct v; reflexivity.
Qed.

Lemma card_of_list : forall fd, refl_is_map fd || refl_is_list fd = true -> f_card fd <> CImp.
Proof.
  intros fd H Z. unfold refl_is_map, refl_is_list in H. rewrite Z in H. discriminate.
Qed.

Lemma norm_not_imp : forall fd vs, f_card fd <> CImp -> refl_norm fd vs = vs.
Proof. intros fd vs H. unfold refl_norm. destruct (f_card fd); try reflexivity; congruence. Qed.

(* a stored entry (with the extension registered, if it is one) is read iff [isSet] *)
Lemma dyn_vals_stored : forall fd k x,
  dyn_vals fd (mkDC (Some k) (f_ext fd || x)) = if dyn_isset fd k then dcell_vals k else [].
Proof. intros. unfold dyn_vals, dyn_has. cbn [dc_known dc_ext]. destruct (f_ext fd), x; reflexivity. Qed.

Lemma dyn_cell_list : forall fd vs, refl_is_map fd || refl_is_list fd = true ->
  (if dyn_isset fd (dyn_cell_of fd vs) then dcell_vals (dyn_cell_of fd vs) else []) = vs.
Proof.
  intros fd vs Hl. unfold dyn_cell_of, dyn_isset.
  destruct (refl_is_map fd); [cbn; destruct vs; reflexivity|].
  cbn in Hl. rewrite Hl. cbn. destruct vs; reflexivity.
Qed.

Lemma dyn_cell_one : forall fd v, refl_fd_ok fd = true -> refl_is_map fd || refl_is_list fd = false ->
  (if dyn_isset fd (dyn_cell_of fd [v]) then dcell_vals (dyn_cell_of fd [v]) else []) = refl_norm fd [v].
Proof.
  intros fd v Hok Hl. unfold dyn_cell_of, refl_norm.
  pose proof Hl as Hl'. apply orb_false_iff in Hl'. destruct Hl' as [-> ->]. cbn [hd dcell_vals].
  rewrite (dyn_isset_singular fd v Hok Hl).
  destruct (f_card fd); try reflexivity. destruct v; try reflexivity.
  destruct (msg_scalar_is_zero s); reflexivity.
Qed.

Lemma dyn_inv_stored : forall fd vs b,
  (refl_is_msg fd = true -> match hd msg_empty vs with VS _ => False | _ => True end) ->
  dyn_inv fd (mkDC (Some (dyn_cell_of fd vs)) b).
Proof.
  intros fd vs b H. repeat split; cbn [dc_known dc_ext]; [discriminate| |]; unfold dyn_cell_of.
  - intros Hl. apply orb_false_iff in Hl. destruct Hl as [-> ->]. exact I.
  - intros Hm. destruct (is_msg_not_list fd Hm) as [-> [-> _]]. apply H, Hm.
Qed.

(* a message field with an entry (of a registered extension, if it is one) is populated *)
Lemma dyn_msg_populated : forall fd c k,
  refl_fd_ok fd = true -> dyn_inv fd c -> refl_is_msg fd = true ->
  dc_known c = Some k -> f_ext fd && negb (dc_ext c) = false -> dyn_vals fd c <> [].
Proof.
  intros fd c k Hok [_ [Hsh Hty]] Hm Ek Hx.
  destruct (is_msg_not_list fd Hm) as [Hmap [Hlist _]].
  assert (Hl : refl_is_map fd || refl_is_list fd = false) by (rewrite Hmap, Hlist; reflexivity).
  specialize (Hsh Hl). specialize (Hty Hm). unfold dyn_vals, dyn_has. rewrite Hx, Ek in *.
  destruct k as [v| |]; try contradiction. rewrite (dyn_isset_singular fd v Hok Hl).
  destruct (f_card fd), v; try contradiction; discriminate.
Qed.

Theorem dyn_laws : celllaws dyncell dyn_ops dyn_inv.
Proof.
  constructor; cbn [c_zero c_vals c_has c_set c_clear c_mutable c_touch c_update dyn_ops].
  - (* zero inv *) intros fd. repeat split; cbn; auto. intros; discriminate.
  - (* zero *) intros fd. unfold dyn_vals, dyn_has. cbn. destruct (f_ext fd && true); reflexivity.
  - (* has *)
    intros fd c [_ [Hsh _]]. unfold dyn_vals. destruct (dyn_has fd c) eqn:Hh; [|reflexivity].
    unfold dyn_has in Hh. destruct (f_ext fd && negb (dc_ext c)); [discriminate|].
    destruct (dc_known c) as [k|]; [|discriminate].
    unfold dyn_isset in Hh.
    destruct (refl_is_map fd) eqn:Hm; [destruct (dcell_vals k); [discriminate|reflexivity]|].
    destruct (refl_is_list fd) eqn:Hl; [destruct (dcell_vals k); [discriminate|reflexivity]|].
    specialize (Hsh eq_refl). destruct k; try contradiction. reflexivity.
  - (* set *)
    intros fd vs c Hok _ Hshape. unfold dyn_set, refl_set_shape in *. rewrite dyn_vals_stored.
    destruct (refl_is_map fd || refl_is_list fd) eqn:Hl.
    + split; [|apply dyn_inv_stored; rewrite (list_not_msg fd Hl); discriminate].
      rewrite dyn_cell_list by exact Hl. symmetry. apply norm_not_imp, card_of_list, Hl.
    + cbn [orb] in Hshape. destruct vs as [|v [|]]; try discriminate.
      split; [apply dyn_cell_one; assumption|]. apply dyn_inv_stored. cbn [hd]. intros Hm.
      destruct (is_msg_not_list fd Hm) as [_ [_ Hk]].
      destruct (f_kind fd); [discriminate| |]; destruct v; auto; discriminate.
  - (* clear *)
    intros fd c _. unfold dyn_clear. split.
    + unfold dyn_vals, dyn_has. cbn. destruct (f_ext fd && true); reflexivity.
    + repeat split; cbn; auto. intros; discriminate.
  - (* mutable *)
    intros fd c Hok Hinv. unfold dyn_mutable.
    destruct (refl_is_map fd || refl_is_list fd || refl_is_msg fd) eqn:Hcomp; cbn [negb].
    2:{ split; [|exact Hinv]. apply orb_false_iff in Hcomp. destruct Hcomp as [_ Hm]. rewrite Hm.
        destruct (dyn_vals fd c); reflexivity. }
    assert (Hnew : forall x, dyn_vals fd (mkDC (Some (dyn_new fd)) x) =
                   if f_ext fd && negb x then [] else if refl_is_msg fd then [msg_empty] else []).
    { intros x. unfold dyn_vals, dyn_has. cbn [dc_known dc_ext].
      destruct (f_ext fd && negb x); [reflexivity|].
      unfold dyn_new, dyn_cell_of. destruct (refl_is_msg fd) eqn:Hm.
      - destruct (is_msg_not_list fd Hm) as [Hmap [Hlist _]]. rewrite Hmap, Hlist. cbn [hd].
        rewrite dyn_isset_singular by (auto; rewrite Hmap, Hlist; reflexivity).
        destruct (f_card fd); reflexivity.
      - rewrite orb_false_r in Hcomp.
        unfold dyn_isset. destruct (refl_is_map fd); [reflexivity|]. cbn in Hcomp. rewrite Hcomp. reflexivity. }
    assert (Inew : forall x, dyn_inv fd (mkDC (Some (dyn_new fd)) x)).
    { intros x. apply dyn_inv_stored. intros ->. exact I. }
    (* an entry that is there stays: it reads as populated if the field is a message *)
    assert (Hkeep : forall k, dc_known c = Some k -> f_ext fd && negb (dc_ext c) = false ->
              dyn_vals fd c = match dyn_vals fd c with
                              | [] => if refl_is_msg fd then [msg_empty] else []
                              | vs => vs end).
    { intros k Ek Hx. destruct (dyn_vals fd c) eqn:Ev; [|reflexivity].
      destruct (refl_is_msg fd) eqn:Hm; [|reflexivity].
      destruct (dyn_msg_populated fd c k Hok Hinv Hm Ek Hx Ev). }
    assert (Hnone : f_ext fd && negb (dc_ext c) = true \/ dc_known c = None -> dyn_vals fd c = []).
    { unfold dyn_vals, dyn_has. intros [-> | ->]; [reflexivity|]. destruct (f_ext fd && negb (dc_ext c)); reflexivity. }
    destruct (f_ext fd) eqn:He.
    + destruct (dc_ext c) eqn:Hx'.
      * split; [|exact Hinv]. destruct Hinv as [Hx _].
        destruct (dc_known c) as [k|] eqn:Ek; [|destruct (Hx He Hx' eq_refl)].
        apply (Hkeep k); reflexivity.
      * split; [|apply Inew]. rewrite Hnew, Hnone by (left; reflexivity). reflexivity.
    + destruct (dc_known c) as [k|] eqn:Ek.
      * split; [|exact Hinv]. apply (Hkeep k); reflexivity.
      * split; [|apply Inew]. rewrite Hnew, Hnone by (right; reflexivity). reflexivity.
  - (* touch *) intros; auto.
  - (* update list *)
    intros fd vs c Hok _ Hl. unfold dyn_update. rewrite dyn_vals_stored. split.
    + apply dyn_cell_list, Hl.
    + apply dyn_inv_stored. rewrite (list_not_msg fd Hl). discriminate.
  - (* update message *)
    intros fd m c Hok _ Hm. unfold dyn_update. rewrite dyn_vals_stored.
    destruct (is_msg_not_list fd Hm) as [Hmap [Hlist _]]. split.
    + rewrite dyn_cell_one by (auto; rewrite Hmap, Hlist; reflexivity).
      destruct m. unfold refl_norm. destruct (f_card fd); reflexivity.
    + apply dyn_inv_stored. destruct m. intros _. exact I.
Qed.

(* a cleared presence bit goes with a nil pointer (lazy message); a non-nil slice pointer goes
   with a set presence bit (lazy message list) *)
Definition opq_inv (fd : fdesc) (c : ocell) : Prop :=
  match opq_coerce fd c with
  | OCMsgLazy p ptr _ => p = false -> ptr = None
  | OCMsgListLazy p ptr _ => ptr <> None -> p = true
  | _ => True
  end.

Definition opq_class_spec (fd : fdesc) : Prop :=
  match opq_class fd with
  | KExt => f_ext fd = true
  | KOneof => f_ext fd = false /\ f_oneof fd <> None
  | KMap => f_ext fd = false /\ f_oneof fd = None /\ refl_is_map fd = true
  | KList => f_ext fd = false /\ f_oneof fd = None /\ refl_is_map fd = false /\ refl_is_list fd = true /\
             refl_kind_is_msg (f_kind fd) = false
  | KMsgListLazy | KMsgListPtr =>
             f_ext fd = false /\ f_oneof fd = None /\ refl_is_map fd = false /\ refl_is_list fd = true /\
             refl_kind_is_msg (f_kind fd) = true
  | KMsgLazy | KMsgPtr =>
             f_ext fd = false /\ f_oneof fd = None /\ refl_is_map fd = false /\ refl_is_list fd = false /\
             refl_kind_is_msg (f_kind fd) = true
  | KDirect => f_ext fd = false /\ f_oneof fd = None /\ refl_is_map fd = false /\ refl_is_list fd = false /\
             refl_kind_is_msg (f_kind fd) = false /\ f_card fd = CImp
  | KNullable => f_ext fd = false /\ f_oneof fd = None /\ refl_is_map fd = false /\ refl_is_list fd = false /\
             refl_kind_is_msg (f_kind fd) = false /\ f_card fd <> CImp
  end.

Lemma opq_class_facts : forall fd, opq_class_spec fd.
Proof.
  intros fd. unfold opq_class_spec, opq_class.
  destruct (f_ext fd); auto.
  destruct (f_oneof fd) eqn:Ho; [split; auto; discriminate|].
  destruct (refl_is_map fd) eqn:Hm; auto.
  destruct (refl_is_list fd) eqn:Hl.
  - destruct (refl_kind_is_msg (f_kind fd)); [destruct (f_lazy fd)|]; repeat split; auto.
  - destruct (refl_kind_is_msg (f_kind fd)) eqn:Hk; [destruct (f_lazy fd); repeat split; auto|].
    destruct (f_card fd) eqn:Hc; repeat split; auto; discriminate.
Qed.

Lemma is_msg_eq : forall fd, refl_is_msg fd = refl_kind_is_msg (f_kind fd) && negb (refl_is_map fd) && negb (refl_is_list fd).
Proof. reflexivity. Qed.

Inductive shape_of : ocls -> ocell -> Prop :=
| ShNullable p v : shape_of KNullable (OCNullable p v)
| ShDirect v : shape_of KDirect (OCDirect v)
| ShMsgLazy p ptr lz : shape_of KMsgLazy (OCMsgLazy p ptr lz)
| ShMsgPtr ptr : shape_of KMsgPtr (OCMsgPtr ptr)
| ShList vs : shape_of KList (OCList vs)
| ShMsgListLazy p ptr lz : shape_of KMsgListLazy (OCMsgListLazy p ptr lz)
| ShMsgListPtr ptr : shape_of KMsgListPtr (OCMsgListPtr ptr)
| ShMap m : shape_of KMap (OCMap m)
| ShOneof v : shape_of KOneof (OCOneof v)
| ShExt x : shape_of KExt (OCExt x).

Lemma coerce_shape : forall fd c, shape_of (opq_class fd) (opq_coerce fd c).
Proof. intros. unfold opq_coerce. destruct (opq_class fd); destruct c; constructor. Qed.

Lemma coerce_id : forall fd x, shape_of (opq_class fd) x -> opq_coerce fd x = x.
Proof. intros fd x H. unfold opq_coerce. destruct (opq_class fd); inversion H; subst; reflexivity. Qed.

(* Every law is proved on the coerced cell: ten goals, one per class, in the order of [ocls]
   (nullable, direct, lazy message, message pointer, scalar list, lazy message list, message list
   pointer, map, oneof member, extension).  In each, [K] names the class, [F] holds what
   [opq_class_facts] says of the descriptor, and the cell is the constructor of that class. *)
Ltac opq_case fd c :=
  let Sh := fresh "Sh" in let F := fresh "F" in let x := fresh "x" in let Ex := fresh "Ex" in
  pose proof (coerce_shape fd c) as Sh;
  pose proof (opq_class_facts fd) as F; unfold opq_class_spec in F;
  unfold opq_inv, opq_vals, opq_has, opq_set, opq_clear, opq_mutable, opq_touch, opq_update in *;
  remember (opq_coerce fd c) as x eqn:Ex in *; clear Ex;
  remember (opq_class fd) as k eqn:K in *; destruct Sh; symmetry in K;
  repeat match goal with |- context [opq_coerce fd ?y] =>
    rewrite (coerce_id fd y) by (rewrite K; constructor) end;
  cbn [refl_is_nil negb] in *.

(* splits [F]: the facts about map / list / extension are rewritten everywhere, the one about the
   kind is left as [Kind], the one about the cardinality as [Card] *)
Ltac fin :=
  repeat match goal with H : _ /\ _ |- _ => destruct H end;
  repeat match goal with
  | H : refl_is_map _ = _ |- _ => rewrite H in *; clear H
  | H : refl_is_list _ = _ |- _ => rewrite H in *; clear H
  | H : f_ext _ = _ |- _ => rewrite H in *; clear H
  end; cbn [orb andb negb] in *;
  try match goal with H : refl_kind_is_msg (f_kind _) = _ |- _ => rename H into Kind end;
  try match goal with H : f_card _ = CImp |- _ => rename H into Card end;
  try match goal with H : f_card _ <> CImp |- _ => rename H into Card end.

Lemma opq_has_vals : forall fd c, opq_has fd c = negb (refl_is_nil (opq_vals fd c)).
Proof.
  intros fd c. unfold opq_vals. destruct (opq_has fd c) eqn:H; [|reflexivity].
  opq_case fd c; try reflexivity; try (symmetry; exact H).
  - destruct ptr; [reflexivity|discriminate].
  - apply andb_true_iff in H. symmetry. apply H.
  - destruct v; [reflexivity|discriminate].
  - destruct x as [l|]; [|discriminate].
    destruct (refl_is_list fd || refl_is_map fd); [symmetry; exact H|reflexivity].
Qed.

Lemma kind_ks : forall fd, refl_kind_is_msg (f_kind fd) = false -> exists sk, f_kind fd = KS sk.
Proof. intros fd H. destruct (f_kind fd); try discriminate. eauto. Qed.
Lemma kind_msg : forall fd, refl_kind_is_msg (f_kind fd) = true -> forall sk, f_kind fd <> KS sk.
Proof. intros fd H sk Z. rewrite Z in H. discriminate. Qed.

Lemma shape_singular_scalar : forall fd vs,
  refl_kind_is_msg (f_kind fd) = false ->
  match vs with
  | [v] => match f_kind fd, v with KS _, VS _ => true | KS _, _ => false | _, VS _ => false | _, _ => true end
  | _ => false end = true ->
  exists s, vs = [VS s].
Proof.
  intros fd vs Hk H. destruct (kind_ks fd Hk) as [sk E]. rewrite E in H.
  destruct vs as [|v [|]]; try discriminate. destruct v; try discriminate. eauto.
Qed.
Lemma shape_singular_msg : forall fd vs,
  refl_kind_is_msg (f_kind fd) = true ->
  match vs with
  | [v] => match f_kind fd, v with KS _, VS _ => true | KS _, _ => false | _, VS _ => false | _, _ => true end
  | _ => false end = true ->
  exists v, vs = [v] /\ (forall s, v <> VS s).
Proof.
  intros fd vs Hk H. destruct vs as [|v [|]]; try discriminate. exists v. split; auto.
  intros s ->. destruct (f_kind fd); discriminate.
Qed.
Lemma norm_msg : forall fd v, (forall s, v <> VS s) -> refl_norm fd [v] = [v].
Proof. intros fd v H. unfold refl_norm. destruct (f_card fd); try reflexivity. destruct v; try reflexivity. exfalso; eapply H; eauto. Qed.

Lemma opq_set_law : forall fd vs c, refl_fd_ok fd = true -> opq_inv fd c -> refl_set_shape fd vs = true ->
  opq_vals fd (opq_set fd vs c) = refl_norm fd vs /\ opq_inv fd (opq_set fd vs c).
Proof.
  intros fd vs c Hok Hinv Hsh. unfold refl_set_shape in Hsh. opq_case fd c.
  - (* nullable *) fin.
    destruct (shape_singular_scalar fd vs Kind Hsh) as [s ->]. rewrite norm_not_imp by auto. cbn. auto.
  - (* direct *) fin.
    destruct (shape_singular_scalar fd vs Kind Hsh) as [s ->]. unfold refl_norm. rewrite Card. cbn.
    destruct (msg_scalar_is_zero s); auto.
  - (* lazy message *) fin. destruct (shape_singular_msg fd vs Kind Hsh) as [v [-> Hv]]. rewrite norm_msg by auto. cbn. split; auto. discriminate.
  - (* message pointer *) fin. destruct (shape_singular_msg fd vs Kind Hsh) as [v [-> Hv]]. rewrite norm_msg by auto. cbn. auto.
  - (* scalar list *) destruct F as [_ [_ [_ [Hl _]]]]. rewrite norm_not_imp by (apply card_of_list; rewrite Hl; apply orb_true_r).
    split; auto. destruct vs; reflexivity.
  - (* lazy message list *) destruct F as [_ [_ [_ [Hl _]]]]. rewrite norm_not_imp by (apply card_of_list; rewrite Hl; apply orb_true_r).
    destruct ptr.
    + rewrite coerce_id by (rewrite K; constructor). cbn.
      rewrite (Hinv ltac:(discriminate)). cbn. split; [destruct vs; reflexivity|auto].
    + rewrite coerce_id by (rewrite K; constructor). cbn. split; [destruct vs; reflexivity|auto].
  - (* message list pointer *) destruct F as [_ [_ [_ [Hl _]]]]. rewrite norm_not_imp by (apply card_of_list; rewrite Hl; apply orb_true_r).
    split; auto. cbn. destruct vs; reflexivity.
  - (* map *) destruct F as [_ [_ Hm]]. rewrite norm_not_imp by (apply card_of_list; rewrite Hm; reflexivity).
    split; auto. cbn. destruct vs; reflexivity.
  - (* oneof member *)
    destruct F as [He Ho]. destruct (f_oneof fd) as [i|] eqn:Hoi; [|congruence].
    destruct (fd_ok_oneof_card fd i Hok Hoi) as [Hc [Hl _]]. rewrite Hl in Hsh. cbn [orb] in Hsh.
    rewrite norm_not_imp by auto.
    destruct vs as [|v0 [|]]; try discriminate. cbn. auto.
  - (* extension *)
    destruct (fd_ok_ext_card fd Hok F) as [_ [Hc Hm]]. rewrite norm_not_imp by auto. rewrite Hm in *.
    rewrite orb_false_r. cbn [orb] in Hsh.
    destruct (refl_is_list fd) eqn:Hl.
    + split; auto. cbn. destruct vs; reflexivity.
    + cbn [orb] in Hsh. destruct vs as [|v0 [|]]; try discriminate. cbn. auto.
Qed.

Lemma kind_zero_is_zero : forall fd, msg_scalar_is_zero (opq_kind_zero fd) = true.
Proof. intros fd. unfold opq_kind_zero. destruct (f_kind fd) as [[]| |]; reflexivity. Qed.

Lemma opq_clear_law : forall fd c, opq_inv fd c ->
  opq_vals fd (opq_clear fd c) = [] /\ opq_inv fd (opq_clear fd c).
Proof.
  intros fd c Hinv. opq_case fd c; try (cbn; auto; fail).
  - (* direct: the zero of the kind reads as unpopulated *) cbn. rewrite kind_zero_is_zero. auto.
  - (* message list pointer: an allocated slice is emptied, nil stays nil *) destruct ptr; rewrite coerce_id by (rewrite K; constructor); cbn; auto.
Qed.

Lemma opq_touch_law : forall fd c, opq_inv fd c ->
  opq_vals fd (opq_touch fd c) = opq_vals fd c /\ opq_inv fd (opq_touch fd c).
Proof.
  intros fd c Hinv. opq_case fd c; try (cbn; auto; fail).
  - (* lazy message: the retained buffer is decoded into the pointer *)
    destruct p, ptr; rewrite coerce_id by (rewrite K; constructor); cbn; auto. split; auto. discriminate.
  - (* lazy message list: likewise *) destruct p, ptr; rewrite coerce_id by (rewrite K; constructor); cbn; auto.
Qed.

Lemma opq_mutable_law : forall fd c, refl_fd_ok fd = true -> opq_inv fd c ->
  opq_vals fd (opq_mutable fd c) =
    match opq_vals fd c with [] => if refl_is_msg fd then [msg_empty] else [] | vs => vs end
  /\ opq_inv fd (opq_mutable fd c).
Proof.
  intros fd c Hok Hinv. rewrite is_msg_eq. opq_case fd c.
  - (* nullable *) fin. rewrite Kind. cbn. destruct p; auto.
  - (* direct *) fin. rewrite Kind. cbn. destruct (msg_scalar_is_zero v); auto.
  - (* lazy message *) fin. rewrite Kind. cbn.
    destruct ptr; [|destruct p]; rewrite coerce_id by (rewrite K; constructor); cbn.
    + destruct p; auto. specialize (Hinv eq_refl). discriminate.
    + split; auto; discriminate.
    + split; auto; discriminate.
  - (* message pointer *) fin. rewrite Kind. cbn. destruct ptr; rewrite coerce_id by (rewrite K; constructor); cbn; auto.
  - (* scalar list *) fin. rewrite Kind. cbn. destruct vs; auto.
  - (* lazy message list *) fin. rewrite Kind. cbn.
    destruct ptr; [|destruct p]; rewrite coerce_id by (rewrite K; constructor); cbn.
    + rewrite (Hinv ltac:(discriminate)). cbn. destruct l; auto.
    + destruct lz; auto.
    + auto.
  - (* message list pointer *) fin. rewrite Kind. cbn. destruct ptr as [[|]|]; rewrite coerce_id by (rewrite K; constructor); cbn; auto.
  - (* map *) fin. cbn. rewrite andb_false_r. cbn. destruct m as [[|]|]; rewrite coerce_id by (rewrite K; constructor); cbn; auto.
  - (* oneof member *)
    destruct F as [He Ho]. destruct (f_oneof fd) as [i|] eqn:Hoi; [|congruence].
    destruct (fd_ok_oneof_card fd i Hok Hoi) as [Hc [Hl _]]. apply orb_false_iff in Hl. destruct Hl as [Hm Hl].
    rewrite Hm, Hl. cbn [negb andb]. rewrite !andb_true_r.
    destruct v.
    + rewrite coerce_id by (rewrite K; constructor). cbn. auto.
    + unfold refl_is_msg. rewrite Hm, Hl. cbn [negb andb]. rewrite !andb_true_r.
      destruct (refl_kind_is_msg (f_kind fd)); rewrite coerce_id by (rewrite K; constructor); cbn; auto.
  - (* extension *)
    destruct (fd_ok_ext_card fd Hok F) as [_ [Hc Hm]]. rewrite Hm in *. cbn [negb andb orb]. rewrite !andb_true_r, !orb_false_r.
    match goal with |- context [OCExt ?y] => destruct y as [l|] end.
    + rewrite coerce_id by (rewrite K; constructor). cbn. rewrite ?Hm, ?orb_false_r.
      destruct (refl_is_list fd); cbn; [destruct l; cbn; rewrite ?andb_false_r|]; auto.
    + unfold refl_is_msg. rewrite Hm. cbn [negb andb]. rewrite andb_true_r.
      destruct (refl_kind_is_msg (f_kind fd)) eqn:Hk, (refl_is_list fd) eqn:Hl; cbn [negb andb orb];
        rewrite coerce_id by (rewrite K; constructor); cbn; rewrite ?Hm, ?Hl; cbn; auto.
Qed.

Lemma opq_update_list_law : forall fd vs c, refl_fd_ok fd = true -> opq_inv fd c ->
  refl_is_map fd || refl_is_list fd = true ->
  opq_vals fd (opq_update fd vs c) = vs /\ opq_inv fd (opq_update fd vs c).
Proof.
  intros fd vs c Hok Hinv Hl. opq_case fd c.
  - (* the four singular classes are neither list nor map *) fin. discriminate.
  - fin. discriminate.
  - fin. discriminate.
  - fin. discriminate.
  - (* the three list classes and the map: the slice itself *) cbn. split; auto. destruct vs; reflexivity.
  - cbn. split; auto. destruct vs; reflexivity.
  - cbn. split; auto. destruct vs; reflexivity.
  - cbn. split; auto. destruct vs; reflexivity.
  - (* a oneof member is singular *) destruct F as [He Ho]. destruct (f_oneof fd) as [i|] eqn:Hoi; [|congruence].
    destruct (fd_ok_oneof_card fd i Hok Hoi) as [Hc [Hl' _]]. rewrite Hl' in Hl. discriminate.
  - (* a list extension *)
    destruct (fd_ok_ext_card fd Hok F) as [_ [Hc Hm]]. rewrite Hm in *. cbn [orb] in Hl. rewrite Hl. cbn.
    split; auto. destruct vs; reflexivity.
Qed.

Lemma opq_update_msg_law : forall fd (m : msg_macc) c, refl_fd_ok fd = true -> opq_inv fd c ->
  refl_is_msg fd = true ->
  opq_vals fd (opq_update fd [refl_val_of m] c) = [refl_val_of m] /\ opq_inv fd (opq_update fd [refl_val_of m] c).
Proof.
  intros fd m c Hok Hinv Hm. destruct (is_msg_not_list fd Hm) as [Hmap [Hlist Hk]]. opq_case fd c.
  (* a singular message field is a lazy message, a message pointer, a oneof member or an
     extension; the class facts of the other six contradict [Hk], [Hlist] or [Hmap] *)
  - exfalso; fin; congruence.
  - exfalso; fin; congruence.
  - cbn. split; auto. discriminate.
  - cbn. auto.
  - exfalso; fin; congruence.
  - exfalso; fin; congruence.
  - exfalso; fin; congruence.
  - exfalso; fin; congruence.
  - cbn. auto.
  - cbn. rewrite Hmap, Hlist. cbn. auto.
Qed.

Theorem opq_laws : celllaws ocell opq_ops opq_inv.
Proof.
  constructor; cbn [c_zero c_vals c_has c_set c_clear c_mutable c_touch c_update opq_ops].
  - intros fd. unfold opq_inv, opq_coerce. destruct (opq_class fd); auto; discriminate.
  - intros fd. unfold opq_vals, opq_has, opq_coerce. destruct (opq_class fd); cbn; auto.
    rewrite kind_zero_is_zero. reflexivity.
  - intros. apply opq_has_vals.
  - apply opq_set_law.
  - apply opq_clear_law.
  - apply opq_mutable_law.
  - apply opq_touch_law.
  - apply opq_update_list_law.
  - apply opq_update_msg_law.
Qed.

Section Refinement.
  Variable S : schema.
  Variable D : rdefs.
  Let md := nth O S [].

  (* dynamicpb: every history on a dynamicpb message is a history of the abstract model *)
  Theorem dynamic_refines_abstract : forall steps (st : cmsg dyncell),
    md_ok md -> CInv dyncell dyn_inv md (cm_cells st) ->
    refl_val_of (cm_abs dyncell dyn_ops md (fst (cm_run dyncell dyn_ops S D st steps))) =
      fst (refl_run S D (refl_val_of (cm_abs dyncell dyn_ops md st)) steps) /\
    snd (cm_run dyncell dyn_ops S D st steps) =
      map fst (snd (refl_run S D (refl_val_of (cm_abs dyncell dyn_ops md st)) steps)) /\
    CInv dyncell dyn_inv md (cm_cells (fst (cm_run dyncell dyn_ops S D st steps))).
  Proof. intros. apply (cm_run_refines dyncell dyn_ops dyn_inv dyn_laws md S D); auto. Qed.

  (* opaque generated messages (presence bits, lazy pointers) *)
  Theorem opaque_refines_abstract : forall steps (st : cmsg ocell),
    md_ok md -> CInv ocell opq_inv md (cm_cells st) ->
    refl_val_of (cm_abs ocell opq_ops md (fst (cm_run ocell opq_ops S D st steps))) =
      fst (refl_run S D (refl_val_of (cm_abs ocell opq_ops md st)) steps) /\
    snd (cm_run ocell opq_ops S D st steps) =
      map fst (snd (refl_run S D (refl_val_of (cm_abs ocell opq_ops md st)) steps)) /\
    CInv ocell opq_inv md (cm_cells (fst (cm_run ocell opq_ops S D st steps))).
  Proof. intros. apply (cm_run_refines ocell opq_ops opq_inv opq_laws md S D); auto. Qed.

  (* the empty concrete message is a legal start *)
  Lemma cinv_empty : forall cell (inv : fdesc -> cell -> Prop), CInv cell inv md [].
  Proof. intros. split; cbn; auto. intros ? ? ? []. Qed.
End Refinement.

(* WhichOneof of a synthetic oneof asks the field's own [has] (makeOneofInfoOpaque), so it reports
   the member exactly when it is populated *)
Theorem opq_which_synthetic_correct : forall (fd : fdesc) (c : ocell),
  opq_which_synthetic fd c = negb (refl_is_nil (opq_vals fd c)).
Proof. intros. unfold opq_which_synthetic. apply opq_has_vals. Qed.
