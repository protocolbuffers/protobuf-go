(* FastSlowP — proofs for C08: the two emission-order computations yield the same list, and
   normalising unknown-field tags maps what the reflection decoder retains to what the
   table-driven decoder retains. *)
From Coq Require Import List Arith NArith ZArith Lia Bool Permutation Sorting.Sorted.
From Coq Require Import ZifyBool ZifyNat ZifyN.
From PB Require Import Base.PBytes Base.ListP Wire.WireModel Wire.WireGrammar Wire.VarintP Wire.ScanP.
From PB Require Import Msg.MsgSchema Msg.MsgValue Msg.MsgEnc Msg.MsgDec Msg.MsgWireP.
From PB Require Import Msg.DetModel Msg.DetP Msg.FastSlowModel.
Import ListNotations.
Open Scope N_scope.

Definition fsm_perm_oracle {A} (f : list A -> list A) : Prop := forall l, Permutation (f l) l.

(* the populated fields: pairwise distinct valid numbers (below 2^29 = 536870912); oneof indexes are
   small (there are fewer oneofs than fields).  msg_legacy_key keeps the three classes 2^29 apart *)
Definition fsm_fields_ok (present : list fdesc) : Prop :=
  NoDup (map f_num present) /\
  Forall (fun fd => f_num fd < 536870912 /\ match f_oneof fd with Some i => i < 536870912 | None => True end) present.

Lemma fsm_legacy_key_inj a b :
  f_num a < 536870912 -> f_num b < 536870912 ->
  msg_legacy_key a = msg_legacy_key b -> f_num a = f_num b.
Proof.
  unfold msg_legacy_key. destruct (f_ext a), (f_ext b), (f_oneof a) as [i|], (f_oneof b) as [j|]; intros; lia.
Qed.

Lemma fsm_legacy_pairwise l :
  fsm_fields_ok l -> det_pairwise fsm_lt_legacy l.
Proof.
  intros [Hn Hf]. induction l as [|a r IH]; cbn [det_pairwise]; [exact I|].
  inversion Hn as [|? ? Ha Hr]; subst. inversion Hf as [|? ? [Ha1 _] Hfr]; subst.
  split; [|now apply IH].
  intros b Hb. unfold fsm_lt_legacy. rewrite Forall_forall in Hfr. destruct (Hfr _ Hb) as [Hb1 _].
  assert (msg_legacy_key a <> msg_legacy_key b) as Hne.
  { intros E. apply Ha. rewrite (fsm_legacy_key_inj _ _ Ha1 Hb1 E). now apply in_map. }
  destruct (msg_legacy_key a <? msg_legacy_key b) eqn:E; [now left|right]. lia.
Qed.

Lemma fsm_num_pairwise l : NoDup (map f_num l) -> det_pairwise fsm_lt_num l.
Proof.
  induction l as [|a r IH]; cbn [det_pairwise map]; intros Hn; [exact I|].
  inversion Hn as [|? ? Ha Hr]; subst. split; [|now apply IH].
  intros b Hb. unfold fsm_lt_num.
  assert (f_num a <> f_num b) as Hne by (intros E; apply Ha; rewrite E; now apply in_map).
  destruct (f_num a <? f_num b) eqn:E; [now left|right]. lia.
Qed.

Lemma fsm_sorted_legacy l : fsm_fields_ok l -> StronglySorted (fun a b => fsm_lt_legacy a b = true) (det_sort fsm_lt_legacy l).
Proof.
  intros H. apply (det_sort_sorted fsm_lt_legacy (fun _ => True)).
  - intros a b c _ _ _. unfold fsm_lt_legacy. lia.
  - apply Forall_forall. trivial.
  - now apply fsm_legacy_pairwise.
Qed.

Lemma fsm_sorted_num l : NoDup (map f_num l) -> StronglySorted (fun a b => fsm_lt_num a b = true) (det_sort fsm_lt_num l).
Proof.
  intros H. apply (det_sort_sorted fsm_lt_num (fun _ => True)).
  - intros a b c _ _ _. unfold fsm_lt_num. lia.
  - apply Forall_forall. trivial.
  - now apply fsm_num_pairwise.
Qed.

Lemma fsm_sorted_weaken {A} (R R' : A -> A -> Prop) (P : A -> Prop) l :
  Forall P l -> (forall a b, P a -> P b -> R a b -> R' a b) -> StronglySorted R l -> StronglySorted R' l.
Proof.
  intros HP HR S. induction S as [|a r S IH F]; [constructor|].
  inversion HP as [|? ? Pa Pr]; subst. constructor; [now apply IH|].
  rewrite Forall_forall in *. intros b Hb. apply HR; [exact Pa|now apply Pr|now apply F].
Qed.

Lemma fsm_sorted_app {A} (R : A -> A -> Prop) l1 l2 :
  StronglySorted R l1 -> StronglySorted R l2 -> (forall a b, In a l1 -> In b l2 -> R a b) ->
  StronglySorted R (l1 ++ l2).
Proof.
  intros S1 S2 H. induction S1 as [|a r S1 IH F]; cbn [app]; [exact S2|].
  constructor.
  - apply IH. intros x y Hx Hy. apply H; [now right|exact Hy].
  - apply Forall_app. split; [exact F|]. apply Forall_forall. intros y Hy. apply H; [now left|exact Hy].
Qed.

Theorem fsm_order_equal :
  forall (has_oneofs : bool) (rx r : list fdesc -> list fdesc) (present : list fdesc),
    fsm_perm_oracle rx -> fsm_perm_oracle r -> fsm_fields_ok present ->
    (has_oneofs = false -> Forall (fun fd => f_ext fd = true \/ f_oneof fd = None) present) ->
    fsm_order_fast has_oneofs rx present = fsm_order_slow r present.
Proof.
  intros ho rx r l Hrx Hr Hok Hone. destruct Hok as [Hn Hf].
  set (lt := fun a b => fsm_lt_legacy a b = true).
  apply (det_sorted_unique lt).
  - intros a b. unfold lt, fsm_lt_legacy. lia.
  - (* the fast list is sorted w.r.t. the legacy key *)
    unfold fsm_order_fast. apply fsm_sorted_app.
    + (* extensions: sorted by number = sorted by key *)
      assert (Permutation (rx (filter f_ext l)) (filter f_ext l)) as P by apply Hrx.
      assert (NoDup (map f_num (rx (filter f_ext l)))) as N1.
      { eapply Permutation_NoDup; [apply Permutation_map, Permutation_sym; exact P|now apply list_nodup_map_filter]. }
      eapply (fsm_sorted_weaken _ lt (fun fd => f_ext fd = true)); [| |apply fsm_sorted_num; exact N1].
      * apply Forall_forall. intros x Hx.
        apply (Permutation_in _ (det_sort_perm fsm_lt_num _)) in Hx.
        apply (Permutation_in _ P) in Hx. apply filter_In in Hx. tauto.
      * intros a b Ea Eb. unfold lt, fsm_lt_legacy, fsm_lt_num, msg_legacy_key. now rewrite Ea, Eb.
    + destruct ho.
      * apply fsm_sorted_legacy. split; [now apply list_nodup_map_filter|].
        apply Forall_forall. intros x Hx. apply filter_In in Hx. rewrite Forall_forall in Hf. now apply Hf.
      * specialize (Hone eq_refl).
        eapply (fsm_sorted_weaken _ lt (fun fd => f_ext fd = false /\ f_oneof fd = None));
          [| |apply fsm_sorted_num; now apply list_nodup_map_filter].
        -- apply Forall_forall. intros x Hx.
           apply (Permutation_in _ (det_sort_perm fsm_lt_num _)) in Hx. apply filter_In in Hx.
           destruct Hx as [Hx Hreg]. unfold fsm_is_regular in Hreg. apply negb_true_iff in Hreg.
           rewrite Forall_forall in Hone. destruct (Hone _ Hx) as [E|E]; [congruence|tauto].
        -- intros a b [Ea1 Ea2] [Eb1 Eb2]. unfold lt, fsm_lt_legacy, fsm_lt_num, msg_legacy_key.
           rewrite Ea1, Ea2, Eb1, Eb2. lia.
    + (* every extension precedes every regular field *)
      intros a b Ha Hb. unfold lt, fsm_lt_legacy, msg_legacy_key.
      apply (Permutation_in _ (det_sort_perm fsm_lt_num _)) in Ha. apply (Permutation_in _ (Hrx _)) in Ha.
      apply filter_In in Ha. destruct Ha as [Ha Ea]. rewrite Ea.
      assert (In b (filter fsm_is_regular l)) as Hb'.
      { destruct ho; eapply Permutation_in; try exact Hb; apply det_sort_perm. }
      apply filter_In in Hb'. destruct Hb' as [Hb' Eb]. unfold fsm_is_regular in Eb. apply negb_true_iff in Eb. rewrite Eb.
      rewrite Forall_forall in Hf. destruct (Hf _ Ha) as [Ha1 _]. destruct (f_oneof b); lia.
  - unfold fsm_order_slow. apply fsm_sorted_legacy. split.
    + eapply Permutation_NoDup; [apply Permutation_map, Permutation_sym, Hr|exact Hn].
    + apply Forall_forall. intros x Hx. apply (Permutation_in _ (Hr _)) in Hx. rewrite Forall_forall in Hf. now apply Hf.
  - unfold fsm_order_fast, fsm_order_slow.
    assert (Permutation (if ho then det_sort fsm_lt_legacy (filter fsm_is_regular l) else det_sort fsm_lt_num (filter fsm_is_regular l))
                        (filter fsm_is_regular l)) as P2 by (destruct ho; apply det_sort_perm).
    apply Permutation_trans with (l' := l).
    + apply Permutation_trans with (l' := filter f_ext l ++ filter fsm_is_regular l); [|exact (list_filter_split_perm f_ext l)].
      apply Permutation_app; [|exact P2].
      apply Permutation_trans with (l' := rx (filter f_ext l)); [apply det_sort_perm|apply Hrx].
    + apply Permutation_sym. apply Permutation_trans with (l' := r l); [apply det_sort_perm|apply Hr].
Qed.

(* hence the same bytes for every per-field encoder *)
Theorem fsm_det_bytes_equal :
  forall (has_oneofs : bool) (rx r : list fdesc -> list fdesc) (present : list fdesc) (enc : fdesc -> list byte),
    fsm_perm_oracle rx -> fsm_perm_oracle r -> fsm_fields_ok present ->
    (has_oneofs = false -> Forall (fun fd => f_ext fd = true \/ f_oneof fd = None) present) ->
    fsm_encode_with (fsm_order_fast has_oneofs rx present) enc = fsm_encode_with (fsm_order_slow r present) enc.
Proof. intros. unfold fsm_encode_with. now rewrite (fsm_order_equal has_oneofs rx r present). Qed.

Definition fsm_chunk_ok (c : fsm_chunk) : Prop :=
  is_tag (fc_rawtag c) (fc_num c) (fc_typ c) /\ wf_value default_dep (fc_num c) (fc_typ c) (fc_val c).

Lemma fsm_norm_chunks : forall cs g,
  Forall fsm_chunk_ok cs -> (length (fsm_flat_raw cs) < length g)%nat ->
  fsm_norm g (fsm_flat_raw cs) = fsm_flat_min cs.
Proof.
  induction cs as [|c r IH]; intros g Hc Hg.
  - destruct g; reflexivity.
  - inversion Hc as [|? ? [Ht Hv] Hr]; subst. destruct g as [|g0 g']; [cbn [length] in Hg; lia|].
    unfold fsm_flat_raw, fsm_flat_min in *. cbn [map concat] in *.
    set (rest := concat (map (fun c0 => fc_rawtag c0 ++ fc_val c0) r)) in *.
    pose proof (is_tag_len _ _ _ Ht) as Hl.
    assert (dec_tag ((fc_rawtag c ++ fc_val c) ++ rest) = Ok (fc_num c, fc_typ c, fc_val c ++ rest)) as Ed.
    { rewrite <- app_assoc. now apply dec_tag_complete. }
    destruct (parse_val_complete _ _ _ _ rest Hv) as [w Ep].
    destruct (fc_rawtag c) as [|b0 t0] eqn:Et; [cbn [length] in Hl; lia|].
    cbn [fsm_norm app]. change (b0 :: (t0 ++ fc_val c) ++ rest) with (((b0 :: t0) ++ fc_val c) ++ rest).
    rewrite Ed, Ep. rewrite app_length, Nat.add_sub, firstn_app, Nat.sub_diag, firstn_all, firstn_O, app_nil_r.
    rewrite <- app_assoc. f_equal. f_equal. apply IH; [exact Hr|].
    rewrite !app_length in Hg. cbn [length] in Hg. fold rest. lia.
Qed.

(* what the reflection decoder retains, normalised, is what the table-driven decoder retains *)
Theorem fsm_normalize_raw_to_min cs :
  Forall fsm_chunk_ok cs -> fsm_normalize_unknown_tags (fsm_flat_raw cs) = fsm_flat_min cs.
Proof. intros H. unfold fsm_normalize_unknown_tags. apply fsm_norm_chunks; [exact H|cbn [length]; lia]. Qed.

Lemma fsm_enc_tag_is_tag num typ : 1 <= num -> num <= 2147483647 -> typ < 8 -> is_tag (enc_tag num typ) num typ.
Proof.
  intros H1 H2 H3. pose proof (msgw_dec_tag_enc num typ [] H1 H2 H3) as E. rewrite app_nil_r in E.
  apply dec_tag_sound in E. destruct E as (p & Ep & Hp). rewrite app_nil_r in Ep. now rewrite Ep.
Qed.

Lemma fsm_chunk_ok_num c : fsm_chunk_ok c -> 1 <= fc_num c /\ fc_num c <= 2147483647 /\ fc_typ c < 8.
Proof. intros [(_ & _ & Ht & Hlo & Hhi) _]. repeat split; assumption. Qed.

(* normalisation is idempotent, and the identity on what the table-driven decoder retains *)
Theorem fsm_normalize_min_fixed cs :
  Forall fsm_chunk_ok cs -> fsm_normalize_unknown_tags (fsm_flat_min cs) = fsm_flat_min cs.
Proof.
  intros H.
  set (cs' := map (fun c => mkChunk (fc_num c) (fc_typ c) (enc_tag (fc_num c) (fc_typ c)) (fc_val c)) cs).
  assert (fsm_flat_min cs = fsm_flat_raw cs') as E1.
  { unfold fsm_flat_min, fsm_flat_raw, cs'. now rewrite map_map. }
  assert (fsm_flat_min cs' = fsm_flat_min cs) as E2.
  { unfold fsm_flat_min, cs'. now rewrite map_map. }
  rewrite E1 at 1. rewrite <- E2. apply fsm_normalize_raw_to_min.
  unfold cs'. apply Forall_forall. intros c Hc. apply in_map_iff in Hc. destruct Hc as [c0 [<- Hc0]].
  rewrite Forall_forall in H. specialize (H _ Hc0). destruct (fsm_chunk_ok_num _ H) as (A & B & C).
  destruct H as [_ Hv]. split; cbn [fc_rawtag fc_num fc_typ fc_val]; [now apply fsm_enc_tag_is_tag|exact Hv].
Qed.

Theorem fsm_normalize_idempotent cs :
  Forall fsm_chunk_ok cs ->
  fsm_normalize_unknown_tags (fsm_normalize_unknown_tags (fsm_flat_raw cs)) = fsm_normalize_unknown_tags (fsm_flat_raw cs).
Proof. intros H. rewrite (fsm_normalize_raw_to_min _ H). now apply fsm_normalize_min_fixed. Qed.

(* one decoding step: the bytes [msg_unknown] appends in the two modes are related by normalisation *)
Theorem fsm_unknown_step :
  forall bs num typ r acc acc_s acc_f rs rf,
    dec_tag bs = Ok (num, typ, r) ->
    msg_unknown (firstn (length bs - length r) bs) num typ r acc = DOk (acc_s, rs) ->
    msg_unknown (enc_tag num typ) num typ r acc = DOk (acc_f, rf) ->
    rs = rf /\ fst acc_s = fst acc_f /\
    exists chunk_s chunk_f,
      snd acc_s = snd acc ++ chunk_s /\ snd acc_f = snd acc ++ chunk_f /\
      fsm_normalize_unknown_tags chunk_s = chunk_f /\ fsm_normalize_unknown_tags chunk_f = chunk_f.
Proof.
  intros bs num typ r acc acc_s acc_f rs rf Hd Hs Hf. unfold msg_unknown in *.
  destruct (parse_val default_dep num typ r) as [[w r']|e] eqn:Ep; [|discriminate].
  inversion Hs; subst. inversion Hf; subst. cbn [fst snd]. split; [reflexivity|]. split; [reflexivity|].
  apply dec_tag_sound in Hd. destruct Hd as (p & -> & Ht).
  apply parse_val_sound in Ep. destruct Ep as (val & -> & Hv).
  rewrite !app_length, !Nat.add_sub, !firstn_app, !Nat.sub_diag, !firstn_all, !firstn_O, !app_nil_r.
  exists (p ++ val), (enc_tag num typ ++ val). split; [reflexivity|]. split; [reflexivity|].
  set (c := mkChunk num typ p val).
  assert (Forall fsm_chunk_ok [c]) as Hc by (constructor; [split; assumption|constructor]).
  pose proof (fsm_normalize_raw_to_min _ Hc) as E1. pose proof (fsm_normalize_min_fixed _ Hc) as E2.
  unfold fsm_flat_raw, fsm_flat_min, c in E1, E2. cbn [map concat fc_rawtag fc_val fc_num fc_typ] in E1, E2.
  repeat rewrite app_nil_r in E1. repeat rewrite app_nil_r in E2. split; [exact E1|exact E2].
Qed.

(* the two modes fail together on an unknown field *)
Theorem fsm_unknown_verdict :
  forall raw1 raw2 num typ r acc,
    (exists e, msg_unknown raw1 num typ r acc = DErr e) <-> (exists e, msg_unknown raw2 num typ r acc = DErr e).
Proof.
  intros. unfold msg_unknown. destruct (parse_val default_dep num typ r) as [[w r']|e].
  - split; intros [e H]; discriminate H.
  - split; intros _; exists DParse; reflexivity.
Qed.
