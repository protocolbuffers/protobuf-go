(* ResetP — what proto.Reset and proto.Unmarshal (without Merge) leave of a previous state
   (Msg/ResetModel.v, C15).
     wf, op_ok        everything stored belongs to a field of the schema; kept by every operation
     residue          what the reflection-based resetMessage leaves (empty slices, empty extension lists)
     sim, norm        the relation between two such leftovers that the slow merge decoder cannot see
     reset_wf_empty, unmarshal_forgets    the two results, for every well-formed state; the
                      theorems about histories ([reset_empty], [unmarshal_equals_fresh]) are instances *)
From Coq Require Import List NArith Bool Arith Lia.
From PB Require Import Base.PBytes Base.ListP Msg.ResetModel.
Import ListNotations.
Open Scope N_scope.

(* generated Reset: the whole struct is the zero value *)
Lemma reset_fast_init cf schema s : fast cf = true -> reset cf schema s = init.
Proof. intros H. unfold reset. rewrite H. reflexivity. Qed.

(* well-formed states: everything stored belongs to a field of the schema (the descriptor),
   in the cell its class prescribes *)
Definition zeroish (cf : cfg) (c : cell) : Prop :=
  c = CZero \/ (flav cf = Opaque /\ c = CSeq []).

Record wf (cf : cfg) (schema : list fld) (s : state) : Prop := mkWf {
  wf_cells : forall n, cells s n <> CZero -> exists f, In f schema /\ fnum f = n /\ is_oo (fcls f) = false;
  wf_oneofs : forall g n c, oneofs s g = Some (n, c) ->
              exists f, In f schema /\ fnum f = n /\ fgrp f = g /\ fcls f = OO;
  wf_pres : forall n, In n (pres s) -> exists f, In f schema /\ fnum f = n /\ has_bit (fcls f) = true;
  wf_slow : fast cf = false -> lazy s = None /\ szc s = false
}.

Lemma wf_init cf schema : wf cf schema init.
Proof.
  constructor; cbn; intros; try congruence; try contradiction; auto.
Qed.

Lemma memN_In n l : memN n l = true <-> In n l.
Proof. exact (list_existsb_Neqb_In n l). Qed.

Lemma In_addN k n l : In k (addN n l) -> k = n \/ In k l.
Proof.
  unfold addN. destruct (memN n l); cbn; intuition.
Qed.

Lemma In_delN k n l : In k (delN n l) <-> In k l /\ k <> n.
Proof.
  unfold delN. rewrite filter_In. rewrite negb_true_iff, N.eqb_neq. intuition.
Qed.

Lemma wf_put cf schema f c s : In f schema -> wf cf schema s -> wf cf schema (put f c s).
Proof.
  intros Hf [H1 H2 H3 H4]. unfold put. destruct (is_oo (fcls f)) eqn:E; [constructor; assumption|].
  constructor; cbn; auto.
  intros n Hn. destruct (N.eqb_spec n (fnum f)).
  - subst. exists f. auto.
  - apply H1. exact Hn.
Qed.

Lemma wf_pset cf schema f s : In f schema -> wf cf schema s -> wf cf schema (pset cf f s).
Proof.
  intros Hf [H1 H2 H3 H4]. unfold pset. destruct (flav cf); try (constructor; assumption).
  destruct (has_bit (fcls f)) eqn:E; [|constructor; assumption].
  constructor; cbn; auto.
  intros n Hn. apply In_addN in Hn. destruct Hn as [->|Hn]; [exists f; auto|auto].
Qed.

Lemma wf_pclr cf schema f s : wf cf schema s -> wf cf schema (pclr f s).
Proof.
  intros [H1 H2 H3 H4]. unfold pclr. destruct (has_bit (fcls f)); [|constructor; assumption].
  constructor; cbn; auto.
  intros n Hn. apply In_delN in Hn. apply H3. tauto.
Qed.

Lemma wf_oput cf schema f c s : In f schema -> wf cf schema s -> wf cf schema (oput f c s).
Proof.
  intros Hf [H1 H2 H3 H4]. unfold oput. destruct (is_oo (fcls f)) eqn:E; [|constructor; assumption].
  constructor; cbn; auto.
  intros g n c0. destruct (N.eqb_spec g (fgrp f)).
  - intros Hs. inversion Hs; subst. exists f. repeat split; auto.
    destruct (fcls f); cbn in E; congruence.
  - apply H2.
Qed.

Lemma wf_oclr cf schema f s : wf cf schema s -> wf cf schema (oclr f s).
Proof.
  intros W. pose proof W as [H1 H2 H3 H4]. unfold oclr. destruct (is_oo (fcls f)); [|assumption].
  destruct (oneofs s (fgrp f)) as [[n c]|]; [|assumption].
  destruct (N.eqb n (fnum f)); [|assumption].
  constructor; cbn; auto.
  intros g n0 c0. destruct (N.eqb g (fgrp f)); [discriminate|apply H2].
Qed.

Lemma wf_with_exts cf schema s e : wf cf schema s -> wf cf schema (with_exts s e).
Proof. intros [H1 H2 H3 H4]. constructor; cbn; auto. Qed.
Lemma wf_with_unk cf schema s u : wf cf schema s -> wf cf schema (with_unk s u).
Proof. intros [H1 H2 H3 H4]. constructor; cbn; auto. Qed.
Lemma wf_with_szc cf schema s : fast cf = true -> wf cf schema s -> wf cf schema (with_szc s true).
Proof. intros F [H1 H2 H3 H4]. constructor; cbn; auto. intros; congruence. Qed.
Lemma wf_with_lazy cf schema s l : fast cf = true -> wf cf schema s -> wf cf schema (with_lazy s l).
Proof. intros F [H1 H2 H3 H4]. constructor; cbn; auto. intros; congruence. Qed.

Lemma wf_force_or_keep cf schema f s : In f schema -> wf cf schema s -> wf cf schema (force_or_keep f s).
Proof.
  intros Hf W. unfold force_or_keep, force.
  destruct (fcls f); try exact W.
  destruct (get f s); try exact W.
  destruct (present f s); try exact W.
  destruct (lazy_lookup s (fnum f)); try exact W.
  apply wf_put; assumption.
Qed.

Global Hint Resolve wf_init wf_put wf_pset wf_pclr wf_oput wf_oclr wf_with_exts wf_with_unk wf_force_or_keep : wfdb.

(* Every operation of the model is, after case analysis on the field class, the flavour and the
   cells it reads, a composition of the primitive writes above, each of which keeps [wf]: split the
   cases, then chain the lemmas of [wfdb]. *)
Ltac wf_crush :=
  repeat match goal with
         | |- wf _ _ (match ?x with _ => _ end) => destruct x
         | |- wf _ _ (if ?x then _ else _) => destruct x
         | |- wf _ _ (let _ := _ in _) => cbv zeta
         end;
  auto 8 with wfdb.

Lemma wf_do_set cf schema f nz cnt v s : In f schema -> wf cf schema s -> wf cf schema (do_set cf f nz cnt v s).
Proof. intros. unfold do_set. wf_crush. Qed.

Lemma wf_do_clear cf schema f s : In f schema -> wf cf schema s -> wf cf schema (do_clear cf f s).
Proof. intros. unfold do_clear. wf_crush. Qed.

Lemma wf_do_mutable cf schema f s : In f schema -> wf cf schema s -> wf cf schema (do_mutable cf f s).
Proof. intros. unfold do_mutable. wf_crush. Qed.

Lemma wf_do_append cf schema f v s : In f schema -> wf cf schema s -> wf cf schema (do_append cf f v s).
Proof. intros. unfold do_append. wf_crush. Qed.

Lemma wf_do_trunc cf schema f s : In f schema -> wf cf schema s -> wf cf schema (do_trunc cf f s).
Proof. intros. unfold do_trunc. wf_crush. Qed.

Lemma wf_merge_field cf schema f nz body v s :
  In f schema -> wf cf schema s -> wf cf schema (merge_field cf f nz body v s).
Proof. intros. unfold merge_field. wf_crush. Qed.

Lemma wf_merge_ext cf schema n isl l s : wf cf schema s -> wf cf schema (merge_ext n isl l s).
Proof. intros. unfold merge_ext. wf_crush. Qed.

Global Hint Resolve wf_do_set wf_do_clear wf_do_mutable wf_do_append wf_do_trunc wf_merge_field wf_merge_ext : wfdb.

(* what an operation may mention *)
Definition item_ok (schema : list fld) (it : witem) : Prop :=
  match it with WField f _ _ _ => In f schema | _ => True end.
Definition fail_ok (schema : list fld) (fl : failspec) : Prop :=
  match fl with FAt _ _ (Some f) => In f schema | _ => True end.
Definition op_ok (schema : list fld) (o : op) : Prop :=
  match o with
  | OSet f _ _ _ | OClr f | OMut f | OApp f _ | OTrn f => In f schema
  | OMrg its => Forall (item_ok schema) its
  | OUm its fl | OUn its fl => Forall (item_ok schema) its /\ fail_ok schema fl
  | _ => True
  end.

Lemma wf_wire_item cf schema lz s it :
  (lz = true -> fast cf = true) -> item_ok schema it -> wf cf schema s -> wf cf schema (wire_item cf lz s it).
Proof.
  intros Hlz Hok W. destruct it as [f nz cnt v|n isl cnt v|raw]; cbn [wire_item item_ok] in *.
  - wf_crush.
  - auto with wfdb.
  - auto with wfdb.
Qed.

Lemma wf_fold {A} cf schema (g : state -> A -> state) (P : A -> Prop) :
  (forall s a, P a -> wf cf schema s -> wf cf schema (g s a)) ->
  forall l s, Forall P l -> wf cf schema s -> wf cf schema (fold_left g l s).
Proof.
  intros Hg. induction l as [|a l IH]; intros s Hl W; cbn; [exact W|].
  inversion Hl; subst. apply IH; auto.
Qed.

Lemma Forall_firstn {A} (P : A -> Prop) k l : Forall P l -> Forall P (firstn k l).
Proof.
  revert l. induction k; intros l H; cbn; [constructor|].
  destruct l; [constructor|]. inversion H; subst. constructor; auto.
Qed.

Lemma wf_bad_nested cf schema lz ff s : In ff schema -> wf cf schema s -> wf cf schema (bad_nested cf lz ff s).
Proof. intros. unfold bad_nested. wf_crush. Qed.

Lemma wf_um cf schema items fl s :
  Forall (item_ok schema) items -> fail_ok schema fl -> wf cf schema s -> wf cf schema (um cf items fl s).
Proof.
  intros Hi Hf W. unfold um.
  set (lz := fast cf && haslazy cf && match flav cf with Opaque => true | _ => false end
             && match pres s with [] => true | _ => false end).
  assert (Hlz : lz = true -> fast cf = true).
  { unfold lz. destruct (fast cf); cbn; auto. }
  cbv zeta.
  set (s0 := if lz then with_lazy s _ else s).
  assert (W0 : wf cf schema s0).
  { unfold s0. destruct lz; [apply wf_with_lazy; auto|exact W]. }
  set (done := match fl with FNone => items | FAt k _ _ => firstn k items end).
  assert (Hd : Forall (item_ok schema) done).
  { unfold done. destruct fl; [exact Hi|apply Forall_firstn; exact Hi]. }
  set (s1 := fold_left (wire_item cf lz) done s0).
  assert (W1 : wf cf schema s1).
  { unfold s1. apply wf_fold with (P := item_ok schema); auto.
    intros. apply wf_wire_item; auto. }
  set (s2 := match fl with FAt _ _ (Some ff) => bad_nested cf lz ff s1 | _ => s1 end).
  assert (W2 : wf cf schema s2).
  { unfold s2. destruct fl as [|k g [ff|]]; auto. apply wf_bad_nested; auto. }
  destruct (lz && match fl with FNone => true | _ => false end) eqn:E; [|exact W2].
  apply wf_with_lazy; auto. apply Hlz. destruct lz; auto.
Qed.

Lemma wf_src_item cf schema s it : item_ok schema it -> wf cf schema s -> wf cf schema (src_item cf s it).
Proof.
  intros Hok W. destruct it; cbn [src_item item_ok] in *; auto with wfdb.
Qed.

Lemma fld_eta f : mkFld (fnum f) (fcls f) (fgrp f) = f.
Proof. destruct f; reflexivity. Qed.

Lemma wf_merge_from cf schema src s it :
  wf cf schema src -> item_ok schema it -> wf cf schema s -> wf cf schema (merge_from cf src s it).
Proof.
  intros Wsrc Hok W. destruct it as [f nz cnt v|n isl cnt v|raw]; cbn [merge_from item_ok] in *; auto.
  - destruct (fcls f) eqn:Ec;
      (* the seven classes with a cell of their own: what is merged is a merge_field on f itself *)
      try (destruct (get f src) as [| [|] ? | | [|]]; auto with wfdb; fail).
    (* OO: the merge is on the active member of the group in src, which wf src places in the schema *)
    destruct (oneofs src (fgrp f)) as [[n c]|] eqn:Eo; auto.
    destruct (wf_oneofs _ _ _ Wsrc _ _ _ Eo) as (f' & Hin & Hn & Hg & Hc).
    assert (Hf' : mkFld n OO (fgrp f) = f').
    { rewrite <- Hn, <- Hg, <- Hc. apply fld_eta. }
    destruct c; auto; rewrite Hf'; auto with wfdb.
  - destruct (xget n (exts src)) as [[isl' l]|]; auto with wfdb.
Qed.

Lemma wf_merge_all cf schema src : wf cf schema src ->
  forall items s, Forall (item_ok schema) items -> wf cf schema s -> wf cf schema (merge_all cf src items s).
Proof.
  intros Wsrc. induction items as [|it r IH]; intros s Hi W; cbn [merge_all]; [exact W|].
  inversion Hi; subst. apply IH; auto.
  destruct (existsb _ r); auto. apply wf_merge_from; auto.
Qed.

Lemma wf_do_merge cf schema items s :
  Forall (item_ok schema) items -> wf cf schema s -> wf cf schema (do_merge cf items s).
Proof.
  intros Hi W. unfold do_merge. cbv zeta. apply wf_with_unk. apply wf_merge_all; auto.
  apply wf_fold with (P := item_ok schema); auto with wfdb.
  intros. apply wf_src_item; auto.
Qed.

Lemma wf_force_all cf schema l s : incl l schema -> wf cf schema s -> wf cf schema (force_all l s).
Proof.
  intros Hl W. unfold force_all. apply wf_fold with (P := fun f => In f schema); auto with wfdb.
  apply Forall_forall. exact Hl.
Qed.

Lemma wf_reset_refl cf schema s : wf cf schema s -> wf cf schema (reset_refl cf schema s).
Proof.
  intros W. unfold reset_refl. cbv zeta. apply wf_with_unk, wf_with_exts.
  apply wf_fold with (P := fun f => In f schema); auto with wfdb.
  apply Forall_forall. auto.
Qed.

Lemma wf_reset cf schema s : wf cf schema s -> wf cf schema (reset cf schema s).
Proof.
  intros W. unfold reset. destruct (fast cf); [apply wf_init|apply wf_reset_refl; exact W].
Qed.

Lemma stores_szc_fast cf : stores_szc cf = true -> fast cf = true.
Proof. unfold stores_szc. destruct (fast cf); cbn; auto. Qed.

Lemma wf_step cf schema s o : op_ok schema o -> wf cf schema s -> wf cf schema (step cf schema s o).
Proof.
  intros Hok W. destruct o; cbn [step op_ok] in *; auto with wfdb.
  - destruct (stores_szc cf) eqn:E; auto. apply wf_with_szc; auto using stores_szc_fast.
  - cbv zeta. destruct (stores_szc cf) eqn:E.
    + apply wf_with_szc; auto using stores_szc_fast. apply wf_force_all; auto. apply incl_refl.
    + apply wf_force_all; auto. apply incl_refl.
  - apply wf_force_all; auto. apply incl_refl.
  - apply wf_do_merge; auto.
  - destruct Hok. apply wf_um; auto.
  - destruct Hok. unfold unmarshal. apply wf_um; auto. apply wf_reset; auto.
  - apply wf_reset; auto.
Qed.

Lemma wf_run cf schema ops : Forall (op_ok schema) ops ->
  forall s, wf cf schema s -> wf cf schema (run cf schema ops s).
Proof.
  unfold run. induction ops as [|o r IH]; intros Hok s W; cbn; [exact W|].
  inversion Hok; subst. apply IH; auto. apply wf_step; auto.
Qed.

(* resetMessage (reflection): what Clear of every field leaves *)
Definition zeroishb (cf : cfg) (c : cell) : bool :=
  match c with
  | CZero => true
  | CSeq [] => match flav cf with Opaque => true | _ => false end
  | _ => false
  end.

Lemma zeroishb_spec cf c : zeroishb cf c = true <-> zeroish cf c.
Proof.
  unfold zeroishb, zeroish. split.
  - destruct c as [| | |[|]]; try discriminate; auto.
    destruct (flav cf); try discriminate; auto.
  - intros [->|[E ->]]; [reflexivity|rewrite E; reflexivity].
Qed.

Definition clear_all (cf : cfg) (l : list fld) (s : state) : state :=
  fold_left (fun s f => do_clear cf f s) l s.

(* what the primitive writes leave alone *)
Definition others (s : state) := (lazy s, exts s, unk s, szc s).

Lemma cells_pclr f s : cells (pclr f s) = cells s.
Proof. unfold pclr. destruct (has_bit (fcls f)); reflexivity. Qed.

Lemma oneofs_pclr f s : oneofs (pclr f s) = oneofs s.
Proof. unfold pclr. destruct (has_bit (fcls f)); reflexivity. Qed.

Lemma pclr_other f s : others (pclr f s) = others s.
Proof. unfold pclr. destruct (has_bit (fcls f)); reflexivity. Qed.

Lemma oclr_cases f s : oclr f s = s \/ oclr f s = with_oneofs s (fun g => if N.eqb g (fgrp f) then None else oneofs s g).
Proof.
  unfold oclr. destruct (is_oo (fcls f)); auto.
  destruct (oneofs s (fgrp f)) as [[n c]|]; auto. destruct (N.eqb n (fnum f)); auto.
Qed.

Lemma cells_oclr f s : cells (oclr f s) = cells s.
Proof. destruct (oclr_cases f s) as [-> | ->]; reflexivity. Qed.

Lemma pres_oclr f s : pres (oclr f s) = pres s.
Proof. destruct (oclr_cases f s) as [-> | ->]; reflexivity. Qed.

Lemma oclr_other f s : others (oclr f s) = others s.
Proof. destruct (oclr_cases f s) as [-> | ->]; reflexivity. Qed.

Lemma cells_put f c s n :
  cells (put f c s) n = if negb (is_oo (fcls f)) && N.eqb n (fnum f) then c else cells s n.
Proof. unfold put. destruct (is_oo (fcls f)); reflexivity. Qed.

Lemma oneofs_put f c s : oneofs (put f c s) = oneofs s.
Proof. unfold put. destruct (is_oo (fcls f)); reflexivity. Qed.

Lemma pres_put f c s : pres (put f c s) = pres s.
Proof. unfold put. destruct (is_oo (fcls f)); reflexivity. Qed.

Lemma put_other f c s : others (put f c s) = others s.
Proof. unfold put. destruct (is_oo (fcls f)); reflexivity. Qed.

(* Clear of a oneof member empties its group's cell if the member is the active one; Clear of
   any other field stores a zero-like cell and drops the presence bit, or (opaque message list
   whose pointer is nil) does nothing *)
Lemma do_clear_cases cf f s :
  (is_oo (fcls f) = true /\ do_clear cf f s = oclr f s) \/
  (is_oo (fcls f) = false /\
   ((zeroishb cf (get f s) = true /\ has_bit (fcls f) = false /\ do_clear cf f s = s) \/
    exists c, zeroishb cf c = true /\ do_clear cf f s = pclr f (put f c s))).
Proof.
  unfold do_clear, pclr. destruct (fcls f) eqn:Ec; cbn [is_oo has_bit]; auto;
    try (right; split; [reflexivity|]; right; exists CZero; split; reflexivity).
  right. split; [reflexivity|].
  destruct (flav cf) eqn:Ef; try (right; exists CZero; split; reflexivity).
  destruct (get f s) eqn:Eg; [left; auto | | |];
    right; exists (CSeq []); (split; [cbn; rewrite Ef|]; reflexivity).
Qed.

Lemma clear_cells_stable cf f s n :
  zeroishb cf (cells s n) = true -> zeroishb cf (cells (do_clear cf f s) n) = true.
Proof.
  intros Hz. destruct (do_clear_cases cf f s) as [[_ E]|[_ [(_ & _ & E)|(c & Hc & E)]]]; rewrite E.
  - rewrite cells_oclr. exact Hz.
  - exact Hz.
  - rewrite cells_pclr, cells_put. destruct (_ && _); assumption.
Qed.

Lemma clear_cells_own cf f s :
  is_oo (fcls f) = false -> zeroishb cf (cells (do_clear cf f s) (fnum f)) = true.
Proof.
  intros Hoo. destruct (do_clear_cases cf f s) as [[Z _]|[_ [(Hz & _ & E)|(c & Hc & E)]]]; [congruence| |]; rewrite E.
  - exact Hz.
  - rewrite cells_pclr, cells_put, Hoo, N.eqb_refl. exact Hc.
Qed.

(* Clearing every field of [l] leaves nothing [bad] that some field of [l] owns, provided that
   Clear creates nothing bad and removes what the cleared field owns *)
Lemma clear_all_kills {K} cf (bad : state -> K -> Prop) (owner : fld -> K -> Prop) :
  (forall f s k, bad (do_clear cf f s) k -> bad s k) ->
  (forall f s k, owner f k -> ~ bad (do_clear cf f s) k) ->
  forall l s, (forall k, bad s k -> exists f, In f l /\ owner f k) ->
  forall k, ~ bad (clear_all cf l s) k.
Proof.
  intros Hstable Hown. induction l as [|f0 r IH]; intros s H k; cbn.
  - intros Hk. destruct (H k Hk) as (f & [] & _).
  - apply IH. intros k' Hk'.
    destruct (H k' (Hstable _ _ _ Hk')) as (f & [->|Hin] & Ho).
    + destruct (Hown f s k' Ho Hk').
    + exists f. auto.
Qed.

Lemma clear_all_cells cf : forall l s,
  (forall n, zeroishb cf (cells s n) = false -> exists f, In f l /\ fnum f = n /\ is_oo (fcls f) = false) ->
  forall n, zeroishb cf (cells (clear_all cf l s) n) = true.
Proof.
  intros l s H n. apply not_false_is_true.
  apply (clear_all_kills cf (fun s n => zeroishb cf (cells s n) = false)
           (fun f n => fnum f = n /\ is_oo (fcls f) = false)); auto.
  - intros f s0 k Hk. destruct (zeroishb cf (cells s0 k)) eqn:E; auto.
    rewrite (clear_cells_stable cf f s0 k E) in Hk. discriminate.
  - intros f s0 k [<- Hc] Hk. rewrite clear_cells_own in Hk by exact Hc. discriminate.
Qed.

Lemma clear_pres_mono cf f s n : In n (pres (do_clear cf f s)) -> In n (pres s).
Proof.
  destruct (do_clear_cases cf f s) as [[_ E]|[_ [(_ & _ & E)|(c & _ & E)]]]; rewrite E; auto.
  - rewrite pres_oclr. auto.
  - unfold pclr. destruct (has_bit (fcls f)); cbn [pres with_pres]; rewrite ?In_delN, pres_put; tauto.
Qed.

Lemma clear_pres_own cf f s : has_bit (fcls f) = true -> ~ In (fnum f) (pres (do_clear cf f s)).
Proof.
  intros Hb. destruct (do_clear_cases cf f s) as [[Z _]|[_ [(_ & Z & _)|(c & _ & E)]]].
  - destruct (fcls f); discriminate.
  - congruence.
  - rewrite E. unfold pclr. rewrite Hb. cbn. rewrite In_delN. tauto.
Qed.

Lemma clear_all_pres cf : forall l s,
  (forall n, In n (pres s) -> exists f, In f l /\ fnum f = n /\ has_bit (fcls f) = true) ->
  pres (clear_all cf l s) = [].
Proof.
  intros l s H. destruct (pres (clear_all cf l s)) as [|n p] eqn:E; auto. exfalso.
  apply (clear_all_kills cf (fun s n => In n (pres s)) (fun f n => fnum f = n /\ has_bit (fcls f) = true))
    with (l := l) (s := s) (k := n); auto.
  - apply clear_pres_mono.
  - intros f s0 k [<- Hb]. apply clear_pres_own, Hb.
  - rewrite E. left; auto.
Qed.

Lemma clear_oneofs_cases cf f s g :
  oneofs (do_clear cf f s) g = oneofs s g \/ oneofs (do_clear cf f s) g = None.
Proof.
  destruct (do_clear_cases cf f s) as [[_ E]|[_ [(_ & _ & E)|(c & _ & E)]]]; rewrite E; auto.
  - destruct (oclr_cases f s) as [-> | ->]; auto. cbn. destruct (N.eqb g (fgrp f)); auto.
  - rewrite oneofs_pclr, oneofs_put. auto.
Qed.

Lemma clear_oneofs_own cf f s c :
  fcls f = OO -> oneofs s (fgrp f) = Some (fnum f, c) -> oneofs (do_clear cf f s) (fgrp f) = None.
Proof.
  intros Ec Eo. unfold do_clear, oclr. rewrite Ec. cbn. rewrite Eo, N.eqb_refl. cbn.
  rewrite N.eqb_refl. reflexivity.
Qed.

Lemma clear_all_oneofs cf : forall l s,
  (forall g n c, oneofs s g = Some (n, c) -> exists f, In f l /\ fnum f = n /\ fgrp f = g /\ fcls f = OO) ->
  forall g, oneofs (clear_all cf l s) g = None.
Proof.
  intros l s H g. destruct (oneofs (clear_all cf l s) g) as [[n c]|] eqn:E; auto. exfalso.
  apply (clear_all_kills cf (fun s k => oneofs s (fst k) = Some (snd k))
           (fun f k => fnum f = fst (snd k) /\ fgrp f = fst k /\ fcls f = OO)) with (l := l) (s := s) (k := (g, (n, c)));
    auto.
  - intros f s0 k Hk. destruct (clear_oneofs_cases cf f s0 (fst k)); congruence.
  - intros f s0 [g' [n' c']] (En & Eg & Ec) Hk. cbn [fst snd] in *. subst g' n'.
    assert (Hs : oneofs s0 (fgrp f) = Some (fnum f, c'))
      by (destruct (clear_oneofs_cases cf f s0 (fgrp f)); congruence).
    rewrite (clear_oneofs_own cf f s0 c' Ec Hs) in Hk. discriminate.
  - intros [g' [n' c']] Hk. cbn [fst snd] in *. destruct (H g' n' c' Hk) as (f & Hin & A). exists f. auto.
Qed.

Lemma do_clear_other cf f s : others (do_clear cf f s) = others s.
Proof.
  destruct (do_clear_cases cf f s) as [[_ E]|[_ [(_ & _ & E)|(c & _ & E)]]]; rewrite E; auto.
  - apply oclr_other.
  - rewrite pclr_other. apply put_other.
Qed.

Lemma clear_all_other cf : forall l s, others (clear_all cf l s) = others s.
Proof.
  induction l as [|f0 r IH]; intros s; cbn; [reflexivity|].
  fold (clear_all cf r (do_clear cf f0 s)). rewrite IH. apply do_clear_other.
Qed.

Lemma xget_filter_unpop n l x :
  xget n (filter (fun kx => negb (ext_populated kx)) l) = Some x -> x = XVal true [].
Proof.
  induction l as [|[k y] r IH]; cbn; [discriminate|].
  destruct (ext_populated (k, y)) eqn:E; cbn; auto.
  destruct (N.eqb n k); auto. intros Hx; inversion Hx; subst.
  unfold ext_populated in E. cbn in E. destruct x as [[|] [|]]; try discriminate. reflexivity.
Qed.

(* the residue of a reflection reset *)
Record residue (cf : cfg) (s : state) : Prop := mkResidue {
  res_cells : forall n, zeroishb cf (cells s n) = true;   (* nil, or (opaque) a pointer to an empty slice *)
  res_oneofs : forall g, oneofs s g = None;
  res_pres : pres s = [];
  res_exts : forall n x, xget n (exts s) = Some x -> x = XVal true [];   (* only extensions set to an empty list *)
  res_unk : unk s = [];
  res_lazy : lazy s = None;
  res_szc : szc s = false
}.

Lemma reset_refl_residue cf schema s :
  fast cf = false -> wf cf schema s -> residue cf (reset_refl cf schema s).
Proof.
  intros F W. destruct (wf_slow _ _ _ W F) as [Hl Hz].
  unfold reset_refl. cbv zeta. fold (clear_all cf schema s).
  pose proof (clear_all_other cf schema s) as E. injection E as A B C D.
  constructor; cbn.
  - apply clear_all_cells. intros n Hn. apply (wf_cells _ _ _ W).
    intros E. rewrite E in Hn. discriminate.
  - apply clear_all_oneofs. apply (wf_oneofs _ _ _ W).
  - apply clear_all_pres. apply (wf_pres _ _ _ W).
  - intros n x. apply xget_filter_unpop.
  - reflexivity.
  - congruence.
  - congruence.
Qed.

Lemma residue_init cf : residue cf init.
Proof. constructor; cbn; auto; discriminate. Qed.

(* the residue is invisible to the slow merge decoder *)
Definition norm (c : cell) : cell := match c with CSeq [] => CZero | _ => c end.
Definition xnorm (o : option xcell) : option xcell :=
  match o with Some (XVal true []) => None | _ => o end.

Record sim (s1 s2 : state) : Prop := mkSim {
  sim_cells : forall n, norm (cells s1 n) = norm (cells s2 n);
  sim_oneofs : forall g, oneofs s1 g = oneofs s2 g;
  sim_pres : pres s1 = pres s2;
  sim_lazy1 : lazy s1 = None;
  sim_lazy2 : lazy s2 = None;
  sim_exts : forall n, xnorm (xget n (exts s1)) = xnorm (xget n (exts s2));
  sim_unk : unk s1 = unk s2
}.

Lemma zeroishb_norm cf c : zeroishb cf c = true -> norm c = CZero.
Proof. destruct c as [| | |[|]]; cbn; try discriminate; auto. Qed.

Lemma residue_sim cf s1 s2 : residue cf s1 -> residue cf s2 -> sim s1 s2.
Proof.
  intros [Hc1 Ho1 Hp1 Hx1 Hu1 Hl1 Hz1] [Hc2 Ho2 Hp2 Hx2 Hu2 Hl2 Hz2].
  constructor; try congruence.
  - intros n. rewrite (zeroishb_norm cf _ (Hc1 n)), (zeroishb_norm cf _ (Hc2 n)). reflexivity.
  - intros n.
    assert (H : forall s, (forall n x, xget n (exts s) = Some x -> x = XVal true []) -> xnorm (xget n (exts s)) = None).
    { intros s H. destruct (xget n (exts s)) as [x|] eqn:E; auto. rewrite (H n x E). reflexivity. }
    rewrite (H s1 Hx1), (H s2 Hx2). reflexivity.
Qed.

Lemma lazy_lookup_none s n : lazy s = None -> lazy_lookup s n = Some [].
Proof. unfold lazy_lookup. intros ->. reflexivity. Qed.

(* the abstract content reads a cell up to [norm] and an extension entry up to [xnorm] *)
Lemma abs_field_norm cf s f :
  abs_field cf s f = abs_field cf (with_cells s (fun n => norm (cells s n))) f.
Proof.
  unfold abs_field, get, present, lazy_lookup. cbn [cells oneofs pres lazy with_cells].
  destruct (cells s (fnum f)) as [| | |[|]]; reflexivity.
Qed.

Lemma abs_ext_xnorm s n :
  abs_ext s n = match xnorm (xget n (exts s)) with Some (XVal _ l) => Some l | None => None end.
Proof. unfold abs_ext. destruct (xget n (exts s)) as [[[|] [|]]|]; reflexivity. Qed.

Lemma sim_abs_eq cf s1 s2 : sim s1 s2 -> abs_eq cf s1 s2.
Proof.
  intros [Hc Ho Hp Hl1 Hl2 Hx Hu]. repeat split; auto.
  - intros f. rewrite (abs_field_norm cf s1), (abs_field_norm cf s2).
    unfold abs_field, get, present, lazy_lookup. cbn [cells oneofs pres lazy with_cells].
    rewrite Hc, Ho, Hp, Hl1, Hl2. reflexivity.
  - intros n. rewrite !abs_ext_xnorm, Hx. reflexivity.
Qed.

Lemma residue_abs_empty cf s : residue cf s -> abs_empty cf s.
Proof.
  intros R. destruct (sim_abs_eq cf s init (residue_sim cf s init R (residue_init cf))) as (Hf & Hx & Hu).
  repeat split.
  - intros f. rewrite Hf. unfold abs_field. cbn.
    destruct (fcls f); try reflexivity. destruct (flav cf); reflexivity.
  - intros n. rewrite Hx. reflexivity.
  - rewrite Hu. reflexivity.
Qed.

Lemma sim_refl s : lazy s = None -> sim s s.
Proof. intros. constructor; auto. Qed.

Lemma sim_sym s1 s2 : sim s1 s2 -> sim s2 s1.
Proof. intros [Hc Ho Hp Hl1 Hl2 Hx Hu]. constructor; auto. Qed.

Lemma sim_trans s1 s2 s3 : sim s1 s2 -> sim s2 s3 -> sim s1 s3.
Proof.
  intros [Hc Ho Hp Hl1 _ Hx Hu] [Hc' Ho' Hp' _ Hl3 Hx' Hu'].
  constructor; auto; congruence.
Qed.

Lemma sim_put f c1 c2 s1 s2 : norm c1 = norm c2 -> sim s1 s2 -> sim (put f c1 s1) (put f c2 s2).
Proof.
  intros Hn [Hc Ho Hp Hl1 Hl2 Hx Hu]. unfold put. destruct (is_oo (fcls f)); [constructor; auto|].
  constructor; cbn; auto. intros n. destruct (N.eqb n (fnum f)); auto.
Qed.

Lemma sim_pset cf f s1 s2 : sim s1 s2 -> sim (pset cf f s1) (pset cf f s2).
Proof.
  intros [Hc Ho Hp Hl1 Hl2 Hx Hu]. unfold pset.
  destruct (flav cf); try (constructor; auto; fail).
  destruct (has_bit (fcls f)); constructor; cbn; auto. rewrite Hp. reflexivity.
Qed.

Lemma sim_oput f c s1 s2 : sim s1 s2 -> sim (oput f c s1) (oput f c s2).
Proof.
  intros [Hc Ho Hp Hl1 Hl2 Hx Hu]. unfold oput. destruct (is_oo (fcls f)); constructor; cbn; auto.
  intros g. destruct (N.eqb g (fgrp f)); auto.
Qed.

Lemma sim_with_unk s1 s2 u : sim s1 s2 -> sim (with_unk s1 (unk s1 ++ u)) (with_unk s2 (unk s2 ++ u)).
Proof. intros [Hc Ho Hp Hl1 Hl2 Hx Hu]. constructor; cbn; auto. rewrite Hu. reflexivity. Qed.

Lemma merge_msg_of_norm c body : merge_msg c body = merge_msg (norm c) body.
Proof. destruct c as [| | |[|]]; reflexivity. Qed.

Lemma app_cell_of_norm c l : app_cell c l = app_cell (norm c) l.
Proof. destruct c as [| | |[|]]; reflexivity. Qed.

Lemma merge_msg_norm c1 c2 body : norm c1 = norm c2 -> norm (merge_msg c1 body) = norm (merge_msg c2 body).
Proof. intros H. rewrite (merge_msg_of_norm c1), (merge_msg_of_norm c2), H. reflexivity. Qed.

Lemma app_cell_norm c1 c2 l : norm c1 = norm c2 -> norm (app_cell c1 l) = norm (app_cell c2 l).
Proof. intros H. rewrite (app_cell_of_norm c1), (app_cell_of_norm c2), H. reflexivity. Qed.

(* an ML field: force, then merge *)
Definition ml_merge (f : fld) (body : list N) (s : state) : state :=
  let s1 := force_or_keep f s in put f (merge_msg (get f s1) body) s1.

Lemma force_none f s : lazy s = None ->
  force_or_keep f s = match fcls f, get f s with
                      | ML, CZero => if present f s then put f (CMsg []) s else s
                      | _, _ => s
                      end.
Proof.
  intros Hl. unfold force_or_keep, force. rewrite (lazy_lookup_none s (fnum f) Hl).
  destruct (fcls f); auto. destruct (get f s); auto. destruct (present f s); auto.
Qed.

Lemma sim_put_put f c c0 s : lazy s = None -> sim (put f c (put f c0 s)) (put f c s).
Proof.
  intros Hl. unfold put. destruct (is_oo (fcls f)); [apply sim_refl, Hl|].
  constructor; cbn; auto. intros n. destruct (N.eqb n (fnum f)); reflexivity.
Qed.

(* Without a lazy buffer forcing can only turn a nil pointer into an empty message, and merging
   into either gives the same: up to [sim], force-then-merge is the plain merge *)
Lemma ml_merge_put f body s : lazy s = None -> sim (ml_merge f body s) (put f (merge_msg (get f s) body) s).
Proof.
  intros Hl. unfold ml_merge. cbv zeta. rewrite (force_none f s Hl).
  assert (R : sim (put f (merge_msg (get f s) body) s) (put f (merge_msg (get f s) body) s))
    by (apply sim_refl; unfold put; destruct (is_oo (fcls f)); exact Hl).
  destruct (fcls f) eqn:Ec; try exact R.
  destruct (get f s) eqn:Eg; try (rewrite Eg; exact R).
  destruct (present f s); [|rewrite Eg; exact R].
  unfold get at 1. rewrite cells_put, Ec, N.eqb_refl. apply (sim_put_put f (CMsg body) (CMsg []) s Hl).
Qed.

Lemma sim_ml_merge f body s1 s2 : sim s1 s2 -> sim (ml_merge f body s1) (ml_merge f body s2).
Proof.
  intros S. pose proof S as [Hc _ _ Hl1 Hl2 _ _].
  apply (sim_trans _ _ _ (ml_merge_put f body s1 Hl1)).
  apply (sim_trans _ (put f (merge_msg (get f s2) body) s2)).
  - apply sim_put; [apply merge_msg_norm, Hc | exact S].
  - apply sim_sym, ml_merge_put, Hl2.
Qed.

Lemma sim_merge_field cf f nz body v s1 s2 :
  sim s1 s2 -> sim (merge_field cf f nz body v s1) (merge_field cf f nz body v s2).
Proof.
  intros S. pose proof S as [Hc Ho Hp Hl1 Hl2 Hx Hu]. unfold merge_field.
  destruct (fcls f) eqn:Ec.
  - apply sim_pset, sim_put; auto.
  - apply sim_put; auto.
  - apply sim_put; auto. apply merge_msg_norm, Hc.
  - cbv zeta. apply sim_pset. apply (sim_ml_merge f body s1 s2 S).
  - apply sim_put; auto. apply app_cell_norm, Hc.
  - apply sim_put; auto. apply app_cell_norm, Hc.
  - apply sim_put; auto. apply app_cell_norm, Hc.
  - rewrite (Ho (fgrp f)).
    destruct body as [|b0 body']; destruct (oneofs s2 (fgrp f)) as [[k [| | |]]|];
      try destruct (N.eqb k (fnum f)); apply sim_oput; exact S.
Qed.

Lemma xget_xdel k n e : xget k (xdel n e) = if N.eqb k n then None else xget k e.
Proof.
  unfold xdel. induction e as [|[a x] r IH]; cbn.
  - destruct (N.eqb k n); reflexivity.
  - destruct (N.eqb_spec n a); cbn.
    + subst. rewrite IH. destruct (N.eqb_spec k a); reflexivity.
    + destruct (N.eqb_spec k a).
      * subst. destruct (N.eqb_spec a n); [congruence|reflexivity].
      * exact IH.
Qed.

Lemma xget_xput k n x e : xget k (xput n x e) = if N.eqb k n then Some x else xget k e.
Proof.
  unfold xput. cbn. destruct (N.eqb_spec k n); auto. rewrite xget_xdel.
  destruct (N.eqb_spec k n); [congruence|reflexivity].
Qed.

(* the entry an extension merge stores depends on the old one up to [xnorm] *)
Lemma merge_ext_entry n isl l s :
  merge_ext n isl l s =
  with_exts s (xput n (XVal isl match xnorm (xget n (exts s)) with
                                | Some (XVal true old) => if isl then old ++ l else l
                                | _ => l
                                end) (exts s)).
Proof. unfold merge_ext. destruct (xget n (exts s)) as [[[|] [|]]|]; destruct isl; reflexivity. Qed.

Lemma sim_merge_ext n isl l s1 s2 : sim s1 s2 -> sim (merge_ext n isl l s1) (merge_ext n isl l s2).
Proof.
  intros [Hc Ho Hp Hl1 Hl2 Hx Hu]. rewrite !merge_ext_entry, (Hx n).
  constructor; try assumption. intros k. cbn [exts with_exts]. rewrite !xget_xput.
  destruct (N.eqb k n); auto.
Qed.

Lemma sim_wire_item cf s1 s2 it :
  sim s1 s2 -> sim (wire_item cf false s1 it) (wire_item cf false s2 it).
Proof.
  intros S. destruct it as [f nz cnt v|n isl cnt v|raw]; cbn [wire_item].
  - destruct (fcls f) eqn:Ec; try (apply sim_merge_field; exact S).
    apply sim_put; auto.
  - apply sim_merge_ext; exact S.
  - apply sim_with_unk; exact S.
Qed.

Lemma sim_bad_nested cf ff s1 s2 :
  fast cf = false -> sim s1 s2 -> sim (bad_nested cf false ff s1) (bad_nested cf false ff s2).
Proof.
  intros F S. unfold bad_nested. rewrite F.
  destruct (fcls ff) eqn:Ec; auto.
  - apply sim_put; auto. apply merge_msg_norm. apply (sim_cells _ _ S).
  - cbv zeta. apply sim_pset. apply (sim_ml_merge ff [] s1 s2 S).
Qed.

Lemma sim_fold cf : forall l s1 s2, sim s1 s2 ->
  sim (fold_left (wire_item cf false) l s1) (fold_left (wire_item cf false) l s2).
Proof.
  induction l as [|it r IH]; intros s1 s2 S; cbn; auto. apply IH. apply sim_wire_item; exact S.
Qed.

Lemma sim_um_slow cf items fl s1 s2 :
  fast cf = false -> sim s1 s2 -> sim (um cf items fl s1) (um cf items fl s2).
Proof.
  intros F S. unfold um. rewrite F. cbn [andb]. cbv zeta.
  destruct fl as [|k g [ff|]].
  - apply sim_fold; exact S.
  - apply sim_bad_nested; auto. apply sim_fold; exact S.
  - apply sim_fold; exact S.
Qed.

(* Reset of any well-formed state, reachable or not *)
Lemma reset_wf_empty cf schema s : wf cf schema s ->
  abs_empty cf (reset cf schema s) /\
  (fast cf = true -> reset cf schema s = init) /\
  (fast cf = false -> residue cf (reset cf schema s)).
Proof.
  intros W. assert (R : residue cf (reset cf schema s)).
  { unfold reset. destruct (fast cf) eqn:F; [apply residue_init | apply reset_refl_residue; auto]. }
  split; [apply residue_abs_empty, R|]. split; [apply reset_fast_init | intros _; exact R].
Qed.

Theorem reset_empty cf schema ops :
  Forall (op_ok schema) ops ->
  let s := run cf schema ops init in
  abs_empty cf (reset cf schema s) /\
  (fast cf = true -> reset cf schema s = init) /\
  (fast cf = false -> residue cf (reset cf schema s)).
Proof. intros Hok s. apply reset_wf_empty, wf_run; auto using wf_init. Qed.

Theorem unmarshal_fast_same_state cf schema items fl s :
  fast cf = true -> unmarshal cf schema items fl s = unmarshal cf schema items fl init.
Proof. intros F. unfold unmarshal. rewrite !reset_fast_init by exact F. reflexivity. Qed.

Lemma abs_eq_refl cf s : abs_eq cf s s.
Proof. repeat split; reflexivity. Qed.

(* Unmarshal (without Merge) forgets the state it starts from *)
Lemma unmarshal_forgets cf schema items fl s1 s2 :
  wf cf schema s1 -> wf cf schema s2 ->
  abs_eq cf (unmarshal cf schema items fl s1) (unmarshal cf schema items fl s2).
Proof.
  intros W1 W2. destruct (fast cf) eqn:F.
  - rewrite (unmarshal_fast_same_state cf schema items fl s1 F), (unmarshal_fast_same_state cf schema items fl s2 F).
    apply abs_eq_refl.
  - apply sim_abs_eq. unfold unmarshal. apply sim_um_slow; auto.
    unfold reset. rewrite F. apply residue_sim with (cf := cf); apply reset_refl_residue; auto.
Qed.

Theorem unmarshal_equals_fresh cf schema ops items fl :
  Forall (op_ok schema) ops ->
  abs_eq cf (unmarshal cf schema items fl (run cf schema ops init)) (unmarshal cf schema items fl init).
Proof. intros Hok. apply unmarshal_forgets; [apply wf_run|]; auto using wf_init. Qed.
