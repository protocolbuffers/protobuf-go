(* OneofP — one oneof in its representations (Msg/OneofModel.v), C12.
     wrapper (open struct / generated code): [wabs] commutes with every operation; at most one
       member is populated; the generated accessors agree with reflection on well-formed wrappers
       and disagree on a typed nil wrapper
     dynamicpb: the [known] map represents the abstract state ([drep]); every operation keeps that
     binary decoding: the last member on the wire wins, a trailing block of one message member merges
     JSON / text: two members of one oneof in one document are rejected *)
From Coq Require Import List NArith Lia Bool.
From PB Require Import Base.PBytes Base.ListP Msg.OneofModel.
Import ListNotations.
Open Scope N_scope.

Lemma merge_msg_empty_l s : merge_msg empty_msg s = s.
Proof. destruct s as [[a|] [b|]]; reflexivity. Qed.
Lemma merge_msg_empty_r d : merge_msg d empty_msg = d.
Proof. destruct d as [a b]; reflexivity. Qed.
Lemma merge_msg_assoc a b c : merge_msg (merge_msg a b) c = merge_msg a (merge_msg b c).
Proof.
  destruct a as [a1 a2], b as [b1 b2], c as [[c1|] [c2|]]; unfold merge_msg; cbn; reflexivity.
Qed.

Lemma wmerge_abs w m v : wabs (wmerge_into w m v) = merge_into (wabs w) m v.
Proof.
  destruct v as [n|b|sm]; cbn; try reflexivity.
  destruct w as [|m'|m' [n|b|dm]]; cbn; try reflexivity.
  destruct (m' =? m); reflexivity.
Qed.

Lemma wstep_refines w o : wabs (wstep w o) = astep (wabs w) o.
Proof.
  destruct o as [m v|m|m| |m|m|[[m v]|]|m v]; cbn [wstep astep]; try reflexivity.
  - destruct w as [|m'|m' v']; cbn; try reflexivity; destruct (m' =? m); reflexivity.
  - destruct w as [|m'|m' v']; cbn; try reflexivity; destruct (m' =? m); reflexivity.
  - apply wmerge_abs.
  - apply wmerge_abs.
Qed.

Lemma wrun_refines ops : forall w, wabs (wrun w ops) = arun (wabs w) ops.
Proof.
  unfold wrun, arun. induction ops as [|o r IH]; intros w; [reflexivity|].
  cbn [fold_left]. now rewrite IH, wstep_refines.
Qed.

Lemma whas_abs w m : whas w m = ahas (wabs w) m.
Proof. destruct w; reflexivity. Qed.
Lemma wwhich_abs w : wwhich w = awhich (wabs w).
Proof. destruct w; reflexivity. Qed.
(* on well-formed wrappers the generated accessors agree with reflection *)
Lemma gcase_which w : wrap_wf w = true -> gcase w = match wwhich w with Some m => m | None => 0 end.
Proof. destruct w; cbn; congruence. Qed.
Lemma ghas_whas w m : wrap_wf w = true -> ghas w m = whas w m.
Proof. destruct w; cbn; congruence. Qed.
(* every operation except the direct assignment of a typed nil pointer yields a well-formed wrapper
   or leaves the wrapper as it was *)
Lemma wstep_wf w o : wrap_wf w = true -> (forall m, o <> OSetTypedNil m) -> wrap_wf (wstep w o) = true.
Proof.
  intros Hw Ho. destruct o as [m v|m|m| |m|m|[[m v]|]|m v]; cbn [wstep]; try reflexivity; try assumption.
  - destruct w as [|m'|m' v']; cbn in *; try reflexivity; try discriminate. now destruct (m' =? m).
  - destruct w as [|m'|m' v']; cbn in *; try reflexivity; try discriminate. now destruct (m' =? m).
  - now destruct (Ho m).
  - destruct v as [n|b|sm]; cbn; try reflexivity. destruct w as [|m'|m' [n|b|dm]]; cbn; try reflexivity. now destruct (m' =? m).
  - destruct v as [n|b|sm]; cbn; try reflexivity. destruct w as [|m'|m' [n|b|dm]]; cbn; try reflexivity. now destruct (m' =? m).
Qed.
(* the ill-formed state: generated accessors and reflection disagree.  The equations hold for
   every m; for m = 0 [gcase] would coincide with the answer for "no member", hence the hypothesis *)
Lemma typed_nil_disagreement m : m <> 0 ->
  gcase (WTypedNil m) = m /\ wwhich (WTypedNil m) = None /\ ghas (WTypedNil m) m = true /\ whas (WTypedNil m) m = false.
Proof. intros _. cbn. now rewrite N.eqb_refl. Qed.

Lemma whas_iff_which w m : whas w m = true <-> wwhich w = Some m.
Proof.
  destruct w as [|m'|m' v]; cbn; try (split; discriminate).
  rewrite N.eqb_eq. split; [intros ->; reflexivity | intros [= ->]; reflexivity].
Qed.

Lemma filter_unique_le1 {A} (f : A -> bool) (l : list A) :
  NoDup l -> (forall a b, In a l -> In b l -> f a = true -> f b = true -> a = b) ->
  (length (filter f l) <= 1)%nat.
Proof.
  induction l as [|x r IH]; intros Hnd Hu; [cbn; lia|].
  inversion Hnd as [|? ? Hx Hr]; subst. cbn [filter].
  destruct (f x) eqn:Ex.
  - assert (filter f r = []) as ->.
    { destruct (filter f r) as [|y t] eqn:E; [reflexivity|].
      assert (Hy : In y (filter f r)) by (rewrite E; now left).
      apply filter_In in Hy. destruct Hy as [Hyr Hfy].
      assert (x = y) by (apply Hu; cbn; auto). subst. contradiction. }
    cbn. lia.
  - apply IH; [assumption|]. intros a b Ha Hb. apply Hu; now right.
Qed.

Lemma wpopulated_le1 members w : NoDup members -> (wpopulated members w <= 1)%nat.
Proof.
  intros Hnd. unfold wpopulated. apply filter_unique_le1; [assumption|].
  intros a b _ _ Ha Hb. apply whas_iff_which in Ha, Hb. congruence.
Qed.

Theorem wrapper_invariant members ops w0 :
  NoDup members ->
  let w := wrun w0 ops in
  (wpopulated members w <= 1)%nat /\
  (forall m, whas w m = true <-> wwhich w = Some m) /\
  wabs w = arun (wabs w0) ops /\
  (forall m, whas w m = ahas (arun (wabs w0) ops) m) /\
  wwhich w = awhich (arun (wabs w0) ops).
Proof.
  intros Hnd w. repeat split.
  - now apply wpopulated_le1.
  - apply whas_iff_which.
  - apply whas_iff_which.
  - apply wrun_refines.
  - intros m. rewrite whas_abs. unfold w. now rewrite wrun_refines.
  - rewrite wwhich_abs. unfold w. now rewrite wrun_refines.
Qed.

Lemma mem_In x l : mem x l = true <-> In x l.
Proof. exact (list_existsb_Neqb_In x l). Qed.

Lemma clear_others_spec members m : forall k x,
  clear_others members m k x = if mem x members && negb (x =? m) then None else k x.
Proof.
  unfold clear_others. induction members as [|n r IH]; intros k x; [reflexivity|].
  cbn [fold_left]. rewrite IH. cbn [mem existsb]. fold (mem x r).
  destruct (N.eqb_spec n m) as [->|Hnm].
  - destruct (N.eqb_spec x m) as [->|Hxm]; cbn.
    + now rewrite andb_false_r.
    + destruct (mem x r); reflexivity.
  - unfold kdel. destruct (N.eqb_spec x n) as [->|Hxn]; cbn.
    + destruct (N.eqb_spec n m); [congruence|]. cbn. now destruct (mem n r).
    + reflexivity.
Qed.

Lemma fold_kdel_spec members : forall k x,
  fold_left kdel members k x = if mem x members then None else k x.
Proof.
  induction members as [|n r IH]; intros k x; [reflexivity|].
  cbn [fold_left]. rewrite IH. cbn [mem existsb]. fold (mem x r). unfold kdel.
  destruct (N.eqb_spec x n); cbn; [now destruct (mem x r)|reflexivity].
Qed.

Definition dinv (members : list N) (k : known) : Prop :=
  forall m1 m2, In m1 members -> In m2 members -> dhas k m1 = true -> dhas k m2 = true -> m1 = m2.

(* the representation relation: on the members, the map holds exactly the abstract state *)
Definition aget (a : astate) (n : N) : option oval :=
  match a with Some (m, v) => if n =? m then Some v else None | None => None end.
Definition drep (members : list N) (k : known) (a : astate) : Prop :=
  (forall m v, a = Some (m, v) -> In m members) /\ forall n, In n members -> k n = aget a n.

(* everything the accessors compute is read off the abstract state *)
Lemma drep_abs members k a : drep members k a ->
  dinv members k /\ dabs members k = a /\ dwhich members k = awhich a /\
  forall m, In m members -> dhas k m = ahas a m.
Proof.
  intros [Hin Hk].
  assert (Hh : forall n, In n members -> dhas k n = ahas a n).
  { intros n Hn. unfold dhas. rewrite (Hk n Hn). destruct a as [[m v]|]; cbn; [|reflexivity].
    rewrite (N.eqb_sym m n). destruct (n =? m); reflexivity. }
  assert (Hw : dwhich members k = awhich a).
  { unfold dwhich. destruct a as [[m v]|]; cbn.
    - pose proof (Hin m v eq_refl) as Hm.
      apply find_unique; [exact Hm | rewrite (Hh m Hm); apply N.eqb_refl |].
      intros n Hn Hd. rewrite (Hh n Hn) in Hd. symmetry. apply N.eqb_eq, Hd.
    - apply find_none_intro. intros n Hn. apply (Hh n Hn). }
  split; [|split; [|split; [exact Hw|exact Hh]]].
  - intros m1 m2 H1 H2. rewrite (Hh m1 H1), (Hh m2 H2). destruct a as [[m v]|]; cbn; [|discriminate].
    rewrite !N.eqb_eq. congruence.
  - unfold dabs. rewrite Hw. destruct a as [[m v]|]; cbn; [|reflexivity].
    rewrite (Hk m (Hin m v eq_refl)). cbn. now rewrite N.eqb_refl.
Qed.

(* under the invariant the map represents its abstraction *)
Lemma dinv_rep members k : dinv members k -> drep members k (dabs members k).
Proof.
  intros Hinv. unfold dabs. destruct (dwhich members k) as [m|] eqn:Hw; unfold dwhich in Hw.
  - apply find_some in Hw. destruct Hw as [Hin Hh]. pose proof Hh as Hh'. unfold dhas in Hh'.
    destruct (k m) as [v|] eqn:Hm; [|discriminate]. split; [intros ? ? [= <- <-]; exact Hin|].
    intros n Hn. cbn. destruct (N.eqb_spec n m) as [->|Hne]; [exact Hm|].
    destruct (k n) eqn:Hkn; [|reflexivity].
    destruct Hne. apply Hinv; auto. unfold dhas. now rewrite Hkn.
  - split; [discriminate|]. intros n Hn. pose proof (find_none _ _ Hw n Hn) as Hd.
    unfold dhas in Hd. cbn. destruct (k n); [discriminate|reflexivity].
Qed.

Lemma drep_set members k m v : In m members -> drep members (kput (clear_others members m k) m v) (Some (m, v)).
Proof.
  intros Hin. split; [intros ? ? [= <- <-]; exact Hin|]. intros n Hn. unfold kput. cbn.
  destruct (N.eqb_spec n m); [reflexivity|].
  rewrite clear_others_spec. apply mem_In in Hn. rewrite Hn.
  destruct (N.eqb_spec n m); [congruence|reflexivity].
Qed.

Lemma drep_put members k m v v' : drep members k (Some (m, v)) -> drep members (kput k m v') (Some (m, v')).
Proof.
  intros [Hin Hk]. split; [intros ? ? [= <- <-]; exact (Hin m v eq_refl)|].
  intros n Hn. unfold kput. rewrite (Hk n Hn). cbn. destruct (n =? m); reflexivity.
Qed.

Lemma drep_clear members k : drep members (fold_left kdel members k) None.
Proof.
  split; [discriminate|]. intros n Hn. rewrite fold_kdel_spec. apply mem_In in Hn. now rewrite Hn.
Qed.

Lemma dmerge_refines members k a m v :
  drep members k a -> In m members -> drep members (dmerge_into members k m v) (merge_into a m v).
Proof.
  intros R Hin. pose proof (proj2 R m Hin) as Hm.
  destruct v as [n|b|sm]; cbn [dmerge_into merge_into]; try (apply drep_set, Hin).
  rewrite Hm. destruct a as [[m' v']|]; cbn [aget]; [|apply drep_set, Hin].
  rewrite (N.eqb_sym m m'). destruct (N.eqb_spec m' m) as [->|Hne].
  - destruct v'; apply (drep_put _ _ _ _ _ R).
  - destruct v'; apply drep_set, Hin.
Qed.

Lemma dstep_rep members k a o :
  drep members k a -> op_ok members o = true -> drep members (dstep members k o) (astep a o).
Proof.
  intros R Hok. pose proof R as [Rin Rk].
  destruct o as [m v|m|m| |m|m|[[m v]|]|m v]; cbn [dstep astep]; unfold op_ok in Hok; cbn [op_member] in Hok;
    try (apply mem_In in Hok); try apply drep_clear.
  - (* OSet *) apply drep_set, Hok.
  - (* OClear *)
    destruct a as [[m' v']|]; split; try discriminate.
    + destruct (N.eqb_spec m' m); [discriminate|]. intros ? ? [= <- <-]. exact (Rin m' v' eq_refl).
    + intros n Hn. unfold kdel. rewrite (Rk n Hn). cbn.
      destruct (N.eqb_spec m' m) as [->|Hne]; cbn; destruct (N.eqb_spec n m) as [->|Hnm]; try reflexivity.
      destruct (N.eqb_spec m m'); [congruence|reflexivity].
    + intros n Hn. unfold kdel. rewrite (Rk n Hn). cbn. destruct (n =? m); reflexivity.
  - (* OMutable *)
    rewrite (Rk m Hok). destruct a as [[m' v']|]; cbn [aget]; [|apply drep_set, Hok].
    rewrite (N.eqb_sym m m'). destruct (m' =? m); [exact R|apply drep_set, Hok].
  - (* OMerge Some *) apply dmerge_refines; assumption.
  - (* OMerge None *) exact R.
  - (* OWire *) apply dmerge_refines; assumption.
Qed.

Lemma dstep_refines members k o :
  dinv members k -> op_ok members o = true ->
  dinv members (dstep members k o) /\ dabs members (dstep members k o) = astep (dabs members k) o.
Proof.
  intros Hinv Hok.
  destruct (drep_abs _ _ _ (dstep_rep members k _ o (dinv_rep members k Hinv) Hok)) as (A & B & _).
  split; assumption.
Qed.

Lemma dinv_empty members : dinv members kempty.
Proof. intros m1 m2 _ _ H. discriminate H. Qed.
Lemma dabs_empty members : dabs members kempty = None.
Proof. apply (drep_abs members kempty None). split; [discriminate|reflexivity]. Qed.

Lemma drun_refines members ops : forall k,
  dinv members k -> Forall (fun o => op_ok members o = true) ops ->
  dinv members (drun members k ops) /\ dabs members (drun members k ops) = arun (dabs members k) ops.
Proof.
  unfold drun, arun. induction ops as [|o r IH]; intros k Hinv Hok; [now split|].
  inversion Hok; subst. cbn [fold_left].
  destruct (dstep_refines members k o Hinv) as [A B]; [assumption|].
  destruct (IH (dstep members k o) A) as [C D]; [assumption|]. split; [exact C|]. now rewrite D, B.
Qed.

Lemma dhas_iff_which members k m : dinv members k -> In m members ->
  (dhas k m = true <-> dwhich members k = Some m).
Proof.
  intros Hinv Hin. split.
  - intros Hh. unfold dwhich. apply find_unique; [assumption|assumption|].
    intros n Hn Hhn. now apply Hinv.
  - intros Hw. unfold dwhich in Hw. apply find_some in Hw. tauto.
Qed.

Lemma dhas_abs members k m : dinv members k -> In m members -> dhas k m = ahas (dabs members k) m.
Proof. intros Hinv. apply (drep_abs _ _ _ (dinv_rep members k Hinv)). Qed.

Lemma dwhich_abs members k : dinv members k -> dwhich members k = awhich (dabs members k).
Proof. intros Hinv. apply (drep_abs _ _ _ (dinv_rep members k Hinv)). Qed.

(* from any state that satisfies the invariant, as for the wrapper *)
Theorem dynamic_invariant_from members ops k0 :
  NoDup members -> Forall (fun o => op_ok members o = true) ops -> dinv members k0 ->
  let k := drun members k0 ops in
  (dpopulated members k <= 1)%nat /\
  (forall m, In m members -> (dhas k m = true <-> dwhich members k = Some m)) /\
  dabs members k = arun (dabs members k0) ops /\
  (forall m, In m members -> dhas k m = ahas (arun (dabs members k0) ops) m) /\
  dwhich members k = awhich (arun (dabs members k0) ops).
Proof.
  intros Hnd Hok H0 k.
  destruct (drun_refines members ops k0 H0 Hok) as [Hinv Habs]. fold k in Hinv, Habs.
  repeat split.
  - unfold dpopulated. apply filter_unique_le1; [assumption|]. intros a b Ha Hb. now apply Hinv.
  - now apply dhas_iff_which.
  - now apply dhas_iff_which.
  - exact Habs.
  - intros m Hin. rewrite <- Habs. now apply dhas_abs.
  - rewrite <- Habs. now apply dwhich_abs.
Qed.

Theorem dynamic_invariant members ops :
  NoDup members -> Forall (fun o => op_ok members o = true) ops ->
  let k := drun members kempty ops in
  (dpopulated members k <= 1)%nat /\
  (forall m, In m members -> (dhas k m = true <-> dwhich members k = Some m)) /\
  dabs members k = arun None ops /\
  (forall m, In m members -> dhas k m = ahas (arun None ops) m) /\
  dwhich members k = awhich (arun None ops).
Proof.
  intros Hnd Hok. rewrite <- (dabs_empty members).
  exact (dynamic_invariant_from members ops kempty Hnd Hok (dinv_empty members)).
Qed.

Lemma wire_decode_app st a b : wire_decode st (a ++ b) = wire_decode (wire_decode st a) b.
Proof. unfold wire_decode. apply fold_left_app. Qed.

Lemma merge_into_which st m v : awhich (merge_into st m v) = Some m.
Proof.
  destruct v as [n|b|sm]; cbn; try reflexivity.
  destruct st as [[m' [n|b|dm]]|]; cbn; try reflexivity. destruct (m' =? m); reflexivity.
Qed.

Theorem binary_last_wins_which st occ m v : awhich (wire_decode st (occ ++ [(m, v)])) = Some m.
Proof. rewrite wire_decode_app. cbn. apply merge_into_which. Qed.

Theorem binary_last_wins_scalar st occ m v :
  (forall sm, v <> OVMsg sm) -> wire_decode st (occ ++ [(m, v)]) = Some (m, v).
Proof.
  intros Hv. rewrite wire_decode_app. cbn. destruct v; try reflexivity. now destruct (Hv m0).
Qed.

Lemma wire_decode_block m : forall block dm,
  wire_decode (Some (m, OVMsg dm)) (map (fun sm => (m, OVMsg sm)) block)
  = Some (m, OVMsg (fold_left merge_msg block dm)).
Proof.
  induction block as [|s r IH]; intros dm; [reflexivity|].
  cbn [map]. unfold wire_decode in *. cbn [fold_left fst snd merge_into].
  rewrite N.eqb_refl. apply IH.
Qed.

Theorem binary_last_wins_message st pre m block :
  block <> [] -> awhich (wire_decode st pre) <> Some m ->
  wire_decode st (pre ++ map (fun sm => (m, OVMsg sm)) block) = Some (m, OVMsg (merge_block block)).
Proof.
  intros Hb Hw. rewrite wire_decode_app. destruct block as [|s r]; [congruence|].
  cbn [map]. change (wire_decode ?s ((m, OVMsg ?x) :: ?t)) with (wire_decode (merge_into s m (OVMsg x)) t).
  assert (E : merge_into (wire_decode st pre) m (OVMsg s) = Some (m, OVMsg (merge_msg empty_msg s))).
  { destruct (wire_decode st pre) as [[m' [n|b|dm]]|]; cbn in *; try reflexivity.
    destruct (N.eqb_spec m' m); [subst; congruence|reflexivity]. }
  rewrite E, wire_decode_block. reflexivity.
Qed.

(* a repeated occurrence of the same message member merges (it does not replace) *)
Corollary binary_message_merges st m s1 s2 :
  awhich st <> Some m ->
  wire_decode st [(m, OVMsg s1); (m, OVMsg s2)] = Some (m, OVMsg (merge_msg s1 s2)).
Proof.
  intros H. change [(m, OVMsg s1); (m, OVMsg s2)] with ([] ++ map (fun sm => (m, OVMsg sm)) [s1; s2]).
  rewrite binary_last_wins_message; [|discriminate|exact H].
  unfold merge_block. cbn. now rewrite merge_msg_empty_l.
Qed.

(* decoding through either concrete representation gives the same abstract state *)
Lemma wire_decode_arun st occ : wire_decode st occ = arun st (map (fun mv => OWire (fst mv) (snd mv)) occ).
Proof.
  unfold wire_decode, arun. revert st. induction occ as [|[m v] r IH]; intros st; [reflexivity|].
  cbn. apply IH.
Qed.

(* JSON / text: two members of one oneof are rejected *)

Definition names_oneof (o : N) (e : tev) : Prop := te_oneof e = Some o /\ te_null e = false.

Lemma json_seen_rejects o : forall evs sn so ap,
  mem o so = true -> Exists (names_oneof o) evs -> exists e, json_loop evs sn so ap = TErr e.
Proof.
  induction evs as [|e r IH]; intros sn so ap Hso Hex; [inversion Hex|].
  cbn [json_loop]. destruct (mem (te_num e) sn); [eauto|].
  inversion Hex as [? ? [Ho Hn]|? ? Hr]; subst.
  - rewrite Hn, Ho, Hso. eauto.
  - destruct (te_null e); [now apply IH|].
    destruct (te_oneof e) as [o'|]; [|now apply IH].
    destruct (mem o' so) eqn:E; [eauto|]. apply IH; [|assumption].
    cbn [mem existsb]. fold (mem o so). rewrite Hso. apply orb_true_r.
Qed.

Theorem json_rejects_two_members o pre e1 mid e2 post :
  names_oneof o e1 -> names_oneof o e2 ->
  exists e, json_decode (pre ++ e1 :: mid ++ e2 :: post) = TErr e.
Proof.
  intros H1 H2. unfold json_decode. generalize (@nil N) at 1 as sn. generalize (@nil N) at 1 as so. generalize (@nil N) as ap.
  induction pre as [|x r IH]; intros ap so sn.
  - cbn [app json_loop]. destruct (mem (te_num e1) sn); [eauto|].
    destruct H1 as [Ho Hn]. rewrite Hn, Ho.
    destruct (mem o so); [eauto|]. apply json_seen_rejects with (o := o).
    + cbn. now rewrite N.eqb_refl.
    + apply Exists_app. right. now left.
  - cbn [app json_loop]. destruct (mem (te_num x) sn); [eauto|].
    destruct (te_null x); [apply IH|].
    destruct (te_oneof x) as [o'|]; [|apply IH].
    destruct (mem o' so); [eauto|apply IH].
Qed.

Lemma text_seen_rejects o : forall evs sn so ap,
  mem o so = true -> Exists (fun e => te_oneof e = Some o) evs -> exists e, text_loop evs sn so ap = TErr e.
Proof.
  induction evs as [|e r IH]; intros sn so ap Hso Hex; [inversion Hex|].
  cbn [text_loop].
  inversion Hex as [? ? Ho|? ? Hr]; subst.
  - rewrite Ho, Hso. eauto.
  - destruct (te_oneof e) as [o'|].
    + destruct (mem o' so) eqn:E; [eauto|].
      destruct (mem (te_num e) sn); [eauto|]. apply IH; [|assumption].
      cbn [mem existsb]. fold (mem o so). rewrite Hso. apply orb_true_r.
    + destruct (mem (te_num e) sn); [eauto|]. now apply IH.
Qed.

Theorem text_rejects_two_members o pre e1 mid e2 post :
  te_oneof e1 = Some o -> te_oneof e2 = Some o ->
  exists e, text_decode (pre ++ e1 :: mid ++ e2 :: post) = TErr e.
Proof.
  intros H1 H2. unfold text_decode. generalize (@nil N) at 1 as sn. generalize (@nil N) at 1 as so. generalize (@nil N) as ap.
  induction pre as [|x r IH]; intros ap so sn.
  - cbn [app text_loop]. rewrite H1.
    destruct (mem o so); [eauto|]. destruct (mem (te_num e1) sn); [eauto|].
    apply text_seen_rejects with (o := o).
    + cbn. now rewrite N.eqb_refl.
    + apply Exists_app. right. now left.
  - cbn [app text_loop].
    destruct (te_oneof x) as [o'|].
    + destruct (mem o' so); [eauto|]. destruct (mem (te_num x) sn); [eauto|apply IH].
    + destruct (mem (te_num x) sn); [eauto|apply IH].
Qed.

