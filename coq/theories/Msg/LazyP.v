(* LazyP — proofs about the lazy-decoding model Msg/LazyModel.v:
     - the Unmarshal verdict of lazy decoding refines the eager one (lockstep with the validator,
       which is in lockstep with the eager decoder: Msg/ValidateMsgP.v),
     - after a successful Unmarshal every still-lazy field has an index entry that lookupField
       finds (the index is sorted whenever lookupField's early exit needs it). *)
From Coq Require Import List Arith NArith ZArith Lia Bool Sorted.
From Coq Require Import ZifyBool ZifyNat ZifyN.
From PB Require Import Base.PBytes Wire.WireModel Wire.ScanP.
From PB Require Import Msg.MsgSchema Msg.MsgValue Msg.MsgUtf8 Msg.MsgEnc Msg.MsgDec.
From PB Require Import Msg.ValidateMsgModel Msg.ValidateMsgP Msg.LazyModel.
Import ListNotations.
Open Scope N_scope.

Section Lockstep.
  (* [P] guards the one direction that needs the schema to be free of the FL1 field shape ("Invalid
     implies the decoder fails"): [P := True] with the hypothesis, [P := False] without it *)
  Variable P : Prop.
  Variable S : schema.
  Hypothesis HflS : P -> vp_fl1_free S.
  Variable d : nat.
  Variable md : mdesc.
  Hypothesis Hmd : In md S.
  Variable total : nat.

  Let Hsub := vp_msg_agree P S HflS d.

  Lemma lzp_sub2 :
    match vp_vsub2 S d, lz_dsub2 S d with
    | None, None => True
    | Some vm2, Some dm2 => vp_sub_agree P vm2 dm2
    | _, _ => False
    end.
  Proof. destruct d as [|d1]; cbn; [exact I|]. apply vp_msg_agree. exact HflS. Qed.

  (* one field: validator verdict [v] on the rest [r] vs the result [D] of the lazy step.  Either
     the lazy step succeeds with the same rest, or the quirk flag is raised (a map field at the
     limit, which is never lazy) and it fails *)
  Definition lzp_ok (v : vres) (r : list byte) (D : dres (lstate * list byte)) : Prop :=
    match v with
    | VFuel => False
    | VBad => P -> exists e, D = DErr e
    | VOk i q r' => (length r' <= length r)%nat /\
                    ((exists st', D = DOk (st', r')) \/ (q = true /\ exists e, D = DErr e))
    end.

  Definition lzp_step_ok (st : lstate) (bs : list byte) (num typ : N) (r : list byte) : Prop :=
    lzp_ok (vr_step (vr_reqof S) md (vr_msg S d) (vp_vsub2 S d) num typ r) r
           (lz_step S d md total st bs num typ r).

  (* an eager decoding step that agrees with the validator, followed by bookkeeping *)
  Lemma lzp_ok_note v dres0 (note : msg_macc -> list byte -> lstate) r :
    vp_agree P v _ dres0 vp_rest2 r ->
    lzp_ok v r (match dres0 with DErr e => DErr e | DOk (acc', r') => DOk (note acc' r', r') end).
  Proof.
    destruct v as [i q r'| |]; cbn [vp_agree lzp_ok]; [|intros A HP; destruct (A HP) as (e & ->); eauto|auto].
    intros [Hl A]. split; [exact Hl|]. destruct q.
    - right. rewrite A. eauto.
    - left. destruct A as ([acc' r2] & -> & <-). eauto.
  Qed.

  (* a lazy sub-message is accepted on the validator's word: as a payload, as a group *)
  Lemma lzp_ok_len tid payload (r r' : list byte) (st' : lstate) :
    (length r' <= length r)%nat ->
    lzp_ok (match vr_msg S d tid 0 (x00 :: payload) payload with
            | VOk i q _ => VOk i q r' | VBad => VBad | VFuel => VFuel end) r
           (match vr_msg S d tid 0 (x00 :: payload) payload with
            | VOk _ _ _ => DOk (st', r') | VBad => DErr DParse | VFuel => DErr DFuel end).
  Proof.
    intros Hl. pose proof (Hsub tid 0 (x00 :: payload) payload ([], []) ltac:(cbn [length]; lia)) as A.
    destruct (vr_msg S d tid 0 (x00 :: payload) payload); cbn [vp_agree lzp_ok] in *; eauto.
  Qed.

  Lemma lzp_ok_grp tid num r (st' : list byte -> lstate) :
    lzp_ok (vr_msg S d tid num (x00 :: r) r) r
           (match vr_msg S d tid num (x00 :: r) r with
            | VOk _ _ r' => DOk (st' r', r') | VBad => DErr DParse | VFuel => DErr DFuel end).
  Proof.
    pose proof (Hsub tid num (x00 :: r) r ([], []) ltac:(cbn [length]; lia)) as A.
    destruct (vr_msg S d tid num (x00 :: r) r); cbn [vp_agree lzp_ok] in *; [|eauto|exact A].
    destruct A as [Hl _]. eauto.
  Qed.

  Lemma lzp_step st bs num typ r : lzp_step_ok st bs num typ r.
  Proof.
    unfold lzp_step_ok.
    pose proof (vp_step_agree P (vr_reqof S) md (vr_msg S d) (msg_decode_msg false S d) (vp_vsub2 S d) (lz_dsub2 S d)
                  Hsub lzp_sub2 (fun HP => HflS HP md Hmd) (enc_tag num typ) num typ r (s_acc st)) as Heager.
    apply (lzp_ok_note _ _ (fun acc' r' => lz_note total st false num (total - length bs) r' acc' (s_present st))) in Heager.
    unfold lz_step.
    destruct (msg_find_field md num) as [fd|] eqn:Ef; [|exact Heager].
    destruct (lz_is_lazy fd) eqn:El; [|exact Heager].
    (* a lazy field: the validator decides *)
    clear Heager. unfold vr_step. rewrite Ef.
    unfold lz_is_lazy in El. apply andb_prop in El. destruct El as [El Hone].
    apply andb_prop in El. destruct El as [El Hcard]. apply andb_prop in El. destruct El as [_ Hkind].
    pose proof (lzp_ok_note _ _ (fun acc' r' => lz_note total st true num (total - length bs) r' acc' (s_present st)) _
                  (vp_unknown_agree P (enc_tag num typ) num typ r (s_acc st))) as Hunk.
    destruct (f_kind fd) as [sk|tid|tid] eqn:Ek; [discriminate Hkind| |].
    - (* a message-typed field, whatever its cardinality (not a map) *)
      destruct (f_card fd) eqn:Ec; try discriminate Hcard.
      all: destruct (typ =? 2); [|exact Hunk];
           destruct (dec_bytes r) as [[payload r']|e] eqn:Eb; [|intros _; eauto];
           pose proof (dec_bytes_len _ _ _ Eb) as Hb; apply lzp_ok_len; lia.
    - (* a group-typed field *)
      destruct (f_card fd) eqn:Ec; try discriminate Hcard.
      all: destruct (typ =? 3); [|exact Hunk];
           apply (lzp_ok_grp tid num r (fun r' => lz_note total st true num (total - length bs) r' (s_acc st) (num :: s_present st))).
  Qed.

  (* the lazy decoder follows the validator's verdict, except that it ignores the quirk flag; from a
     state in which the flag is up the verdict only has to keep it up *)
  Definition lzp_follows (q0 : bool) (v : vres) (A : Type) (D : dres A) : Prop :=
    match v with
    | VFuel => False
    | VBad => P -> exists e, D = DErr e
    | VOk _ q _ => if q0 then q = true else q = false -> exists m, D = DOk m
    end.

  Lemma lzp_loop : forall g bs st seen i q0, (length bs < length g)%nat ->
    lzp_follows q0 (vr_loop (vr_reqof S) md (vr_msg S d) (vp_vsub2 S d) 0 g bs seen i q0) _
                (lz_loop S d md total g bs st).
  Proof.
    induction g as [|x g IH]; intros bs st seen i q0 Hl; [cbn in Hl; lia|].
    cbn [vr_loop lz_loop]. destruct bs as [|b0 t0] eqn:Ebs.
    { cbn [N.eqb lzp_follows]. destruct q0; eauto. }
    rewrite <- Ebs in *. clear Ebs b0 t0.
    destruct (dec_tag bs) as [[[num typ] r]|e] eqn:Et; [|intros _; eauto].
    pose proof (dec_tag_len _ _ _ _ Et) as Hr.
    destruct (msg_max_num <? num); [intros _; eauto|].
    destruct (typ =? 4).
    { replace (num =? 0) with false; [intros _; eauto|]. symmetry. apply N.eqb_neq. intros ->.
      apply dec_tag_num_pos in Et. lia. }
    pose proof (lzp_step st bs num typ r) as Hs. unfold lzp_step_ok, lzp_ok in Hs.
    destruct (vr_step (vr_reqof S) md (vr_msg S d) (vp_vsub2 S d) num typ r) as [i1 q1 r'| |].
    - cbn [length] in Hl. destruct Hs as [Hl' [(st' & ->)|(-> & e & ->)]].
      + (* the flag that the step may have raised stays up *)
        specialize (IH r' st' (if vr_marks md num typ then num :: seen else seen) (i && i1) (q0 || q1) ltac:(lia)).
        unfold lzp_follows in *. destruct (vr_loop _ _ _ _ _ g r' _ _ _) as [i' q' r0| |]; [|exact IH|exact IH].
        destruct q0; [exact IH|]. destruct q1; [|exact IH]. cbn [orb] in IH. subst q'. discriminate.
      + specialize (IH r' st (if vr_marks md num typ then num :: seen else seen) (i && i1) true ltac:(lia)).
        rewrite orb_true_r. unfold lzp_follows in *.
        destruct (vr_loop _ _ _ _ _ g r' _ _ _) as [i' q' r0| |]; [|intros _; eauto|exact IH].
        subst q'. destruct q0; [reflexivity|discriminate].
    - intros HP. destruct (Hs HP) as (e & ->). eauto.
    - exact Hs.
  Qed.
End Lockstep.

Theorem lzp_verdict_refines S limit tid bs :
  vp_fl1_free S ->
  ((exists v, msg_decode false S limit tid bs = DOk v) -> exists m, lz_unmarshal S limit tid bs = DOk m) /\
  ((exists m, lz_unmarshal S limit tid bs = DOk m) ->
   (exists v, msg_decode false S limit tid bs = DOk v) \/ msg_decode false S limit tid bs = DErr DDepth).
Proof.
  intros Hfl.
  pose proof (vp_validate_cases True S (fun _ => Hfl) limit tid bs) as Hv.
  destruct limit as [|d].
  { cbn [lz_unmarshal]. split; [|intros (m & E); discriminate].
    intros (v & E). unfold msg_decode, msg_decode_into in E. cbn [msg_decode_msg] in E. discriminate. }
  rewrite vp_vr_unfold in Hv. cbn [lz_unmarshal].
  destruct (nth_error S tid) as [md|] eqn:Hmd.
  2: { split; [|intros (m & E); discriminate]. intros (v & E). destruct (Hv I) as (e & E'). congruence. }
  assert (Hin : In md S) by (eapply nth_error_In; eauto).
  pose proof (lzp_loop True S (fun _ => Hfl) d md Hin (length bs) (x00 :: bs) bs
                (mkLS ([], []) [] [] 0 false) [] true false ltac:(cbn [length]; lia)) as Hl.
  unfold lzp_follows in Hl.
  destruct (vr_loop (vr_reqof S) md (vr_msg S d) (vp_vsub2 S d) 0 (x00 :: bs) bs [] true false) as [i q r| |].
  - destruct q.
    + split.
      * intros (v & E). congruence.
      * intros _. right. exact Hv.
    + destruct (Hl eq_refl) as (st' & ->). split; [eauto|]. intros _. left. exact Hv.
  - destruct (Hl I) as (e & ->). split.
    + intros (v & E). destruct (Hv I) as (e' & E'). congruence.
    + intros (m & E). discriminate.
  - contradiction.
Qed.

(* of the index only the field numbers matter *)
Definition lzp_nums_sorted (idx : list ientry) : Prop := StronglySorted N.le (map ie_num idx).

Lemma lzp_lookup_found : forall idx num,
  lzp_nums_sorted idx -> In num (map ie_num idx) -> lz_lookup idx num <> [].
Proof.
  unfold lzp_nums_sorted. induction idx as [|x r IH]; intros num Hs Hin; [contradiction|].
  cbn [lz_lookup]. destruct (ie_num x =? num) eqn:E1.
  - cbn [lz_take_run]. rewrite E1. discriminate.
  - cbn [map] in Hs. apply StronglySorted_inv in Hs. destruct Hs as [Hs Hle].
    destruct Hin as [Hx|Hin]; [apply N.eqb_neq in E1; contradiction|].
    destruct (num <? ie_num x) eqn:E2.
    + rewrite Forall_forall in Hle. specialize (Hle num Hin). lia.
    + apply IH; assumption.
Qed.

(* insertion sort: a permutation whose numbers are sorted *)
Lemma lzp_insert_in x l y : In y (lz_ie_insert x l) <-> y = x \/ In y l.
Proof.
  induction l as [|a r IH]; cbn [lz_ie_insert]; [cbn; intuition|].
  destruct (lz_ie_le x a); cbn [In]; [intuition|]. rewrite IH. intuition.
Qed.
Lemma lzp_sort_in l y : In y (lz_ie_sort l) <-> In y l.
Proof.
  induction l as [|a r IH]; cbn [lz_ie_sort]; [reflexivity|]. rewrite lzp_insert_in, IH. cbn [In]. intuition.
Qed.
Lemma lzp_insert_sorted x l : lzp_nums_sorted l -> lzp_nums_sorted (lz_ie_insert x l).
Proof.
  unfold lzp_nums_sorted. induction l as [|a r IH]; intros Hs; cbn [lz_ie_insert]; [repeat constructor|].
  cbn [map] in Hs. destruct (StronglySorted_inv Hs) as [Hr Hle].
  destruct (lz_ie_le x a) eqn:E; unfold lz_ie_le in E; cbn [map].
  - constructor; [exact Hs|]. constructor; [lia|]. eapply Forall_impl; [|exact Hle]. intros n Hn. cbv beta in Hn. lia.
  - constructor; [apply IH, Hr|]. apply Forall_forall. intros n Hn.
    apply in_map_iff in Hn. destruct Hn as (y & <- & Hy). apply lzp_insert_in in Hy. destruct Hy as [->|Hy]; [lia|].
    rewrite Forall_forall in Hle. apply Hle, in_map, Hy.
Qed.
Lemma lzp_sort_sorted l : lzp_nums_sorted (lz_ie_sort l).
Proof. induction l as [|a r IH]; cbn [lz_ie_sort]; [constructor|]. apply lzp_insert_sorted, IH. Qed.

(* the numbers of the index as built by the loop *)
Lemma lzp_extend_last_nums idx e : map ie_num (lz_extend_last idx e) = map ie_num idx.
Proof.
  induction idx as [|x r IH]; [reflexivity|]. cbn [lz_extend_last]. destruct r as [|x2 r2]; [reflexivity|].
  cbn [map] in IH |- *. f_equal. exact IH.
Qed.

Lemma lzp_index_add_nums idx num last pos e :
  map ie_num (lz_index_add idx num last pos e) = if num =? last then map ie_num idx else map ie_num idx ++ [num].
Proof. unfold lz_index_add. destruct (num =? last); [apply lzp_extend_last_nums|now rewrite map_app]. Qed.

Lemma lzp_sorted_snoc l x :
  StronglySorted N.le l -> Forall (fun a => a <= x) l -> StronglySorted N.le (l ++ [x]).
Proof.
  induction 1 as [|a l Hs IH Hle]; intros Hb; [repeat constructor|].
  inversion Hb; subst. cbn [app]. constructor; [apply IH; assumption|].
  apply Forall_app. split; [exact Hle|]. constructor; [assumption|constructor].
Qed.

Lemma lzp_last_in (l : list N) : l <> [] -> In (last l 0) l.
Proof.
  intros H. destruct (exists_last H) as (l' & a & ->). rewrite last_last. apply in_or_app. right. left. reflexivity.
Qed.

(* invariant of the loop state:
     every lazy field with its presence bit set has an index entry;
     if the last field was a lazy one, the last index entry is its entry;
     while nothing came out of order, the index numbers are sorted and bounded by the last number *)
Record lzp_inv (md : mdesc) (st : lstate) : Prop := {
  inv_present : incl (s_present st) (map ie_num (s_idx st));
  inv_last : s_last st <> 0 -> forall fd, msg_find_field md (s_last st) = Some fd -> lz_is_lazy fd = true ->
             map ie_num (s_idx st) <> [] /\ last (map ie_num (s_idx st)) 0 = s_last st;
  inv_sorted : s_ooo st = false ->
               lzp_nums_sorted (s_idx st) /\ Forall (fun n => n <= s_last st) (map ie_num (s_idx st))
}.

Section Inv.
  Variable md : mdesc.
  Variable total : nat.

  (* a field that is not a lazy one: the index is untouched *)
  Lemma lzp_note_eager st num pos r' acc :
    (forall fd, msg_find_field md num = Some fd -> lz_is_lazy fd = false) ->
    lzp_inv md st -> lzp_inv md (lz_note total st false num pos r' acc (s_present st)).
  Proof.
    intros Hnl [Hp Hlast Hs]. constructor; cbn [lz_note s_present s_idx s_last s_ooo].
    - exact Hp.
    - intros _ fd Hf Hl. rewrite (Hnl fd Hf) in Hl. discriminate.
    - intros Ho. apply orb_false_iff in Ho. destruct Ho as [Ho Hlt]. destruct (Hs Ho) as [H1 H2].
      split; [exact H1|]. eapply Forall_impl; [|exact H2]. intros n Hn. cbv beta in Hn. lia.
  Qed.

  (* an occurrence of a lazy field: a new entry, or the last entry grows *)
  Lemma lzp_note_lazy st num pos r' acc present' fd :
    num <> 0 -> msg_find_field md num = Some fd -> lz_is_lazy fd = true ->
    (forall n, In n present' -> n = num \/ In n (s_present st)) ->
    lzp_inv md st -> lzp_inv md (lz_note total st true num pos r' acc present').
  Proof.
    intros Hnum Hf Hl Hpres [Hp Hlast Hs].
    (* when the number repeats the last one, that one has an entry, the last *)
    assert (Hsame : num = s_last st ->
              map ie_num (s_idx st) <> [] /\ last (map ie_num (s_idx st)) 0 = num).
    { intros E. rewrite <- E in Hlast. exact (Hlast Hnum fd Hf Hl). }
    constructor; cbn [lz_note s_present s_idx s_last s_ooo]; unfold lzp_nums_sorted;
      rewrite lzp_index_add_nums; destruct (num =? s_last st) eqn:E;
      try (apply N.eqb_eq in E; specialize (Hsame E)).
    - intros n Hn. destruct (Hpres n Hn) as [->|Hn']; [|exact (Hp n Hn')].
      destruct Hsame as [Hne <-]. now apply lzp_last_in.
    - intros n Hn. apply in_or_app. destruct (Hpres n Hn) as [->|Hn']; [right; left; reflexivity|left; exact (Hp n Hn')].
    - intros _ _ _ _. exact Hsame.
    - intros _ _ _ _. split; [destruct (map ie_num (s_idx st)); discriminate|apply last_last].
    - intros Ho. apply orb_false_iff in Ho. destruct Ho as [Ho _]. destruct (Hs Ho) as [H1 H2].
      split; [exact H1|]. rewrite E. exact H2.
    - intros Ho. apply orb_false_iff in Ho. destruct Ho as [Ho Hlt]. destruct (Hs Ho) as [H1 H2].
      assert (H3 : Forall (fun n => n <= num) (map ie_num (s_idx st))).
      { eapply Forall_impl; [|exact H2]. intros n Hn. cbv beta in Hn. lia. }
      split; [apply lzp_sorted_snoc; assumption|]. apply Forall_app. split; [exact H3|].
      constructor; [lia|constructor].
  Qed.
End Inv.

Lemma lzp_step_inv S d md total st bs num typ r st' r' :
  num <> 0 ->
  lz_step S d md total st bs num typ r = DOk (st', r') -> lzp_inv md st -> lzp_inv md st'.
Proof.
  unfold lz_step. intros Hnum E Hinv.
  assert (Heager : forall (Hnl : forall fd, msg_find_field md num = Some fd -> lz_is_lazy fd = false),
    match msg_step false md (msg_decode_msg false S d) (lz_dsub2 S d) (enc_tag num typ) num typ r (s_acc st) with
    | DErr e => DErr e
    | DOk (acc', r'0) => DOk (lz_note total st false num (total - length bs) r'0 acc' (s_present st), r'0)
    end = DOk (st', r') -> lzp_inv md st').
  { intros Hnl H. destruct (msg_step _ _ _ _ _ _ _ _ _) as [[acc' r0]|e]; [|discriminate].
    inversion H; subst. apply lzp_note_eager; assumption. }
  destruct (msg_find_field md num) as [fd|] eqn:Ef.
  2: { apply Heager; [|exact E]. intros fd H. discriminate. }
  destruct (lz_is_lazy fd) eqn:El.
  2: { apply Heager; [|exact E]. intros fd' H. inversion H; subst. exact El. }
  assert (Hunk :
    match msg_unknown (enc_tag num typ) num typ r (s_acc st) with
    | DErr e => DErr e
    | DOk (acc', r'0) => DOk (lz_note total st true num (total - length bs) r'0 acc' (s_present st), r'0)
    end = DOk (st', r') -> lzp_inv md st').
  { intros H. destruct (msg_unknown _ _ _ _ _) as [[acc' r0]|e]; [|discriminate].
    inversion H; subst. eapply lzp_note_lazy; eauto. }
  destruct (f_kind fd) as [sk|tid|tid] eqn:Ek.
  - unfold lz_is_lazy in El. rewrite Ek in El. rewrite andb_false_r in El. cbn in El. discriminate.
  - destruct (typ =? 2); [|exact (Hunk E)].
    destruct (dec_bytes r) as [[payload r0]|e]; [|discriminate].
    destruct (vr_msg S d tid 0 (x00 :: payload) payload); try discriminate.
    inversion E; subst. eapply lzp_note_lazy; eauto. intros n [<-|Hn]; auto.
  - destruct (typ =? 3); [|exact (Hunk E)].
    destruct (vr_msg S d tid num (x00 :: r) r); try discriminate.
    inversion E; subst. eapply lzp_note_lazy; eauto. intros n [<-|Hn]; auto.
Qed.

Lemma lzp_loop_inv S d md total : forall g bs st st',
  lz_loop S d md total g bs st = DOk st' -> lzp_inv md st -> lzp_inv md st'.
Proof.
  induction g as [|x g IH]; intros bs st st'; cbn [lz_loop]; [discriminate|].
  destruct bs as [|b0 t0] eqn:Ebs; [intros H; inversion H; subst; auto|].
  rewrite <- Ebs. clear Ebs.
  destruct (dec_tag bs) as [[[num typ] r]|e] eqn:Et; [|discriminate].
  destruct (msg_max_num <? num); [discriminate|]. destruct (typ =? 4); [discriminate|].
  destruct (lz_step S d md total st bs num typ r) as [[st1 r1]|e] eqn:Es; [|discriminate].
  intros H Hinv. eapply IH; [exact H|]. eapply lzp_step_inv; [|exact Es|exact Hinv].
  apply dec_tag_num_pos in Et. lia.
Qed.

Lemma lzp_dedup_in l n : In n (lz_dedup l) -> In n l.
Proof.
  induction l as [|x r IH]; cbn [lz_dedup]; [intros []|].
  destruct (existsb (N.eqb x) r); [intros H; right; auto|intros [<-|H]; [left; reflexivity|right; auto]].
Qed.

(* lazy_access_total, index part: lookupField finds every field whose presence bit was set *)
Theorem lzp_lookup_total S limit tid bs m :
  lz_unmarshal S limit tid bs = DOk m ->
  forall n, In n (l_lazy m) -> lz_lookup (l_index m) n <> [].
Proof.
  unfold lz_unmarshal. destruct limit as [|d]; [discriminate|].
  destruct (nth_error S tid) as [md|]; [|discriminate].
  destruct (lz_loop S d md (length bs) (x00 :: bs) bs (mkLS ([], []) [] [] 0 false)) as [st|e] eqn:El; [|discriminate].
  intros H; inversion H; subst; clear H. cbn [l_lazy l_index]. intros n Hn.
  apply lzp_dedup_in in Hn.
  assert (Hinv : lzp_inv md st).
  { eapply lzp_loop_inv; [exact El|]. constructor; cbn.
    - intros ? [].
    - intros H0. congruence.
    - intros _. split; constructor. }
  destruct Hinv as [Hp _ Hs]. specialize (Hp n Hn). destruct (s_ooo st).
  - apply lzp_lookup_found; [apply lzp_sort_sorted|].
    apply in_map_iff in Hp. destruct Hp as (e & <- & He). apply in_map, lzp_sort_in, He.
  - apply lzp_lookup_found; [apply (Hs eq_refl)|exact Hp].
Qed.
