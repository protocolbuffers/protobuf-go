(* RangeP — the protorange model (Msg/RangeModel.v), C32.
     kids, loop, children_kids   one view of the four range functions: a loop over the (step, value)
                                 children of a value
     wn, range_wn                the event trace is well nested
     range_visits_once           all-Continue callbacks: the pushes are the populated positions, once each
     range_step_value            every event carries the value its path resolves to
     at_path, cont, final        the callback that answers V at one path; the all-Continue callback; what
                                 Range returns for a verdict
     trm, brk, strip, keep       the tree an all-Continue range must be given to produce the same callback
                                 sequence as a range stopped by Terminate / Break at a path, from push
                                 (the value there is stripped of its children) or from pop (kept)
     prune, children_prune, range_prune   both prunings as one function, and the one proof behind the
                                 four semantics theorems *)
From Coq Require Import List Arith NArith Bool Lia Wf_nat.
From PB Require Import Base.ListP Msg.RangeModel.
Import ListNotations.
Open Scope N_scope.

(* a uniform view: the children ("kids") of a value, in range order *)
Fixpoint indexed (i : N) (l : list tree) : list (step * tree) :=
  match l with [] => [] | v :: r => (SIndex i, v) :: indexed (i + 1) r end.

Definition fkid (nv : N * tree) : step * tree := (SField (fst nv), snd nv).
Definition kkid (kv : N * tree) : step * tree := (SKey (fst kv), snd kv).

Definition kids (t : tree) : list (step * tree) :=
  match t with
  | Scalar => []
  | Message fields unk (Some m2) => [(SAny, m2)]
  | Message fields unk None => map fkid fields ++ (if unk then [(SUnknown, Scalar)] else [])
  | TList elems => indexed 0 elems
  | TMap entries => map kkid entries
  end.

Fixpoint loop (vis : step -> tree -> verdict * list event) (ks : list (step * tree)) : verdict * list event :=
  match ks with
  | [] => (Continue, [])
  | (s, v) :: r =>
      let '(e, ev) := vis s v in
      if is_nil e then let '(e', ev') := loop vis r in (e', ev ++ ev') else (e, ev)
  end.

Lemma is_nil_true e : is_nil e = true -> e = Continue.
Proof. destruct e; cbn; congruence. Qed.

Lemma loop_app vis a b :
  loop vis (a ++ b) =
  let '(e, ev) := loop vis a in
  if is_nil e then let '(e', ev') := loop vis b in (e', ev ++ ev') else (e, ev).
Proof.
  induction a as [|[s v] a IH]; cbn [app loop].
  - cbn. now destruct (loop vis b).
  - destruct (vis s v) as [e ev]. destruct (is_nil e) eqn:E.
    + rewrite IH. destruct (loop vis a) as [e1 ev1]. destruct (is_nil e1) eqn:E1.
      * destruct (loop vis b) as [e2 ev2]. now rewrite app_assoc.
      * reflexivity.
    + now rewrite E.
Qed.

Lemma loop_ext vis1 vis2 ks :
  (forall s v, In (s, v) ks -> vis1 s v = vis2 s v) -> loop vis1 ks = loop vis2 ks.
Proof.
  induction ks as [|[s v] r IH]; intros H; cbn [loop]; [reflexivity|].
  rewrite (H s v) by now left. rewrite IH by (intros; apply H; now right). reflexivity.
Qed.

Section Unfold.
Variable push pop : callback.
Let vis (p : path) := fun s v => visit push pop (children push pop) (p ++ [s]) v.

Lemma children_kids p t :
  children push pop p t = let '(e, ev) := loop (vis p) (kids t) in (clear_break e, ev).
Proof.
  destruct t as [|fields unk [m2|]|elems|entries]; cbn [children kids].
  - reflexivity.
  - cbn [loop]. unfold vis. destruct (visit push pop (children push pop) (p ++ [SAny]) m2) as [e ev].
    destruct (is_nil e) eqn:E; [|reflexivity].
    apply is_nil_true in E; subst. now rewrite app_nil_r.
  - rewrite loop_app.
    match goal with |- context [match ?F fields with pair _ _ => _ end] => is_fix F; set (fl := F) end.
    assert (Hfl : forall fs, fl fs = loop (vis p) (map fkid fs)).
    { induction fs as [|[num v] r IH]; [reflexivity|].
      cbn [map fkid fst snd loop]. unfold vis at 1. unfold fl at 1. cbn fix beta iota.
      destruct (visit push pop (children push pop) (p ++ [SField num]) v) as [e ev].
      fold fl. rewrite IH. reflexivity. }
    rewrite Hfl. destruct (loop (vis p) (map fkid fields)) as [e ev].
    destruct unk; cbn [andb].
    + destruct (is_nil e) eqn:E; [|now rewrite app_nil_r].
      cbn [loop]. unfold vis.
      assert (Hv : visit push pop (fun _ _ => (Continue, [])) (p ++ [SUnknown]) Scalar
                   = visit push pop (children push pop) (p ++ [SUnknown]) Scalar) by reflexivity.
      rewrite Hv. destruct (visit push pop (children push pop) (p ++ [SUnknown]) Scalar) as [e' ev'].
      destruct (is_nil e') eqn:E'; [|reflexivity].
      apply is_nil_true in E'; subst. now rewrite app_nil_r.
    + cbn [loop]. destruct (is_nil e) eqn:E; [|now rewrite app_nil_r].
      apply is_nil_true in E; subst. reflexivity.
  - match goal with |- context [match ?F 0 elems with pair _ _ => _ end] => is_fix F; set (ll := F) end.
    assert (Hll : forall l i, ll i l = loop (vis p) (indexed i l)).
    { induction l as [|v r IH]; intros i; [reflexivity|].
      cbn [indexed loop]. unfold vis at 1. unfold ll at 1. cbn fix beta iota.
      destruct (visit push pop (children push pop) (p ++ [SIndex i]) v) as [e ev].
      fold ll. rewrite IH. reflexivity. }
    rewrite Hll. reflexivity.
  - match goal with |- context [match ?F entries with pair _ _ => _ end] => is_fix F; set (ml := F) end.
    assert (Hml : forall es, ml es = loop (vis p) (map kkid es)).
    { induction es as [|[k v] r IH]; [reflexivity|].
      cbn [map kkid fst snd loop]. unfold vis at 1. unfold ml at 1. cbn fix beta iota.
      destruct (visit push pop (children push pop) (p ++ [SKey k]) v) as [e ev].
      fold ml. rewrite IH. reflexivity. }
    rewrite Hml. reflexivity.
Qed.
End Unfold.

Fixpoint size (t : tree) : nat :=
  (match t with
   | Scalar => 1
   | Message fields _ any =>
       S (S ((fix sz (l : list (N * tree)) : nat := match l with [] => O | (_, v) :: r => size v + sz r end) fields
          + match any with Some m => size m | None => O end))
   | TList elems => S ((fix sz (l : list tree) : nat := match l with [] => O | v :: r => size v + sz r end) elems)
   | TMap entries =>
       S ((fix sz (l : list (N * tree)) : nat := match l with [] => O | (_, v) :: r => size v + sz r end) entries)
   end)%nat.

Lemma kids_size t s v : In (s, v) (kids t) -> (size v < size t)%nat.
Proof.
  destruct t as [|fields unk [m2|]|elems|entries]; cbn [kids].
  - intros [].
  - intros [H|[]]. inversion H; subst. cbn [size]. lia.
  - intros H. apply in_app_or in H. destruct H as [H|H].
    + cbn [size]. induction fields as [|[n0 v0] r IH]; [destruct H|].
      destruct H as [H|H].
      * inversion H; subst. cbn. lia.
      * specialize (IH H). cbn in IH |- *. lia.
    + destruct unk; [|destruct H]. destruct H as [H|[]]. inversion H; subst.
      cbn. lia.
  - cbn [size]. generalize 0 at 1. induction elems as [|v0 r IH]; intros i H; [destruct H|].
    destruct H as [H|H].
    + inversion H; subst. lia.
    + specialize (IH _ H). lia.
  - intros H. cbn [size]. induction entries as [|[k0 v0] r IH]; [destruct H|].
    destruct H as [H|H].
    + inversion H; subst. cbn. lia.
    + specialize (IH H). cbn in IH |- *. lia.
Qed.

Lemma tree_kids_ind (P : tree -> Prop) :
  (forall t, (forall s v, In (s, v) (kids t) -> P v) -> P t) -> forall t, P t.
Proof.
  intros H t. induction t as [t IH] using (induction_ltof1 _ size).
  apply H. intros s v Hin. apply IH. unfold ltof. now apply kids_size in Hin.
Qed.

(* the trace is well nested: every Pop closes the latest open Push *)
Inductive wn : path -> list event -> Prop :=
| wn_nil p : wn p []
| wn_cons p s v inner rest :
    wn (p ++ [s]) inner -> wn p rest ->
    wn p (Push (p ++ [s]) v :: inner ++ Pop (p ++ [s]) v :: rest).

Lemma wn_app p a b : wn p a -> wn p b -> wn p (a ++ b).
Proof.
  induction 1 as [|p s v inner rest Hi _ Hr IH]; intros Hb; [exact Hb|].
  cbn [app]. rewrite <- app_assoc. cbn [app]. constructor; [exact Hi | now apply IH].
Qed.

Section Balanced.
Variable push pop : callback.

Lemma visit_wn ch p s v :
  wn (p ++ [s]) (snd (ch (p ++ [s]) v)) -> wn p (snd (visit push pop ch (p ++ [s]) v)).
Proof.
  intros H. unfold visit.
  destruct (is_nil (amend Continue (push (p ++ [s])))).
  - destruct (ch (p ++ [s]) v) as [e2 ev]. cbn [snd] in *. constructor; [exact H | constructor].
  - cbn [snd]. apply (wn_cons p s v [] []); constructor.
Qed.

Lemma loop_wn vis p ks :
  (forall s v, In (s, v) ks -> wn p (snd (vis s v))) -> wn p (snd (loop vis ks)).
Proof.
  induction ks as [|[s v] r IH]; intros H; cbn [loop]; [constructor|].
  pose proof (H s v (or_introl eq_refl)) as Hv.
  destruct (vis s v) as [e ev]. cbn [snd] in Hv.
  destruct (is_nil e); [|exact Hv].
  specialize (IH (fun s' v' Hin => H s' v' (or_intror Hin))).
  destruct (loop vis r) as [e' ev']. cbn [snd] in *. now apply wn_app.
Qed.

Lemma children_wn : forall t p, wn p (snd (children push pop p t)).
Proof.
  induction t as [t IH] using tree_kids_ind. intros p.
  rewrite children_kids.
  pose proof (loop_wn (fun s v => visit push pop (children push pop) (p ++ [s]) v) p (kids t)) as H.
  destruct (loop _ (kids t)) as [e ev]. cbn [snd] in *. apply H.
  intros s v Hin. apply visit_wn. now apply (IH s v).
Qed.

Theorem range_wn root : wn [] (snd (range push pop root)).
Proof.
  unfold range.
  pose proof (visit_wn (children push pop) [] SRoot root (children_wn root _)) as H.
  cbn [app] in H. destruct (visit push pop (children push pop) [SRoot] root) as [e ev]. exact H.
Qed.

(* every event list produced is "push root ... pop root" *)
Theorem range_root_events root :
  exists inner, snd (range push pop root) = Push [SRoot] root :: inner ++ [Pop [SRoot] root]
                /\ wn [SRoot] inner.
Proof.
  unfold range, visit.
  destruct (is_nil (amend Continue (push [SRoot]))).
  - pose proof (children_wn root [SRoot]) as H.
    destruct (children push pop [SRoot] root) as [e2 ev]. cbn [snd] in *. now exists ev.
  - exists []. split; [reflexivity | constructor].
Qed.
End Balanced.

Definition posf (positions : path -> tree -> list path) (p : path) (sv : step * tree) : list path :=
  (p ++ [fst sv]) :: positions (p ++ [fst sv]) (snd sv).

Lemma positions_kids p t : positions p t = flat_map (posf positions p) (kids t).
Proof.
  destruct t as [|fields unk [m2|]|elems|entries]; cbn [positions kids].
  - reflexivity.
  - cbn. now rewrite app_nil_r.
  - rewrite flat_map_app. f_equal.
    + induction fields as [|[num v] r IH]; [reflexivity|].
      cbn [map flat_map fkid posf fst snd]. rewrite <- IH. reflexivity.
    + destruct unk; reflexivity.
  - generalize 0. induction elems as [|v r IH]; intros i; [reflexivity|].
    cbn [indexed flat_map posf fst snd]. rewrite <- IH. reflexivity.
  - induction entries as [|[k v] r IH]; [reflexivity|].
    cbn [map flat_map kkid posf fst snd]. rewrite <- IH. reflexivity.
Qed.

Lemma pushes_app a b : pushes (a ++ b) = pushes a ++ pushes b.
Proof. unfold pushes. apply flat_map_app. Qed.

Definition cont : callback := always Continue.

Lemma visit_continue ch p v :
  fst (ch p v) = Continue -> visit cont cont ch p v = (Continue, Push p v :: snd (ch p v) ++ [Pop p v]).
Proof.
  intros H. unfold visit. cbn [cont always amend is_nil].
  destruct (ch p v) as [e ev]. cbn [fst snd] in *. subst e. reflexivity.
Qed.

Lemma children_continue : forall t p,
  fst (children cont cont p t) = Continue /\ pushes (snd (children cont cont p t)) = positions p t.
Proof.
  induction t as [t IH] using tree_kids_ind. intros p.
  rewrite children_kids, positions_kids.
  assert (H : forall ks, (forall s v, In (s, v) ks -> In (s, v) (kids t)) ->
              fst (loop (fun s v => visit cont cont (children cont cont) (p ++ [s]) v) ks) = Continue /\
              pushes (snd (loop (fun s v => visit cont cont (children cont cont) (p ++ [s]) v) ks))
              = flat_map (posf positions p) ks).
  { induction ks as [|[s v] r IHr]; intros Hsub; [split; reflexivity|].
    cbn [loop flat_map posf fst snd].
    destruct (IH s v (Hsub s v (or_introl eq_refl)) (p ++ [s])) as [He Hp].
    rewrite visit_continue by exact He. cbn [is_nil].
    destruct IHr as [He' Hp']; [intros; apply Hsub; now right|].
    destruct (loop _ r) as [e' ev']. cbn [fst snd] in *. split; [exact He'|].
    change (Push (p ++ [s]) v :: snd (children cont cont (p ++ [s]) v) ++ [Pop (p ++ [s]) v])
      with ([Push (p ++ [s]) v] ++ snd (children cont cont (p ++ [s]) v) ++ [Pop (p ++ [s]) v]).
    rewrite !pushes_app. cbn [pushes flat_map app]. rewrite Hp, Hp', app_nil_r. reflexivity. }
  specialize (H (kids t) (fun s v Hin => Hin)).
  destruct (loop _ (kids t)) as [e ev]. cbn [fst snd] in *. destruct H as [-> H]. split; [reflexivity | exact H].
Qed.

Theorem range_visits_once root :
  range cont cont root = (Continue, snd (range cont cont root)) /\
  pushes (snd (range cont cont root)) = all_positions root.
Proof.
  destruct (children_continue root [SRoot]) as [He Hp].
  unfold range, all_positions. rewrite visit_continue by exact He. cbn [snd]. split; [reflexivity|].
  change (Push [SRoot] root :: snd (children cont cont [SRoot] root) ++ [Pop [SRoot] root])
    with ([Push [SRoot] root] ++ snd (children cont cont [SRoot] root) ++ [Pop [SRoot] root]).
  rewrite !pushes_app. cbn [pushes flat_map app]. now rewrite Hp, app_nil_r.
Qed.

(* well-formed trees: distinct field numbers / map keys at every level *)
Inductive wf : tree -> Prop :=
| wf_intro t : NoDup (map fst (kids t)) -> (forall s v, In (s, v) (kids t) -> wf v) -> wf t.

Lemma positions_prefix : forall t p q, In q (positions p t) -> exists l, l <> [] /\ q = p ++ l.
Proof.
  induction t as [t IH] using tree_kids_ind. intros p q. rewrite positions_kids.
  intros H. apply in_flat_map in H. destruct H as [[s v] [Hin Hq]].
  cbn [posf fst snd] in Hq. destruct Hq as [<-|Hq].
  - exists [s]. split; [discriminate | reflexivity].
  - destruct (IH s v Hin _ _ Hq) as [l [Hl ->]].
    exists (s :: l). split; [discriminate | now rewrite <- app_assoc].
Qed.

Lemma positions_nodup : forall t p, wf t -> NoDup (positions p t).
Proof.
  induction t as [t IH] using tree_kids_ind. intros p Hwf. rewrite positions_kids.
  inversion Hwf as [t' Hnd Hkids]; subst t'.
  assert (Hgen : forall ks, NoDup (map fst ks) -> (forall s v, In (s, v) ks -> In (s, v) (kids t)) ->
                 NoDup (flat_map (posf positions p) ks)).
  { induction ks as [|[s v] r IHr]; intros Hn Hsub; [constructor|].
    cbn [flat_map posf fst snd]. inversion Hn as [|? ? Hnotin Hn']; subst.
    change ((p ++ [s]) :: positions (p ++ [s]) v ++ flat_map (posf positions p) r)
      with (((p ++ [s]) :: positions (p ++ [s]) v) ++ flat_map (posf positions p) r).
    apply list_nodup_app_intro.
    - constructor.
      + intros Hin. apply positions_prefix in Hin. destruct Hin as [l [Hl Heq]].
        rewrite <- (app_nil_r (p ++ [s])) in Heq at 1. apply app_inv_head in Heq. congruence.
      + apply (IH s v); [apply Hsub; now left | apply (Hkids s v), Hsub; now left].
    - apply IHr; [exact Hn' | intros; apply Hsub; now right].
    - intros q Hq Hq'. apply in_flat_map in Hq'. destruct Hq' as [[s' v'] [Hin' Hq']].
      assert (Hs : s <> s').
      { intros ->. apply Hnotin. apply (in_map fst) in Hin'. exact Hin'. }
      assert (H1 : exists l, q = p ++ s :: l).
      { destruct Hq as [<-|Hq]; [now exists [] |].
        apply positions_prefix in Hq. destruct Hq as [l [_ ->]]. exists l. now rewrite <- app_assoc. }
      assert (H2 : exists l, q = p ++ s' :: l).
      { cbn [posf fst snd] in Hq'. destruct Hq' as [<-|Hq']; [now exists [] |].
        apply positions_prefix in Hq'. destruct Hq' as [l [_ ->]]. exists l. now rewrite <- app_assoc. }
      destruct H1 as [l1 E1], H2 as [l2 E2]. rewrite E1 in E2. apply app_inv_head in E2. congruence. }
  apply Hgen; auto.
Qed.

Theorem all_positions_nodup root : wf root -> NoDup (all_positions root).
Proof.
  intros Hwf. unfold all_positions. constructor; [|now apply positions_nodup].
  intros Hin. apply positions_prefix in Hin. destruct Hin as [l [Hl Heq]].
  rewrite <- (app_nil_r [SRoot]) in Heq at 1. apply app_inv_head in Heq. congruence.
Qed.

Definition ev_val (e : event) : tree := match e with Push _ v | Pop _ v => v end.

Lemma assoc_nodup l k v : NoDup (map fst l) -> In (k, v) l -> assoc l k = Some v.
Proof.
  induction l as [|[k0 v0] r IH]; intros Hn Hin; [destruct Hin|].
  cbn [assoc]. inversion Hn as [|? ? Hnotin Hn']; subst. destruct Hin as [Hin|Hin].
  - inversion Hin; subst. now rewrite N.eqb_refl.
  - destruct (k0 =? k) eqn:E.
    + apply N.eqb_eq in E; subst. exfalso. apply Hnotin. now apply (in_map fst) in Hin.
    + now apply IH.
Qed.

Lemma indexed_in : forall l k i v,
  In (SIndex i, v) (indexed k l) -> k <= i /\ nth_error l (N.to_nat (i - k)) = Some v.
Proof.
  induction l as [|v0 r IH]; intros k i v Hin; [destruct Hin|].
  cbn [indexed] in Hin. destruct Hin as [Hin|Hin].
  - inversion Hin; subst. split; [lia|]. now rewrite N.sub_diag.
  - apply IH in Hin. destruct Hin as [Hle Hn]. split; [lia|].
    replace (N.to_nat (i - k)) with (S (N.to_nat (i - (k + 1)))) by lia. exact Hn.
Qed.

Lemma indexed_steps : forall l k s v, In (s, v) (indexed k l) -> exists i, s = SIndex i.
Proof.
  induction l as [|v0 r IH]; intros k s v Hin; [destruct Hin|].
  destruct Hin as [Hin|Hin]; [inversion Hin; eauto | eauto].
Qed.

Lemma apply_step_kids t s v : wf t -> In (s, v) (kids t) -> apply_step t s = Some v.
Proof.
  intros Hwf Hin. inversion Hwf as [t' Hnd _]; subst t'.
  destruct t as [|fields unk [m2|]|elems|entries]; cbn [kids] in *.
  - destruct Hin.
  - destruct Hin as [Hin|[]]. inversion Hin; subst. reflexivity.
  - rewrite map_app in Hnd. apply in_app_or in Hin. destruct Hin as [Hin|Hin].
    + apply in_map_iff in Hin. destruct Hin as [[num v'] [Heq Hin]]. inversion Heq; subst.
      cbn [apply_step fst]. apply assoc_nodup; [|exact Hin].
      apply list_nodup_app_inv, proj1 in Hnd. rewrite map_map in Hnd. cbn [fkid fst] in Hnd.
      rewrite <- (map_map fst SField) in Hnd. now apply NoDup_map_inv in Hnd.
    + destruct unk; [|destruct Hin]. destruct Hin as [Hin|[]]. inversion Hin; subst. reflexivity.
  - destruct (indexed_steps _ _ _ _ Hin) as [i ->].
    apply indexed_in in Hin. destruct Hin as [_ Hn]. cbn [apply_step]. now rewrite N.sub_0_r in Hn.
  - apply in_map_iff in Hin. destruct Hin as [[k v'] [Heq Hin]]. inversion Heq; subst.
    cbn [apply_step fst]. apply assoc_nodup; [|exact Hin].
    rewrite map_map in Hnd. cbn [kkid fst] in Hnd.
    rewrite <- (map_map fst SKey) in Hnd. now apply NoDup_map_inv in Hnd.
Qed.

Section StepValue.
Variable push pop : callback.

Lemma visit_events ch p v e :
  In e (snd (visit push pop ch p v)) ->
  (ev_path e = p /\ ev_val e = v) \/ In e (snd (ch p v)).
Proof.
  unfold visit. destruct (is_nil (amend Continue (push p))).
  - destruct (ch p v) as [e2 ev]. cbn [snd]. intros [<-|Hin]; [now left|].
    apply in_app_or in Hin. destruct Hin as [Hin|[<-|[]]]; [now right | now left].
  - cbn [snd]. intros [<-|[<-|[]]]; now left.
Qed.

Lemma loop_events vis ks e :
  In e (snd (loop vis ks)) -> exists s v, In (s, v) ks /\ In e (snd (vis s v)).
Proof.
  induction ks as [|[s v] r IH]; cbn [loop]; [intros []|].
  destruct (vis s v) as [e1 ev1] eqn:Ev. destruct (is_nil e1).
  - destruct (loop vis r) as [e2 ev2]. cbn [snd] in *. intros Hin. apply in_app_or in Hin.
    destruct Hin as [Hin|Hin].
    + exists s, v. split; [now left | now rewrite Ev].
    + destruct (IH Hin) as (s' & v' & Hin' & He). exists s', v'. split; [now right | exact He].
  - cbn [snd]. intros Hin. exists s, v. split; [now left | now rewrite Ev].
Qed.

Lemma children_values : forall t p e, wf t -> In e (snd (children push pop p t)) ->
  exists l, l <> [] /\ ev_path e = p ++ l /\ apply_steps t l = Some (ev_val e).
Proof.
  induction t as [t IH] using tree_kids_ind. intros p e Hwf Hin.
  rewrite children_kids in Hin.
  destruct (loop _ (kids t)) as [e0 ev0] eqn:El. cbn [snd] in Hin.
  assert (Hin' : In e (snd (loop (fun s v => visit push pop (children push pop) (p ++ [s]) v) (kids t))))
    by now rewrite El.
  apply loop_events in Hin'. destruct Hin' as (s & v & Hk & He).
  pose proof (apply_step_kids t s v Hwf Hk) as Hs.
  apply visit_events in He. destruct He as [[Hp Hv]|He].
  - exists [s]. repeat split; [discriminate | exact Hp |]. cbn [apply_steps]. now rewrite Hs, Hv.
  - inversion Hwf as [t' _ Hkids]; subst t'.
    destruct (IH s v Hk (p ++ [s]) e (Hkids s v Hk) He) as (l & Hl & Hp & Hv).
    exists (s :: l). repeat split; [discriminate | now rewrite Hp, <- app_assoc |].
    cbn [apply_steps]. now rewrite Hs.
Qed.

Theorem range_step_value root e :
  wf root -> In e (snd (range push pop root)) -> resolve root (ev_path e) = Some (ev_val e).
Proof.
  intros Hwf Hin. unfold range in Hin.
  destruct (visit push pop (children push pop) [SRoot] root) as [e0 ev0] eqn:Ev. cbn [snd] in Hin.
  assert (Hin' : In e (snd (visit push pop (children push pop) [SRoot] root))) by now rewrite Ev.
  apply visit_events in Hin'. destruct Hin' as [[Hp Hv]|Hin'].
  - rewrite Hp, Hv. reflexivity.
  - destruct (children_values root [SRoot] e Hwf Hin') as (l & _ & Hp & Hv).
    rewrite Hp. cbn [app resolve]. exact Hv.
Qed.
End StepValue.

(* callbacks that agree below a path give the same traversal *)
Lemma visit_ext push1 pop1 push2 pop2 ch1 ch2 p v :
  push1 p = push2 p -> pop1 p = pop2 p -> ch1 p v = ch2 p v ->
  visit push1 pop1 ch1 p v = visit push2 pop2 ch2 p v.
Proof. intros H1 H2 H3. unfold visit. now rewrite H1, H2, H3. Qed.

Lemma children_ext push1 pop1 push2 pop2 : forall t p,
  (forall l, l <> [] -> push1 (p ++ l) = push2 (p ++ l)) ->
  (forall l, l <> [] -> pop1 (p ++ l) = pop2 (p ++ l)) ->
  children push1 pop1 p t = children push2 pop2 p t.
Proof.
  induction t as [t IH] using tree_kids_ind. intros p H1 H2.
  rewrite !children_kids.
  rewrite (loop_ext (fun s v => visit push1 pop1 (children push1 pop1) (p ++ [s]) v)
                    (fun s v => visit push2 pop2 (children push2 pop2) (p ++ [s]) v)); [reflexivity|].
  intros s v Hin. apply visit_ext.
  - apply H1. discriminate.
  - apply H2. discriminate.
  - apply (IH s v Hin).
    + intros l Hl. rewrite <- app_assoc. apply H1. discriminate.
    + intros l Hl. rewrite <- app_assoc. apply H2. discriminate.
Qed.

Definition step_eq_dec : forall a b : step, {a = b} + {a <> b}.
Proof. decide equality; apply N.eq_dec. Defined.
Definition path_eq_dec : forall a b : path, {a = b} + {a <> b} := list_eq_dec step_eq_dec.

(* the callback that returns V exactly at path q *)
Definition at_path (q : path) (V : verdict) : callback :=
  fun p => if path_eq_dec p q then V else Continue.

Lemma at_path_eq q V : at_path q V q = V.
Proof. unfold at_path. destruct (path_eq_dec q q); congruence. Qed.
Lemma at_path_neq q V p : p <> q -> at_path q V p = Continue.
Proof. unfold at_path. destruct (path_eq_dec p q); congruence. Qed.

(* kid lists: the value at step s replaced by v'; [keep]: the kids after it stay *)
Fixpoint cutk (keep : bool) (ks : list (step * tree)) (s : step) (v' : tree) : list (step * tree) :=
  match ks with
  | [] => []
  | (s0, v) :: r =>
      if step_eq_dec s0 s then (s0, v') :: (if keep then r else []) else (s0, v) :: cutk keep r s v'
  end.

Definition strip (t : tree) : tree :=
  match t with
  | Scalar => Scalar
  | Message _ _ _ => Message [] false None
  | TList _ => TList []
  | TMap _ => TMap []
  end.
Lemma kids_strip t : kids (strip t) = [].
Proof. destruct t; reflexivity. Qed.

Definition paths (ev : list event) : list (bool * path) :=
  map (fun e => match e with Push p _ => (true, p) | Pop p _ => (false, p) end) ev.
Lemma paths_app a b : paths (a ++ b) = paths a ++ paths b.
Proof. apply map_app. Qed.

(* a non-nil verdict V from push at q: no children, pop still called *)
Lemma visit_hit V q v : is_nil V = false ->
  visit (at_path q V) cont (children (at_path q V) cont) q v = (V, [Push q v; Pop q v]).
Proof.
  intros V_not_nil. unfold visit. rewrite at_path_eq.
  assert (amend Continue V = V) as -> by (destruct V; reflexivity || discriminate).
  rewrite V_not_nil. cbn [cont always amend app]. destruct V; reflexivity.
Qed.

Lemma visit_strip p v :
  visit cont cont (children cont cont) p (strip v) = (Continue, [Push p (strip v); Pop p (strip v)]).
Proof.
  rewrite visit_continue by apply children_continue.
  rewrite children_kids, kids_strip. reflexivity.
Qed.

(* V from pop at q: the children have been visited *)
Lemma visit_hit_pop V q v :
  visit cont (at_path q V) (children cont (at_path q V)) q v
  = (V, Push q v :: snd (children cont cont q v) ++ [Pop q v]).
Proof.
  assert (Hc : children cont (at_path q V) q v = children cont cont q v).
  { apply children_ext; [reflexivity|]. intros l Hl. apply at_path_neq.
    intros E. rewrite <- (app_nil_r q) in E at 2. apply app_inv_head in E. congruence. }
  unfold visit. rewrite Hc, at_path_eq. cbn [cont always amend is_nil].
  pose proof (proj1 (children_continue v q)) as He.
  destruct (children cont cont q v) as [e ev]. cbn [fst snd] in *. subst e.
  cbn [amend]. destruct V; reflexivity.
Qed.

(* all-continue loops end with Continue *)
Lemma loop_continue p ks :
  fst (loop (fun s0 v0 => visit cont cont (children cont cont) (p ++ [s0]) v0) ks) = Continue.
Proof.
  induction ks as [|[s2 v2] r2 IH2]; [reflexivity|]. cbn [loop].
  rewrite visit_continue by apply children_continue. cbn [is_nil].
  destruct (loop _ r2). exact IH2.
Qed.

Section Cut.
(* callbacks that return Continue everywhere except possibly at q = p ++ s :: r' *)
Variables push1 pop1 : callback.
Variables (p : path) (s : step) (r' : list step).
Hypothesis off_push : forall x, x <> p ++ s :: r' -> push1 x = Continue.
Hypothesis off_pop : forall x, x <> p ++ s :: r' -> pop1 x = Continue.

(* a subtree that q does not pass through is traversed as with all-continue callbacks *)
Lemma visit_miss s0 v0 :
  s0 <> s ->
  visit push1 pop1 (children push1 pop1) (p ++ [s0]) v0
  = visit cont cont (children cont cont) (p ++ [s0]) v0.
Proof.
  intros Hne.
  assert (Hq : forall l, (p ++ [s0]) ++ l <> p ++ s :: r').
  { intros l. rewrite <- app_assoc. intros E. apply app_inv_head in E. cbn in E. congruence. }
  apply visit_ext.
  - rewrite <- (app_nil_r (p ++ [s0])). apply off_push, Hq.
  - rewrite <- (app_nil_r (p ++ [s0])). apply off_pop, Hq.
  - apply children_ext; intros l _; [apply off_push, Hq | apply off_pop, Hq].
Qed.

(* the loop over the kids, given what happens at the kid (s, v) on the path *)
Lemma loop_cut v v' E ev1 ev2 :
  let vis1 := fun s0 v0 => visit push1 pop1 (children push1 pop1) (p ++ [s0]) v0 in
  let vis2 := fun s0 v0 => visit cont cont (children cont cont) (p ++ [s0]) v0 in
  vis1 s v = (E, ev1) ->
  vis2 s v' = (Continue, ev2) ->
  paths ev1 = paths ev2 ->
  forall ks, In (s, v) ks -> NoDup (map fst ks) ->
  fst (loop vis1 ks) = E /\
  paths (snd (loop vis1 ks)) = paths (snd (loop vis2 (cutk (is_nil E) ks s v'))).
Proof.
  intros vis1 vis2 H1 H2 Hp.
  assert (Hm : forall s0 v0, s0 <> s -> vis1 s0 v0 = vis2 s0 v0) by (intros; now apply visit_miss).
  assert (Hc : forall s0 v0, is_nil (fst (vis2 s0 v0)) = true).
  { intros. unfold vis2. now rewrite visit_continue by apply children_continue. }
  induction ks as [|[s0 v0] r IH]; intros Hin Hnd; [destruct Hin|].
  cbn [map fst] in Hnd. inversion Hnd as [|? ? Hnotin Hnd']; subst.
  cbn [loop cutk]. destruct (step_eq_dec s0 s) as [->|Hne].
  - (* the kid on the path *)
    assert (v0 = v) as ->.
    { destruct Hin as [Hin|Hin]; [now inversion Hin|].
      exfalso. apply Hnotin. now apply (in_map fst) in Hin. }
    rewrite H1. destruct (is_nil E) eqn:HE.
    + apply is_nil_true in HE. subst E. cbn [loop]. rewrite H2. cbn [is_nil].
      assert (Hrest : loop vis1 r = loop vis2 r).
      { apply loop_ext. intros s1 v1 Hin1. apply Hm.
        intros ->. apply Hnotin. now apply (in_map fst) in Hin1. }
      rewrite Hrest. pose proof (loop_continue p r) as Hl. fold vis2 in Hl.
      destruct (loop vis2 r) as [e' ev']. cbn [fst snd] in *.
      split; [exact Hl | now rewrite !paths_app, Hp].
    + cbn [loop]. rewrite H2. cbn [is_nil fst snd].
      split; [reflexivity|]. now rewrite app_nil_r.
  - (* a kid before the path: unaffected *)
    assert (Hin' : In (s, v) r) by (destruct Hin as [Hin|Hin]; [inversion Hin; congruence | exact Hin]).
    specialize (IH Hin' Hnd'). destruct IH as [IHe IHp].
    rewrite (Hm s0 v0 Hne). specialize (Hc s0 v0).
    destruct (loop vis1 r) as [e1 evs1]. cbn [fst snd] in IHe, IHp.
    cbn [loop]. destruct (vis2 s0 v0) as [e0 ev0]. cbn [fst] in Hc. rewrite Hc.
    destruct (loop vis2 (cutk (is_nil E) r s v')) as [e2 evs2]. cbn [fst snd] in *.
    split; [exact IHe | now rewrite !paths_app, IHp].
Qed.
End Cut.

Fixpoint upto_assoc (l : list (N * tree)) (k : N) (v' : tree) : list (N * tree) :=
  match l with
  | [] => []
  | (k0, v) :: r => if k0 =? k then [(k0, v')] else (k0, v) :: upto_assoc r k v'
  end.
Fixpoint repl_assoc (l : list (N * tree)) (k : N) (v' : tree) : list (N * tree) :=
  match l with
  | [] => []
  | (k0, v) :: r => if k0 =? k then (k0, v') :: r else (k0, v) :: repl_assoc r k v'
  end.
Fixpoint upto_nth (l : list tree) (i : nat) (v' : tree) : list tree :=
  match l with
  | [] => []
  | v :: r => match i with O => [v'] | S i' => v :: upto_nth r i' v' end
  end.
Fixpoint repl_nth (l : list tree) (i : nat) (v' : tree) : list tree :=
  match l with
  | [] => []
  | v :: r => match i with O => v' :: r | S i' => v :: repl_nth r i' v' end
  end.

(* [trunc t s v']: t without the kids after step s, the value at s replaced by v'
   (for the unknown-fields step, which is last and has no children, t itself) *)
Definition trunc (t : tree) (s : step) (v' : tree) : tree :=
  match t with
  | Scalar => t
  | Message fields unk any =>
      match any with
      | Some _ => match s with SAny => Message fields unk (Some v') | _ => t end
      | None => match s with SField n => Message (upto_assoc fields n v') false None | _ => t end
      end
  | TList elems => match s with SIndex i => TList (upto_nth elems (N.to_nat i) v') | _ => t end
  | TMap es => match s with SKey k => TMap (upto_assoc es k v') | _ => t end
  end.

(* [repl t s v']: t with the value at step s replaced by v' *)
Definition repl (t : tree) (s : step) (v' : tree) : tree :=
  match t with
  | Scalar => t
  | Message fields unk any =>
      match any with
      | Some _ => match s with SAny => Message fields unk (Some v') | _ => t end
      | None => match s with SField n => Message (repl_assoc fields n v') unk None | _ => t end
      end
  | TList elems => match s with SIndex i => TList (repl_nth elems (N.to_nat i) v') | _ => t end
  | TMap es => match s with SKey k => TMap (repl_assoc es k v') | _ => t end
  end.

(* [trunc] and [repl] are one function of whether the later kids stay *)
Section CutTree.
Variable keep : bool.
Fixpoint cut_assoc (l : list (N * tree)) (k : N) (v' : tree) : list (N * tree) :=
  match l with
  | [] => []
  | (k0, v) :: r => if k0 =? k then (k0, v') :: (if keep then r else []) else (k0, v) :: cut_assoc r k v'
  end.
Fixpoint cut_nth (l : list tree) (i : nat) (v' : tree) : list tree :=
  match l with
  | [] => []
  | v :: r => match i with O => v' :: (if keep then r else []) | S i' => v :: cut_nth r i' v' end
  end.
Definition cutt (t : tree) (s : step) (v' : tree) : tree :=
  match t with
  | Scalar => t
  | Message fields unk any =>
      match any with
      | Some _ => match s with SAny => Message fields unk (Some v') | _ => t end
      | None => match s with SField n => Message (cut_assoc fields n v') (keep && unk) None | _ => t end
      end
  | TList elems => match s with SIndex i => TList (cut_nth elems (N.to_nat i) v') | _ => t end
  | TMap es => match s with SKey k => TMap (cut_assoc es k v') | _ => t end
  end.
End CutTree.

Lemma trunc_cutt : trunc = cutt false.
Proof. reflexivity. Qed.
Lemma repl_cutt : repl = cutt true.
Proof. reflexivity. Qed.

(* fields and map entries: kid lists of the form [map kid l] with [kid (n, v) = (C n, v)] *)
Section KidMap.
Variables (C : N -> step) (kid : N * tree -> step * tree).
Hypothesis C_inj : forall a b, C a = C b -> a = b.
Hypothesis kid_eq : forall nv, kid nv = (C (fst nv), snd nv).

Lemma cutk_kidmap keep l tail k v' :
  In k (map fst l) ->
  cutk keep (map kid l ++ tail) (C k) v' = map kid (cut_assoc keep l k v') ++ (if keep then tail else []).
Proof.
  induction l as [|[k0 v0] r IH]; intros Hin; [destruct Hin|].
  cbn [map app cutk cut_assoc]. rewrite !kid_eq. cbn [fst snd].
  destruct (step_eq_dec (C k0) (C k)) as [E|E].
  - apply C_inj in E. subst. rewrite N.eqb_refl.
    destruct keep; cbn [map app]; rewrite kid_eq; reflexivity.
  - destruct (k0 =? k) eqn:Ek; [apply N.eqb_eq in Ek; congruence|].
    cbn [map app]. rewrite kid_eq. f_equal. apply IH.
    destruct Hin as [Hin|Hin]; [cbn in Hin; congruence | exact Hin].
Qed.

Lemma in_kidmap l s v : In (s, v) (map kid l) -> exists n, s = C n /\ In n (map fst l).
Proof.
  intros H. apply in_map_iff in H. destruct H as [[n' v'] [E Hin]]. rewrite kid_eq in E.
  inversion E; subst. exists n'. split; [reflexivity | now apply (in_map fst) in Hin].
Qed.
End KidMap.

Definition in_fkid := in_kidmap SField fkid (fun nv => eq_refl).
Definition in_kkid := in_kidmap SKey kkid (fun nv => eq_refl).

Lemma cutk_unknown keep l v' :
  cutk keep (map fkid l ++ [(SUnknown, Scalar)]) SUnknown v' = map fkid l ++ [(SUnknown, v')].
Proof.
  induction l as [|[k0 v0] r IH]; cbn [map app fkid fst snd cutk].
  - destruct (step_eq_dec SUnknown SUnknown); [destruct keep; reflexivity | congruence].
  - destruct (step_eq_dec (SField k0) SUnknown); [discriminate|]. now rewrite IH.
Qed.

Lemma cutk_indexed keep : forall l k i v',
  k <= i -> (N.to_nat (i - k) < length l)%nat ->
  cutk keep (indexed k l) (SIndex i) v' = indexed k (cut_nth keep l (N.to_nat (i - k)) v').
Proof.
  induction l as [|v0 r IH]; intros k i v' Hle Hlt; [cbn in Hlt; lia|].
  cbn [indexed cutk]. destruct (step_eq_dec (SIndex k) (SIndex i)) as [E|E].
  - inversion E; subst. rewrite N.sub_diag. destruct keep; reflexivity.
  - assert (k <> i) by congruence.
    replace (N.to_nat (i - k)) with (S (N.to_nat (i - (k + 1)))) by lia.
    cbn [cut_nth indexed]. f_equal. apply IH; [lia | cbn [length] in Hlt; lia].
Qed.

(* the unknown-fields kid can only be replaced by itself *)
Definition unk_ok (s : step) (v' : tree) : Prop := s = SUnknown -> v' = Scalar.

Lemma kids_cutt keep t s v v' :
  In (s, v) (kids t) -> unk_ok s v' -> kids (cutt keep t s v') = cutk keep (kids t) s v'.
Proof.
  intros Hin Hu. destruct t as [|fields unk [m2|]|elems|entries]; cbn [kids] in Hin.
  - destruct Hin.
  - destruct Hin as [Hin|[]]. inversion Hin; subst. cbn [cutt kids cutk].
    destruct (step_eq_dec SAny SAny); [destruct keep; reflexivity | congruence].
  - apply in_app_or in Hin. destruct Hin as [Hin|Hin].
    + destruct (in_fkid _ _ _ Hin) as (n & -> & Hn). cbn [cutt kids].
      rewrite (cutk_kidmap SField fkid);
        [destruct keep; reflexivity | congruence (* SField is injective *) | reflexivity | exact Hn].
    + destruct unk; [|destruct Hin]. destruct Hin as [Hin|[]]. inversion Hin; subst.
      cbn [cutt kids]. rewrite cutk_unknown. now rewrite (Hu eq_refl).
  - destruct (indexed_steps _ _ _ _ Hin) as [i ->]. apply indexed_in in Hin. destruct Hin as [_ Hn].
    cbn [cutt kids]. rewrite cutk_indexed; [now rewrite N.sub_0_r | lia |].
    apply nth_error_Some. congruence.
  - destruct (in_kkid _ _ _ Hin) as (n & -> & Hn). cbn [cutt kids].
    rewrite <- (app_nil_r (map kkid entries)).
    rewrite (cutk_kidmap SKey kkid);
      [destruct keep; now rewrite app_nil_r | congruence (* SKey is injective *) | reflexivity | exact Hn].
Qed.

(* Pruned trees: what an all-continue traversal must see to produce the same
   callback sequence.  [leaf] is applied to the value at the end of the path:
   [strip] when the verdict comes from push (its children are skipped), the
   identity when it comes from pop (its children have been visited).

   [trm]: Terminate / error at relative path r: at every level along r the
   later siblings are gone. *)
Fixpoint trm (leaf : tree -> tree) (r : list step) (t : tree) : tree :=
  match r with
  | [] => t
  | s :: r' =>
      match apply_step t s with
      | None => t
      | Some v => trunc t s (match r' with [] => leaf v | _ => trm leaf r' v end)
      end
  end.

(* [brk]: Break at r: the later siblings of the value at r are gone;
   everything above is untouched *)
Fixpoint brk (leaf : tree -> tree) (r : list step) (t : tree) : tree :=
  match r with
  | [] => t
  | s :: r' =>
      match apply_step t s with
      | None => t
      | Some v => match r' with [] => trunc t s (leaf v) | _ => repl t s (brk leaf r' v) end
      end
  end.

Lemma trm_scalar leaf r : trm leaf r Scalar = Scalar.
Proof. destruct r; reflexivity. Qed.
Lemma brk_scalar leaf r : brk leaf r Scalar = Scalar.
Proof. destruct r; reflexivity. Qed.

(* both at once: at the end of the path the later siblings are gone, above it they stay iff [keep] *)
Fixpoint prune (keep : bool) (leaf : tree -> tree) (r : list step) (t : tree) : tree :=
  match r with
  | [] => t
  | s :: r' =>
      match apply_step t s with
      | None => t
      | Some v => cutt (match r' with [] => false | _ => keep end) t s
                       (match r' with [] => leaf v | _ => prune keep leaf r' v end)
      end
  end.

Lemma prune_scalar keep leaf r : prune keep leaf r Scalar = Scalar.
Proof. destruct r; reflexivity. Qed.

Lemma trm_prune leaf : forall r t, trm leaf r t = prune false leaf r t.
Proof.
  induction r as [|s r' IH]; intros t; [reflexivity|]. cbn [trm prune]. rewrite trunc_cutt.
  destruct (apply_step t s) as [v|]; [|reflexivity]. destruct r'; [reflexivity|]. now rewrite IH.
Qed.

Lemma brk_prune leaf : forall r t, brk leaf r t = prune true leaf r t.
Proof.
  induction r as [|s r' IH]; intros t; [reflexivity|]. cbn [brk prune]. rewrite trunc_cutt, repl_cutt.
  destruct (apply_step t s) as [v|]; [|reflexivity]. destruct r'; [reflexivity|]. now rewrite IH.
Qed.

Lemma assoc_in l k v : assoc l k = Some v -> In (k, v) l.
Proof.
  induction l as [|[k0 v0] r IH]; cbn [assoc]; [discriminate|].
  destruct (k0 =? k) eqn:E.
  - apply N.eqb_eq in E. intros H; inversion H; subst. now left.
  - intros H. right. now apply IH.
Qed.

Lemma indexed_nth : forall l k n v,
  nth_error l n = Some v -> In (SIndex (k + N.of_nat n), v) (indexed k l).
Proof.
  induction l as [|v0 r IH]; intros k n v H; [destruct n; discriminate|].
  destruct n as [|n]; cbn [nth_error indexed] in *.
  - inversion H; subst. left. f_equal. f_equal. lia.
  - right. replace (k + N.of_nat (S n)) with (k + 1 + N.of_nat n) by lia. now apply IH.
Qed.

Lemma apply_step_in t s v : apply_step t s = Some v -> In (s, v) (kids t).
Proof.
  destruct t as [|fields unk [m2|]|elems|entries]; cbn [apply_step kids].
  - discriminate.
  - destruct s; try discriminate. intros H; inversion H; subst. now left.
  - destruct s; try discriminate.
    + intros H. apply in_or_app. left. apply assoc_in in H.
      apply in_map_iff. exists (num, v). split; [reflexivity | exact H].
    + destruct unk; [|discriminate]. intros H; inversion H; subst. apply in_or_app. right. now left.
  - destruct s; try discriminate. intros H.
    apply (indexed_nth _ 0) in H. now replace (0 + N.of_nat (N.to_nat i)) with i in H by lia.
  - destruct s; try discriminate. intros H. apply assoc_in in H.
    apply in_map_iff. exists (k, v). split; [reflexivity | exact H].
Qed.

Lemma apply_step_unknown t v : apply_step t SUnknown = Some v -> v = Scalar.
Proof.
  destruct t as [|fields unk [m2|]|elems|entries]; cbn [apply_step]; try discriminate.
  destruct unk; [|discriminate]. congruence.
Qed.

Lemma visit_through push pop ch p v :
  push p = Continue -> pop p = Continue ->
  visit push pop ch p v = (fst (ch p v), Push p v :: snd (ch p v) ++ [Pop p v]).
Proof.
  intros H1 H2. unfold visit. rewrite H1, H2. cbn [amend is_nil].
  destruct (ch p v) as [e ev]. cbn [fst snd]. destruct e; reflexivity.
Qed.

Lemma fst_clear (x : verdict * list event) :
  fst (let '(e, ev) := x in (clear_break e, ev)) = clear_break (fst x).
Proof. now destruct x. Qed.
Lemma snd_clear (x : verdict * list event) :
  snd (let '(e, ev) := x in (clear_break e, ev)) = snd x.
Proof. now destruct x. Qed.

Lemma paths_visit p v v' ev ev' :
  paths ev = paths ev' ->
  paths (Push p v :: ev ++ [Pop p v]) = paths (Push p v' :: ev' ++ [Pop p v']).
Proof.
  intros H. cbn [paths map]. fold (paths (ev ++ [Pop p v])). fold (paths (ev' ++ [Pop p v'])).
  now rewrite !paths_app, H.
Qed.

Lemma snoc_neq_deeper (p : path) s s' r'' : p ++ [s] <> p ++ s :: s' :: r''.
Proof. intros E. apply app_inv_head in E. discriminate. Qed.

Definition final (e : verdict) : verdict := match e with Break | Terminate => Continue | _ => e end.

Lemma range_unfold push pop root :
  range push pop root =
  (final (fst (visit push pop (children push pop) [SRoot] root)),
   snd (visit push pop (children push pop) [SRoot] root)).
Proof. unfold range, final. now destruct (visit push pop (children push pop) [SRoot] root). Qed.

Lemma stops_above V : is_nil V = false -> V <> Break -> is_nil (clear_break V) = false.
Proof. destruct V; cbn; congruence. Qed.

Section Semantics.
(* [cbs q] = the (push, pop) callbacks that misbehave only at q, where they make
   the visit of q end with the non-nil verdict V *)
Variable V : verdict.
Variable cbs : path -> callback * callback.
Variable leaf : tree -> tree.
Hypothesis V_not_nil : is_nil V = false.
Hypothesis leaf_scalar : leaf Scalar = Scalar.
Hypothesis off : forall q x, x <> q -> fst (cbs q) x = Continue /\ snd (cbs q) x = Continue.
Hypothesis hit : forall q v, exists ev1 ev2,
  visit (fst (cbs q)) (snd (cbs q)) (children (fst (cbs q)) (snd (cbs q))) q v = (V, ev1) /\
  visit cont cont (children cont cont) q (leaf v) = (Continue, ev2) /\
  paths ev1 = paths ev2.

(* Every level above the end of the path sees the verdict with Break cleared: if that is nil
   (V = Break) the level goes on with the later siblings, otherwise it stops as well. *)
Lemma children_prune :
  forall r t p, r <> [] -> wf t -> apply_steps t r <> None ->
  fst (children (fst (cbs (p ++ r))) (snd (cbs (p ++ r))) p t) = clear_break V /\
  paths (snd (children (fst (cbs (p ++ r))) (snd (cbs (p ++ r))) p t))
  = paths (snd (children cont cont p (prune (is_nil (clear_break V)) leaf r t))).
Proof.
  induction r as [|s r' IH]; intros t p Hr Hwf Hres; [congruence|].
  cbn [apply_steps] in Hres. destruct (apply_step t s) as [v|] eqn:Es; [|congruence].
  pose proof (apply_step_in _ _ _ Es) as Hin.
  inversion Hwf as [t' Hnd Hkids]; subst t'.
  cbn [prune]. rewrite Es. rewrite !children_kids, fst_clear, !snd_clear.
  set (keep := is_nil (clear_break V)).
  set (v' := match r' return tree with nil => leaf v | cons _ _ => prune keep leaf r' v end).
  (* E: how the visit of the kid on the path ends *)
  set (E := match r' with [] => V | _ => clear_break V end).
  assert (HE : match r' with [] => false | _ => keep end = is_nil E)
    by (unfold E; destruct r'; [symmetry; exact V_not_nil | reflexivity]).
  rewrite HE.
  assert (Hu : unk_ok s v').
  { intros ->. apply apply_step_unknown in Es. subst v. unfold v'.
    destruct r'; [exact leaf_scalar | apply prune_scalar]. }
  rewrite (kids_cutt _ t s v v' Hin Hu).
  set (q := p ++ s :: r').
  assert (H12 : exists ev1 ev2,
    visit (fst (cbs q)) (snd (cbs q)) (children (fst (cbs q)) (snd (cbs q))) (p ++ [s]) v = (E, ev1) /\
    visit cont cont (children cont cont) (p ++ [s]) v' = (Continue, ev2) /\ paths ev1 = paths ev2).
  { unfold E, v'. destruct r' as [|s' r''].
    - apply (hit (p ++ [s]) v).
    - assert (Hq : q = (p ++ [s]) ++ s' :: r'') by (unfold q; now rewrite <- app_assoc).
      destruct (IH v (p ++ [s])) as [He Hp]; [discriminate | now apply (Hkids s v) | exact Hres |].
      rewrite <- Hq in He, Hp.
      destruct (off q (p ++ [s]) (snoc_neq_deeper p s s' r'')) as [Hpu Hpo].
      eexists _, _. split; [|split].
      + rewrite visit_through by assumption. rewrite He. reflexivity.
      + apply visit_continue. apply children_continue.
      + apply paths_visit. exact Hp. }
  destruct H12 as (ev1 & ev2 & H1 & H2 & Hp).
  destruct (loop_cut (fst (cbs q)) (snd (cbs q)) p s r'
              (fun x Hx => proj1 (off q x Hx)) (fun x Hx => proj2 (off q x Hx))
              v v' E ev1 ev2 H1 H2 Hp (kids t) Hin Hnd) as [He Hl].
  rewrite He. split; [|exact Hl]. unfold E. destruct r'; [reflexivity | destruct V; reflexivity].
Qed.

Lemma range_prune r root :
  r <> [] -> wf root -> apply_steps root r <> None ->
  fst (range (fst (cbs (SRoot :: r))) (snd (cbs (SRoot :: r))) root) = final V /\
  paths (snd (range (fst (cbs (SRoot :: r))) (snd (cbs (SRoot :: r))) root))
  = paths (snd (range cont cont (prune (is_nil (clear_break V)) leaf r root))).
Proof.
  intros Hr Hwf Hres.
  destruct (children_prune r root [SRoot] Hr Hwf Hres) as [He Hp].
  cbn [app] in He, Hp. rewrite !range_unfold. cbn [fst snd].
  destruct (off (SRoot :: r) [SRoot]) as [Hpu Hpo]; [intros E; inversion E; congruence|].
  rewrite visit_through by assumption.
  rewrite visit_continue by apply children_continue. cbn [fst snd]. rewrite He.
  split; [destruct V; reflexivity | now apply paths_visit].
Qed.

Lemma range_trm r root : V <> Break ->
  r <> [] -> wf root -> apply_steps root r <> None ->
  fst (range (fst (cbs (SRoot :: r))) (snd (cbs (SRoot :: r))) root) = final V /\
  paths (snd (range (fst (cbs (SRoot :: r))) (snd (cbs (SRoot :: r))) root))
  = paths (snd (range cont cont (trm leaf r root))).
Proof.
  intros HB. rewrite trm_prune, <- (stops_above V V_not_nil HB). apply range_prune.
Qed.

Lemma range_brk r root : V = Break ->
  r <> [] -> wf root -> apply_steps root r <> None ->
  fst (range (fst (cbs (SRoot :: r))) (snd (cbs (SRoot :: r))) root) = Continue /\
  paths (snd (range (fst (cbs (SRoot :: r))) (snd (cbs (SRoot :: r))) root))
  = paths (snd (range cont cont (brk leaf r root))).
Proof.
  intros HB. rewrite brk_prune. change Continue with (final Break). change true with (is_nil (clear_break Break)).
  rewrite <- HB. apply range_prune.
Qed.
End Semantics.

(* the two instances: verdict from push / from pop *)
Definition on_push (V : verdict) (q : path) : callback * callback := (at_path q V, cont).
Definition on_pop (V : verdict) (q : path) : callback * callback := (cont, at_path q V).
(* the leaf function of a verdict from pop: the value keeps its children (beside [strip]); the
   boolean [keep] of [cutk] / [cutt] / [prune] above is another thing: whether later siblings stay *)
Definition keep (t : tree) : tree := t.

Lemma on_push_off V q x : x <> q -> fst (on_push V q) x = Continue /\ snd (on_push V q) x = Continue.
Proof. intros H. split; [now apply at_path_neq | reflexivity]. Qed.
Lemma on_pop_off V q x : x <> q -> fst (on_pop V q) x = Continue /\ snd (on_pop V q) x = Continue.
Proof. intros H. split; [reflexivity | now apply at_path_neq]. Qed.

Lemma on_push_hit V : is_nil V = false -> forall q v, exists ev1 ev2,
  visit (fst (on_push V q)) (snd (on_push V q)) (children (fst (on_push V q)) (snd (on_push V q))) q v = (V, ev1) /\
  visit cont cont (children cont cont) q (strip v) = (Continue, ev2) /\ paths ev1 = paths ev2.
Proof.
  intros HV q v. eexists _, _. split; [apply visit_hit; exact HV | split; [apply visit_strip | reflexivity]].
Qed.
Lemma on_pop_hit V : forall q v, exists ev1 ev2,
  visit (fst (on_pop V q)) (snd (on_pop V q)) (children (fst (on_pop V q)) (snd (on_pop V q))) q v = (V, ev1) /\
  visit cont cont (children cont cont) q (keep v) = (Continue, ev2) /\ paths ev1 = paths ev2.
Proof.
  intros q v. eexists _, _. split; [apply visit_hit_pop | split].
  - apply visit_continue. apply children_continue.
  - reflexivity.
Qed.

Theorem terminate_semantics V r root :
  is_nil V = false -> V <> Break ->
  r <> [] -> wf root -> apply_steps root r <> None ->
  fst (range (at_path (SRoot :: r) V) cont root) = final V /\
  paths (snd (range (at_path (SRoot :: r) V) cont root)) = paths (snd (range cont cont (trm strip r root))).
Proof.
  intros HV HB. apply (range_trm V (on_push V) strip HV eq_refl (on_push_off V) (on_push_hit V HV) r root HB).
Qed.

Theorem terminate_pop_semantics V r root :
  is_nil V = false -> V <> Break ->
  r <> [] -> wf root -> apply_steps root r <> None ->
  fst (range cont (at_path (SRoot :: r) V) root) = final V /\
  paths (snd (range cont (at_path (SRoot :: r) V) root)) = paths (snd (range cont cont (trm keep r root))).
Proof.
  intros HV HB. apply (range_trm V (on_pop V) keep HV eq_refl (on_pop_off V) (on_pop_hit V) r root HB).
Qed.

Theorem break_semantics r root :
  r <> [] -> wf root -> apply_steps root r <> None ->
  fst (range (at_path (SRoot :: r) Break) cont root) = Continue /\
  paths (snd (range (at_path (SRoot :: r) Break) cont root)) = paths (snd (range cont cont (brk strip r root))).
Proof.
  apply (range_brk Break (on_push Break) strip eq_refl eq_refl (on_push_off Break) (on_push_hit Break eq_refl) r root eq_refl).
Qed.

Theorem break_pop_semantics r root :
  r <> [] -> wf root -> apply_steps root r <> None ->
  fst (range cont (at_path (SRoot :: r) Break) root) = Continue /\
  paths (snd (range cont (at_path (SRoot :: r) Break) root)) = paths (snd (range cont cont (brk keep r root))).
Proof.
  apply (range_brk Break (on_pop Break) keep eq_refl eq_refl (on_pop_off Break) (on_pop_hit Break) r root eq_refl).
Qed.

(* a non-nil verdict from the push of the root step: nothing else is visited;
   from its pop: everything has been visited *)
Theorem root_push_verdict V root :
  is_nil V = false ->
  range (at_path [SRoot] V) cont root = (final V, [Push [SRoot] root; Pop [SRoot] root]).
Proof. intros HV. rewrite range_unfold, visit_hit by exact HV. reflexivity. Qed.

Theorem root_pop_verdict V root :
  range cont (at_path [SRoot] V) root = (final V, snd (range cont cont root)).
Proof.
  rewrite !range_unfold, visit_hit_pop, visit_continue by apply children_continue. reflexivity.
Qed.
