(* AliasP — proofs about the provenance model (Msg/AliasModel.v), C14. *)
From Coq Require Import List NArith Bool.
From PB Require Import Base.PBytes Msg.AliasModel.
Import ListNotations.

Section AnodeInd.
  Variable P : anode -> Prop.
  Hypothesis Hb : forall num r, P (NBytes num r).
  Hypothesis Hl : forall num r, P (NLazy num r).
  Hypothesis Hm : forall num kids unk, Forall P kids -> P (NMsg num kids unk).
  Fixpoint anode_ind' (n : anode) : P n :=
    match n with
    | NBytes num r => Hb num r
    | NLazy num r => Hl num r
    | NMsg num kids unk =>
      Hm num kids unk ((fix go (l : list anode) : Forall P l :=
                          match l with
                          | [] => Forall_nil P
                          | x :: r => Forall_cons x (anode_ind' x) (go r)
                          end) kids)
    end.
End AnodeInd.

Section LitemInd.
  Variable P : litem -> Prop.
  Hypothesis Hb : forall num off len, P (LBytes num off len).
  Hypothesis Hu : forall off len, P (LUnknown off len).
  Hypothesis Hs : forall num lz off len items, Forall P items -> P (LSub num lz off len items).
  Fixpoint litem_ind' (it : litem) : P it :=
    match it with
    | LBytes num off len => Hb num off len
    | LUnknown off len => Hu off len
    | LSub num lz off len items =>
      Hs num lz off len items ((fix go (l : list litem) : Forall P l :=
                                  match l with
                                  | [] => Forall_nil P
                                  | x :: r => Forall_cons x (litem_ind' x) (go r)
                                  end) items)
    end.
End LitemInd.

(* freshness makes the observation independent of external memory *)
Lemma read_fresh_indep : forall e1 e2 r, region_fresh r = true -> alias_read e1 r = alias_read e2 r.
Proof. intros e1 e2 [b|? ? ?|? ? ?] H; cbn in *; auto; discriminate. Qed.

Theorem obs_fresh_indep : forall e1 e2 n, node_fresh n = true -> alias_obs e1 n = alias_obs e2 n.
Proof.
  intros e1 e2. induction n using anode_ind'; intros Hf; cbn in *.
  - f_equal. apply read_fresh_indep; auto.
  - f_equal. apply read_fresh_indep; auto.
  - apply andb_true_iff in Hf. destruct Hf as [Hk Hu]. f_equal.
    + rewrite forallb_forall in Hk. apply map_ext_in. intros a Ha.
      rewrite Forall_forall in H. apply H; auto.
    + apply read_fresh_indep; auto.
Qed.

Theorem clone_fresh : forall ext n, node_fresh (alias_clone ext n) = true.
Proof.
  intros ext. induction n using anode_ind'; cbn; auto.
  rewrite andb_true_r. apply forallb_forall. intros x Hx. apply in_map_iff in Hx.
  destruct Hx as [y [<- Hy]]. rewrite Forall_forall in H. auto.
Qed.

(* the clone holds the contents the source had when it was cloned, whatever happens later *)
Theorem clone_obs : forall ext e' n, alias_obs e' (alias_clone ext n) = alias_obs ext n.
Proof.
  intros ext e'. induction n using anode_ind'; cbn; auto.
  f_equal. rewrite map_map. apply map_ext_in. intros a Ha. rewrite Forall_forall in H. auto.
Qed.

Theorem merge_dst_fresh : forall ext dst src,
  node_fresh dst = true -> node_fresh (alias_merge ext dst src) = true.
Proof.
  intros ext dst src H. destruct dst as [| |num dk du]; cbn; auto.
  destruct src as [| |snum sk su]; auto. cbn in *.
  apply andb_true_iff in H. destruct H as [Hk _]. rewrite andb_true_r.
  rewrite forallb_app, Hk. cbn. apply forallb_forall. intros x Hx. apply in_map_iff in Hx.
  destruct Hx as [y [<- Hy]]. apply clone_fresh.
Qed.

(* When the decoder cannot leave a view of the input in the tree: there is no input to view
   ([origin] = None: the data is already a private copy), or aliasing is off and the item is
   not one that is kept lazily (a lazily kept item retains a slice of its input). *)
Definition dec_safe (alias lazyon : bool) (origin : option nat) (it : litem) : Prop :=
  origin = None \/ (alias = false /\ is_lazy_item it && lazyon = false).

Lemma dec_item_fresh : forall it alias lazyon origin data,
  dec_safe alias lazyon origin it ->
  forallb node_fresh (fst (dec_item alias lazyon origin data it)) = true.
Proof.
  induction it using litem_ind'; intros alias lazyon origin data Hs; cbn [dec_item]; auto.
  destruct (lz && lazyon) eqn:Hlz.
  - destruct Hs as [->|[_ Hn]]; [reflexivity|]. cbn in Hn. congruence.
  - cbn [fst forallb]. rewrite andb_true_r. cbn [node_fresh region_fresh]. rewrite andb_true_r.
    set (haslazy := existsb is_lazy_item items && lazyon).
    set (origin' := if haslazy && negb alias then None else origin).
    set (alias' := alias || haslazy).
    assert (Hall : forall it', In it' items -> dec_safe alias' lazyon origin' it').
    { intros it' Hin. destruct Hs as [->|[Ha _]].
      - left. subst origin'. destruct (haslazy && negb alias); reflexivity.
      - subst alias. destruct haslazy eqn:Hh.
        + left. subst origin'. reflexivity.
        + right. split; [subst alias'; reflexivity|].
          subst haslazy. apply andb_false_iff in Hh. destruct Hh as [Hh| ->]; [|apply andb_false_r].
          assert (Hx : is_lazy_item it' = false).
          { destruct (is_lazy_item it') eqn:E; auto.
            assert (existsb is_lazy_item items = true) by (apply existsb_exists; eauto). congruence. }
          rewrite Hx. reflexivity. }
    clearbody origin' alias'. clear Hs.
    induction items as [|x r IHr]; cbn; auto.
    inversion H; subst. rewrite forallb_app. rewrite H2 by (apply Hall; left; auto). cbn.
    apply IHr; auto. intros; apply Hall; right; auto.
Qed.

Theorem decode_fresh : forall lazyon buf ext items,
  node_fresh (alias_decode false lazyon buf ext items) = true.
Proof.
  intros. unfold alias_decode.
  pose proof (dec_item_fresh (LSub 0%N false 0 0 items) false lazyon (Some buf) (ext_input ext buf)) as H.
  assert (Hs : dec_safe false lazyon (Some buf) (LSub 0%N false 0 0 items)) by (right; split; reflexivity).
  specialize (H Hs).
  destruct (dec_item false lazyon (Some buf) (ext_input ext buf) (LSub 0%N false 0 0 items)) as [[|n r] u]; auto.
  cbn in H. apply andb_true_iff in H. tauto.
Qed.

Theorem delim_fresh : forall lazyon rbuf ext items,
  node_fresh (alias_delim_read lazyon rbuf ext items) = true.
Proof. intros. apply decode_fresh. Qed.

(* any later write to caller memory leaves every observation unchanged *)
Theorem mutation_independent_decode : forall lazyon buf ext ext' items,
  alias_obs ext' (alias_decode false lazyon buf ext items) = alias_obs ext (alias_decode false lazyon buf ext items).
Proof. intros. apply obs_fresh_indep. apply decode_fresh. Qed.

Theorem mutation_independent_clone : forall ext ext' n,
  alias_obs ext' (alias_clone ext n) = alias_obs ext (alias_clone ext n).
Proof. intros. apply obs_fresh_indep. apply clone_fresh. Qed.

Theorem mutation_independent_merge : forall ext ext' dst src,
  node_fresh dst = true ->
  alias_obs ext' (alias_merge ext dst src) = alias_obs ext (alias_merge ext dst src).
Proof. intros. apply obs_fresh_indep. apply merge_dst_fresh; auto. Qed.

Theorem mutation_independent_delim : forall lazyon rbuf ext ext' items,
  alias_obs ext' (alias_delim_read lazyon rbuf ext items) = alias_obs ext (alias_delim_read lazyon rbuf ext items).
Proof. intros. apply obs_fresh_indep. apply delim_fresh. Qed.

(* the flag matters: with UnmarshalAliasBuffer a lazy field views the input *)
Definition alias_ex_items : list litem :=
  [LBytes 1 0 2; LSub 2 true 2 3 [LBytes 1 3 1]; LUnknown 5 1].
Definition alias_ex_mem (b : list byte) : extmem := mkExt (fun _ => b) (fun _ => []).

Theorem alias_flag_views_input :
  node_fresh (alias_decode true true 0 (alias_ex_mem [x0a; x0b; x0c; x0d; x0e; x0f]) alias_ex_items) = false /\
  alias_obs (alias_ex_mem [x00; x00; x00; x00; x00; x00])
            (alias_decode true true 0 (alias_ex_mem [x0a; x0b; x0c; x0d; x0e; x0f]) alias_ex_items) <>
  alias_obs (alias_ex_mem [x0a; x0b; x0c; x0d; x0e; x0f])
            (alias_decode true true 0 (alias_ex_mem [x0a; x0b; x0c; x0d; x0e; x0f]) alias_ex_items).
Proof. split; [vm_compute; reflexivity | vm_compute; discriminate]. Qed.
