(* LazyValueP — a first piece of "the value after forcing = the eagerly decoded value" (C17):
   the tag loop of lazy Unmarshal ([lz_loop]) is the tag loop of the eager decoder on every field
   that is not a lazy one -- same accumulator, same error -- and its index/presence bookkeeping
   does not touch the decoded fields.  Hence, for a message type without lazy fields, lazy
   Unmarshal returns exactly the eager verdict and (nothing being left to force) the eager value.

   For the full statement (inputs outside the F1 class, types WITH lazy fields) three things are not
   proved; depth monotonicity of the eager decoder, which it also needs because forcing decodes with
   depth 10000 while Unmarshal validated with the remaining depth, is [ddm_decode_mono]
   (Msg/DecDepthMonoP.v, C17_eager_depth_monotone):
     (1) locality of [msg_step]: a field changes only its own entry of the sorted field list,
     (2) index correctness: the ranges [lz_lookup] returns for a lazy field are exactly its
         occurrences, in input order, and [lz_range] re-parses them as the eager loop did,
     (3) assembly: [msg_fset] of the forced value commutes with the entries of the other fields. *)
From Coq Require Import List Arith NArith ZArith Lia Bool.
From Coq Require Import ZifyBool ZifyNat ZifyN.
From PB Require Import Base.PBytes Wire.WireModel Wire.ScanP.
From PB Require Import Msg.MsgSchema Msg.MsgValue Msg.MsgUtf8 Msg.MsgEnc Msg.MsgDec.
From PB Require Import Msg.ValidateMsgModel Msg.ValidateMsgP Msg.LazyModel.
Import ListNotations.
Open Scope N_scope.

Definition lzv_nolazy (md : mdesc) : Prop := forall fd, In fd md -> lz_is_lazy fd = false.
Definition lzv_nolazyb (md : mdesc) : bool := forallb (fun fd => negb (lz_is_lazy fd)) md.
Lemma lzv_nolazyb_spec md : lzv_nolazyb md = true -> lzv_nolazy md.
Proof.
  unfold lzv_nolazyb, lzv_nolazy. rewrite forallb_forall. intros H fd Hin.
  specialize (H fd Hin). destruct (lz_is_lazy fd); [discriminate|reflexivity].
Qed.

(* one field that is not a lazy one: the eager step, plus bookkeeping *)
Lemma lzv_step_eager S d md total st bs num typ r :
  (forall fd, msg_find_field md num = Some fd -> lz_is_lazy fd = false) ->
  lz_step S d md total st bs num typ r =
  match msg_step false md (msg_decode_msg false S d) (vp_dsub2 S d) (enc_tag num typ) num typ r (s_acc st) with
  | DErr e => DErr e
  | DOk (acc', r') => DOk (lz_note total st false num (total - length bs) r' acc' (s_present st), r')
  end.
Proof.
  intros H. unfold lz_step. destruct (msg_find_field md num) as [fd|] eqn:E; [|reflexivity].
  rewrite (H fd eq_refl). reflexivity.
Qed.

Lemma lzv_loop_nolazy S d tid md total :
  nth_error S tid = Some md -> lzv_nolazy md ->
  forall g bs st,
    match msg_decode_msg false S (Datatypes.S d) tid 0 g bs (s_acc st) with
    | DOk (acc, _) => exists st', lz_loop S d md total g bs st = DOk st' /\
                                  s_acc st' = acc /\ s_present st' = s_present st
    | DErr e => lz_loop S d md total g bs st = DErr e
    end.
Proof.
  intros Hmd Hnl. induction g as [|x g IH]; intros bs st.
  - cbn [msg_decode_msg]. rewrite Hmd. reflexivity.
  - rewrite (vp_dm_unfold S d tid 0 md x g bs (s_acc st) Hmd). cbn [lz_loop].
    destruct bs as [|b0 t] eqn:Ebs.
    { cbn [N.eqb]. exists st. auto. }
    rewrite <- Ebs. clear Ebs.
    destruct (dec_tag bs) as [[[num typ] r]|e] eqn:Et; [|reflexivity].
    destruct (msg_max_num <? num); [reflexivity|].
    destruct (typ =? 4).
    { replace (num =? 0) with false; [reflexivity|]. symmetry. apply N.eqb_neq. intros ->.
      apply dec_tag_num_pos in Et. lia. }
    rewrite lzv_step_eager.
    2: { intros fd Hf. apply Hnl. eapply vp_find_field_in. exact Hf. }
    destruct (msg_step false md (msg_decode_msg false S d) (vp_dsub2 S d) (enc_tag num typ) num typ r (s_acc st))
      as [[acc' r']|e]; [|reflexivity].
    apply (IH r' (lz_note total st false num (total - length bs) r' acc' (s_present st))).
Qed.

Theorem lzv_value_nolazy S limit tid bs md :
  nth_error S tid = Some md -> lzv_nolazy md ->
  lz_value_of S limit tid bs = match msg_decode false S limit tid bs with DOk v => Some v | DErr _ => None end /\
  lz_verdict S limit tid bs = match msg_decode false S limit tid bs with DOk _ => 0 | DErr e => derr_code e end.
Proof.
  intros Hmd Hnl. unfold lz_value_of, lz_verdict, lz_unmarshal, msg_decode, msg_decode_into.
  destruct limit as [|d]; [split; reflexivity|]. rewrite Hmd.
  pose proof (lzv_loop_nolazy S d tid md (length bs) Hmd Hnl (x00 :: bs) bs (mkLS ([], []) [] [] 0 false)) as H.
  cbn [s_acc s_present] in H. change (msg_macc_of msg_empty) with (@nil (N * list value), @nil byte).
  destruct (msg_decode_msg false S (Datatypes.S d) tid 0 (x00 :: bs) bs ([], [])) as [[acc r]|e].
  - destruct H as (st' & -> & Ha & Hp). split; [|reflexivity].
    unfold lz_value, lz_force_all. cbn [l_lazy l_fields l_unk]. rewrite Hp. cbn [lz_dedup fold_left l_fields l_unk].
    rewrite Ha. reflexivity.
  - rewrite H. split; reflexivity.
Qed.
