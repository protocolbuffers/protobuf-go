(* EqualMsgP — proofs for C30, part 2: proto.Equal (the reflection algorithm) on well-formed messages is
   an equivalence relation.  The table-driven algorithm is compared with it in EqualFastP. *)
From Coq Require Import List Arith NArith ZArith Lia Bool Permutation.
From Coq Require Import ZifyBool ZifyNat ZifyN.
From PB Require Import Base.PBytes Base.ListP Wire.WireModel Wire.VarintP.
From PB Require Import Msg.MsgSchema Msg.MsgValue Msg.MsgEnc Msg.MsgValid Msg.MsgWireP Msg.MsgSizeP.
From PB Require Import Msg.MsgStoreP Msg.EqualModel Msg.EqualP.
Import ListNotations.
Open Scope N_scope.

Definition eqm_bind (md : mdesc) (ev : kind -> value -> value -> bool) (fb : fields) (p : N * list value) : bool :=
  match snd p with
  | [] => true
  | _ :: _ =>
    match msg_find_field md (fst p) with
    | None => false
    | Some fd =>
      match msg_fget fb (fst p) with
      | [] => false
      | vb => eqm_vals (f_card fd) (ev (f_kind fd)) (snd p) vb
      end
    end
  end.

Lemma eqm_value_msg S k fa ua fb ub :
  eqm_value S k (VMsg fa ua) (VMsg fb ub) =
  forallb (eqm_bind (eqm_md S k) (eqm_value S) fb) fa
  && Nat.eqb (eqm_populated fa) (eqm_populated fb) && eqm_unknown ua ub.
Proof. reflexivity. Qed.

Definition eqm_wf_bind (S : schema) (md : mdesc) (p : N * list value) : bool :=
  match msg_find_field md (fst p) with
  | None => false
  | Some fd =>
    match f_card fd with
    | CMap _ _ _ =>
      eqm_nodup_keys (snd p) &&
      forallb (fun e => match e with VEntry _ x => eqm_wf S (f_kind fd) x | _ => false end) (snd p)
    | _ => forallb (fun x => eqm_wf S (f_kind fd) x) (snd p)
    end
  end.

Lemma eqm_wf_msg S k fs u :
  eqm_wf S k (VMsg fs u) = eqm_nodup_n (map fst fs) && forallb (eqm_wf_bind S (eqm_md S k)) fs.
Proof. reflexivity. Qed.

Lemma eqm_value_entry S k ka xa kb xb :
  eqm_value S k (VEntry ka xa) (VEntry kb xb) = eqm_key ka kb && eqm_value S k xa xb.
Proof. reflexivity. Qed.

Section All2P.
  Context {A B : Type}.
  Lemma eqm_all2_length (f : A -> B -> bool) la : forall lb, eqm_all2 f la lb = true -> length la = length lb.
  Proof.
    induction la as [|x la IH]; intros [|y lb]; cbn [eqm_all2 length]; try discriminate; [reflexivity|].
    rewrite andb_true_iff. intros [_ H]. f_equal. now apply IH.
  Qed.
  Lemma eqm_all2_ext (f g : A -> B -> bool) la : forall lb,
    (forall x y, In x la -> In y lb -> f x y = g x y) -> eqm_all2 f la lb = eqm_all2 g la lb.
  Proof.
    induction la as [|x la IH]; intros [|y lb] H; cbn [eqm_all2]; try reflexivity.
    rewrite H by now left. f_equal. apply IH. intros x' y' Hx Hy. apply H; now right.
  Qed.
End All2P.

Lemma eqm_all2_refl {A} (f : A -> A -> bool) l : Forall (fun x => f x x = true) l -> eqm_all2 f l l = true.
Proof. induction 1 as [|x l Hx Hl IH]; cbn [eqm_all2]; [reflexivity|]. now rewrite Hx, IH. Qed.

Lemma eqm_all2_sym {A B} (f : A -> B -> bool) (g : B -> A -> bool) la : forall lb,
  (forall x y, In x la -> In y lb -> f x y = true -> g y x = true) ->
  eqm_all2 f la lb = true -> eqm_all2 g lb la = true.
Proof.
  induction la as [|x la IH]; intros [|y lb] H; cbn [eqm_all2]; try discriminate; [reflexivity|].
  rewrite !andb_true_iff. intros [H1 H2]. split.
  - apply H; [now left|now left|exact H1].
  - apply IH; [|exact H2]. intros x' y' Hx Hy. apply H; now right.
Qed.

Lemma eqm_all2_trans {A} (f : A -> A -> bool) la : forall lb lc,
  (forall x y z, In x la -> f x y = true -> f y z = true -> f x z = true) ->
  eqm_all2 f la lb = true -> eqm_all2 f lb lc = true -> eqm_all2 f la lc = true.
Proof.
  induction la as [|x la IH]; intros [|y lb] [|z lc] H; cbn [eqm_all2]; try discriminate; [reflexivity|].
  rewrite !andb_true_iff. intros [H1 H2] [H3 H4]. split.
  - eapply H; [now left|exact H1|exact H3].
  - eapply IH; [|exact H2|exact H4]. intros x' y' z' Hx. apply H. now right.
Qed.

Definition eqm_emap (ev : value -> value -> bool) (va vb : list value) : bool :=
  Nat.eqb (length va) (length vb) &&
  forallb (fun e => match e with
                    | VEntry ka xa => match eqm_efind vb ka with Some xb => ev xa xb | None => false end
                    | _ => false
                    end) va.

Lemma eqm_emap_in ev va vb k x :
  eqm_emap ev va vb = true -> In (VEntry k x) va ->
  exists y, eqm_efind vb k = Some y /\ ev x y = true.
Proof.
  unfold eqm_emap. rewrite andb_true_iff, forallb_forall. intros [_ H] Hin.
  specialize (H _ Hin). cbn in H. destruct (eqm_efind vb k) as [y|]; [|discriminate]. now exists y.
Qed.

Lemma eqm_emap_refl ev va :
  eqm_nodup_keys va = true -> (forall k x, In (VEntry k x) va -> ev x x = true) -> eqm_emap ev va va = true.
Proof.
  intros Hn H. unfold eqm_emap. rewrite Nat.eqb_refl. cbn [andb]. apply forallb_forall. intros e He.
  destruct (eqm_nodup_keys_spec _ Hn) as [_ [_ A]]. destruct (A _ He) as [k [x ->]].
  rewrite (eqm_efind_nodup _ _ _ Hn He). now apply (H k).
Qed.

Lemma eqm_emap_keys_incl ev va vb :
  eqm_emap ev va vb = true -> incl (eqm_keys va) (eqm_keys vb).
Proof.
  intros H k Hk. apply eqm_keys_in in Hk. destruct Hk as [x Hx].
  destruct (eqm_emap_in _ _ _ _ _ H Hx) as [y [Hy _]]. apply eqm_keys_in. exists y. now apply eqm_efind_in.
Qed.

Lemma eqm_emap_sym ev ev' va vb :
  eqm_nodup_keys va = true -> eqm_nodup_keys vb = true ->
  (forall k x y, In (VEntry k x) va -> In (VEntry k y) vb -> ev x y = true -> ev' y x = true) ->
  eqm_emap ev va vb = true -> eqm_emap ev' vb va = true.
Proof.
  intros Na Nb H E. pose proof E as E0. unfold eqm_emap in E. apply andb_true_iff in E. destruct E as [L _].
  apply Nat.eqb_eq in L. unfold eqm_emap. rewrite <- L, Nat.eqb_refl. cbn [andb]. apply forallb_forall. intros e He.
  destruct (eqm_nodup_keys_spec _ Na) as [NDa [La _]]. destruct (eqm_nodup_keys_spec _ Nb) as [NDb [Lb Ab]].
  destruct (Ab _ He) as [k [y ->]].
  assert (incl (eqm_keys vb) (eqm_keys va)) as I.
  { apply NoDup_length_incl; [exact NDa|lia|now apply (eqm_emap_keys_incl ev)]. }
  assert (In k (eqm_keys va)) as Hk by (apply I, eqm_keys_in; now exists y).
  apply eqm_keys_in in Hk. destruct Hk as [x Hx].
  rewrite (eqm_efind_nodup _ _ _ Na Hx).
  destruct (eqm_emap_in _ _ _ _ _ E0 Hx) as [y' [Hy' Hev]].
  rewrite (eqm_efind_nodup _ _ _ Nb He) in Hy'. inversion Hy'; subst y'.
  eapply H; eassumption.
Qed.

Lemma eqm_emap_trans ev va vb vc :
  (forall k x y z, In (VEntry k x) va -> ev x y = true -> ev y z = true -> ev x z = true) ->
  eqm_emap ev va vb = true -> eqm_emap ev vb vc = true -> eqm_emap ev va vc = true.
Proof.
  intros H E1 E2. pose proof E1 as E1'. pose proof E2 as E2'. unfold eqm_emap in E1', E2'.
  apply andb_true_iff in E1', E2'. destruct E1' as [L1 F1], E2' as [L2 _]. apply Nat.eqb_eq in L1, L2.
  unfold eqm_emap. rewrite andb_true_iff. split; [apply Nat.eqb_eq; congruence|].
  apply forallb_forall. intros e He. rewrite forallb_forall in F1. pose proof (F1 _ He) as Fe.
  destruct e as [s|fs u|k x]; try discriminate.
  destruct (eqm_emap_in _ _ _ _ _ E1 He) as [y [Hy Hxy]].
  destruct (eqm_emap_in _ _ _ _ _ E2 (eqm_efind_in _ _ _ Hy)) as [z [Hz Hyz]].
  rewrite Hz. eapply H; eassumption.
Qed.

Lemma eqm_emap_ext ev ev' va vb :
  (forall k x y, In (VEntry k x) va -> In (VEntry k y) vb -> ev x y = ev' x y) ->
  eqm_emap ev va vb = eqm_emap ev' va vb.
Proof.
  intros H. unfold eqm_emap. f_equal. apply list_forallb_ext_in. intros e He.
  destruct e as [s|fs u|k x]; try reflexivity.
  destruct (eqm_efind vb k) as [y|] eqn:E; [|reflexivity]. apply (H k); [exact He|now apply eqm_efind_in].
Qed.

Lemma eqm_vals_map kk ku vd ev va vb : eqm_vals (CMap kk ku vd) ev va vb = eqm_emap ev va vb.
Proof. reflexivity. Qed.

Lemma eqm_vals_list c ev va vb : (forall kk ku vd, c <> CMap kk ku vd) -> eqm_vals c ev va vb = eqm_all2 ev va vb.
Proof. destruct c; try reflexivity. intros H. exfalso. eapply H. reflexivity. Qed.

(* values of one field are non-empty on both sides when they compare equal *)
Lemma eqm_vals_length c ev va vb : eqm_vals c ev va vb = true -> length va = length vb.
Proof.
  destruct c; cbn [eqm_vals]; try apply eqm_all2_length.
  rewrite andb_true_iff, Nat.eqb_eq. tauto.
Qed.

Lemma eqm_wf_bind_in S k fs u p :
  eqm_wf S k (VMsg fs u) = true -> In p fs -> eqm_wf_bind S (eqm_md S k) p = true.
Proof. rewrite eqm_wf_msg, andb_true_iff, forallb_forall. intros [_ H] Hp. now apply H. Qed.

Lemma eqm_wf_nodup S k fs u : eqm_wf S k (VMsg fs u) = true -> NoDup (map fst fs).
Proof. rewrite eqm_wf_msg, andb_true_iff, eqm_nodup_n_spec. tauto. Qed.

Section Laws.
  Variable S : schema.

  Definition eqm_P_refl (x : value) : Prop := forall k, eqm_wf S k x = true -> eqm_value S k x x = true.

  Lemma eqm_value_refl : forall x, eqm_P_refl x.
  Proof.
    induction x as [s|fa ua IH|ka xa IH] using msg_value_ind; intros k Hwf.
    - apply eqm_scalar_refl.
    - rewrite eqm_value_msg, Nat.eqb_refl, eqm_unknown_refl, !andb_true_r.
      apply forallb_forall. intros p Hp. pose proof (eqm_wf_bind_in _ _ _ _ _ Hwf Hp) as Hb.
      pose proof (eqm_wf_nodup _ _ _ _ Hwf) as Hn.
      rewrite Forall_forall in IH. specialize (IH p Hp). rewrite Forall_forall in IH.
      unfold eqm_bind, eqm_wf_bind in *. destruct (snd p) as [|v0 vr] eqn:Ev; [reflexivity|].
      destruct (msg_find_field (eqm_md S k) (fst p)) as [fd|]; [|discriminate].
      assert (msg_fget fa (fst p) = v0 :: vr) as Eg.
      { apply eqm_fget_nodup; [exact Hn|]. rewrite <- Ev. now destruct p. }
      rewrite Eg. destruct (f_card fd) eqn:Ec.
      1-5: cbn [eqm_vals]; apply eqm_all2_refl, Forall_forall; intros x Hx; apply IH; [exact Hx|];
           rewrite forallb_forall in Hb; now apply Hb.
      rewrite eqm_vals_map. apply andb_true_iff in Hb. destruct Hb as [Hk Hw].
      apply eqm_emap_refl; [exact Hk|]. intros k0 x Hx.
      rewrite forallb_forall in Hw. specialize (Hw _ Hx). cbn in Hw.
      specialize (IH _ Hx (f_kind fd)). cbn [eqm_wf] in IH. specialize (IH Hw).
      rewrite eqm_value_entry in IH. apply andb_true_iff in IH. tauto.
    - cbn [eqm_wf] in Hwf. rewrite eqm_value_entry, eqm_key_refl. cbn [andb]. now apply IH.
  Qed.

  Definition eqm_P_trans (x : value) : Prop :=
    forall k y z, eqm_value S k x y = true -> eqm_value S k y z = true -> eqm_value S k x z = true.

  Lemma eqm_value_trans : forall x, eqm_P_trans x.
  Proof.
    induction x as [s|fa ua IH|ka xa IH] using msg_value_ind; intros k y z Hxy Hyz.
    - destruct y as [t| |]; try discriminate. destruct z as [r| |]; try discriminate.
      cbn [eqm_value] in *. eapply eqm_scalar_trans; eassumption.
    - destruct y as [|fb ub|]; try discriminate. destruct z as [|fc uc|]; try discriminate.
      rewrite eqm_value_msg in *. rewrite !andb_true_iff in *.
      destruct Hxy as [[F1 C1] U1], Hyz as [[F2 C2] U2]. repeat split.
      + rewrite forallb_forall in *. intros p Hp. specialize (F1 p Hp).
        rewrite Forall_forall in IH. specialize (IH p Hp). rewrite Forall_forall in IH.
        unfold eqm_bind in *. destruct (snd p) as [|v0 vr] eqn:Ev; [reflexivity|].
        destruct (msg_find_field (eqm_md S k) (fst p)) as [fd|] eqn:Ef; [|discriminate].
        destruct (msg_fget fb (fst p)) as [|b0 br] eqn:Eb; [discriminate|].
        assert (In (fst p, b0 :: br) fb) as Hb by (rewrite <- Eb; apply msg_fget_in; rewrite Eb; discriminate).
        specialize (F2 _ Hb). cbn [fst snd] in F2. rewrite Ef in F2.
        destruct (msg_fget fc (fst p)) as [|c0 cr] eqn:Ec; [discriminate|].
        destruct (f_card fd) eqn:Ecard.
        1-5: cbn [eqm_vals] in *; eapply eqm_all2_trans; [|exact F1|exact F2];
             intros x' y' z' Hx'; apply IH; exact Hx'.
        rewrite eqm_vals_map in *. eapply eqm_emap_trans; [|exact F1|exact F2].
        intros k0 x' y' z' Hx' H1 H2. specialize (IH _ Hx' (f_kind fd) (VEntry k0 y') (VEntry k0 z')).
        rewrite !eqm_value_entry, eqm_key_refl in IH. cbn [andb] in IH. now apply IH.
      + apply Nat.eqb_eq in C1, C2. apply Nat.eqb_eq. congruence.
      + eapply eqm_unknown_trans; eassumption.
    - destruct y as [| |kb xb]; try discriminate. destruct z as [| |kc xc]; try discriminate.
      rewrite eqm_value_entry in *. rewrite !andb_true_iff, !eqm_key_eq in *.
      destruct Hxy as [-> H1], Hyz as [-> H2]. split; [reflexivity|]. eapply IH; eassumption.
  Qed.

  Definition eqm_P_sym (x : value) : Prop :=
    forall k y, eqm_wf S k x = true -> eqm_wf S k y = true ->
                eqm_value S k x y = true -> eqm_value S k y x = true.

  (* the populated numbers of a are populated in b *)
  Lemma eqm_bind_popnums md ev fa fb :
    forallb (eqm_bind md ev fb) fa = true -> NoDup (map fst fb) -> incl (eqm_popnums fa) (eqm_popnums fb).
  Proof.
    rewrite forallb_forall. intros F Hn n Hin. apply eqm_popnums_in in Hin. destruct Hin as [v [Hv Hin]].
    specialize (F _ Hin). unfold eqm_bind in F. cbn [fst snd] in F. destruct v as [|v0 vr]; [congruence|].
    destruct (msg_find_field md n); [|discriminate].
    apply eqm_popnums_fget; [exact Hn|]. destruct (msg_fget fb n); [discriminate|discriminate].
  Qed.

  Lemma eqm_value_sym : forall x, eqm_P_sym x.
  Proof.
    induction x as [s|fa ua IH|ka xa IH] using msg_value_ind; intros k y Wx Wy Hxy.
    - destruct y as [t| |]; try discriminate. cbn [eqm_value] in *. now apply eqm_scalar_sym.
    - destruct y as [|fb ub|]; try discriminate.
      rewrite eqm_value_msg in *. rewrite !andb_true_iff in *. destruct Hxy as [[F C] U].
      pose proof (eqm_wf_nodup _ _ _ _ Wx) as Na. pose proof (eqm_wf_nodup _ _ _ _ Wy) as Nb.
      apply Nat.eqb_eq in C. repeat split; [|apply Nat.eqb_eq; congruence|now apply eqm_unknown_sym].
      assert (incl (eqm_popnums fb) (eqm_popnums fa)) as I.
      { apply eqm_pop_pigeonhole; [exact Na| |exact C]. eapply eqm_bind_popnums; eassumption. }
      rewrite forallb_forall in *. intros q Hq.
      pose proof (eqm_wf_bind_in _ _ _ _ _ Wy Hq) as Wq.
      unfold eqm_bind. destruct (snd q) as [|b0 br] eqn:Eq; [reflexivity|].
      assert (In (fst q) (eqm_popnums fa)) as Hpa.
      { apply I, eqm_popnums_in. exists (b0 :: br). split; [discriminate|]. rewrite <- Eq. now destruct q. }
      apply eqm_popnums_in in Hpa. destruct Hpa as [va [Hva Hina]].
      specialize (F _ Hina). unfold eqm_bind in F. cbn [fst snd] in F.
      destruct va as [|a0 ar]; [congruence|].
      destruct (msg_find_field (eqm_md S k) (fst q)) as [fd|] eqn:Ef; [|discriminate].
      assert (msg_fget fb (fst q) = b0 :: br) as Egb.
      { apply eqm_fget_nodup; [exact Nb|]. rewrite <- Eq. now destruct q. }
      rewrite Egb in F. rewrite (eqm_fget_nodup _ _ _ Na Hina).
      pose proof (eqm_wf_bind_in _ _ _ _ _ Wx Hina) as Wp. unfold eqm_wf_bind in Wp, Wq. cbn [fst snd] in Wp.
      rewrite Ef in Wp, Wq. rewrite Eq in Wq.
      rewrite Forall_forall in IH. specialize (IH _ Hina). cbn [snd] in IH. rewrite Forall_forall in IH.
      destruct (f_card fd) eqn:Ecard.
      1-5: cbn [eqm_vals] in *; eapply eqm_all2_sym; [|exact F]; intros x' y' Hx' Hy' Hev;
           rewrite forallb_forall in Wp, Wq; apply IH; [exact Hx'|now apply Wp|now apply Wq|exact Hev].
      rewrite eqm_vals_map in *. apply andb_true_iff in Wp, Wq. destruct Wp as [Ka Wa], Wq as [Kb Wb].
      eapply eqm_emap_sym; [exact Ka|exact Kb| |exact F].
      intros k0 x' y' Hx' Hy' Hev. rewrite forallb_forall in Wa, Wb.
      specialize (Wa _ Hx'). specialize (Wb _ Hy'). cbn in Wa, Wb.
      specialize (IH _ Hx' (f_kind fd) (VEntry k0 y')). cbn [eqm_wf] in IH.
      rewrite !eqm_value_entry, eqm_key_refl in IH. cbn [andb] in IH. now apply IH.
    - destruct y as [| |kb xb]; try discriminate. cbn [eqm_wf] in Wx, Wy.
      rewrite eqm_value_entry in *. rewrite !andb_true_iff, !eqm_key_eq in *.
      destruct Hxy as [-> H1]. split; [reflexivity|]. now apply IH.
  Qed.
End Laws.
