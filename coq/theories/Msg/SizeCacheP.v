(* Proofs about Msg/SizeCacheModel.v: the size pass writes exactly the caches
   the append pass reads; an append pass that succeeds always produced the true
   encoding; the ordinary Marshal entry point is correct from every cache state. *)
From Coq Require Import List Arith NArith Lia Bool.
From PB Require Import Base.PBytes Wire.WireModel Msg.SizeCacheModel Msg.SizeCacheVarintP.
Import ListNotations.
Open Scope N_scope.

Definition item_all (P : node -> Prop) (it : item node) : Prop :=
  match it with Raw _ => True | Sub _ c => P c end.

Fixpoint node_ind2 (P : node -> Prop)
  (H : forall c its, Forall (item_all P) its -> P (Node c its)) (n : node) : P n :=
  match n with
  | Node c its =>
      H c its ((fix go (l : list (item node)) : Forall (item_all P) l :=
                  match l with
                  | [] => Forall_nil _
                  | it :: r =>
                      Forall_cons it
                        (match it return item_all P it with
                         | Raw _ => I
                         | Sub _ ch => node_ind2 P H ch
                         end) (go r)
                  end) its)
  end.

Lemma len_app a b : len (a ++ b) = len a + len b.
Proof. unfold len. rewrite app_length. lia. Qed.

Lemma len_nil : len [] = 0.
Proof. reflexivity. Qed.

Definition items_enc (its : list (item node)) : list byte := concat (map (enc_item enc) its).

Lemma enc_node c its : enc (Node c its) = items_enc its.
Proof. reflexivity. Qed.

Lemma items_enc_cons it r : items_enc (it :: r) = enc_item enc it ++ items_enc r.
Proof. reflexivity. Qed.

Definition fits (n : node) : Prop := len (enc n) < 2^64.

(* the size formulas of the code agree with the framing, as long as the
   numbers fit a uint64 (they fit an int in Go) *)
Lemma kind_size_wrap k body : len (wrap k body) < 2^64 -> kind_size k (len body) = len (wrap k body).
Proof.
  destruct k as [tag|st et|tag key vtag|tag|st et]; cbn [wrap kind_size]; intros H;
    repeat rewrite len_app in *; unfold size_bytes.
  - rewrite <- size_varint_len by lia. lia.
  - lia.
  - pose proof (size_varint_len (len body)) as E1.
    rewrite <- E1 by lia.
    pose proof (size_varint_len (len key + (len vtag + (len (enc_varint (len body)) + len body)))) as E2.
    rewrite <- E2 by lia. lia.
  - rewrite <- size_varint_len by lia. lia.
  - lia.
Qed.

Lemma wrap_ge k body : len body <= len (wrap k body).
Proof. destruct k; cbn [wrap]; repeat rewrite len_app; lia. Qed.

(* content (= the tree without its caches) *)
Lemma clone_node c its : clone (Node c its) = Node 0 (map (clone_item clone) its).
Proof. reflexivity. Qed.

Lemma enc_clone : forall n, enc (clone n) = enc n.
Proof.
  induction n as [c its IH] using node_ind2.
  rewrite clone_node, !enc_node. unfold items_enc. f_equal.
  rewrite map_map. apply map_ext_Forall.
  eapply Forall_impl; [|exact IH].
  intros [b|k ch]; cbn; [reflexivity|]. intros ->. reflexivity.
Qed.

Lemma same_enc a b : clone a = clone b -> enc a = enc b.
Proof. intros H. rewrite <- (enc_clone a), <- (enc_clone b), H. reflexivity. Qed.

Lemma height_clone : forall n, height (clone n) = height n.
Proof.
  induction n as [c its IH] using node_ind2.
  rewrite clone_node. cbn [height]. f_equal. f_equal.
  rewrite map_map. apply map_ext_Forall.
  eapply Forall_impl; [|exact IH].
  intros [b|k ch]; cbn; [reflexivity|]. intros ->. reflexivity.
Qed.

Lemma same_height a b : clone a = clone b -> height a = height b.
Proof. intros H. rewrite <- (height_clone a), <- (height_clone b), H. reflexivity. Qed.

Lemma clone_idem n : clone (clone n) = clone n.
Proof.
  induction n as [c its IH] using node_ind2.
  rewrite !clone_node. f_equal. rewrite map_map. apply map_ext_Forall.
  eapply Forall_impl; [|exact IH].
  intros [b|k ch]; cbn; [reflexivity|]. intros ->. reflexivity.
Qed.
Fixpoint all_nodes (P : N -> list (item node) -> Prop) (n : node) : Prop :=
  match n with
  | Node c its =>
      P c its /\
      (fix go (l : list (item node)) : Prop :=
         match l with
         | [] => True
         | it :: r => match it with Raw _ => True | Sub _ ch => all_nodes P ch end /\ go r
         end) its
  end.

Lemma all_nodes_unfold P c its :
  all_nodes P (Node c its) <-> P c its /\ Forall (item_all (all_nodes P)) its.
Proof.
  cbn [all_nodes]. apply and_iff_compat_l.
  induction its as [|it r IH]; [split; auto|].
  rewrite IH. split.
  - intros [H1 H2]. constructor; [destruct it; exact H1 | exact H2].
  - intros H. inversion H; subst. split; [destruct it; assumption | assumption].
Qed.

(* every cache is unset or holds the true size (+1) *)
Definition cache_valid : node -> Prop :=
  all_nodes (fun c its => c = 0 \/ c = len (items_enc its) + 1).
(* every cache holds what sizePointerSlow stores for the true size *)
Definition cache_fresh : node -> Prop :=
  all_nodes (fun c its => c = store (len (items_enc its))).

Lemma store_cases s : store s = 0 \/ store s = s + 1.
Proof. unfold store. destruct (max_cacheable <? s); auto. Qed.

Lemma all_nodes_impl (P Q : N -> list (item node) -> Prop) :
  (forall c its, P c its -> Q c its) -> forall n, all_nodes P n -> all_nodes Q n.
Proof.
  intros HPQ. induction n as [c its IH] using node_ind2.
  rewrite !all_nodes_unfold. intros [H1 H2]. split; [auto|].
  rewrite Forall_forall in *. intros it Hin. specialize (IH it Hin). specialize (H2 it Hin).
  destruct it; cbn in *; auto.
Qed.

Lemma fresh_valid n : cache_fresh n -> cache_valid n.
Proof.
  apply all_nodes_impl. intros c its ->. apply store_cases.
Qed.

Lemma size_items_cons f it r :
  size_items f (it :: r) =
  let '(s1, it') := size_item f it in
  let '(s2, r') := size_items f r in (s1 + s2, it' :: r').
Proof. reflexivity. Qed.

Lemma size_item_sub f k ch : size_item f (Sub k ch) = (kind_size k (fst (f ch)), Sub k (snd (f ch))).
Proof. cbn [size_item]. destruct (f ch); reflexivity. Qed.

Lemma size_items_eq f l :
  size_items f l = (fold_right N.add 0 (map (fun it => fst (size_item f it)) l),
                    map (fun it => snd (size_item f it)) l).
Proof.
  induction l as [|it r IH]; [reflexivity|].
  rewrite size_items_cons, IH. cbn [map fold_right]. destruct (size_item f it). reflexivity.
Qed.

Lemma size_pass_node uc c its :
  size_pass uc (Node c its) =
  if uc && (0 <? c) then (c - 1, Node c its)
  else let r := size_items (size_pass uc) its in (fst r, Node (store (fst r)) (snd r)).
Proof.
  cbn [size_pass]. destruct (uc && (0 <? c)); [reflexivity|].
  destruct (size_items (size_pass uc) its); reflexivity.
Qed.

(* content is never changed, whatever the caches are *)
Lemma size_pass_clone uc : forall n, clone (snd (size_pass uc n)) = clone n.
Proof.
  induction n as [c its IH] using node_ind2.
  rewrite size_pass_node. destruct (uc && (0 <? c)); [reflexivity|]. cbn [snd].
  rewrite !clone_node, size_items_eq. cbn [snd]. rewrite map_map. f_equal.
  apply map_ext_Forall. eapply Forall_impl; [|exact IH].
  intros [b|k ch]; [reflexivity|]. rewrite size_item_sub. cbn. intros ->. reflexivity.
Qed.

Lemma fits_cons c it r : fits (Node c (it :: r)) -> len (enc_item enc it) < 2^64 /\ fits (Node c r).
Proof.
  unfold fits. rewrite !enc_node, items_enc_cons, len_app. lia.
Qed.

Lemma fits_item c its it : fits (Node c its) -> In it its -> len (enc_item enc it) < 2^64.
Proof.
  induction its as [|x r IH]; intros Hf Hin; [destruct Hin|].
  apply fits_cons in Hf. destruct Hin as [->|Hin]; [tauto|]. apply IH; tauto.
Qed.

Lemma fits_sub k ch : len (wrap k (enc ch)) < 2^64 -> fits ch.
Proof. unfold fits. pose proof (wrap_ge k (enc ch)). lia. Qed.

Lemma len_items_enc its :
  len (items_enc its) = fold_right N.add 0 (map (fun it => len (enc_item enc it)) its).
Proof.
  induction its as [|it r IH]; [reflexivity|]. rewrite items_enc_cons, len_app, IH. reflexivity.
Qed.

Lemma size_pass_spec uc : forall n, fits n -> (uc = true -> cache_valid n) ->
  fst (size_pass uc n) = len (enc n) /\
  cache_valid (snd (size_pass uc n)) /\
  (uc = false -> cache_fresh (snd (size_pass uc n))).
Proof.
  induction n as [c its IH] using node_ind2. intros Hfit Hval.
  pose proof (same_enc _ _ (size_pass_clone uc (Node c its))) as He.
  rewrite size_pass_node in *. destruct (uc && (0 <? c)) eqn:Ec.
  - apply andb_true_iff in Ec. destruct Ec as [-> Ec]. specialize (Hval eq_refl).
    cbn [fst snd]. split; [|split; [exact Hval|discriminate]].
    apply all_nodes_unfold in Hval. destruct Hval as [[H|H] _]; rewrite enc_node; lia.
  - rewrite size_items_eq in *. cbn [fst snd] in *. rewrite !enc_node in *.
    set (f := size_pass uc) in *.
    assert (Hit : forall it, In it its ->
              fst (size_item f it) = len (enc_item enc it) /\
              item_all cache_valid (snd (size_item f it)) /\
              (uc = false -> item_all cache_fresh (snd (size_item f it)))).
    { intros it Hin. pose proof (fits_item c its it Hfit Hin) as Hl.
      rewrite Forall_forall in IH. specialize (IH it Hin).
      destruct it as [b|k ch]; [cbn; auto|]. rewrite size_item_sub.
      cbn [fst snd item_all enc_item] in *.
      destruct IH as (I1 & I2 & I3); [exact (fits_sub k ch Hl)| |].
      - intros Hu. apply Hval, all_nodes_unfold, proj2 in Hu.
        rewrite Forall_forall in Hu. apply (Hu _ Hin).
      - rewrite I1. split; [apply kind_size_wrap, Hl|auto]. }
    assert (Hsz : fold_right N.add 0 (map (fun it => fst (size_item f it)) its) = len (items_enc its)).
    { rewrite len_items_enc. f_equal. apply map_ext_in. intros it Hin. apply Hit, Hin. }
    rewrite Hsz. split; [reflexivity|]. split; [|intros Hu]; apply all_nodes_unfold; rewrite He.
    + split; [apply store_cases|]. apply Forall_map, Forall_forall. intros it Hin. apply Hit, Hin.
    + split; [reflexivity|]. apply Forall_map, Forall_forall. intros it Hin. apply Hit; assumption.
Qed.
Lemma append_fuel_S fuel uc c its :
  append_fuel (S fuel) uc (Node c its) =
  let r := append_items uc (append_fuel fuel uc) (append_fuel fuel true) its in (fst r, Node c (snd r)).
Proof. cbn [append_fuel]. destruct (append_items _ _ _ its); reflexivity. Qed.

Lemma height_node c its : height (Node c its) = S (fold_right Nat.max O (map (item_height height) its)).
Proof. reflexivity. Qed.

Lemma height_cons c it r fuel : (height (Node c (it :: r)) <= S fuel)%nat ->
  (item_height height it <= fuel)%nat /\ (height (Node c r) <= S fuel)%nat.
Proof. rewrite !height_node. cbn [map fold_right]. lia. Qed.

Lemma height_item c its it fuel :
  (height (Node c its) <= S fuel)%nat -> In it its -> (item_height height it <= fuel)%nat.
Proof.
  induction its as [|x r IH]; intros Hh Hin; [destruct Hin|].
  apply height_cons in Hh. destruct Hin as [->|Hin]; [tauto|]. apply IH; tauto.
Qed.

(* the framing written by the code is the true framing when the size it used is
   the true size (and always, for groups) *)
Lemma frame_with_wrap k body : len (wrap k body) < 2^64 -> frame_with k (len body) body = wrap k body.
Proof.
  destruct k as [tag|st et|tag key vtag|tag|st et]; cbn [wrap frame_with]; intros H; try reflexivity.
  do 2 f_equal. repeat rewrite len_app in *. unfold size_bytes.
  rewrite <- size_varint_len by lia. reflexivity.
Qed.

Lemma frame_unsized k s body : sized k = false -> frame_with k s body = wrap k body.
Proof. destruct k; cbn [sized]; intros H; try discriminate H; reflexivity. Qed.

(* the two preparation steps of [append_item] on a child: they never change content *)
Definition pre1 (uc : bool) (k : kind) (ch : node) : option N * node :=
  if sized k then let '(s, c) := size_pass uc ch in (Some s, c) else (None, ch).
Definition pre2 (uc : bool) (k : kind) (ch1 : node) : node :=
  if via_marshal k then snd (size_pass uc ch1) else ch1.

Lemma pre1_eq uc k ch :
  pre1 uc k ch = if sized k then (Some (fst (size_pass uc ch)), snd (size_pass uc ch)) else (None, ch).
Proof. unfold pre1. destruct (sized k); [destruct (size_pass uc ch)|]; reflexivity. Qed.

(* the length prefix written before the child is compared with the measured size afterwards *)
Definition frame_check (k : kind) (so : option N) (body : list byte) : ares :=
  match so with
  | Some s => if s =? len body then ABytes (frame_with k s body) else AMismatch
  | None => ABytes (frame_with k 0 body)
  end.

(* the child as the recursive call of the append pass receives it *)
Definition prep (uc : bool) (k : kind) (ch : node) : node := pre2 uc k (snd (pre1 uc k ch)).

Lemma append_item_sub uc rec recm k ch :
  append_item uc rec recm (Sub k ch) =
  let r := (if via_marshal k then recm else rec) (prep uc k ch) in
  (ares_map (frame_check k (fst (pre1 uc k ch))) (fst r), Sub k (snd r)).
Proof.
  cbn [append_item]. unfold prep, pre1, pre2.
  destruct (sized k); [destruct (size_pass uc ch) as [s c]|]; cbn [fst snd];
    (destruct (via_marshal k); [destruct (size_pass uc _) as [s' c']; cbn [snd]; destruct (recm c')|destruct (rec _)]);
    reflexivity.
Qed.

Lemma append_item_fuel fuel uc k ch :
  append_item uc (append_fuel fuel uc) (append_fuel fuel true) (Sub k ch) =
  let r := append_fuel fuel (via_marshal k || uc) (prep uc k ch) in
  (ares_map (frame_check k (fst (pre1 uc k ch))) (fst r), Sub k (snd r)).
Proof. rewrite append_item_sub. destruct (via_marshal k); reflexivity. Qed.

Lemma prep_clone uc k ch : clone (prep uc k ch) = clone ch.
Proof.
  unfold prep, pre2. rewrite pre1_eq.
  destruct (via_marshal k), (sized k); cbn [snd]; rewrite ?size_pass_clone; reflexivity.
Qed.

(* under the invariant the size computed for the prefix is the true size, and the recursive
   call, which trusts the caches if the parent does or if it goes through proto.Marshal, finds
   them valid *)
Lemma prep_spec uc k ch : fits ch -> (uc = true -> cache_valid ch) ->
  (fst (pre1 uc k ch) = if sized k then Some (len (enc ch)) else None) /\
  (via_marshal k || uc = true -> cache_valid (prep uc k ch)) /\
  (cache_valid ch -> cache_valid (prep uc k ch)).
Proof.
  intros Hf Hv. unfold prep, pre2. rewrite pre1_eq.
  pose proof (size_pass_spec uc ch Hf Hv) as (S1 & S2 & _).
  assert (S3 : cache_valid (snd (size_pass uc (snd (size_pass uc ch))))).
  { apply size_pass_spec; [|auto]. unfold fits. rewrite (same_enc _ _ (size_pass_clone uc ch)). exact Hf. }
  destruct (sized k), (via_marshal k); cbn [fst snd orb]; rewrite ?S1; auto.
Qed.

(* the item loop stops at the first error and leaves the remaining items as they are *)
Lemma append_items_cons uc rec recm it rest :
  append_items uc rec recm (it :: rest) =
  match fst (append_item uc rec recm it) with
  | ABytes b1 => (ares_map (fun b2 => ABytes (b1 ++ b2)) (fst (append_items uc rec recm rest)),
                  snd (append_item uc rec recm it) :: snd (append_items uc rec recm rest))
  | e => (e, snd (append_item uc rec recm it) :: rest)
  end.
Proof.
  cbn [append_items]. destruct (append_item uc rec recm it) as [[b1| |] it'];
    [destruct (append_items uc rec recm rest)|..]; reflexivity.
Qed.

Section AppendItems.
  Variables (uc : bool) (rec recm : node -> ares * node).

  Lemma append_items_map {B} (g : item node -> B) l :
    (forall it, In it l -> g (snd (append_item uc rec recm it)) = g it) -> map g (snd (append_items uc rec recm l)) = map g l.
  Proof.
    induction l as [|it rest IH]; intros H; [reflexivity|]. rewrite append_items_cons.
    destruct (fst (append_item uc rec recm it)); cbn [snd map]; rewrite (H it (or_introl eq_refl)); f_equal.
    apply IH. intros x Hx. apply H. right; exact Hx.
  Qed.

  Lemma append_items_Forall (P : item node -> Prop) l :
    (forall it, In it l -> P it -> P (snd (append_item uc rec recm it))) -> Forall P l -> Forall P (snd (append_items uc rec recm l)).
  Proof.
    induction l as [|it rest IH]; intros H Hl; [constructor|]. rewrite append_items_cons.
    inversion Hl; subst.
    destruct (fst (append_item uc rec recm it)); cbn [snd]; constructor; auto using in_eq.
    apply IH; auto. intros x Hx. apply H. right; exact Hx.
  Qed.

  (* success of the loop is success of every item, with the outputs concatenated *)
  Lemma append_items_sound l :
    (forall it, In it l -> forall b, fst (append_item uc rec recm it) = ABytes b -> b = enc_item enc it) ->
    forall b, fst (append_items uc rec recm l) = ABytes b -> b = items_enc l.
  Proof.
    induction l as [|it rest IH]; intros H b; [cbn; congruence|]. rewrite append_items_cons.
    destruct (fst (append_item uc rec recm it)) as [b1| |] eqn:E1; cbn [fst]; try discriminate.
    destruct (fst (append_items uc rec recm rest)) as [b2| |] eqn:E2; cbn [ares_map]; try discriminate.
    intros [= <-]. rewrite items_enc_cons. f_equal.
    - apply (H it); auto using in_eq.
    - apply IH; auto. intros x Hx. apply H. right; exact Hx.
  Qed.

  (* an error of the loop is the error of one item *)
  Lemma append_items_err l e :
    (forall b, e <> ABytes b) -> fst (append_items uc rec recm l) = e -> exists it, In it l /\ fst (append_item uc rec recm it) = e.
  Proof.
    intros He. induction l as [|it rest IH]; [cbn; intros Z; destruct (He _ (eq_sym Z))|].
    rewrite append_items_cons.
    destruct (fst (append_item uc rec recm it)) as [b1| |] eqn:E1; cbn [fst];
      try (intros <-; exists it; split; [left; reflexivity|exact E1]).
    intros E. destruct IH as (x & Hx & Ex).
    - destruct (fst (append_items uc rec recm rest)); cbn [ares_map] in E; [destruct (He _ (eq_sym E))|exact E..].
    - exists x. split; [right; exact Hx|exact Ex].
  Qed.
End AppendItems.

(* content is never changed by the append pass either *)
Lemma append_fuel_clone : forall fuel uc n, clone (snd (append_fuel fuel uc n)) = clone n.
Proof.
  induction fuel as [|fuel IH]; intros uc [c its]; [reflexivity|].
  rewrite append_fuel_S. cbn [snd]. rewrite !clone_node. f_equal.
  apply append_items_map. intros [b|k ch] _; [reflexivity|].
  rewrite append_item_fuel. cbn [snd clone_item]. rewrite IH, prep_clone. reflexivity.
Qed.

(* SOUNDNESS, for arbitrary caches: if the append pass reports success, the
   bytes are the true encoding (the measured-size check catches every stale
   length prefix). *)
Lemma append_fuel_sound : forall fuel uc n b, fits n ->
  fst (append_fuel fuel uc n) = ABytes b -> b = enc n.
Proof.
  induction fuel as [|fuel IH]; intros uc [c its] b Hfit; [cbn; discriminate|].
  rewrite append_fuel_S, enc_node. cbn [fst]. apply append_items_sound.
  intros [bb|k ch] Hin b1; [cbn; congruence|].
  pose proof (fits_item _ _ _ Hfit Hin) as Hl. cbn [enc_item] in *.
  pose proof (same_enc _ _ (prep_clone uc k ch)) as He.
  rewrite append_item_fuel. cbn [fst].
  destruct (fst (append_fuel fuel (via_marshal k || uc) (prep uc k ch))) as [body| |] eqn:Er;
    cbn [ares_map]; try discriminate.
  apply IH in Er; [|unfold fits; rewrite He; exact (fits_sub k ch Hl)]. rewrite He in Er. subst body.
  unfold frame_check. rewrite pre1_eq. destruct (sized k) eqn:Esz; cbn [fst].
  - destruct (_ =? len (enc ch)) eqn:Es; [|discriminate]. apply N.eqb_eq in Es. rewrite Es.
    intros [= <-]. apply frame_with_wrap, Hl.
  - intros [= <-]. apply frame_unsized, Esz.
Qed.

Lemma valid_same_root c c' its its' :
  items_enc its' = items_enc its ->
  (c = 0 \/ c = len (items_enc its) + 1) -> c' = c -> (c' = 0 \/ c' = len (items_enc its') + 1).
Proof. intros -> H ->. exact H. Qed.

(* COMPLETENESS: on a tree whose caches are all unset-or-correct (always, when
   the caches are not used), the append pass succeeds with the true encoding and
   leaves the caches unset-or-correct. *)
Lemma append_fuel_complete : forall fuel uc n, (height n <= fuel)%nat -> fits n ->
  (uc = true -> cache_valid n) ->
  fst (append_fuel fuel uc n) = ABytes (enc n) /\
  (cache_valid n -> cache_valid (snd (append_fuel fuel uc n))).
Proof.
  induction fuel as [|fuel IH]; intros uc [c its] Hh Hfit Hval; [rewrite height_node in Hh; lia|].
  pose proof (same_enc _ _ (append_fuel_clone (S fuel) uc (Node c its))) as Hc.
  rewrite append_fuel_S in *. cbn [fst snd] in *. rewrite !enc_node in *.
  set (item1 := append_item uc (append_fuel fuel uc) (append_fuel fuel true)) in *.
  assert (Hit : forall it, In it its ->
            fst (item1 it) = ABytes (enc_item enc it) /\
            (item_all cache_valid it -> item_all cache_valid (snd (item1 it)))).
  { intros [bb|k ch] Hin; [cbn; auto|].
    pose proof (fits_item _ _ _ Hfit Hin) as Hl. pose proof (height_item _ _ _ _ Hh Hin) as Hhc.
    cbn [enc_item item_height item_all] in *.
    assert (Hv1 : uc = true -> cache_valid ch).
    { intros Hu. apply Hval, all_nodes_unfold, proj2 in Hu. rewrite Forall_forall in Hu. apply (Hu _ Hin). }
    destruct (prep_spec uc k ch (fits_sub k ch Hl) Hv1) as (Q1 & Q2 & Q3).
    pose proof (prep_clone uc k ch) as Pc.
    destruct (IH (via_marshal k || uc) (prep uc k ch)) as [A1 A2]; auto.
    - rewrite (same_height _ _ Pc). exact Hhc.
    - unfold fits. rewrite (same_enc _ _ Pc). exact (fits_sub k ch Hl).
    - unfold item1. rewrite append_item_fuel. cbn [fst snd]. rewrite A1, Q1, (same_enc _ _ Pc). cbn [ares_map]. unfold frame_check.
      split; [|cbn [item_all]; auto].
      destruct (sized k) eqn:Esz; [rewrite N.eqb_refl, frame_with_wrap by exact Hl | rewrite frame_unsized by exact Esz];
        reflexivity. }
  split.
  - destruct (fst (append_items uc (append_fuel fuel uc) (append_fuel fuel true) its)) as [b| |] eqn:E.
    + f_equal. revert b E. apply append_items_sound. intros it Hin b Hb.
      fold item1 in Hb. rewrite (proj1 (Hit it Hin)) in Hb. congruence.
    + apply append_items_err in E; [|discriminate]. destruct E as (it & Hin & Z).
      fold item1 in Z. rewrite (proj1 (Hit it Hin)) in Z. discriminate.
    + apply append_items_err in E; [|discriminate]. destruct E as (it & Hin & Z).
      fold item1 in Z. rewrite (proj1 (Hit it Hin)) in Z. discriminate.
  - intros Hcv. apply all_nodes_unfold in Hcv. destruct Hcv as [Hroot Hkids].
    apply all_nodes_unfold. split; [rewrite Hc; exact Hroot|].
    apply append_items_Forall; [|exact Hkids]. intros it Hin. apply Hit, Hin.
Qed.

Lemma append_pass_complete uc n : fits n -> (uc = true -> cache_valid n) ->
  fst (append_pass uc n) = ABytes (enc n) /\ (cache_valid n -> cache_valid (snd (append_pass uc n))).
Proof. intros. apply append_fuel_complete; auto. Qed.

(* the fuel of [append_pass] (= height) always suffices, whatever the caches *)
Lemma append_fuel_no_fuel : forall fuel uc n, (height n <= fuel)%nat -> fst (append_fuel fuel uc n) <> AFuel.
Proof.
  induction fuel as [|fuel IH]; intros uc [c its] Hh; [rewrite height_node in Hh; lia|].
  rewrite append_fuel_S. cbn [fst]. intros E.
  apply append_items_err in E; [|discriminate]. destruct E as ([bb|k ch] & Hin & E); [discriminate|].
  pose proof (height_item _ _ _ _ Hh Hin) as Hhc. cbn [item_height] in Hhc.
  rewrite append_item_fuel in E. cbn [fst] in E.
  destruct (fst (append_fuel fuel (via_marshal k || uc) (prep uc k ch))) as [body| |] eqn:Er; cbn [ares_map] in E.
  - unfold frame_check in E. destruct (fst (pre1 uc k ch)) as [s|]; [destruct (s =? len body)|]; discriminate.
  - discriminate.
  - revert Er. apply IH. rewrite (same_height _ _ (prep_clone uc k ch)). exact Hhc.
Qed.

Lemma marshal_clone ouc n : clone (snd (marshal ouc n)) = clone n.
Proof.
  unfold marshal. pose proof (size_pass_clone ouc n) as H.
  destruct (size_pass ouc n) as [s n1]. cbn [snd] in H.
  unfold append_pass. rewrite append_fuel_clone. exact H.
Qed.

(* the size pass leaves valid caches whenever it may trust the ones it finds; the append pass
   then reads them *)
Lemma marshal_valid ouc n : fits n -> (ouc = true -> cache_valid n) ->
  fst (marshal ouc n) = ABytes (enc n) /\ cache_valid (snd (marshal ouc n)).
Proof.
  intros Hf Hv. unfold marshal.
  pose proof (size_pass_spec ouc n Hf Hv) as (_ & S2 & _).
  pose proof (same_enc _ _ (size_pass_clone ouc n)) as He.
  destruct (size_pass ouc n) as [s n1]. cbn [fst snd] in *.
  assert (Hf1 : fits n1) by (unfold fits; rewrite He; exact Hf).
  destruct (append_pass_complete true n1 Hf1 (fun _ => S2)) as [A1 A2].
  rewrite A1, He. split; auto.
Qed.

(* proto.Marshal (no UseCachedSize from the caller): correct from EVERY cache state *)
Lemma marshal_spec n : fits n ->
  fst (marshal false n) = ABytes (enc n) /\ cache_valid (snd (marshal false n)).
Proof. intros Hf. apply marshal_valid; [exact Hf|discriminate]. Qed.

(* MarshalOptions{UseCachedSize: true}: correct when the caches are unset-or-correct ... *)
Lemma cmarshal_valid n : fits n -> cache_valid n ->
  fst (marshal true n) = ABytes (enc n) /\ cache_valid (snd (marshal true n)).
Proof. intros Hf Hv. apply marshal_valid; auto. Qed.

(* the contract of UseCachedSize: Size was called and nothing was mutated since *)
Lemma cmarshal_after_size n : fits n -> fst (marshal true (snd (size_pass false n))) = ABytes (enc n).
Proof.
  intros Hf. pose proof (same_enc _ _ (size_pass_clone false n)) as He.
  destruct (size_pass_spec false n Hf ltac:(discriminate)) as (_ & Hv & _).
  rewrite <- He. apply cmarshal_valid; [unfold fits; rewrite He; exact Hf | exact Hv].
Qed.

(* ... and in every other cache state it either fails or is still correct *)
Lemma marshal_sound ouc n b : fits n -> fst (marshal ouc n) = ABytes b -> b = enc n.
Proof.
  intros Hf. unfold marshal.
  pose proof (size_pass_clone ouc n) as Hc.
  destruct (size_pass ouc n) as [s n1]. cbn [snd] in Hc.
  pose proof (same_enc _ _ Hc) as He.
  assert (Hf1 : fits n1) by (unfold fits; rewrite He; exact Hf).
  intros H. apply append_fuel_sound in H; [|exact Hf1]. congruence.
Qed.

Lemma marshal_no_fuel ouc n : fst (marshal ouc n) <> AFuel.
Proof.
  unfold marshal. destruct (size_pass ouc n) as [s n1].
  apply append_fuel_no_fuel. unfold append_pass. lia.
Qed.
Lemma map_replace_nth {A B} (g : A -> B) : forall l i x y,
  nth_error l i = Some y -> g x = g y -> map g (replace_nth i x l) = map g l.
Proof.
  induction l as [|a l IH]; intros [|i] x y H E; cbn in *; try discriminate.
  - inversion H; subst. rewrite E. reflexivity.
  - f_equal. eapply IH; eauto.
Qed.

Lemma update_at_same : forall p t s s', subtree p t = Some s -> clone s' = clone s ->
  clone (update_at p (fun _ => s') t) = clone t.
Proof.
  induction p as [|i p IH]; intros [c its] s s' Hs Hc.
  - cbn in *. inversion Hs; subst. exact Hc.
  - cbn [subtree items_of] in Hs. cbn [update_at].
    destruct (nth_error its i) as [[b|k ch]|] eqn:En; try discriminate.
    rewrite !clone_node. f_equal.
    eapply map_replace_nth; [exact En|]. cbn [clone_item]. f_equal. eapply IH; eauto.
Qed.

Definition readonly (o : op) : bool :=
  match o with OSet _ _ _ | OIns _ _ _ | ODel _ _ => false | _ => true end.

(* Size / Marshal / Equal / Clone never change the content of the tree *)
Lemma step_readonly t o : readonly o = true -> clone (fst (step t o)) = clone t.
Proof.
  destruct o; cbn [readonly]; try discriminate; intros _; cbn [step]; unfold with_sub.
  - destruct (subtree p t) as [s|] eqn:Es; [|reflexivity].
    unfold size_op. pose proof (size_pass_clone uc s) as H.
    destruct (size_pass uc s) as [sz s']. cbn [fst snd] in *. eapply update_at_same; eauto.
  - destruct (subtree p t) as [s|] eqn:Es; [|reflexivity].
    pose proof (marshal_clone uc s) as H.
    destruct (marshal uc s) as [r s']. cbn [fst snd] in *. eapply update_at_same; eauto.
  - destruct (subtree p t), (subtree q t); reflexivity.
  - destruct (subtree p t); reflexivity.
Qed.

(* the observation of an ordinary Marshal, in any state *)
Lemma step_marshal t p s : subtree p t = Some s -> fits s ->
  snd (step t (OMarshal p false)) = OBytes (enc s).
Proof.
  intros Hs Hf. cbn [step]. unfold with_sub. rewrite Hs.
  pose proof (marshal_spec s Hf) as [H _].
  destruct (marshal false s) as [r s']. cbn [fst snd] in *. subst r. reflexivity.
Qed.

Lemma step_size t p s : subtree p t = Some s -> fits s ->
  snd (step t (OSize p false)) = OSz (len (enc s)).
Proof.
  intros Hs Hf. cbn [step]. unfold with_sub, size_op. rewrite Hs.
  pose proof (size_pass_spec false s Hf ltac:(discriminate)) as [H _].
  destruct (size_pass false s) as [r s']. cbn [fst snd] in *. subst r. reflexivity.
Qed.

(* every Marshal / Size observation along a history is current *)
Fixpoint observations_current (ops : list op) (t : node) : Prop :=
  match ops with
  | [] => True
  | o :: r =>
      match o with
      | OMarshal p false => forall s, subtree p t = Some s -> fits s -> snd (step t o) = OBytes (enc s)
      | OSize p false => forall s, subtree p t = Some s -> fits s -> snd (step t o) = OSz (len (enc s))
      | OMarshal p true => forall s b, subtree p t = Some s -> fits s -> snd (step t o) = OBytes b -> b = enc s
      | _ => True
      end /\ observations_current r (fst (step t o))
  end.

Lemma history_current : forall ops t, observations_current ops t.
Proof.
  induction ops as [|o r IH]; intros t; [exact I|].
  cbn [observations_current]. split; [|apply IH].
  destruct o; try exact I; destruct uc.
  - exact I.
  - intros s Hs Hf. apply step_size; assumption.
  - intros s b Hs Hf. cbn [step]. unfold with_sub. rewrite Hs.
    pose proof (marshal_sound true s) as H.
    destruct (marshal true s) as [[b'| |] s']; cbn [fst snd obs_of_ares] in *; try discriminate.
    intros E; inversion E; subst. apply H; auto.
  - intros s Hs Hf. apply step_marshal; assumption.
Qed.

Lemma bytes_eqb_eq a b : bytes_eqb a b = true <-> a = b.
Proof. unfold bytes_eqb. destruct (list_eq_dec Byte.byte_eq_dec a b); split; congruence. Qed.

Lemma kind_eqb_eq a b : kind_eqb a b = true <-> a = b.
Proof.
  destruct a, b; cbn [kind_eqb]; rewrite ?andb_true_iff, ?bytes_eqb_eq;
    (split; [try discriminate; intuition congruence | intros H; inversion H; auto]).
Qed.

Lemma equal_iff : forall a b, equal a b = true <-> clone a = clone b.
Proof.
  induction a as [ca ia IH] using node_ind2. intros [cb ib].
  rewrite !clone_node. cbn [equal].
  match goal with |- ?go ia ib = true <-> _ => set (g := go) end.
  assert (G : g ia ib = true <-> map (clone_item clone) ia = map (clone_item clone) ib).
  { clear ca cb. revert ib. induction ia as [|x ra IHr]; intros [|y rb].
    - cbn. tauto.
    - cbn. split; discriminate.
    - destruct x; cbn; split; discriminate.
    - inversion IH as [|? ? IHx IHrest]; subst. specialize (IHr IHrest rb).
      destruct x as [bx|kx cx], y as [by_|ky cy]; cbn [map clone_item].
      + change (g (Raw bx :: ra) (Raw by_ :: rb)) with (bytes_eqb bx by_ && g ra rb).
        rewrite andb_true_iff, bytes_eqb_eq, IHr. split.
        * intros [-> ->]; reflexivity.
        * intros H; inversion H; auto.
      + change (g (Raw bx :: ra) (Sub ky cy :: rb)) with false. split; discriminate.
      + change (g (Sub kx cx :: ra) (Raw by_ :: rb)) with false. split; discriminate.
      + change (g (Sub kx cx :: ra) (Sub ky cy :: rb)) with (kind_eqb kx ky && equal cx cy && g ra rb).
        cbn [item_all] in IHx.
        rewrite !andb_true_iff, kind_eqb_eq, IHx, IHr. split.
        * intros [[-> ->] ->]; reflexivity.
        * intros H; inversion H; auto. }
  rewrite G. split; [intros ->; reflexivity | intros H; inversion H; reflexivity].
Qed.

(* Equal does not depend on any cache *)
Lemma equal_cache_independent a a' b b' : clone a = clone a' -> clone b = clone b' -> equal a b = equal a' b'.
Proof.
  intros Ha Hb. destruct (equal a b) eqn:E.
  - symmetry. apply equal_iff. apply equal_iff in E. congruence.
  - destruct (equal a' b') eqn:E'; [|reflexivity].
    apply equal_iff in E'. assert (equal a b = true) by (apply equal_iff; congruence). congruence.
Qed.

Lemma clone_caches_zero : forall n, Forall (fun c => c = 0) (caches (clone n)).
Proof.
  induction n as [c its IH] using node_ind2.
  rewrite clone_node. cbn [caches]. constructor; [reflexivity|].
  rewrite map_map. apply Forall_concat. rewrite Forall_map.
  eapply Forall_impl; [|exact IH]. intros [b|k ch]; cbn; auto.
Qed.

Lemma clone_marshal n : fits n -> fst (marshal false (clone n)) = ABytes (enc n).
Proof.
  intros Hf. assert (Hf' : fits (clone n)) by (unfold fits; rewrite enc_clone; exact Hf).
  destruct (marshal_spec (clone n) Hf') as [H _]. rewrite H, enc_clone. reflexivity.
Qed.
