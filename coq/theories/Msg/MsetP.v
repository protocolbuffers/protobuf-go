(* Proofs about the MessageSet model (Msg/MsetModel.v). *)
From Coq Require Import List Arith NArith ZArith Lia Bool.
From Coq Require Import ZifyBool ZifyNat ZifyN.
From PB Require Import Base.PBytes Base.ListP Wire.WireModel Wire.WireGrammar Wire.VarintP Wire.PrimP Wire.ScanP Msg.MsetModel Msg.MsetWireP.
Import ListNotations.
Open Scope N_scope.

(* [lp raw p]: raw is a length-delimited spelling of p (the length varint need not be minimal) *)
Definition lp (raw p : list byte) : Prop := forall y, dec_bytes (raw ++ y) = Ok (p, y).

Lemma lp_enc_bytes p : N.of_nat (length p) < 2^64 -> lp (enc_bytes p) p.
Proof. intros H y. exact (proj1 (bytes_roundtrip p y H)). Qed.

Lemma lp_nonempty raw p : lp raw p -> raw <> [].
Proof. intros H ->. specialize (H []). discriminate. Qed.

Lemma lp_dec_varint raw p : lp raw p -> dec_varint raw = Ok (N.of_nat (length p), p).
Proof.
  intros H. specialize (H []). rewrite app_nil_r in H.
  apply dec_bytes_sound in H. destruct H as (pre & -> & Hs & Hv).
  rewrite app_nil_r, dec_varint_complete, Hv by exact Hs. reflexivity.
Qed.

Inductive part :=
| PId (v : N)                          (* type_id subfield *)
| PChunk (raw p : list byte)           (* message subfield; raw = length prefix ++ p as on the wire *)
| PJunk (num typ : N) (raw : list byte). (* any other subfield *)

Definition special (num typ : N) : bool :=
  ((num =? 1) && (typ =? 4)) || ((num =? 2) && (typ =? 0)) || ((num =? 3) && (typ =? 2)).

Definition valid_part (x : part) : Prop :=
  match x with
  | PId v => 1 <= v <= max_int32
  | PChunk raw p => lp raw p
  | PJunk num typ raw =>
      valid_num num /\ typ < 8 /\ special num typ = false /\
      forall y, exists v, parse_val default_dep num typ (raw ++ y) = Ok (v, y)
  end.

Definition render_part (x : part) : list byte :=
  match x with
  | PId v => enc_tag 2 0 ++ enc_varint v
  | PChunk raw _ => enc_tag 3 2 ++ raw
  | PJunk num typ raw => enc_tag num typ ++ raw
  end.

Fixpoint last_id (tid : N) (ps : list part) : N :=
  match ps with
  | [] => tid
  | PId v :: r => last_id v r
  | _ :: r => last_id tid r
  end.

Fixpoint chunks_of (ps : list part) : list (list byte * list byte) :=
  match ps with
  | [] => []
  | PChunk raw p :: r => (raw, p) :: chunks_of r
  | _ :: r => chunks_of r
  end.

Definition payload_of (cs : list (list byte * list byte)) : list byte := concat (map snd cs).

(* what the Go [message] slice holds after the chunks [cs] (cs non-empty) *)
Definition stored (wl : bool) (cs : list (list byte * list byte)) : list byte :=
  if wl then match cs with [(raw, _)] => raw | _ => enc_bytes (payload_of cs) end
  else payload_of cs.

Definition item_message (wl : bool) (cs : list (list byte * list byte)) : list byte :=
  match cs with
  | [] => if wl then enc_varint 0 else []
  | _ => stored wl cs
  end.

Definition msg_state (wl : bool) (acc : list (list byte * list byte)) (msg : option (list byte)) : Prop :=
  match acc with [] => msg = None | _ => msg = Some (stored wl acc) end.

Lemma payload_of_app a b : payload_of (a ++ b) = payload_of a ++ payload_of b.
Proof. unfold payload_of. now rewrite map_app, concat_app. Qed.

Lemma stored_true_dec_varint acc :
  acc <> [] -> Forall (fun c => lp (fst c) (snd c)) acc ->
  N.of_nat (length (payload_of acc)) < 2^64 ->
  dec_varint (stored true acc) = Ok (N.of_nat (length (payload_of acc)), payload_of acc).
Proof.
  intros Hne Hlp Hlen. unfold stored.
  destruct acc as [|[raw p] [|c2 r]]; [congruence| |].
  - inversion Hlp; subst. cbn [fst snd] in *.
    unfold payload_of. cbn [map concat snd]. rewrite app_nil_r.
    now apply lp_dec_varint.
  - unfold enc_bytes. apply varint_roundtrip. exact Hlen.
Qed.

Lemma stored_nonempty_true acc :
  acc <> [] -> Forall (fun c => lp (fst c) (snd c)) acc -> stored true acc <> [].
Proof.
  intros Hne Hlp. unfold stored.
  destruct acc as [|[raw p] [|c2 r]]; [congruence| |].
  - inversion Hlp; subst. cbn [fst snd] in *. eapply lp_nonempty; eauto.
  - unfold enc_bytes. intros C. apply app_eq_nil in C. destruct C as [C _].
    now apply enc_varint_nonempty in C.
Qed.

Lemma payload_of_single raw p : payload_of [(raw, p)] = p.
Proof. unfold payload_of. cbn [map concat snd]. now rewrite app_nil_r. Qed.

Lemma stored_true_snoc c acc x :
  stored true ((c :: acc) ++ [x]) = enc_bytes (payload_of (c :: acc) ++ snd x).
Proof.
  unfold stored. cbn [app]. destruct c as [rc pc].
  destruct (acc ++ [x]) as [|c2 r2] eqn:E; [destruct acc; discriminate|].
  rewrite <- E. change ((rc, pc) :: acc ++ [x]) with (((rc, pc) :: acc) ++ [x]).
  rewrite payload_of_app. destruct x as [raw p]. rewrite payload_of_single. reflexivity.
Qed.

Lemma stored_false_snoc acc x : stored false (acc ++ [x]) = payload_of acc ++ snd x.
Proof. unfold stored. rewrite payload_of_app. destruct x as [raw p]. rewrite payload_of_single. reflexivity. Qed.

Lemma msg_state_nonempty wl l : l <> [] -> msg_state wl l (Some (stored wl l)).
Proof. unfold msg_state. destruct l; [congruence|reflexivity]. Qed.

(* add_chunk keeps the slice in the state that [stored] describes *)
Lemma add_chunk_stored wl acc msg raw p :
  Forall (fun c => lp (fst c) (snd c)) acc -> msg_state wl acc msg ->
  N.of_nat (length (payload_of (acc ++ [(raw, p)]))) < 2^64 ->
  add_chunk wl msg raw p = MOk (stored wl (acc ++ [(raw, p)])).
Proof.
  intros Hacc Hst Hlen. unfold msg_state in Hst. destruct acc as [|c acc]; subst msg; cbn [add_chunk].
  - cbn [app]. unfold stored. destruct wl; [reflexivity|]. now rewrite payload_of_single.
  - destruct wl; [|now rewrite stored_false_snoc].
    rewrite stored_true_dec_varint; [|discriminate|exact Hacc|].
    2:{ rewrite payload_of_app, app_length in Hlen. lia. }
    rewrite <- app_length, stored_true_snoc. reflexivity.
Qed.

Lemma special_false num typ :
  special num typ = false ->
  (num =? field_item) && (typ =? 4) = false /\
  (num =? field_type_id) && (typ =? 0) = false /\
  (num =? field_message) && (typ =? 2) = false.
Proof.
  unfold special, field_item, field_type_id, field_message. intros H.
  apply orb_false_iff in H. destruct H as [H H3]. apply orb_false_iff in H. destruct H as [H1 H2].
  auto.
Qed.

Lemma item_loop_parts (wl : bool) : forall parts g tid acc msg rest,
  (length parts < length g)%nat ->
  Forall valid_part parts ->
  Forall (fun c => lp (fst c) (snd c)) acc ->
  msg_state wl acc msg ->
  N.of_nat (length (payload_of (acc ++ chunks_of parts))) < 2^64 ->
  item_loop wl g (flat_map render_part parts ++ enc_tag 1 4 ++ rest) tid msg
  = MOk (last_id tid parts, item_message wl (acc ++ chunks_of parts), rest).
Proof.
  induction parts as [|x parts IH]; intros g tid acc msg rest Hg Hv Hacc Hst Hlen.
  - (* end of item *)
    destruct g as [|g0 g]; [cbn [length] in Hg; lia|].
    cbn [flat_map app item_loop].
    rewrite dec_tag_enc by (unfold num_ok; lia).
    unfold field_item. cbn [N.eqb Pos.eqb andb].
    cbn [last_id chunks_of]. rewrite app_nil_r in *.
    f_equal. f_equal. f_equal.
    unfold msg_state in Hst. unfold item_message, finish_msg.
    destruct acc as [|c acc]; [subst msg; reflexivity|].
    subst msg. destruct wl; [|reflexivity].
    cbn [andb].
    destruct (Nat.eqb (length (stored true (c :: acc))) 0) eqn:E; [|reflexivity].
    apply Nat.eqb_eq in E. apply length_zero_iff_nil in E.
    exfalso. revert E. apply stored_nonempty_true; [discriminate|exact Hacc].
  - destruct g as [|g0 g]; [cbn [length] in Hg; lia|].
    cbn [length] in Hg. inversion Hv as [|? ? Hx Hv']; subst.
    cbn [flat_map]. rewrite <- !app_assoc.
    destruct x as [v|raw p|num typ raw]; cbn [render_part valid_part] in *.
    + (* type_id *)
      rewrite <- app_assoc. cbn [item_loop].
      rewrite dec_tag_enc by (unfold num_ok; lia).
      unfold field_item, field_type_id. cbn [N.eqb Pos.eqb andb].
      unfold max_int32 in Hx.
      rewrite varint_roundtrip by (change (2^64) with 18446744073709551616; lia).
      unfold max_int32.
      replace ((v <? 1) || (2147483647 <? v)) with false by lia.
      cbn [last_id chunks_of].
      apply IH; auto. lia.
    + (* message chunk *)
      rewrite <- app_assoc. cbn [item_loop].
      rewrite dec_tag_enc by (unfold num_ok; lia).
      unfold field_item, field_type_id, field_message. cbn [N.eqb Pos.eqb andb].
      rewrite Hx. rewrite firstn_consumed.
      cbn [last_id chunks_of] in *.
      assert (Hacc' : Forall (fun c => lp (fst c) (snd c)) (acc ++ [(raw, p)])).
      { apply Forall_app. split; [exact Hacc|]. constructor; [exact Hx|constructor]. }
      replace (acc ++ (raw, p) :: chunks_of parts) with ((acc ++ [(raw, p)]) ++ chunks_of parts) in *
        by (rewrite <- app_assoc; reflexivity).
      rewrite (add_chunk_stored wl acc msg raw p Hacc Hst) by (rewrite payload_of_app, app_length in Hlen; lia).
      apply IH; auto; [lia|]. apply msg_state_nonempty. destruct acc; discriminate.
    + (* other subfield: skipped *)
      destruct Hx as (Hn & Ht & Hsp & Hpv).
      rewrite <- app_assoc. cbn [item_loop].
      rewrite dec_tag_enc by assumption.
      apply special_false in Hsp. destruct Hsp as (S1 & S2 & S3).
      rewrite S1, S2, S3.
      destruct (Hpv (flat_map render_part parts ++ enc_tag 1 4 ++ rest)) as [v0 Hv0].
      rewrite Hv0.
      cbn [last_id chunks_of].
      apply IH; auto. lia.
Qed.

Lemma render_part_nonempty x : render_part x <> [].
Proof. destruct x; apply enc_tag_app_nonempty. Qed.

Lemma render_parts_length parts : (length parts <= length (flat_map render_part parts))%nat.
Proof. apply flat_map_length_ge, render_part_nonempty. Qed.

(* The item parser on ANY arrangement of well-formed subfields: the last type_id
   wins (0 when absent), message chunks are concatenated in order, everything
   else is skipped. *)
Theorem consume_item_parts wl parts rest :
  Forall valid_part parts ->
  N.of_nat (length (payload_of (chunks_of parts))) < 2^64 ->
  consume_item wl (flat_map render_part parts ++ enc_tag 1 4 ++ rest)
  = MOk (last_id 0 parts, item_message wl (chunks_of parts), rest).
Proof.
  intros Hv Hlen. unfold consume_item.
  apply (item_loop_parts wl parts _ 0 [] None rest); auto.
  - cbn [length]. rewrite app_length. pose proof (render_parts_length parts). lia.
  - reflexivity.
Qed.

(* the body of an item as AppendFieldStart / marshal / AppendFieldEnd write it, after the start tag *)
Definition item_body (id : N) (p : list byte) : list byte :=
  enc_tag 2 0 ++ enc_varint id ++ enc_tag 3 2 ++ enc_bytes p ++ enc_tag 1 4.

Lemma append_item_body id p : append_item id p = enc_tag 1 3 ++ item_body id p.
Proof.
  unfold append_item, append_field_start, append_field_end, item_body, field_item, field_type_id, field_message.
  now rewrite <- !app_assoc.
Qed.

Definition valid_id (id : N) : Prop := 1 <= id <= max_int32.

(* an item whose message subfield is spelled [raw] *)
Lemma gen_item_consume wl id raw p rest :
  valid_id id -> lp raw p -> N.of_nat (length p) < 2^64 ->
  consume_item wl (enc_tag 2 0 ++ enc_varint id ++ enc_tag 3 2 ++ raw ++ enc_tag 1 4 ++ rest)
  = MOk (id, if wl then raw else p, rest).
Proof.
  intros Hid Hlp Hp.
  pose proof (consume_item_parts wl [PId id; PChunk raw p] rest) as H.
  cbn [flat_map render_part last_id chunks_of app] in H.
  rewrite <- !app_assoc in H. cbn [app] in H.
  rewrite H.
  - unfold item_message, stored. rewrite payload_of_single. destruct wl; reflexivity.
  - constructor; [exact Hid|]. constructor; [exact Hlp|constructor].
  - now rewrite payload_of_single.
Qed.

Lemma item_body_roundtrip wl id p rest :
  valid_id id -> N.of_nat (length p) < 2^64 ->
  consume_item wl (item_body id p ++ rest) = MOk (id, if wl then enc_bytes p else p, rest).
Proof.
  intros Hid Hp. unfold item_body. rewrite <- !app_assoc.
  apply gen_item_consume; [exact Hid|now apply lp_enc_bytes|exact Hp].
Qed.

(* either order *)
Lemma item_body_swapped wl id p rest :
  valid_id id -> N.of_nat (length p) < 2^64 ->
  consume_item wl (enc_tag 3 2 ++ enc_bytes p ++ enc_tag 2 0 ++ enc_varint id ++ enc_tag 1 4 ++ rest)
  = consume_item wl (item_body id p ++ rest).
Proof.
  intros Hid Hp. rewrite item_body_roundtrip by assumption.
  pose proof (consume_item_parts wl [PChunk (enc_bytes p) p; PId id] rest) as H.
  cbn [flat_map render_part last_id chunks_of app] in H.
  rewrite <- !app_assoc in *. cbn [app] in H.
  rewrite H.
  - unfold item_message, stored. rewrite payload_of_single. destruct wl; reflexivity.
  - constructor; [now apply lp_enc_bytes|]. constructor; [exact Hid|constructor].
  - now rewrite payload_of_single.
Qed.

Lemma dec_bytes_raw r m r' :
  dec_bytes r = Ok (m, r') ->
  lp (firstn (length r - length r') r) m /\ r = firstn (length r - length r') r ++ r'.
Proof.
  intros H. apply dec_bytes_sound in H. destruct H as (pre & -> & Hs & Hv).
  rewrite (app_assoc pre m r'), firstn_consumed. split; [|reflexivity].
  intros y. rewrite <- app_assoc. now apply dec_bytes_complete.
Qed.

Definition msg_rel (mt mf : option (list byte)) : Prop :=
  match mt, mf with
  | None, None => True
  | Some old, Some p => lp old p
  | _, _ => False
  end.

Lemma lp_length raw p : lp raw p -> (length p <= length raw)%nat.
Proof.
  intros H. specialize (H []). rewrite app_nil_r in H.
  apply dec_bytes_sound in H. destruct H as (pre & -> & _). rewrite !app_length. lia.
Qed.

(* how the result [rt] with wantLen relates to the result [rf] without it, on an input of length n *)
Definition item_sim (n : nat) (rt rf : mres (N * list byte * list byte)) : Prop :=
  match rf with
  | MOk (id, p, r) => exists v, rt = MOk (id, v, r) /\ lp v p /\ id <= max_int32 /\ (length r < n)%nat
  | MErr e => rt = MErr e /\ e <> MFuel /\ e <> MImpossible
  end.

Lemma item_sim_mono n n' rt rf : (n <= n')%nat -> item_sim n rt rf -> item_sim n' rt rf.
Proof.
  intros Hn. unfold item_sim. destruct rf as [[[id p] r]|e]; [|auto].
  intros (v & H1 & H2 & H3 & H4). exists v. repeat split; auto. lia.
Qed.

Lemma item_loop_sim : forall g bs tid mt mf,
  (length bs < length g)%nat -> tid <= max_int32 ->
  msg_rel mt mf ->
  N.of_nat (length (match mf with Some p => p | None => [] end) + length bs) < 2^64 ->
  item_sim (length bs) (item_loop true g bs tid mt) (item_loop false g bs tid mf).
Proof.
  induction g as [|g0 g IH]; intros bs tid mt mf Hg Htid Hrel Hlen; [cbn [length] in Hg; lia|].
  cbn [length] in Hg. cbn [item_loop].
  destruct (dec_tag bs) as [[[num typ] r]|e] eqn:Et; [|split; [reflexivity|split; discriminate]].
  pose proof (dec_tag_len _ _ _ _ Et) as Hr.
  (* every recursive call is on a rest no longer than r *)
  assert (Hnext : forall r' tid' mt' mf', (length r' <= length r)%nat -> tid' <= max_int32 ->
    msg_rel mt' mf' ->
    N.of_nat (length (match mf' with Some p => p | None => [] end) + length r') < 2^64 ->
    item_sim (length bs) (item_loop true g r' tid' mt') (item_loop false g r' tid' mf')).
  { intros r' tid' mt' mf' Hr' Ht' Hrel' Hlen'. apply (item_sim_mono (length r')); [lia|]. apply IH; auto. lia. }
  clear IH. unfold item_sim at 1.
  destruct ((num =? field_item) && (typ =? 4)) eqn:C1.
  { (* end group *)
    unfold msg_rel in Hrel. destruct mt as [old|], mf as [p|]; try contradiction.
    - exists old. split.
      + cbn [finish_msg andb].
        destruct (Nat.eqb (length old) 0) eqn:E; [|reflexivity].
        apply Nat.eqb_eq in E. apply length_zero_iff_nil in E. apply lp_nonempty in Hrel. congruence.
      + cbn [finish_msg]. auto.
    - exists (enc_varint 0). cbn [finish_msg]. split; [reflexivity|]. split; [|auto].
      change (enc_varint 0) with (enc_bytes []). apply lp_enc_bytes. cbn [length]. lia. }
  destruct ((num =? field_type_id) && (typ =? 0)) eqn:C2.
  { destruct (dec_varint r) as [[v r']|e] eqn:Ev; [|split; [reflexivity|split; discriminate]].
    destruct ((v <? 1) || (max_int32 <? v)) eqn:Cv; [split; [reflexivity|split; discriminate]|].
    pose proof (dec_varint_len _ _ _ Ev) as Hr'.
    apply Hnext; auto; lia. }
  destruct ((num =? field_message) && (typ =? 2)) eqn:C3.
  { destruct (dec_bytes r) as [[m r']|e] eqn:Eb; [|split; [reflexivity|split; discriminate]].
    pose proof (dec_bytes_len _ _ _ Eb) as Hm.
    pose proof (dec_bytes_raw _ _ _ Eb) as [Hlp _].
    unfold msg_rel in Hrel. destruct mt as [old|], mf as [p|]; try contradiction; cbn [add_chunk].
    - rewrite (lp_dec_varint _ _ Hrel).
      apply Hnext; [lia|exact Htid| |rewrite app_length; lia].
      unfold msg_rel. rewrite <- app_length.
      change (enc_varint (N.of_nat (length (p ++ m))) ++ p ++ m) with (enc_bytes (p ++ m)).
      apply lp_enc_bytes. rewrite app_length. lia.
    - apply Hnext; [lia|exact Htid|exact Hlp|lia]. }
  destruct (parse_val default_dep num typ r) as [[v0 r']|e] eqn:Ep; [|split; [reflexivity|split; discriminate]].
  pose proof (parse_val_len _ _ _ _ _ _ Ep) as Hr'.
  apply Hnext; auto; lia.
Qed.

(* Both variants of ConsumeFieldValue accept exactly the same inputs, fail with
   the same error, return the same type id and rest, and the wantLen message is
   a length-delimited spelling of the plain one.  Fuel never runs out and the
   "impossible" state (a stored message that does not start with a varint) is
   never reached. *)
Theorem consume_item_sim bs :
  N.of_nat (length bs) < 2^64 ->
  match consume_item false bs with
  | MOk (id, p, r) => exists v, consume_item true bs = MOk (id, v, r) /\ lp v p /\ id <= max_int32
                                /\ (length r < length bs)%nat
  | MErr e => consume_item true bs = MErr e /\ e <> MFuel /\ e <> MImpossible
  end.
Proof.
  intros Hlen. unfold consume_item.
  apply (item_loop_sim (x00 :: bs) bs 0 None None); [cbn [length]; lia|unfold max_int32; lia|exact I|cbn [length]; lia].
Qed.
