(* Proofs about Msg/PresenceCodec.v: C11 over the full binary codec of C03. *)
From Coq Require Import List Arith NArith ZArith Lia Bool Permutation.
From Coq Require Import ZifyBool ZifyNat ZifyN.
From PB Require Import Base.PBytes Wire.WireModel Wire.VarintP Wire.PrimP.
From PB Require Import Msg.MsgSchema Msg.MsgValue Msg.MsgUtf8 Msg.MsgEnc Msg.MsgDec Msg.MsgDecP Msg.MsgValid.
From PB Require Import Msg.MsgWireP Msg.MsgScalarP Msg.MsgAssocP Msg.MsgSizeP Msg.MsgRoundP.
From PB Require Import Msg.PresenceModel Msg.PresenceP Msg.PresenceCodec.
Import ListNotations.
Open Scope N_scope.

Lemma pc_fget_in : forall fs lo k vs, msg_sorted lo fs -> In (k, vs) fs -> msg_fget fs k = vs.
Proof.
  induction fs as [|[k0 v0] r IH]; intros lo k vs Hs Hin; [contradiction|].
  cbn [msg_sorted] in Hs. destruct Hs as [Hlo Hr]. cbn [msg_fget].
  destruct Hin as [E|Hin].
  - inversion E; subst. now rewrite N.eqb_refl.
  - assert (k0 < k).
    { apply (msg_sorted_keys_gt k0 r Hr). unfold msg_keys. apply in_map_iff. exists (k, vs). auto. }
    replace (k =? k0) with false by lia. eapply IH; eassumption.
Qed.

Lemma pc_existsb_keys (fs : fields) num :
  existsb (N.eqb num) (map fst fs) = true <-> exists vs, In (num, vs) fs.
Proof.
  rewrite existsb_exists. split.
  - intros [k [Hin E]]. apply N.eqb_eq in E. subst k. apply in_map_iff in Hin.
    destruct Hin as [[k vs] [E Hin]]. cbn in E. subst. eauto.
  - intros [vs Hin]. exists num. split; [|apply N.eqb_refl].
    apply in_map_iff. exists (num, vs). auto.
Qed.

Lemma pc_typed_field_rule slow eb tv tv2 has2 fd vs :
  msg_typed_field slow eb tv tv2 has2 fd vs = true -> pc_rule_has (f_card fd) vs = true /\ vs <> [].
Proof.
  unfold msg_typed_field, pc_rule_has. intros H.
  apply andb_true_iff in H. destruct H as [_ H].
  destruct (f_card fd) as [| | | | |kk ku vd].
  - destruct vs as [|v [|? ?]]; try discriminate. split; [reflexivity|discriminate].
  - destruct vs as [|v [|? ?]]; try discriminate.
    apply andb_true_iff in H. destruct H as [_ H].
    destruct (f_kind fd); try discriminate. destruct v as [s| |]; try discriminate.
    split; [exact H|discriminate].
  - destruct vs as [|v [|? ?]]; try discriminate. split; [reflexivity|discriminate].
  - destruct vs; [discriminate|]. split; [reflexivity|discriminate].
  - destruct vs; [discriminate|]. split; [reflexivity|discriminate].
  - destruct vs; [rewrite andb_false_r in H; discriminate|]. split; [reflexivity|discriminate].
Qed.

Theorem pc_has_present slow S dep tid v num :
  msg_typed slow S dep tid v = true -> pc_has S tid v num = pc_present v num.
Proof.
  intros Hty. destruct v as [s|fs unk|k e]; try discriminate.
  destruct (msg_typed_unfold _ _ _ _ _ _ Hty) as [d [md [_ [Hnth [Hsort [Hall _]]]]]].
  apply msg_keys_sorted_spec in Hsort.
  unfold pc_has, pc_present, pc_stored. rewrite (msg_nth_error_nth S tid md Hnth).
  destruct (existsb (N.eqb num) (map fst fs)) eqn:Ex.
  - apply pc_existsb_keys in Ex. destruct Ex as [vs Hin].
    rewrite (pc_fget_in fs 0 num vs Hsort Hin).
    rewrite forallb_forall in Hall. specialize (Hall _ Hin).
    unfold msg_typed_chunk in Hall. cbn [fst snd] in Hall.
    destruct (msg_find_field md num) as [fd|]; [|discriminate].
    apply (pc_typed_field_rule _ _ _ _ _ _ _ Hall).
  - assert (Hn : ~ In num (msg_keys fs)).
    { intros Hin. unfold msg_keys in Hin. apply in_map_iff in Hin. destruct Hin as [[k vs] [E Hin]].
      cbn in E. subst k. assert (existsb (N.eqb num) (map fst fs) = true) by (apply pc_existsb_keys; eauto).
      congruence. }
    rewrite (msg_fget_notin fs num Hn).
    destruct (msg_find_field md num) as [fd|]; [|reflexivity].
    destruct (f_card fd); reflexivity.
Qed.

(* for a field of implicit presence [pc_has] is, by the case CImp of [pc_rule_has], the
   non-zero test on a single stored scalar.  That a typed value stores no implicit zero is not
   part of the statement: the typing hypothesis plays no role in it *)
Theorem pc_implicit_has_iff_nonzero slow S dep tid fs unk num fd :
  msg_typed slow S dep tid (VMsg fs unk) = true ->
  msg_find_field (nth tid S []) num = Some fd -> f_card fd = CImp ->
  pc_has S tid (VMsg fs unk) num =
  match msg_fget fs num with [VS s] => negb (msg_scalar_is_zero s) | _ => false end.
Proof. intros _ Hf Hc. unfold pc_has, pc_stored. now rewrite Hf, Hc. Qed.

(* decoding the encoding gives back the value itself (msg_roundtrip, C03), so [pc_has] is the same on both *)

Theorem pc_has_roundtrip slow S limit tid v :
  msg_valid slow S limit tid v = true ->
  exists v', msg_decode slow S limit tid (msg_encode S tid v) = DOk v' /\
             forall f, pc_has S tid v' f = pc_has S tid v f.
Proof. intros H. exists v. split; [now apply msg_roundtrip|reflexivity]. Qed.

(* both facts as one test of a row of the HasPresence table, evaluated over its enumeration *)
Definition pc_card_ok (a : fattr) : bool :=
  implb (valid_attr a)
    (forallb (fun packed =>
       implb (negb (is_repeated (fa_label a)))
             (Bool.eqb (pc_card_explicit (pc_card a false packed)) (has_presence a)) &&
       Bool.eqb (pc_card a false packed =? 1) (negb (is_repeated (fa_label a)) && negb (has_presence a)))
     all_bool).

Lemma pc_card_ok_all : forallb pc_card_ok all_attrs = true.
Proof. vm_compute. reflexivity. Qed.

Lemma pc_card_row a packed : valid_attr a = true ->
  (is_repeated (fa_label a) = false -> pc_card_explicit (pc_card a false packed) = has_presence a) /\
  (pc_card a false packed =? 1) = negb (is_repeated (fa_label a)) && negb (has_presence a).
Proof.
  intros Hv. pose proof pc_card_ok_all as H. rewrite forallb_forall in H.
  specialize (H a (all_attrs_complete a)). unfold pc_card_ok in H. rewrite Hv in H. cbn [implb] in H.
  rewrite forallb_forall in H. specialize (H packed ltac:(destruct packed; cbn; tauto)).
  apply andb_true_iff in H. destruct H as [H1 H2]. split; [|now apply Bool.eqb_prop in H2].
  intros Hr. rewrite Hr in H1. now apply Bool.eqb_prop in H1.
Qed.

Theorem pc_card_explicit_iff_presence : forall a packed,
  valid_attr a = true -> is_repeated (fa_label a) = false ->
  pc_card_explicit (pc_card a false packed) = has_presence a.
Proof. intros a packed Hv. exact (proj1 (pc_card_row a packed Hv)). Qed.

Theorem pc_card_implicit_iff : forall a packed,
  valid_attr a = true ->
  (pc_card a false packed = 1 <-> (is_repeated (fa_label a) = false /\ has_presence a = false)).
Proof.
  intros a packed Hv. destruct (pc_card_row a packed Hv) as [_ H].
  rewrite <- N.eqb_eq, H, andb_true_iff, !negb_true_iff. reflexivity.
Qed.

(* a fuel-free description of the tag loop [parse_fields] *)
Inductive wparse (dep : nat) : list byte -> list wfield -> Prop :=
| WP_nil : wparse dep [] []
| WP_cons bs n t r v r' wfs :
    dec_tag bs = Ok (n, t, r) -> parse_val dep n t r = Ok (v, r') ->
    (length r' < length bs)%nat -> wparse dep r' wfs -> wparse dep bs ((n, v) :: wfs).

Lemma dec_tag_nil : dec_tag [] = Err Truncated.
Proof. reflexivity. Qed.

Lemma wparse_fields dep bs wfs :
  wparse dep bs wfs -> forall g acc, (length bs < length g)%nat ->
  parse_fields g dep bs acc = Ok (rev acc ++ wfs).
Proof.
  induction 1 as [|bs n t r v r' wfs Ht Hv Hl _ IH]; intros g acc Hg.
  - destruct g; [cbn in Hg; lia|]. cbn. now rewrite app_nil_r.
  - destruct g as [|x g]; [cbn in Hg; lia|]. cbn [parse_fields].
    destruct bs as [|b bs']; [rewrite dec_tag_nil in Ht; discriminate|].
    rewrite Ht, Hv. rewrite IH by (cbn [length] in *; lia).
    cbn [rev]. now rewrite <- app_assoc.
Qed.

(* [bs] is a sequence of complete fields that parses to [wfs], whatever follows *)
Definition pparse (dep : nat) (bs : list byte) (wfs : list wfield) : Prop :=
  forall rest wr, wparse dep rest wr -> wparse dep (bs ++ rest) (wfs ++ wr).

Lemma pparse_nil dep : pparse dep [] [].
Proof. intros rest wr H. exact H. Qed.

Lemma pparse_app dep a wa b wb : pparse dep a wa -> pparse dep b wb -> pparse dep (a ++ b) (wa ++ wb).
Proof. intros Ha Hb rest wr H. rewrite <- !app_assoc. apply Ha, Hb, H. Qed.

Lemma pparse_flat_map {A} dep (f : A -> list byte) (w : A -> list wfield) l :
  (forall x, In x l -> pparse dep (f x) (w x)) -> pparse dep (flat_map f l) (flat_map w l).
Proof.
  induction l as [|x r IH]; intros H; [apply pparse_nil|].
  cbn [flat_map]. apply pparse_app; [apply H; now left|apply IH; intros y Hy; apply H; now right].
Qed.

(* elements that each encode to one field of number [num] *)
Lemma pparse_singletons {A} dep num (f : A -> list byte) (w : A -> list wfield) l :
  l <> [] -> (forall x, In x l -> pparse dep (f x) (w x) /\ exists v, w x = [(num, v)]) ->
  pparse dep (flat_map f l) (flat_map w l)
  /\ Forall (fun p => fst p = num) (flat_map w l) /\ flat_map w l <> [].
Proof.
  intros Hne Hone. repeat split.
  - apply pparse_flat_map. intros x Hx. apply (Hone x Hx).
  - apply Forall_forall. intros p Hp. apply in_flat_map in Hp. destruct Hp as [x [Hx Hp]].
    destruct (Hone x Hx) as [_ [v E]]. rewrite E in Hp. destruct Hp as [<-|[]]. reflexivity.
  - destruct l as [|x r]; [congruence|]. cbn [flat_map].
    destruct (Hone x (or_introl eq_refl)) as [_ [v E]]. rewrite E. discriminate.
Qed.

(* one field: a tag that decodes, a payload the scanner consumes exactly *)
Lemma pparse_one dep num typ payload w :
  1 <= num -> num <= msg_max_num -> typ < 8 ->
  (forall ext, parse_val dep num typ (payload ++ ext) = Ok (w, ext)) ->
  pparse dep (enc_tag num typ ++ payload) [(num, w)].
Proof.
  intros Hlo Hhi Ht Hp rest wr Hr. cbn [app]. rewrite <- app_assoc.
  eapply WP_cons.
  - apply dec_tag_enc; [apply msg_num_ok; assumption|exact Ht].
  - apply Hp.
  - pose proof (enc_tag_nonempty num typ). rewrite !app_length. lia.
  - exact Hr.
Qed.

Lemma pparse_len dep num b :
  1 <= num -> num <= msg_max_num -> N.of_nat (length b) < 2^64 ->
  pparse dep (enc_tag num 2 ++ enc_bytes b) [(num, WLen b)].
Proof.
  intros Hlo Hhi Hb. apply pparse_one; [exact Hlo|exact Hhi|reflexivity|].
  intros ext. rewrite msg_parse_val_len, msgw_dec_bytes_enc by exact Hb. reflexivity.
Qed.

Section FieldParse.
  Variable S : schema.
  Let eb := msg_enc_body S.
  Let sb := msg_size_body S.
  Let ok := msg_sizes_ok S.

  Lemma pc_sub_eq v : msg_sub_eq sb eb ok v.
  Proof. apply (proj1 (msg_size_eq_deep S v)). Qed.

  (* an element of a singular / repeated field *)
  Lemma pc_elem_parse slow tv fd v :
    1 <= f_num fd -> f_num fd <= msg_max_num ->
    msg_typed_elem slow eb tv fd v = true ->
    msg_szok_elem sb ok (f_kind fd) v = true ->
    (match f_kind fd with KGrp tid => msg_group_scans (f_num fd) (eb tid v) = true | _ => True end) ->
    pparse default_dep (msg_enc_elem eb (f_num fd) (f_kind fd) v) (pc_elem_w eb (f_num fd) (f_kind fd) v)
    /\ exists w, pc_elem_w eb (f_num fd) (f_kind fd) v = [(f_num fd, w)].
  Proof.
    intros Hlo Hhi Hty Hsz Hscan.
    unfold msg_typed_elem, msg_szok_elem, msg_enc_elem, pc_elem_w in *.
    destruct (f_kind fd) as [sk|t|t], v as [s|fs unk|k e]; try discriminate.
    - apply andb_true_iff in Hty. destruct Hty as [Hok _]. split; [|eauto].
      apply pparse_one; [exact Hlo|exact Hhi|apply msg_sk_wt_lt8|].
      intros ext. apply msg_parse_scalar; assumption.
    - apply andb_true_iff in Hsz. destruct Hsz as [Hok Hlt]. split; [|eauto].
      apply pparse_len; [exact Hlo|exact Hhi|].
      rewrite <- (pc_sub_eq (VMsg fs unk) t Hok). rewrite <- msg_two64_eq. lia.
    - unfold msg_group_scans in Hscan.
      destruct (parse_val default_dep (f_num fd) 3 (eb t (VMsg fs unk) ++ enc_tag (f_num fd) 4))
        as [[w r]|e] eqn:E; [|discriminate].
      destruct r; [|discriminate]. split; [|eauto].
      apply pparse_one; [exact Hlo|exact Hhi|reflexivity|].
      intros ext. destruct (msgw_parse_val_ext _ _ _ _ ext _ _ E) as [E' _]. exact E'.
  Qed.

  Lemma pc_elems_parse slow tv fd vs :
    1 <= f_num fd -> f_num fd <= msg_max_num -> vs <> [] ->
    forallb (msg_typed_elem slow eb tv fd) vs = true ->
    forallb (msg_szok_elem sb ok (f_kind fd)) vs = true ->
    (match f_kind fd with KGrp tid => forallb (fun v => msg_group_scans (f_num fd) (eb tid v)) vs = true | _ => True end) ->
    pparse default_dep (flat_map (fun e => msg_enc_elem eb (f_num fd) (f_kind fd) e) vs)
                       (flat_map (fun e => pc_elem_w eb (f_num fd) (f_kind fd) e) vs)
    /\ Forall (fun w => fst w = f_num fd) (flat_map (fun e => pc_elem_w eb (f_num fd) (f_kind fd) e) vs)
    /\ flat_map (fun e => pc_elem_w eb (f_num fd) (f_kind fd) e) vs <> [].
  Proof.
    intros Hlo Hhi Hne Hty Hsz Hscan. rewrite forallb_forall in Hty, Hsz.
    apply pparse_singletons; [exact Hne|]. intros v Hv. apply (pc_elem_parse slow tv); auto.
    destruct (f_kind fd); auto. rewrite forallb_forall in Hscan. now apply Hscan.
  Qed.

  Lemma pc_entry_parse tv2 fd kk kutf8 e :
    1 <= f_num fd -> f_num fd <= msg_max_num ->
    msg_typed_entry tv2 fd kk kutf8 e = true ->
    msg_szok_entry sb ok kk (f_kind fd) e = true ->
    pparse default_dep (msg_enc_entry eb (f_num fd) kk (f_kind fd) e) (pc_entry_w eb (f_num fd) kk (f_kind fd) e)
    /\ exists w, pc_entry_w eb (f_num fd) kk (f_kind fd) e = [(f_num fd, w)].
  Proof.
    intros Hlo Hhi Hty Hsz.
    unfold msg_typed_entry, msg_szok_entry, msg_enc_entry, pc_entry_w in *.
    destruct e as [s|fs unk|key v]; try discriminate. split; [|eauto].
    apply andb_true_iff in Hsz. destruct Hsz as [Hsz Hlt].
    apply andb_true_iff in Hsz. destruct Hsz as [Hkey Hval].
    apply pparse_len; [exact Hlo|exact Hhi|].
    rewrite app_length, Nnat.Nat2N.inj_add.
    rewrite <- (msg_size_key_eq kk key Hkey).
    rewrite <- (msg_size_elem_eq sb eb ok 2 (f_kind fd) v); [rewrite <- msg_two64_eq; clear - Hlt; lia|clear; cbn; lia|apply pc_sub_eq|exact Hval].
  Qed.

  (* one field with all its values *)
  Lemma pc_field_parse slow tv tv2 has2 fd vs :
    msg_typed_field slow eb tv tv2 has2 fd vs = true ->
    msg_szok_field sb ok fd vs = true ->
    (match f_card fd, f_kind fd with
     | CMap _ _ _, _ => True
     | _, KGrp tid => forallb (fun v => msg_group_scans (f_num fd) (eb tid v)) vs = true
     | _, _ => True end) ->
    pparse default_dep (msg_enc_field eb fd vs) (pc_field_w eb fd vs)
    /\ Forall (fun w => fst w = f_num fd) (pc_field_w eb fd vs)
    /\ pc_field_w eb fd vs <> [].
  Proof.
    intros Hty Hsz Hscan.
    destruct (pc_typed_field_rule _ _ _ _ _ _ _ Hty) as [_ Hne].
    unfold msg_typed_field in Hty. apply andb_true_iff in Hty. destruct Hty as [Hnum Hty].
    apply andb_true_iff in Hnum. destruct Hnum as [Hlo Hhi].
    apply N.leb_le in Hlo, Hhi.
    unfold msg_szok_field in Hsz. apply andb_true_iff in Hsz. destruct Hsz as [_ Hsz].
    unfold msg_enc_field, pc_field_w.
    assert (Hplain := pc_elems_parse slow tv fd vs Hlo Hhi).
    destruct (f_card fd) as [| | | | |kk ku vd].
    - (* COpt *) destruct vs as [|v [|? ?]]; try discriminate.
      apply Hplain; [discriminate|cbn; now rewrite Hty|exact Hsz|destruct (f_kind fd); exact Hscan].
    - (* CImp *) destruct vs as [|v [|? ?]]; try discriminate.
      apply andb_true_iff in Hty. destruct Hty as [Hty _].
      apply Hplain; [discriminate|cbn; now rewrite Hty|exact Hsz|destruct (f_kind fd); exact Hscan].
    - (* CReq *) destruct vs as [|v [|? ?]]; try discriminate.
      apply Hplain; [discriminate|cbn; now rewrite Hty|exact Hsz|destruct (f_kind fd); exact Hscan].
    - (* CRep *) destruct vs as [|v0 vs']; [discriminate|].
      apply Hplain; [discriminate|exact Hty|exact Hsz|destruct (f_kind fd); exact Hscan].
    - (* CPacked *)
      destruct vs as [|v0 vs']; [discriminate|].
      destruct (f_kind fd) as [sk|t|t] eqn:Hk.
      + destruct (msg_packable sk) eqn:Hp.
        * apply andb_true_iff in Hsz. destruct Hsz as [Hall Hlt].
          repeat split; [|repeat constructor|discriminate].
          apply pparse_len; [exact Hlo|exact Hhi|].
          rewrite <- (msg_packed_eq sb ok sk (v0 :: vs')) by exact Hall.
          rewrite <- msg_two64_eq. lia.
        * apply Hplain; [discriminate|exact Hty|exact Hsz|exact I].
      + apply Hplain; [discriminate|exact Hty|exact Hsz|exact I].
      + apply Hplain; [discriminate|exact Hty|exact Hsz|exact Hscan].
    - (* CMap *)
      apply andb_true_iff in Hty. destruct Hty as [Hty _].
      apply andb_true_iff in Hty. destruct Hty as [_ Hty].
      destruct vs as [|e0 es]; [discriminate|].
      rewrite forallb_forall in Hty, Hsz.
      apply pparse_singletons; [discriminate|]. intros e He. apply (pc_entry_parse tv2 fd kk ku); auto.
  Qed.
End FieldParse.

(* the unknown bytes of a canonical value are a sequence of complete fields *)
Lemma pc_unknown_parse slow md has2 : forall g u,
  msg_unknown_ok slow md has2 g u = true -> exists wu, wparse default_dep u wu.
Proof.
  induction g as [|x g IH]; intros u H; [discriminate|].
  cbn [msg_unknown_ok] in H. destruct u as [|b u']; [exists []; constructor|].
  destruct (dec_tag (b :: u')) as [[[num typ] r]|e] eqn:Et; [|discriminate].
  destruct (parse_val default_dep num typ r) as [[w r']|e] eqn:Ev; [|discriminate].
  repeat (apply andb_true_iff in H; destruct H as [H ?]).
  destruct (IH r') as [wu Hwu]; [assumption|].
  exists ((num, w) :: wu). eapply WP_cons; try eassumption.
  destruct (msgw_parse_val_ext _ _ _ _ [] _ _ Ev) as [_ L].
  match goal with Hlt : Nat.ltb _ _ = true |- _ => apply Nat.ltb_lt in Hlt; lia end.
Qed.

(* bytes and wire fields of the chunks, in any order that is a permutation of the entries *)
Lemma pc_chunks_parse (cs : list (N * (list byte * list wfield))) :
  (forall c, In c cs -> pparse default_dep (fst (snd c)) (snd (snd c))) ->
  pparse default_dep (concat (map (fun c => fst (snd c)) cs)) (concat (map (fun c => snd (snd c)) cs)).
Proof.
  induction cs as [|c r IH]; intros H; [apply pparse_nil|].
  cbn [map concat]. apply pparse_app; [apply H; now left|apply IH; intros d Hd; apply H; now right].
Qed.

Theorem pc_encode_fields slow S limit tid v :
  msg_valid slow S limit tid v = true -> pc_groups_scan S tid v = true ->
  exists wu,
    parse_fields (x00 :: pc_unknown v) default_dep (pc_unknown v) [] = Ok wu /\
    parse_fields (x00 :: msg_encode S tid v) default_dep (msg_encode S tid v) [] = Ok (pc_wire S tid v ++ wu) /\
    forall f, In f (map fst (pc_wire S tid v)) <-> pc_has S tid v f = true.
Proof.
  unfold msg_valid. intros H Hscan. apply andb_true_iff in H. destruct H as [Hsz Hty].
  destruct v as [s|fs unk|k e]; try discriminate.
  pose proof (pc_has_present slow S limit tid (VMsg fs unk)) as Hhas.
  destruct (msg_typed_unfold _ _ _ _ _ _ Hty) as [d [md [_ [Hnth [Hsort [Hall [_ Hunk]]]]]]].
  pose proof (msg_nth_error_nth S tid md Hnth) as Hmd.
  apply msg_sizes_ok_unfold in Hsz. rewrite Hmd in Hsz.
  cbn [pc_groups_scan] in Hscan. rewrite Hmd in Hscan.
  destruct (pc_unknown_parse _ _ _ _ _ Hunk) as [wu Hwu].
  exists wu. cbn [pc_unknown].
  set (eb := msg_enc_body S) in *.
  set (cs := map (pc_chunk eb md) fs).
  (* every chunk parses; its wire fields carry the field number of its entry *)
  assert (Hchunk : forall p, In p fs ->
            pparse default_dep (fst (snd (pc_chunk eb md p))) (snd (snd (pc_chunk eb md p))) /\
            Forall (fun w => fst w = fst p) (snd (snd (pc_chunk eb md p))) /\
            snd (snd (pc_chunk eb md p)) <> []).
  { intros p Hp. rewrite forallb_forall in Hall, Hsz, Hscan.
    specialize (Hall p Hp). specialize (Hsz p Hp). specialize (Hscan p Hp).
    unfold msg_typed_chunk in Hall. unfold msg_szok_chunk in Hsz. unfold pc_scan_chunk in Hscan. unfold pc_chunk.
    destruct (msg_find_field md (fst p)) as [fd|] eqn:Hf; [|discriminate]. cbn [fst snd].
    rewrite <- (msg_find_field_num md (fst p) fd Hf).
    eapply pc_field_parse; try eassumption.
    destruct (f_card fd); destruct (f_kind fd); auto. }
  assert (Hbytes : msg_encode S tid (VMsg fs unk) =
                   concat (map (fun c => fst (snd c)) (msg_chunk_sort cs)) ++ unk).
  { unfold msg_encode. cbn [msg_enc_body]. rewrite Hmd. fold eb. f_equal. f_equal.
    assert (E : map (fun p => msg_enc_chunk eb md p) fs = map (fun x => (fst x, fst (snd x))) cs).
    { unfold cs. rewrite map_map. apply map_ext. intros p. unfold msg_enc_chunk, pc_chunk.
      destruct (msg_find_field md (fst p)); reflexivity. }
    rewrite E, (msg_chunk_sort_map (fun x => fst x) cs), map_map. reflexivity. }
  assert (Hwire : pc_wire S tid (VMsg fs unk) = concat (map (fun c => snd (snd c)) (msg_chunk_sort cs))).
  { cbn [pc_wire]. rewrite Hmd. reflexivity. }
  assert (Hperm : Permutation (msg_chunk_sort cs) cs) by apply msg_chunk_sort_perm.
  repeat split.
  - apply (wparse_fields _ _ _ Hwu (x00 :: unk) []). apply Nat.lt_succ_diag_r.
  - rewrite Hbytes, Hwire.
    apply (wparse_fields default_dep _ _) with (acc := []); [|apply Nat.lt_succ_diag_r].
    apply pc_chunks_parse; [|exact Hwu].
    intros c Hc. apply (Permutation_in _ Hperm) in Hc. unfold cs in Hc. apply in_map_iff in Hc.
    destruct Hc as [p [<- Hp]]. apply (Hchunk p Hp).
  - intros Hin. rewrite (Hhas f Hty). cbn [pc_present]. apply pc_existsb_keys.
    rewrite Hwire in Hin. apply in_map_iff in Hin. destruct Hin as [[n w] [E Hin]]. cbn in E. subst n.
    apply in_concat in Hin. destruct Hin as [l [Hl Hw]]. apply in_map_iff in Hl.
    destruct Hl as [c [<- Hc]]. apply (Permutation_in _ Hperm) in Hc. unfold cs in Hc.
    apply in_map_iff in Hc. destruct Hc as [[k vs] [<- Hp]].
    destruct (Hchunk (k, vs) Hp) as [_ [Hall' _]]. rewrite Forall_forall in Hall'.
    specialize (Hall' _ Hw). cbn in Hall'. subst k. eauto.
  - intros Hf. rewrite (Hhas f Hty) in Hf. cbn [pc_present] in Hf. apply pc_existsb_keys in Hf.
    destruct Hf as [vs Hp]. destruct (Hchunk (f, vs) Hp) as [_ [Hall' Hne]].
    destruct (snd (snd (pc_chunk eb md (f, vs)))) as [|[n w] l] eqn:E; [congruence|].
    apply Forall_inv in Hall'. cbn in Hall'. subst n.
    rewrite Hwire. apply in_map_iff. exists (f, w). split; [reflexivity|].
    apply in_concat. exists ((f, w) :: l). split; [|now left].
    apply in_map_iff. exists (pc_chunk eb md (f, vs)). split; [exact E|].
    apply (Permutation_in _ (Permutation_sym Hperm)). unfold cs. apply in_map. exact Hp.
Qed.

(* on the reflection path the scan condition is part of validity *)
Lemma pc_valid_slow_scans S limit tid v :
  msg_valid true S limit tid v = true -> pc_groups_scan S tid v = true.
Proof.
  unfold msg_valid. intros H. apply andb_true_iff in H. destruct H as [_ Hty].
  destruct v as [s|fs unk|k e]; try reflexivity.
  destruct (msg_typed_unfold _ _ _ _ _ _ Hty) as [d [md [_ [Hnth [_ [Hall _]]]]]].
  cbn [pc_groups_scan]. rewrite (msg_nth_error_nth S tid md Hnth).
  apply forallb_forall. intros p Hp. rewrite forallb_forall in Hall. specialize (Hall p Hp).
  unfold msg_typed_chunk in Hall. unfold pc_scan_chunk.
  destruct (msg_find_field md (fst p)) as [fd|]; [|reflexivity].
  unfold msg_typed_field in Hall. apply andb_true_iff in Hall. destruct Hall as [_ Hall].
  assert (G : forall vs, forallb (msg_typed_elem true (msg_enc_body S) (msg_typed true S d) fd) vs = true ->
              forall t, f_kind fd = KGrp t ->
              forallb (fun v => msg_group_scans (f_num fd) (msg_enc_body S t v)) vs = true).
  { intros vs Hvs t Hk. apply forallb_forall. intros v Hv. rewrite forallb_forall in Hvs.
    specialize (Hvs v Hv). unfold msg_typed_elem in Hvs. rewrite Hk in Hvs.
    destruct v; try discriminate. apply andb_true_iff in Hvs. destruct Hvs as [_ Hvs]. exact Hvs. }
  destruct (f_card fd) eqn:Hc; destruct (f_kind fd) as [sk|t|t] eqn:Hk; try reflexivity.
  - destruct (snd p) as [|v [|? ?]]; try discriminate. apply (G [v]); [cbn; now rewrite Hall|reflexivity].
  - destruct (snd p) as [|v [|? ?]]; try discriminate.
    apply andb_true_iff in Hall. destruct Hall as [_ Hall]. destruct v; discriminate.
  - destruct (snd p) as [|v [|? ?]]; try discriminate. apply (G [v]); [cbn; now rewrite Hall|reflexivity].
  - destruct (snd p); [discriminate|]. apply G; [exact Hall|reflexivity].
  - destruct (snd p); [discriminate|]. apply G; [exact Hall|reflexivity].
Qed.

(* messages without group-typed top-level fields need no scan condition *)
Lemma pc_no_groups_scans (S : schema) tid v :
  (forall fd, In fd (nth tid S ([] : mdesc)) -> match f_kind fd with KGrp _ => False | _ => True end) ->
  pc_groups_scan S tid v = true.
Proof.
  intros H. destruct v as [s|fs unk|k e]; try reflexivity. cbn [pc_groups_scan].
  apply forallb_forall. intros p _. unfold pc_scan_chunk.
  destruct (msg_find_field (nth tid S []) (fst p)) as [fd|] eqn:Hf; [|reflexivity].
  specialize (H fd (msg_find_field_in _ _ _ Hf)).
  destruct (f_card fd); destruct (f_kind fd); try reflexivity; contradiction.
Qed.

Corollary pc_unpopulated_not_encoded slow S limit tid v f :
  msg_valid slow S limit tid v = true -> pc_groups_scan S tid v = true ->
  pc_has S tid v f = false -> ~ In f (map fst (pc_wire S tid v)).
Proof.
  intros Hv Hs Hf Hin. destruct (pc_encode_fields slow S limit tid v Hv Hs) as [wu [_ [_ Hiff]]].
  apply Hiff in Hin. congruence.
Qed.

Corollary pc_populated_encoded slow S limit tid v f :
  msg_valid slow S limit tid v = true -> pc_groups_scan S tid v = true ->
  pc_has S tid v f = true -> In f (map fst (pc_wire S tid v)).
Proof.
  intros Hv Hs Hf. destruct (pc_encode_fields slow S limit tid v Hv Hs) as [wu [_ [_ Hiff]]].
  now apply Hiff.
Qed.

(* with no unknown bytes the scanner output is exactly [pc_wire]: no field number of an
   unpopulated field appears on the wire at all *)
Corollary pc_encode_fields_no_unknown slow S limit tid fs :
  msg_valid slow S limit tid (VMsg fs []) = true -> pc_groups_scan S tid (VMsg fs []) = true ->
  exists wfs, parse_fields (x00 :: msg_encode S tid (VMsg fs [])) default_dep (msg_encode S tid (VMsg fs [])) [] = Ok wfs /\
    forall f, In f (map fst wfs) <-> pc_has S tid (VMsg fs []) f = true.
Proof.
  intros Hv Hs. destruct (pc_encode_fields slow S limit tid _ Hv Hs) as [wu [Hu [He Hiff]]].
  cbn [pc_unknown] in Hu. cbn in Hu. inversion Hu; subst wu.
  exists (pc_wire S tid (VMsg fs [])). rewrite app_nil_r in He. split; assumption.
Qed.
