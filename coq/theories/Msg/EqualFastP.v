(* EqualFastP — proofs for C30, part 3: the table-driven equality algorithm (internal/impl/equal.go)
   computes the same relation as the reflection algorithm (protoreflect.Value.Equal) on
   well-formed concrete messages, including extension-map entries that hold empty lists. *)
From Coq Require Import List Arith NArith ZArith Lia Bool Permutation.
From Coq Require Import ZifyBool ZifyNat ZifyN.
From PB Require Import Base.PBytes Base.ListP Wire.WireModel Wire.VarintP.
From PB Require Import Msg.MsgSchema Msg.MsgValue Msg.MsgEnc Msg.MsgValid Msg.MsgWireP Msg.MsgSizeP.
From PB Require Import Msg.MsgDecP Msg.MsgStoreP Msg.EqualModel Msg.EqualP Msg.EqualMsgP.
Import ListNotations.
Open Scope N_scope.

Definition eqm_elem_fast (S : schema) (k : kind) : value -> value -> bool :=
  match k with KMsg _ => eqm_fast S k | _ => eqm_value S k end.

Definition eqm_fbind (S : schema) (ev : kind -> value -> value -> bool) (md : mdesc) (fb : fields) (p : N * list value) : bool :=
  match msg_find_field md (fst p) with
  | None => false
  | Some fd =>
    let vb := msg_fget fb (fst p) in
    if negb (f_ext fd) && (eqm_nil (snd p) || eqm_nil vb) then true
    else eqm_vals (f_card fd) (ev (f_kind fd)) (snd p) vb
  end.

Definition eqm_fhas (fa fb : fields) (fd : fdesc) : bool :=
  f_ext fd || Bool.eqb (eqm_nil (msg_fget fa (f_num fd))) (eqm_nil (msg_fget fb (f_num fd))).

Definition eqm_fextra (md : mdesc) (fa : fields) (q : N * list value) : bool :=
  match msg_find_field md (fst q) with
  | None => false
  | Some fd => negb (f_ext fd) || existsb (N.eqb (fst q)) (map fst fa) || eqm_nil (snd q)
  end.

Lemma eqm_fast_msg S k fa ua fb ub :
  eqm_fast S k (VMsg fa ua) (VMsg fb ub) =
  forallb (eqm_fbind S (eqm_elem_fast S) (eqm_md S k) fb) fa
  && forallb (eqm_fhas fa fb) (eqm_md S k)
  && forallb (eqm_fextra (eqm_md S k) fa) fb
  && eqm_unknown ua ub.
Proof.
  cbn [eqm_fast]. f_equal. f_equal. f_equal.
  apply list_forallb_ext_in. intros p _. unfold eqm_fbind.
  destruct (msg_find_field (eqm_md S k) (fst p)) as [fd|]; [|reflexivity]. cbv zeta.
  destruct (negb (f_ext fd) && (eqm_nil (snd p) || eqm_nil (msg_fget fb (fst p)))); [reflexivity|].
  unfold eqm_elem_fast. destruct (f_card fd); destruct (f_kind fd); reflexivity.
Qed.

Lemma eqm_fast_entry S k ka xa kb xb :
  eqm_fast S k (VEntry ka xa) (VEntry kb xb) = eqm_key ka kb && eqm_fast S k xa xb.
Proof. reflexivity. Qed.

Lemma eqm_vals_nil c ev : eqm_vals c ev [] [] = true.
Proof. destruct c; reflexivity. Qed.

(* the reflection algorithm's per-binding check in terms of eqm_fbind's ingredients *)
Lemma eqm_bind_spec md ev fb p :
  eqm_bind md ev fb p = true <->
  (snd p = [] \/
   exists fd, msg_find_field md (fst p) = Some fd /\ msg_fget fb (fst p) <> [] /\
              eqm_vals (f_card fd) (ev (f_kind fd)) (snd p) (msg_fget fb (fst p)) = true).
Proof.
  unfold eqm_bind. destruct (snd p) as [|v0 vr] eqn:Ev; [split; [now left|reflexivity]|].
  destruct (msg_find_field md (fst p)) as [fd|].
  - destruct (msg_fget fb (fst p)) as [|b0 br] eqn:Eb.
    + split; [discriminate|]. intros [H|[fd' [_ [H _]]]]; [discriminate|congruence].
    + split.
      * intros H. right. exists fd. repeat split; [discriminate|exact H].
      * intros [H|[fd' [E [_ H]]]]; [discriminate|]. inversion E; subst. exact H.
  - split; [discriminate|]. intros [H|[fd' [E _]]]; discriminate.
Qed.

Section FastEq.
  Variable S : schema.

  Definition eqm_P_fast (x : value) : Prop :=
    forall k y, eqm_wf S k x = true -> eqm_wf S k y = true -> eqm_fast S k x y = eqm_value S k x y.

  (* step 1: under the induction hypothesis the element comparisons coincide *)
  Lemma eqm_fbind_elems md fa ua fb ub k p :
    md = eqm_md S k ->
    eqm_wf S k (VMsg fa ua) = true -> eqm_wf S k (VMsg fb ub) = true ->
    In p fa -> Forall eqm_P_fast (snd p) ->
    eqm_fbind S (eqm_elem_fast S) md fb p = eqm_fbind S (eqm_value S) md fb p.
  Proof.
    intros -> Wa Wb Hp IH. unfold eqm_fbind.
    pose proof (eqm_wf_bind_in _ _ _ _ _ Wa Hp) as Wp. unfold eqm_wf_bind in Wp.
    destruct (msg_find_field (eqm_md S k) (fst p)) as [fd|] eqn:Ef; [|reflexivity]. cbv zeta.
    destruct (negb (f_ext fd) && (eqm_nil (snd p) || eqm_nil (msg_fget fb (fst p)))); [reflexivity|].
    (* well-formedness of the other side's values *)
    assert (match f_card fd with
            | CMap _ _ _ => forallb (fun e => match e with VEntry _ x => eqm_wf S (f_kind fd) x | _ => true end) (msg_fget fb (fst p))
            | _ => forallb (fun x => eqm_wf S (f_kind fd) x) (msg_fget fb (fst p))
            end = true) as Wq.
    { destruct (msg_fget fb (fst p)) as [|b0 br] eqn:Eb; [destruct (f_card fd); reflexivity|].
      assert (In (fst p, b0 :: br) fb) as Hq by (rewrite <- Eb; apply msg_fget_in; rewrite Eb; discriminate).
      pose proof (eqm_wf_bind_in _ _ _ _ _ Wb Hq) as Wq. unfold eqm_wf_bind in Wq. cbn [fst snd] in Wq.
      rewrite Ef in Wq. destruct (f_card fd); try exact Wq.
      apply andb_true_iff in Wq. destruct Wq as [_ Wq]. rewrite forallb_forall in *. intros e He.
      specialize (Wq _ He). destruct e; try discriminate; exact Wq. }
    rewrite Forall_forall in IH.
    unfold eqm_elem_fast. destruct (f_kind fd) as [sk|tid|tid] eqn:Ek; try reflexivity.
    destruct (f_card fd) eqn:Ec.
    1-5: cbn [eqm_vals]; apply eqm_all2_ext; intros x y Hx Hy; apply IH; [exact Hx| |];
         [rewrite forallb_forall in Wp; now apply Wp|rewrite forallb_forall in Wq; now apply Wq].
    rewrite !eqm_vals_map. apply eqm_emap_ext. intros k0 x y Hx Hy.
    apply andb_true_iff in Wp. destruct Wp as [_ Wp]. rewrite forallb_forall in Wp, Wq.
    specialize (Wp _ Hx). specialize (Wq _ Hy). cbn in Wp, Wq.
    specialize (IH _ Hx (KMsg tid) (VEntry k0 y)). cbn [eqm_wf] in IH. specialize (IH Wp Wq).
    rewrite eqm_fast_entry, eqm_value_entry, eqm_key_refl in IH. exact IH.
  Qed.

  (* step 2: the two ways of comparing the sets of populated fields agree *)
  Lemma eqm_fast_reflect_bindings md fa ua fb ub k :
    md = eqm_md S k ->
    eqm_wf S k (VMsg fa ua) = true -> eqm_wf S k (VMsg fb ub) = true ->
    forallb (eqm_fbind S (eqm_value S) md fb) fa && forallb (eqm_fhas fa fb) md && forallb (eqm_fextra md fa) fb
    = forallb (eqm_bind md (eqm_value S) fb) fa && Nat.eqb (eqm_populated fa) (eqm_populated fb).
  Proof.
    intros -> Wa Wb. set (md := eqm_md S k).
    pose proof (eqm_wf_nodup _ _ _ _ Wa) as Na. pose proof (eqm_wf_nodup _ _ _ _ Wb) as Nb.
    apply eq_true_iff_eq. rewrite !andb_true_iff, Nat.eqb_eq, !forallb_forall. split.
    - intros [[F1 F2] F3].
      assert (forall p, In p fa -> eqm_bind md (eqm_value S) fb p = true) as R1.
      { intros p Hp. apply eqm_bind_spec. destruct (snd p) as [|v0 vr] eqn:Ev; [now left|right].
        specialize (F1 p Hp). unfold eqm_fbind in F1.
        destruct (msg_find_field md (fst p)) as [fd|] eqn:Ef; [|discriminate]. cbv zeta in F1.
        exists fd. split; [reflexivity|].
        assert (msg_fget fa (fst p) = v0 :: vr) as Ega by (apply eqm_fget_nodup; [exact Na|]; rewrite <- Ev; now destruct p).
        destruct (f_ext fd) eqn:Ex; cbn [negb andb] in F1.
        + rewrite Ev in F1. pose proof (eqm_vals_length _ _ _ _ F1) as L. split; [|exact F1].
          destruct (msg_fget fb (fst p)); [discriminate|discriminate].
        + pose proof (msg_find_field_in _ _ _ Ef) as Hin. pose proof (msg_find_field_num _ _ _ Ef) as Hnum. specialize (F2 _ Hin). unfold eqm_fhas in F2.
          rewrite Ex, Hnum, Ega in F2. cbn [orb eqm_nil] in F2.
          destruct (msg_fget fb (fst p)) as [|b0 br] eqn:Eb; [discriminate|].
          rewrite Ev in F1. cbn [eqm_nil orb] in F1. split; [discriminate|exact F1]. }
      split; [exact R1|].
      assert (incl (eqm_popnums fa) (eqm_popnums fb)) as I1.
      { apply (eqm_bind_popnums md (eqm_value S)); [|exact Nb]. now apply forallb_forall. }
      assert (incl (eqm_popnums fb) (eqm_popnums fa)) as I2.
      { intros n Hn. apply eqm_popnums_in in Hn. destruct Hn as [vb [Hvb Hq]].
        specialize (F3 _ Hq). unfold eqm_fextra in F3. cbn [fst snd] in F3.
        destruct (msg_find_field md n) as [fd|] eqn:Ef; [|discriminate].
        pose proof (eqm_fget_nodup _ _ _ Nb Hq) as Egb.
        destruct (f_ext fd) eqn:Ex; cbn [negb orb] in F3.
        - destruct vb as [|b0 br]; [congruence|]. cbn [eqm_nil] in F3. rewrite orb_false_r in F3.
          apply existsb_exists in F3. destruct F3 as [n' [Hn' E]]. apply N.eqb_eq in E. subst n'.
          apply in_map_iff in Hn'. destruct Hn' as [p [Ep Hp]].
          specialize (F1 _ Hp). unfold eqm_fbind in F1. rewrite Ep, Ef in F1. cbv zeta in F1.
          rewrite Ex, Egb in F1. cbn [negb andb] in F1. pose proof (eqm_vals_length _ _ _ _ F1) as L.
          apply eqm_popnums_in. exists (snd p). split; [destruct (snd p); [discriminate|discriminate]|].
          rewrite <- Ep. now destruct p.
        - pose proof (msg_find_field_in _ _ _ Ef) as Hin. pose proof (msg_find_field_num _ _ _ Ef) as Hnum. specialize (F2 _ Hin). unfold eqm_fhas in F2.
          rewrite Ex, Hnum, Egb in F2. cbn [orb] in F2.
          apply eqm_popnums_fget; [exact Na|]. destruct vb; [congruence|]. cbn [eqm_nil] in F2.
          destruct (msg_fget fa n); [discriminate|discriminate]. }
      rewrite !eqm_populated_len. apply Nat.le_antisymm; apply NoDup_incl_length; try assumption;
        now apply eqm_popnums_nodup.
    - intros [R1 C].
      assert (incl (eqm_popnums fa) (eqm_popnums fb)) as I1.
      { apply (eqm_bind_popnums md (eqm_value S)); [|exact Nb]. now apply forallb_forall. }
      assert (incl (eqm_popnums fb) (eqm_popnums fa)) as I2 by (now apply eqm_pop_pigeonhole).
      split; [split|].
      + intros p Hp. unfold eqm_fbind.
        pose proof (eqm_wf_bind_in _ _ _ _ _ Wa Hp) as Wp. unfold eqm_wf_bind in Wp. fold md in Wp.
        destruct (msg_find_field md (fst p)) as [fd|] eqn:Ef; [|discriminate]. cbv zeta.
        destruct (negb (f_ext fd) && (eqm_nil (snd p) || eqm_nil (msg_fget fb (fst p)))) eqn:Econd; [reflexivity|].
        specialize (R1 _ Hp). apply eqm_bind_spec in R1. destruct R1 as [Enil|[fd' [Ef' [_ Hv]]]].
        * (* an empty binding of x: y has none, or an empty one *)
          rewrite Enil in *.
          assert (msg_fget fb (fst p) = []) as Egb.
          { destruct (msg_fget fb (fst p)) as [|b0 br] eqn:Eb; [reflexivity|exfalso].
            assert (In (fst p) (eqm_popnums fa)) as Hpa.
            { apply I2. apply eqm_popnums_fget; [exact Nb|]. rewrite Eb. discriminate. }
            apply (eqm_popnums_fget _ _ Na) in Hpa. apply Hpa. apply eqm_fget_nodup; [exact Na|].
            rewrite <- Enil. now destruct p. }
          rewrite Egb. apply eqm_vals_nil.
        * rewrite Ef in Ef'. inversion Ef'; subst fd'. exact Hv.
      + intros fd Hfd. unfold eqm_fhas. destruct (f_ext fd); [reflexivity|]. cbn [orb].
        apply Bool.eqb_true_iff.
        destruct (msg_fget fa (f_num fd)) as [|a0 ar] eqn:Ea, (msg_fget fb (f_num fd)) as [|b0 br] eqn:Eb; try reflexivity; exfalso.
        * assert (In (f_num fd) (eqm_popnums fa)) as H by (apply I2, eqm_popnums_fget; [exact Nb|]; rewrite Eb; discriminate).
          apply (eqm_popnums_fget _ _ Na) in H. congruence.
        * assert (In (f_num fd) (eqm_popnums fb)) as H by (apply I1, eqm_popnums_fget; [exact Na|]; rewrite Ea; discriminate).
          apply (eqm_popnums_fget _ _ Nb) in H. congruence.
      + intros q Hq. unfold eqm_fextra.
        pose proof (eqm_wf_bind_in _ _ _ _ _ Wb Hq) as Wq. unfold eqm_wf_bind in Wq. fold md in Wq.
        destruct (msg_find_field md (fst q)) as [fd|]; [|discriminate].
        destruct (f_ext fd); [|reflexivity]. cbn [negb orb].
        destruct (snd q) as [|b0 br] eqn:Eq; [now rewrite orb_true_r|]. rewrite orb_false_r.
        assert (In (fst q) (eqm_popnums fa)) as H.
        { apply I2, eqm_popnums_in. exists (b0 :: br). split; [discriminate|]. rewrite <- Eq. now destruct q. }
        apply eqm_popnums_in in H. destruct H as [va [_ Hva]].
        apply existsb_exists. exists (fst q). split; [|apply N.eqb_refl].
        change (fst q) with (fst (fst q, va)). now apply in_map.
  Qed.

  Theorem eqm_fast_eq_value : forall x, eqm_P_fast x.
  Proof.
    induction x as [s|fa ua IH|ka xa IH] using msg_value_ind; intros k y Wx Wy.
    - destruct y; reflexivity.
    - destruct y as [|fb ub|]; try reflexivity.
      rewrite eqm_fast_msg, eqm_value_msg.
      replace (forallb (eqm_fbind S (eqm_elem_fast S) (eqm_md S k) fb) fa)
        with (forallb (eqm_fbind S (eqm_value S) (eqm_md S k) fb) fa).
      + now rewrite (eqm_fast_reflect_bindings _ fa ua fb ub k eq_refl Wx Wy).
      + symmetry. apply list_forallb_ext_in. intros p Hp. rewrite Forall_forall in IH.
        eapply eqm_fbind_elems; [reflexivity|exact Wx|exact Wy|exact Hp|now apply IH].
    - destruct y as [| |kb xb]; try reflexivity. cbn [eqm_wf] in Wx, Wy.
      rewrite eqm_fast_entry, eqm_value_entry. f_equal. now apply IH.
  Qed.
End FastEq.
