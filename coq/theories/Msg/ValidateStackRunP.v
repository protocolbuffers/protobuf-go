(* ValidateStackRunP — the induction over whole runs, from the single steps of Msg/ValidateStackP.v:
   the explicit-stack state machine [vm_run] (the algorithm of MessageInfo.validate) started on
   the initial stack computes what the recursive-descent validator [vr_msg] computes, for every
   schema table without dangling type indices, every recursion limit, type and input.

   Stack invariant.  A frame [mkVS ty e tail mask] on top of [below], with [bs] still to read at
   machine depth [d] and global flag [A && i], is a pending call of the recursive form:
     ty = VtMessage/VtGroup tid  <->  [vr_loop] of type tid at depth budget [S d] with group number
                                      [e], required numbers seen [mask], accumulator [i];
     ty = VtMap ..               <->  [vr_entry] at budget [d] with "value seen" = 2 in [mask].
   [vs_runs]: if that call returns [VOk i' q' rest], the machine needs n steps
   (n + 2|rest| <= 2|bs| + 1) to pop the frame and then continues on [below] with the bytes the
   frame left -- [tail] for a length-delimited frame (e = 0), [rest] for a group -- at depth
   [S d] with flag [A && i']; if it returns [VBad] the machine answers Invalid within 2|bs| + 1
   steps.  Push = recursive call ([vs_compose]), pop = return ([vs_run_pop_nil], [vs_run_pop_end]).
   The fuel 2|bs| + 2 of [vm_validate_stack] is the bound for the initial frame plus the final
   look at the empty stack. *)
From Coq Require Import List Arith NArith ZArith Lia Bool.
From Coq Require Import ZifyBool ZifyNat ZifyN.
From PB Require Import Base.PBytes Wire.WireModel Wire.VarintP Wire.ScanP.
From PB Require Import Msg.MsgSchema Msg.MsgValue Msg.MsgUtf8 Msg.MsgDec Msg.ValidateMsgModel Msg.ValidateMsgP.
From PB Require Import Msg.DecTotalP Msg.InitSoundP Msg.ValidateStackP.
Import ListNotations.
Open Scope N_scope.

Definition vs_next (e : N) (tail rest : list byte) : list byte := if e =? 0 then tail else rest.

Lemma vs_loop_unfold reqof md vsub vsub2 grp x g' bs seen i q :
  vr_loop reqof md vsub vsub2 grp (x :: g') bs seen i q =
  match bs with
  | [] => if grp =? 0 then VOk (i && vr_req_ok md seen) q [] else VBad
  | _ =>
    match dec_tag bs with
    | Err _ => VBad
    | Ok (num, typ, r) =>
      if msg_max_num <? num then VBad
      else if typ =? 4 then (if num =? grp then VOk (i && vr_req_ok md seen) q r else VBad)
      else
        match vr_step reqof md vsub vsub2 num typ r with
        | VOk i1 q1 r' =>
          vr_loop reqof md vsub vsub2 grp g' r' (if vr_marks md num typ then num :: seen else seen) (i && i1) (q || q1)
        | e => e
        end
    end
  end.
Proof. destruct bs; reflexivity. Qed.

Section Steps.
  Variable S : schema.

  Lemma vs_bad_tag st below b d A i next : b <> [] -> vs_otag b = None ->
    vs_runs S st below b d A i VBad next.
  Proof.
    intros Hb Ho. exists 1%nat. split; [lia|]. intros fuel. cbn [Nat.add].
    rewrite vs_run_cons by exact Hb. rewrite Ho. reflexivity.
  Qed.

  Lemma vs_run_pop_nil st below d A i q (next : list byte -> list byte) :
    vs_end st = 0 -> next [] = vs_tail st ->
    vs_runs S st below [] d A i (VOk (i && vm_pop_ok S st) q []) next.
  Proof.
    intros He Hn. exists 1%nat. split; [cbn [length]; lia|]. split; [lia|]. intros fuel. cbn [Nat.add].
    rewrite vs_run_nil, He, Hn. cbn [N.eqb]. rewrite andb_assoc. reflexivity.
  Qed.

  Lemma vs_run_bad_nil st below d A i next : vs_end st <> 0 ->
    vs_runs S st below [] d A i VBad next.
  Proof.
    intros He. exists 1%nat. split; [lia|]. intros fuel. cbn [Nat.add].
    rewrite vs_run_nil. apply N.eqb_neq in He. rewrite He. reflexivity.
  Qed.

  Lemma vs_run_pop_end st below b d A i q num b1 (next : list byte -> list byte) :
    b <> [] -> vs_otag b = Some (num, 4, b1) -> (length b1 < length b)%nat ->
    vs_end st = num -> next b1 = b1 ->
    vs_runs S st below b d A i (VOk (i && vm_pop_ok S st) q b1) next.
  Proof.
    intros Hb Ho Hl He Hn. exists 1%nat. split; [lia|]. split; [lia|]. intros fuel. cbn [Nat.add].
    rewrite vs_run_cons by exact Hb. rewrite Ho, Hn. cbn [N.eqb Pos.eqb]. rewrite He, N.eqb_refl, andb_assoc. reflexivity.
  Qed.

  Lemma vs_run_bad_end st below b d A i num b1 next :
    b <> [] -> vs_otag b = Some (num, 4, b1) -> vs_end st <> num ->
    vs_runs S st below b d A i VBad next.
  Proof.
    intros Hb Ho He. exists 1%nat. split; [lia|]. intros fuel. cbn [Nat.add].
    rewrite vs_run_cons by exact Hb. rewrite Ho. cbn [N.eqb Pos.eqb]. apply N.eqb_neq in He. rewrite He. reflexivity.
  Qed.

  Lemma vs_run_invalid st below b d A i num wtyp b1 next :
    b <> [] -> vs_otag b = Some (num, wtyp, b1) -> (wtyp =? 4) = false ->
    vm_field_action (fst (vm_info S st num)) num wtyp b1 = AInvalid ->
    vs_runs S st below b d A i VBad next.
  Proof.
    intros Hb Ho H4 Ha. exists 1%nat. split; [lia|]. intros fuel. cbn [Nat.add].
    rewrite vs_run_cons by exact Hb. rewrite Ho, H4, Ha. reflexivity.
  Qed.

  Lemma vs_run_push0 st below b A i num wtyp b1 nt e tail content next :
    b <> [] -> vs_otag b = Some (num, wtyp, b1) -> (wtyp =? 4) = false ->
    vm_field_action (fst (vm_info S st num)) num wtyp b1 = APush nt e tail content ->
    vs_runs S st below b O A i VBad next.
  Proof.
    intros Hb Ho H4 Ha. exists 1%nat. split; [lia|]. intros fuel. cbn [Nat.add].
    rewrite vs_run_cons by exact Hb. rewrite Ho, H4, Ha. reflexivity.
  Qed.

  Lemma vs_run_cont st below b d A i num wtyp b1 b' res next :
    b <> [] -> vs_otag b = Some (num, wtyp, b1) -> (wtyp =? 4) = false ->
    vm_field_action (fst (vm_info S st num)) num wtyp b1 = ACont b' ->
    (length b1 < length b)%nat -> (length b' <= length b1)%nat ->
    vs_runs S (vm_mark S st num wtyp) below b' d A i res next ->
    vs_runs S st below b d A i res next.
  Proof.
    intros Hb Ho H4 Ha Hl1 Hl2 Hr.
    assert (Step : forall f init, vm_run S (Datatypes.S f) (st :: below) b d init =
                                  vm_run S f (vm_mark S st num wtyp :: below) b' d init).
    { intros f init. rewrite vs_run_cons by exact Hb. rewrite Ho, H4, Ha. reflexivity. }
    destruct res as [i' q' rest| |]; [| |exact I].
    - destruct Hr as (n & Hn & Hlr & Hr). exists (Datatypes.S n). split; [lia|]. split; [lia|].
      intros fuel. cbn [Nat.add]. rewrite Step. apply Hr.
    - destruct Hr as (n & Hn & Hr). exists (Datatypes.S n). split; [lia|].
      intros fuel. cbn [Nat.add]. rewrite Step. apply Hr.
  Qed.

  (* push = call, pop = return *)
  Lemma vs_compose st below b d' A i num wtyp b1 nt e tail content rs
        (cont : bool -> bool -> list byte -> vres) res next :
    b <> [] -> vs_otag b = Some (num, wtyp, b1) -> (wtyp =? 4) = false ->
    vm_field_action (fst (vm_info S st num)) num wtyp b1 = APush nt e tail content ->
    (length b1 < length b)%nat -> (length content + length tail <= length b1)%nat ->
    vs_runs S (mkVS nt e tail []) (vm_mark S st num wtyp :: below) content d' (A && i) true rs (vs_next e tail) ->
    (forall i1 q1 rest1, rs = VOk i1 q1 rest1 ->
       vs_runs S (vm_mark S st num wtyp) below (vs_next e tail rest1) (Datatypes.S d') A (i && i1)
               (cont i1 q1 rest1) next) ->
    res = match rs with VOk i1 q1 rest1 => cont i1 q1 rest1 | VBad => VBad | VFuel => VFuel end ->
    vs_runs S st below b (Datatypes.S d') A i res next.
  Proof.
    intros Hb Ho H4 Ha Hl1 Hl2 Hsub Hcont ->.
    assert (Step : forall f init, vm_run S (Datatypes.S f) (st :: below) b (Datatypes.S d') init =
                     vm_run S f (mkVS nt e tail [] :: vm_mark S st num wtyp :: below) content d' init).
    { intros f init. rewrite vs_run_cons by exact Hb. rewrite Ho, H4, Ha. reflexivity. }
    destruct rs as [i1 q1 rest1| |]; [| |exact I].
    - specialize (Hcont i1 q1 rest1 eq_refl).
      destruct Hsub as (n1 & Hn1 & Hlr1 & Hsub). rewrite andb_true_r in Hsub.
      assert (Hnx : (length (vs_next e tail rest1) <= length b1)%nat /\
                    (n1 + 2 * length (vs_next e tail rest1) <= 2 * length b1 + 1)%nat).
      { unfold vs_next. destruct (e =? 0); lia. }
      destruct (cont i1 q1 rest1) as [i' q' rest| |]; [| |exact I].
      + destruct Hcont as (n2 & Hn2 & Hlr2 & Hcont). exists (Datatypes.S (n1 + n2)).
        split; [lia|]. split; [lia|]. intros fuel. cbn [Nat.add]. rewrite Step.
        rewrite <- Nat.add_assoc, Hsub, <- andb_assoc. apply Hcont.
      + destruct Hcont as (n2 & Hn2 & Hcont). exists (Datatypes.S (n1 + n2)).
        split; [lia|]. intros fuel. cbn [Nat.add]. rewrite Step.
        rewrite <- Nat.add_assoc, Hsub, <- andb_assoc. apply Hcont.
    - destruct Hsub as (n1 & Hn1 & Hsub). rewrite andb_true_r in Hsub. exists (Datatypes.S n1).
      split; [lia|]. intros fuel. cbn [Nat.add]. rewrite Step. apply Hsub.
  Qed.
End Steps.

Lemma vs_vtype_msg fd tid : vm_field_vtype fd = VtMessage tid -> f_kind fd = KMsg tid.
Proof.
  unfold vm_field_vtype. destruct (f_card fd); try discriminate.
  all: destruct (f_kind fd) as [sk|t|t]; try discriminate; [|intros H; inversion H; reflexivity].
  all: destruct sk, (f_utf8 fd); discriminate.
Qed.
Lemma vs_vtype_grp fd tid : vm_field_vtype fd = VtGroup tid -> f_kind fd = KGrp tid.
Proof.
  unfold vm_field_vtype. destruct (f_card fd); try discriminate.
  all: destruct (f_kind fd) as [sk|t|t]; try discriminate; [|intros H; inversion H; reflexivity].
  all: intros H; now apply vs_scalar_not_group in H.
Qed.
Lemma vs_vtype_map fd kk kutf8 vdef : f_card fd = CMap kk kutf8 vdef ->
  vm_field_vtype fd = VtMap (vs_kt kk kutf8) (vs_vt (f_kind fd) (f_utf8 fd)) (vs_vmi (f_kind fd)).
Proof. intros H. unfold vm_field_vtype. rewrite H. reflexivity. Qed.

Lemma vs_info_map S st kk kutf8 vk vutf8 num :
  vs_typ st = VtMap (vs_kt kk kutf8) (vs_vt vk vutf8) (vs_vmi vk) ->
  fst (vm_info S st num) = vs_entry_vt kk kutf8 vk vutf8 num /\
  forall typ, vm_mark S st num typ =
    mkVS (vs_typ st) (vs_end st) (vs_tail st)
         (if (num =? 2) && vm_compat (vs_vt vk vutf8) typ then num :: vs_mask st else vs_mask st).
Proof.
  intros Ht. unfold vm_mark, vm_info, vs_entry_vt. rewrite Ht.
  destruct (num =? 1) eqn:E1.
  - assert (E2 : (num =? 2) = false) by lia. rewrite E2. cbn [fst andb]. split; [reflexivity|].
    intros typ. destruct st; cbn in Ht |- *; rewrite Ht; reflexivity.
  - destruct (num =? 2) eqn:E2; cbn [fst andb]; (split; [reflexivity|]); intros typ.
    + destruct (vm_compat (vs_vt vk vutf8) typ); [reflexivity|]. destruct st; cbn in Ht |- *; rewrite Ht; reflexivity.
    + destruct st; cbn in Ht |- *; rewrite Ht; reflexivity.
Qed.

Section Run.
  Variable S : schema.
  Hypothesis Hwf : dt_schema_wf S.

  Definition vs_P_msg (d : nat) : Prop :=
    forall tid md ty, nth_error S tid = Some md -> (ty = VtMessage tid \/ ty = VtGroup tid) ->
    forall grp tail below g bs seen i q A,
      vs_runs S (mkVS ty grp tail seen) below bs d A i
              (vr_loop (vr_reqof S) md (vr_msg S d) (vp_vsub2 S d) grp g bs seen i q) (vs_next grp tail).

  Definition vs_P_entry (d : nat) : Prop :=
    forall kk kutf8 vk vutf8, match vk with KMsg t => nth_error S t <> None | _ => True end ->
    forall tail below g bs sv i q mask A,
      match vk with KMsg _ => sv = vr_seen mask 2 | _ => True end ->
      vs_runs S (mkVS (VtMap (vs_kt kk kutf8) (vs_vt vk vutf8) (vs_vmi vk)) 0 tail mask) below bs d A i
              (vr_entry (vr_reqof S) g kk kutf8 vk vutf8 (vr_msg S d) bs sv i q) (vs_next 0 tail).

  Lemma vs_entry_of_msg d : (forall d', d = Datatypes.S d' -> vs_P_msg d') -> vs_P_entry d.
  Proof.
    intros IHm kk kutf8 vk vutf8 Hvk tail below g.
    induction g as [|x g' IH]; intros bs sv i q mask A Hsv; [exact I|].
    rewrite vs_entry_unfold.
    set (st := mkVS (VtMap (vs_kt kk kutf8) (vs_vt vk vutf8) (vs_vmi vk)) 0 tail mask).
    destruct bs as [|b0 t].
    { (* end of the entry: PopState *)
      assert (Hp : vm_pop_ok S st = negb (match vk with KMsg tid => vr_reqof S tid | _ => false end) || sv).
      { unfold vm_pop_ok, st. cbn [vs_typ vs_mask]. destruct vk as [sk|tid|tid]; cbn [vs_vmi]; try reflexivity.
        rewrite Hsv. reflexivity. }
      rewrite <- Hp. apply vs_run_pop_nil; reflexivity. }
    assert (Hb : b0 :: t <> []) by discriminate.
    destruct (dec_tag (b0 :: t)) as [[[num typ] r]|e] eqn:Et.
    2: { apply vs_bad_tag; [exact Hb|]. unfold vs_otag. rewrite Et. reflexivity. }
    destruct (msg_max_num <? num) eqn:Em.
    { apply vs_bad_tag; [exact Hb|]. unfold vs_otag. rewrite Et, Em. reflexivity. }
    pose proof (vs_otag_some _ _ _ _ Et Em) as Ho.
    pose proof (dec_tag_len _ _ _ _ Et) as Hl.
    pose proof (dec_tag_num_pos _ _ _ _ Et) as Hpos.
    destruct (vs_info_map S st kk kutf8 vk vutf8 num eq_refl) as [Hinfo Hmark].
    destruct (typ =? 4) eqn:H4.
    { (* an end-group tag in a map entry: the machine compares with endGroup = 0, the recursive
         form skips it as a value, which fails *)
      apply N.eqb_eq in H4. subst typ.
      assert (Hb4 : vs_entry_body (vr_reqof S) g' kk kutf8 vk vutf8 (vr_msg S d) num 4 r sv i q = VBad).
      { unfold vs_entry_body. cbn [N.eqb Pos.eqb andb]. rewrite !andb_false_r. cbn [andb].
        unfold vr_skip. rewrite parse_val_eq. reflexivity. }
      rewrite Hb4. eapply vs_run_bad_end; [exact Hb|exact Ho|]. cbn [vs_end st]. unfold st. cbn [vs_end]. lia. }
    pose proof (vs_entry_action (vr_reqof S) g' kk kutf8 vk vutf8 (vr_msg S d) num typ r sv i q) as Hact.
    pose proof (vs_action_bound (vs_entry_vt kk kutf8 vk vutf8 num) num typ r) as Hbound.
    rewrite <- Hinfo in Hact, Hbound.
    destruct (vm_field_action (fst (vm_info S st num)) num typ r) as [|r'|nt e tail' content] eqn:Ea.
    - rewrite Hact. eapply vs_run_invalid; eassumption.
    - rewrite Hact. eapply vs_run_cont; try eassumption.
      rewrite Hmark. cbn [vs_typ vs_end vs_tail vs_mask st]. unfold st. cbn [vs_typ vs_end vs_tail vs_mask].
      apply IH.
      (* the value-seen flag is unchanged by a field that is skipped *)
      destruct vk as [sk|tid|tid]; try exact I.
      destruct ((num =? 2) && vm_compat (vs_vt (KMsg tid) vutf8) typ) eqn:Ec; [|exact Hsv].
      (* num = 2, typ = 2 with a message value would have been a push *)
      exfalso. cbn [vs_vt vm_compat] in Ec. assert (num = 2 /\ typ = 2) as [-> ->] by lia.
      rewrite Hinfo in Ea. unfold vs_entry_vt in Ea. cbn [N.eqb Pos.eqb vs_vt] in Ea.
      rewrite vs_action_len in Ea. destruct (dec_bytes r) as [[v b3]|]; discriminate.
    - destruct Hact as (tid & -> & -> & -> & -> & -> & Hact). rewrite Hact.
      destruct Hbound as [Hbound _].
      destruct d as [|d'].
      { cbn [vr_msg]. eapply vs_run_push0; eassumption. }
      specialize (IHm d' eq_refl).
      rewrite vp_vr_unfold. cbv beta iota in Hvk.
      destruct (nth_error S tid) as [md'|] eqn:Emd; [|congruence].
      eapply vs_compose with
          (rs := vr_loop (vr_reqof S) md' (vr_msg S d') (vp_vsub2 S d') 0 (x00 :: content) content [] true false)
          (cont := fun i1 q1 _ => vr_entry (vr_reqof S) g' kk kutf8 (KMsg tid) vutf8
                                       (vr_msg S (Datatypes.S d')) tail' true (i && i1) (q || q1));
        try eassumption.
      + apply (IHm tid md' (VtMessage tid) Emd (or_introl eq_refl)).
      + intros i1 q1 rest1 _. cbn [vs_next N.eqb].
        rewrite Hmark. unfold st. cbn [vs_typ vs_end vs_tail vs_mask vs_vt vm_compat N.eqb Pos.eqb andb].
        apply IH. reflexivity.
      + reflexivity.
  Qed.

  Lemma vs_msg_of_sub d :
    (forall d', d = Datatypes.S d' -> vs_P_msg d' /\ vs_P_entry d') -> vs_P_msg d.
  Proof.
    intros IHd tid md ty Hmd Hty grp tail below g.
    assert (Hnth : nth tid S [] = md) by (apply nth_error_nth; exact Hmd).
    assert (HinS : In md S) by (eapply nth_error_In; exact Hmd).
    induction g as [|x g' IH]; intros bs seen i q A; [exact I|].
    rewrite vs_loop_unfold.
    set (st := mkVS ty grp tail seen).
    assert (Hst : vs_typ st = VtMessage tid \/ vs_typ st = VtGroup tid) by exact Hty.
    assert (Hp : vm_pop_ok S st = vr_req_ok md seen).
    { unfold vm_pop_ok, st. cbn [vs_typ vs_mask]. destruct Hty as [-> | ->]; rewrite Hnth; reflexivity. }
    destruct bs as [|b0 t].
    { destruct (grp =? 0) eqn:Eg.
      - rewrite <- Hp. apply vs_run_pop_nil; [cbn [vs_end st]; unfold st; cbn [vs_end]; lia|].
        unfold vs_next. rewrite Eg. reflexivity.
      - apply vs_run_bad_nil. unfold st. cbn [vs_end]. lia. }
    assert (Hb : b0 :: t <> []) by discriminate.
    destruct (dec_tag (b0 :: t)) as [[[num typ] r]|e] eqn:Et.
    2: { apply vs_bad_tag; [exact Hb|]. unfold vs_otag. rewrite Et. reflexivity. }
    destruct (msg_max_num <? num) eqn:Em.
    { apply vs_bad_tag; [exact Hb|]. unfold vs_otag. rewrite Et, Em. reflexivity. }
    pose proof (vs_otag_some _ _ _ _ Et Em) as Ho.
    pose proof (dec_tag_len _ _ _ _ Et) as Hl.
    pose proof (dec_tag_num_pos _ _ _ _ Et) as Hpos.
    destruct (vs_info_msg S st tid md num Hst Hnth) as [Hinfo Hmark].
    destruct (typ =? 4) eqn:H4.
    { apply N.eqb_eq in H4. subst typ. destruct (num =? grp) eqn:Eg.
      - apply N.eqb_eq in Eg. subst grp. rewrite <- Hp.
        eapply vs_run_pop_end; [exact Hb|exact Ho|exact Hl|reflexivity|].
        unfold vs_next. replace (num =? 0) with false by lia. reflexivity.
      - eapply vs_run_bad_end; [exact Hb|exact Ho|]. unfold st. cbn [vs_end]. lia. }
    pose proof (vs_step_action (vr_reqof S) md (vr_msg S d) (vp_vsub2 S d) num typ r) as Hrel.
    pose proof (vs_action_bound (vs_vt_of md num) num typ r) as Hbound.
    rewrite <- Hinfo in Hrel, Hbound.
    assert (Hst' : vm_mark S st num typ = mkVS ty grp tail (if vr_marks md num typ then num :: seen else seen)).
    { rewrite Hmark. reflexivity. }
    destruct (vm_field_action (fst (vm_info S st num)) num typ r) as [|r'|nt e tail' content] eqn:Ea.
    - cbn [vs_step_rel] in Hrel. rewrite Hrel. eapply vs_run_invalid; eassumption.
    - cbn [vs_step_rel] in Hrel. destruct Hrel as (q0 & ->). rewrite andb_true_r.
      eapply vs_run_cont; try eassumption. rewrite Hst'. apply IH.
    - destruct Hbound as [Hbound Hnt].
      (* the pushed type comes from a field of md: its type index is not dangling *)
      assert (Hfd : exists fd, msg_find_field md num = Some fd /\ nt = vm_field_vtype fd).
      { rewrite Hinfo in Hnt. unfold vs_vt_of in Hnt. destruct (msg_find_field md num) as [fd|]; [eauto|].
        subst nt. cbn [vs_step_rel] in Hrel. contradiction. }
      destruct Hfd as (fd & Hfind & Hntfd).
      pose proof (Hwf md fd HinS (vp_find_field_in _ _ _ Hfind)) as Hwfd.
      destruct nt as [|tid'|tid'|kt vt' vmi| | | | | | | |]; cbn [vs_step_rel] in Hrel; try contradiction.
      + (* a sub-message *)
        destruct Hrel as (-> & Hrel). rewrite Hrel.
        destruct d as [|d'].
        { cbn [vr_msg]. eapply vs_run_push0; eassumption. }
        destruct (IHd d' eq_refl) as [IHm _].
        rewrite vp_vr_unfold. symmetry in Hntfd. apply vs_vtype_msg in Hntfd. rewrite Hntfd in Hwfd.
        destruct (nth_error S tid') as [md'|] eqn:Emd; [|congruence].
        eapply vs_compose with
            (rs := vr_loop (vr_reqof S) md' (vr_msg S d') (vp_vsub2 S d') 0 (x00 :: content) content [] true false)
            (cont := fun i1 q1 _ =>
            vr_loop (vr_reqof S) md (vr_msg S (Datatypes.S d')) (vp_vsub2 S (Datatypes.S d')) grp g' tail'
                    (if vr_marks md num typ then num :: seen else seen) (i && i1) (q || q1));
          try eassumption.
        * apply (IHm tid' md' (VtMessage tid') Emd (or_introl eq_refl)).
        * intros i1 q1 rest1 _. cbn [vs_next N.eqb]. rewrite Hst'. apply IH.
        * match goal with |- _ = match ?X with VOk _ _ _ => _ | _ => _ end => destruct X end; reflexivity.
      + (* a group *)
        destruct Hrel as (-> & -> & -> & Hrel). rewrite Hrel.
        destruct d as [|d'].
        { cbn [vr_msg]. eapply vs_run_push0; eassumption. }
        destruct (IHd d' eq_refl) as [IHm _].
        rewrite vp_vr_unfold. symmetry in Hntfd. apply vs_vtype_grp in Hntfd. rewrite Hntfd in Hwfd.
        destruct (nth_error S tid') as [md'|] eqn:Emd; [|congruence].
        eapply vs_compose with
            (rs := vr_loop (vr_reqof S) md' (vr_msg S d') (vp_vsub2 S d') num (x00 :: r) r [] true false)
            (cont := fun i1 q1 rest1 =>
            vr_loop (vr_reqof S) md (vr_msg S (Datatypes.S d')) (vp_vsub2 S (Datatypes.S d')) grp g' rest1
                    (if vr_marks md num typ then num :: seen else seen) (i && i1) (q || q1));
          try eassumption.
        * apply (IHm tid' md' (VtGroup tid') Emd (or_intror eq_refl)).
        * intros i1 q1 rest1 _. unfold vs_next. replace (num =? 0) with false by lia. rewrite Hst'. apply IH.
        * reflexivity.
      + (* a map entry *)
        destruct Hrel as (-> & fd' & kk & kutf8 & vdef & Hfind' & Hcard & Hrel). rewrite Hrel.
        rewrite Hfind in Hfind'. inversion Hfind'; subst fd'.
        destruct d as [|d'].
        { cbn [vp_vsub2]. eapply vs_run_push0; eassumption. }
        destruct (IHd d' eq_refl) as [_ IHe]. cbn [vp_vsub2].
        rewrite (vs_vtype_map fd kk kutf8 vdef Hcard) in Hntfd. inversion Hntfd; subst kt vt' vmi.
        eapply vs_compose with
            (rs := vr_entry (vr_reqof S) (x00 :: content) kk kutf8 (f_kind fd) (f_utf8 fd) (vr_msg S d') content
                            false true false)
            (cont := fun i1 q1 _ =>
            vr_loop (vr_reqof S) md (vr_msg S (Datatypes.S d')) (vp_vsub2 S (Datatypes.S d')) grp g' tail'
                    (if vr_marks md num typ then num :: seen else seen) (i && i1) (q || q1));
          try eassumption.
        * apply IHe.
          -- destruct (f_kind fd); try exact I. exact Hwfd.
          -- destruct (f_kind fd); try exact I. reflexivity.
        * intros i1 q1 rest1 _. cbn [vs_next N.eqb]. rewrite Hst'. apply IH.
        * match goal with |- _ = match ?X with VOk _ _ _ => _ | _ => _ end => destruct X end; reflexivity.
  Qed.

  Lemma vs_P_all d : vs_P_msg d /\ vs_P_entry d.
  Proof.
    induction d as [|d [IHm IHe]].
    - split; [apply vs_msg_of_sub|apply vs_entry_of_msg]; intros d' H; discriminate.
    - split.
      + apply vs_msg_of_sub. intros d' H. inversion H; subst d'. split; assumption.
      + apply vs_entry_of_msg. intros d' H. inversion H; subst d'. assumption.
  Qed.
End Run.

Definition vs_proj (r : N * bool * bool) : N * bool := (fst (fst r), snd (fst r)).

Theorem vs_stack_eq_recursive S limit tid bs :
  dt_schema_wf S -> vm_validate_stack S limit tid bs = vs_proj (vm_validate S limit tid bs).
Proof.
  intros Hwf. unfold vm_validate_stack, vm_validate, vs_proj.
  destruct limit as [|d]; [reflexivity|].
  pose proof (vp_validate_cases False S (fun f => match f with end) (Datatypes.S d) tid bs) as Hnf.
  rewrite vp_vr_unfold in Hnf |- *.
  destruct (nth_error S tid) as [md|] eqn:Emd; [|reflexivity].
  destruct (vs_P_all S Hwf d) as [Pm _].
  pose proof (Pm tid md (VtMessage tid) Emd (or_introl eq_refl) 0 [] [] (x00 :: bs) bs [] true false true) as H.
  destruct (vr_loop (vr_reqof S) md (vr_msg S d) (vp_vsub2 S d) 0 (x00 :: bs) bs [] true false) as [i q rest| |];
    [| |contradiction].
  - destruct H as (n & Hn & _ & H).
    replace (2 * length bs + 2)%nat with (n + Datatypes.S (2 * length bs + 1 - n))%nat by lia.
    cbn [andb] in H. rewrite H. reflexivity.
  - destruct H as (n & Hn & H).
    replace (2 * length bs + 2)%nat with (n + (2 * length bs + 2 - n))%nat by lia.
    cbn [andb] in H. rewrite H. reflexivity.
Qed.

(* the hypothesis is needed: with a dangling type index the recursive form fails ([nth_error]),
   the machine validates the payload against an empty table ([nth]) *)
Lemma vs_stack_neq_dangling :
  exists S limit tid bs, vm_validate_stack S limit tid bs <> vs_proj (vm_validate S limit tid bs).
Proof.
  exists [[mkF 1 (KMsg 5) COpt None false false false]], 5%nat, 0%nat, [x0a; x00].
  vm_compute. discriminate.
Qed.

(* consequences for the machine itself *)
Corollary vs_stack_total S limit tid bs : dt_schema_wf S -> fst (vm_validate_stack S limit tid bs) <> 0.
Proof. intros Hwf. rewrite vs_stack_eq_recursive by exact Hwf. apply vp_validate_total. Qed.

Corollary vs_stack_invalid_sound S limit tid bs :
  dt_schema_wf S -> vp_fl1_free S -> fst (vm_validate_stack S limit tid bs) = 2 ->
  exists e, msg_decode false S limit tid bs = DErr e.
Proof. intros Hwf Hfl. rewrite vs_stack_eq_recursive by exact Hwf. apply vp_invalid_sound. exact Hfl. Qed.

(* Valid by the machine: Unmarshal succeeds, or this is the FWB4 boundary (depth error) *)
Corollary vs_stack_valid_cases S limit tid bs i :
  dt_schema_wf S -> vm_validate_stack S limit tid bs = (3, i) ->
  (exists v, msg_decode false S limit tid bs = DOk v) \/ msg_decode false S limit tid bs = DErr DDepth.
Proof.
  intros Hwf. rewrite vs_stack_eq_recursive by exact Hwf.
  destruct (vm_validate S limit tid bs) as [[s i'] q] eqn:E. unfold vs_proj. cbn [fst snd].
  intros H. inversion H; subst s i'. destruct q.
  - right. eapply vp_valid_quirk. exact E.
  - left. eapply vp_valid_sound. exact E.
Qed.

Corollary vs_stack_initialized_sound S limit tid bs v :
  dt_schema_wf S -> is_schema_ok S ->
  vm_validate_stack S limit tid bs = (3, true) -> msg_decode false S limit tid bs = DOk v ->
  msg_check_init S tid v = true.
Proof.
  intros Hwf Hok. rewrite vs_stack_eq_recursive by exact Hwf.
  destruct (vm_validate S limit tid bs) as [[s i'] q] eqn:E. unfold vs_proj. cbn [fst snd].
  intros H Hd. inversion H; subst s i'. eapply is_validate_initialized_sound; eassumption.
Qed.
