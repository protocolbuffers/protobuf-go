(* ValidateStackP — towards "the explicit-stack state machine [vm_run] (the algorithm of
   MessageInfo.validate) computes what the recursive-descent validator [vr_msg] computes".
   Proved here: the machine's building blocks are the recursive validator's --
     - the one/two-byte fast paths for tags and lengths and the unrolled varint skip are
       protowire.ConsumeVarint ([vs_fast_varint], [vs_skip_varint], [vs_tag], [vs_len]);
     - the required-bit test ([vs_compat], [vs_info_msg]);
     - one field of a message/group state: the machine's action (skip / push a state / fail)
       corresponds to [vr_step] ([vs_step_action]); one field of a map-entry state corresponds
       to one iteration of [vr_entry] ([vs_entry_action]); what an action leaves is bounded by
       what it was given ([vs_action_bound]); one machine iteration in closed form
       ([vs_run_nil], [vs_run_cons]).
   The induction that stitches these steps together over the stack (push = recursive call,
   pop = return, fuel 2*len+2 suffices) is in Msg/ValidateStackRunP.v ([vs_runs], defined at the
   end of this file, is its invariant); whole-run equality is also checked by execution on every
   case of family dectot. *)
From Coq Require Import List Arith NArith ZArith Lia Bool.
From Coq Require Import ZifyBool ZifyNat ZifyN.
From PB Require Import Base.PBytes Wire.WireModel Wire.VarintP Wire.ScanP.
From PB Require Import Msg.MsgSchema Msg.MsgValue Msg.MsgUtf8 Msg.MsgDec Msg.ValidateMsgModel Msg.ValidateMsgP.
Import ListNotations.
Open Scope N_scope.

Definition vs_ovarint (b : list byte) : option (N * list byte) :=
  match dec_varint b with Ok (v, r) => Some (v, r) | Err _ => None end.

Lemma vs_fast_varint b : vm_fast_varint b = vs_ovarint b.
Proof.
  unfold vm_fast_varint, vs_ovarint. destruct b as [|b0 r]; [reflexivity|].
  destruct (b2n b0 <? 128) eqn:E0.
  - unfold dec_varint. cbn [dec_varint_aux]. rewrite E0. f_equal. f_equal. change (2^0) with 1. lia.
  - destruct r as [|b1 r']; [reflexivity|]. destruct (b2n b1 <? 128) eqn:E1; [|reflexivity].
    unfold dec_varint. cbn [dec_varint_aux]. rewrite E0, E1. f_equal. f_equal.
    change (2^0) with 1. change (2^(0+7)) with 128. pose proof (b2n_lt b0). lia.
Qed.

Lemma vs_skip_varint_k : forall k shift acc b,
  vm_skip_varint_k k b = match dec_varint_aux k shift acc b with Ok (_, r) => Some r | Err _ => None end.
Proof.
  induction k as [|k IH]; intros shift acc b; cbn [vm_skip_varint_k dec_varint_aux]; [reflexivity|].
  destruct b as [|x r]; [reflexivity|]. destruct k as [|k'].
  - destruct (b2n x <? 2); reflexivity.
  - destruct (b2n x <? 128); [reflexivity|]. apply IH.
Qed.
Lemma vs_skip_varint b : vm_skip_varint b = match dec_varint b with Ok (_, r) => Some r | Err _ => None end.
Proof. apply vs_skip_varint_k. Qed.

(* tag: number range and wire type *)
Lemma vs_tag b :
  match vm_fast_varint b with
  | None => None
  | Some (tag, b1) => if (tag / 8 <? 1) || (msg_max_num <? tag / 8) then None else Some (tag / 8, tag mod 8, b1)
  end =
  match dec_tag b with
  | Ok (num, typ, r) => if msg_max_num <? num then None else Some (num, typ, r)
  | Err _ => None
  end.
Proof.
  rewrite vs_fast_varint. unfold vs_ovarint, dec_tag, decode_tag.
  destruct (dec_varint b) as [[x r]|e]; [|reflexivity].
  (* 2147483647 = MaxInt32, the bound of [decode_tag]; 536870911 = 2^29 - 1 = [msg_max_num] *)
  unfold msg_max_num. destruct (2147483647 <? x / 8) eqn:E1.
  - replace ((x / 8 <? 1) || (536870911 <? x / 8)) with true by lia. reflexivity.
  - destruct (x / 8 <? 1) eqn:E2; [reflexivity|]. cbn [orb]. reflexivity.
Qed.

(* LEN payload *)
Lemma vs_len b1 :
  match vm_fast_varint b1 with
  | None => None
  | Some (size, b2) => if N.of_nat (length b2) <? size then None
                       else Some (firstn (N.to_nat size) b2, skipn (N.to_nat size) b2)
  end = match dec_bytes b1 with Ok (v, r) => Some (v, r) | Err _ => None end.
Proof.
  rewrite vs_fast_varint. unfold vs_ovarint, dec_bytes.
  destruct (dec_varint b1) as [[n r]|e]; [|reflexivity].
  destruct (N.of_nat (length r) <? n) eqn:E; [reflexivity|].
  unfold take. replace (Nat.leb (N.to_nat n) (length r)) with true; [reflexivity|].
  symmetry. apply Nat.leb_le. lia.
Qed.

Definition vs_inert (vt : vm_vtype) (typ : N) : bool :=
  match typ with
  | 2 => match vt with
         | VtMessage _ | VtMap _ _ _ | VtRepVarint | VtRepFixed32 | VtRepFixed64 | VtUTF8 => false
         | _ => true end
  | 3 => match vt with VtGroup _ => false | _ => true end
  | _ => true
  end.

Lemma vs_plain_action vt num typ r : vs_inert vt typ = true ->
  vm_field_action vt num typ r = match vr_skip num typ r with Some r' => ACont r' | None => AInvalid end.
Proof.
  intros Hi. unfold vm_field_action, vr_skip. rewrite !parse_val_eq.
  (* wire types 4, 6, 7 and above: both sides fail *)
  destruct_typ typ; cbv iota; try reflexivity.
  (* 0: the unrolled varint skip *)
  all: try (rewrite vs_skip_varint; destruct (dec_varint r) as [[v r']|e]; reflexivity).
  (* 1 and 5: fixed widths *)
  all: try (destruct (take _ r) as [[a r']|]; reflexivity).
  (* 3: by [Hi] the field is not group-typed *)
  all: try (destruct vt; try discriminate Hi; reflexivity).
  (* 2: by [Hi] the payload is not interpreted *)
  pose proof (vs_len r) as H. destruct (vm_fast_varint r) as [[size b2]|].
  - destruct (N.of_nat (length b2) <? size).
    + destruct (dec_bytes r) as [[v r']|e]; [discriminate|reflexivity].
    + destruct (dec_bytes r) as [[v r']|e]; [|discriminate]. inversion H; subst.
      cbv zeta. destruct vt; try discriminate Hi; reflexivity.
  - destruct (dec_bytes r) as [[v r']|e]; [discriminate|reflexivity].
Qed.

Lemma vs_inert_other vt typ : typ <> 2 -> typ <> 3 -> vs_inert vt typ = true.
Proof. intros H2 H3. unfold vs_inert. destruct_typ typ; try reflexivity; congruence. Qed.

Lemma vs_action_len vt num r :
  vm_field_action vt num 2 r =
  match dec_bytes r with
  | Err _ => AInvalid
  | Ok (v, b3) =>
    match vt with
    | VtMessage _ | VtMap _ _ _ => APush vt 0 b3 v
    | VtRepVarint => if vr_varints (x00 :: v) v then ACont b3 else AInvalid
    | VtRepFixed32 => if N.of_nat (length v) mod 4 =? 0 then ACont b3 else AInvalid
    | VtRepFixed64 => if N.of_nat (length v) mod 8 =? 0 then ACont b3 else AInvalid
    | VtUTF8 => if msg_utf8_valid v then ACont b3 else AInvalid
    | _ => ACont b3
    end
  end.
Proof.
  cbn [vm_field_action]. pose proof (vs_len r) as H. destruct (vm_fast_varint r) as [[size b2]|].
  - destruct (N.of_nat (length b2) <? size).
    + destruct (dec_bytes r) as [[v r']|e]; [discriminate|reflexivity].
    + destruct (dec_bytes r) as [[v r']|e]; [|discriminate]. inversion H; subst. reflexivity.
  - destruct (dec_bytes r) as [[v r']|e]; [discriminate|reflexivity].
Qed.

Definition vs_vt_of (md : mdesc) (num : N) : vm_vtype :=
  match msg_find_field md num with Some fd => vm_field_vtype fd | None => VtOther end.

Definition vs_step_rel (reqof : nat -> bool) (md : mdesc) (vsub : vr_t) (vsub2 : option vr_t)
           (num typ : N) (r : list byte) (a : vm_action) (v : vres) : Prop :=
  match a with
  | AInvalid => v = VBad
  | ACont r' => exists q, v = VOk true q r'
  | APush nt e tail content =>
    match nt with
    | VtMessage tid =>
      e = 0 /\ v = match vsub tid 0 (x00 :: content) content with VOk i q _ => VOk i q tail | e' => e' end
    | VtGroup tid => e = num /\ tail = [] /\ content = r /\ v = vsub tid num (x00 :: r) r
    | VtMap kt vt' vmi =>
      e = 0 /\ exists fd kk kutf8 vdef,
        msg_find_field md num = Some fd /\ f_card fd = CMap kk kutf8 vdef /\
        v = match vsub2 with
            | None => VBad
            | Some vm2 =>
              match vr_entry reqof (x00 :: content) kk kutf8 (f_kind fd) (f_utf8 fd) vm2 content false true false with
              | VOk i q _ => VOk i q tail
              | e' => e'
              end
            end
    | _ => False
    end
  end.

Lemma vs_plain_rel reqof md vsub vsub2 vt num typ r q0 :
  vs_inert vt typ = true ->
  vs_step_rel reqof md vsub vsub2 num typ r (vm_field_action vt num typ r)
              (match vr_skip num typ r with Some r' => VOk true q0 r' | None => VBad end).
Proof.
  intros Hi. rewrite vs_plain_action by exact Hi. destruct (vr_skip num typ r); cbn; eauto.
Qed.

(* a validation type that interprets neither LEN payloads (typ <> 2) nor groups *)
Lemma vs_inert_nolen vt typ : typ <> 2 -> (forall t, vt <> VtGroup t) -> vs_inert vt typ = true.
Proof.
  intros H2 Hg. destruct (N.eq_dec typ 3) as [->|H3]; [|now apply vs_inert_other].
  destruct vt; try reflexivity. now elim (Hg tid).
Qed.

Lemma vs_scalar_not_group sk u rep t : vm_scalar_vtype sk u rep <> VtGroup t.
Proof. destruct sk, u, rep; discriminate. Qed.

(* the three kinds of a field that is not a map, for any repeated-ness [rep] *)
Lemma vs_step_scalar reqof md vsub vsub2 sk (u rep : bool) num typ r :
  vs_step_rel reqof md vsub vsub2 num typ r (vm_field_action (vm_scalar_vtype sk u rep) num typ r)
    (if typ =? 2 then
       match dec_bytes r with
       | Err _ => VBad
       | Ok (payload, r') =>
         if vr_is_string sk && u then (if msg_utf8_valid payload then VOk true false r' else VBad)
         else if msg_packable sk && rep then (if vr_packed_ok sk payload then VOk true false r' else VBad)
         else VOk true false r'
       end
     else vr_plain num typ r).
Proof.
  destruct (typ =? 2) eqn:Ht2.
  - apply N.eqb_eq in Ht2. subst typ. rewrite vs_action_len.
    destruct (dec_bytes r) as [[v b3]|e]; [|reflexivity].
    (* the validation type is a finite table of (kind, utf8, repeated) *)
    destruct sk, u, rep; cbn [vm_scalar_vtype sk_wt vr_is_string msg_packable andb negb N.eqb Pos.eqb vr_packed_ok];
      try match goal with |- context [if ?c then ACont _ else _] => destruct c end; cbn; eauto.
  - apply N.eqb_neq in Ht2. apply vs_plain_rel, vs_inert_nolen; [exact Ht2|]. intros t. apply vs_scalar_not_group.
Qed.

Lemma vs_step_message reqof md vsub vsub2 tid num typ r :
  vs_step_rel reqof md vsub vsub2 num typ r (vm_field_action (VtMessage tid) num typ r)
    (if typ =? 2 then
       match dec_bytes r with
       | Err _ => VBad
       | Ok (payload, r') =>
         match vsub tid 0 (x00 :: payload) payload with VOk i q _ => VOk i q r' | e => e end
       end
     else vr_plain num typ r).
Proof.
  destruct (typ =? 2) eqn:Ht2.
  - apply N.eqb_eq in Ht2. subst typ. rewrite vs_action_len.
    destruct (dec_bytes r) as [[v b3]|e]; [|reflexivity]. split; reflexivity.
  - apply N.eqb_neq in Ht2. apply vs_plain_rel, vs_inert_nolen; [exact Ht2|discriminate].
Qed.

Lemma vs_step_group reqof md vsub vsub2 tid num typ r :
  vs_step_rel reqof md vsub vsub2 num typ r (vm_field_action (VtGroup tid) num typ r)
    (if typ =? 3 then vsub tid num (x00 :: r) r else vr_plain num typ r).
Proof.
  destruct (typ =? 3) eqn:Ht3.
  - apply N.eqb_eq in Ht3. subst typ. cbn [vm_field_action vs_step_rel]. repeat split; reflexivity.
  - apply N.eqb_neq in Ht3. apply vs_plain_rel. destruct_typ typ; try reflexivity. congruence.
Qed.

Lemma vs_step_action reqof md vsub vsub2 num typ r :
  vs_step_rel reqof md vsub vsub2 num typ r (vm_field_action (vs_vt_of md num) num typ r)
              (vr_step reqof md vsub vsub2 num typ r).
Proof.
  unfold vr_step, vs_vt_of. destruct (msg_find_field md num) as [fd|] eqn:Ef.
  2: { apply vs_plain_rel. destruct_typ typ; reflexivity. }
  unfold vm_field_vtype.
  destruct (f_card fd) as [| | | | |kk kutf8 vdef] eqn:Ec.
  6: { destruct (typ =? 2) eqn:Ht2.
       - apply N.eqb_eq in Ht2. subst typ. rewrite vs_action_len.
         destruct (dec_bytes r) as [[v b3]|e]; [|destruct vsub2; reflexivity].
         cbn [vs_step_rel]. split; [reflexivity|]. exists fd, kk, kutf8, vdef. repeat split; auto.
       - apply N.eqb_neq in Ht2. apply vs_plain_rel, vs_inert_nolen; [exact Ht2|discriminate]. }
  all: destruct (f_kind fd) as [sk|tid|tid]; [apply vs_step_scalar|apply vs_step_message|apply vs_step_group].
Qed.

Definition vs_kt (kk : skind) (kutf8 : bool) : vm_vtype :=
  match kk with SkString => if kutf8 then VtUTF8 else VtOther | _ => VtOther end.
Definition vs_vt (vk : kind) (vutf8 : bool) : vm_vtype :=
  match vk with
  | KMsg t => VtMessage t
  | KS SkString => if vutf8 then VtUTF8 else VtOther
  | _ => VtOther
  end.
Definition vs_vmi (vk : kind) : option nat := match vk with KMsg t => Some t | _ => None end.

Lemma vs_kt_eq kk kutf8 : vs_kt kk kutf8 = if vr_is_string kk && kutf8 then VtUTF8 else VtOther.
Proof. destruct kk, kutf8; reflexivity. Qed.
Lemma vs_vt_scalar_eq sk vutf8 : vs_vt (KS sk) vutf8 = if vr_is_string sk && vutf8 then VtUTF8 else VtOther.
Proof. destruct sk, vutf8; reflexivity. Qed.

(* what [vr_entry] does with one field after its tag, the text of the model's loop body: named so that
   [vs_entry_action] can speak of it ([vs_entry_unfold] ties it to [vr_entry]) *)
Definition vs_entry_body (reqof : nat -> bool) (g' : list byte) kk kutf8 vk vutf8 (vm : vr_t)
           (num typ : N) (r : list byte) (seenval i q : bool) : vres :=
  if (num =? 1) && (typ =? 2) && vr_is_string kk && kutf8 then
    match dec_bytes r with
    | Err _ => VBad
    | Ok (p, r') => if msg_utf8_valid p then vr_entry reqof g' kk kutf8 vk vutf8 vm r' seenval i q else VBad
    end
  else if (num =? 2) && (typ =? 2) then
    match vk with
    | KMsg tid =>
      match dec_bytes r with
      | Err _ => VBad
      | Ok (p, r') =>
        match vm tid 0 (x00 :: p) p with
        | VOk i1 q1 _ => vr_entry reqof g' kk kutf8 vk vutf8 vm r' true (i && i1) (q || q1)
        | e => e
        end
      end
    | KS sk =>
      match dec_bytes r with
      | Err _ => VBad
      | Ok (p, r') =>
        if vr_is_string sk && vutf8 && negb (msg_utf8_valid p) then VBad
        else vr_entry reqof g' kk kutf8 vk vutf8 vm r' seenval i q
      end
    | KGrp _ =>
      match vr_skip num typ r with
      | Some r' => vr_entry reqof g' kk kutf8 vk vutf8 vm r' seenval i q
      | None => VBad
      end
    end
  else
    match vr_skip num typ r with
    | Some r' => vr_entry reqof g' kk kutf8 vk vutf8 vm r' seenval i q
    | None => VBad
    end.

Lemma vs_entry_unfold reqof x g' kk kutf8 vk vutf8 vm bs sv i q :
  vr_entry reqof (x :: g') kk kutf8 vk vutf8 vm bs sv i q =
  match bs with
  | [] => VOk (i && (negb (match vk with KMsg tid => reqof tid | _ => false end) || sv)) q []
  | _ =>
    match dec_tag bs with
    | Err _ => VBad
    | Ok (num, typ, r) =>
      if msg_max_num <? num then VBad else vs_entry_body reqof g' kk kutf8 vk vutf8 vm num typ r sv i q
    end
  end.
Proof. destruct bs; reflexivity. Qed.

Definition vs_entry_vt kk kutf8 vk vutf8 (num : N) : vm_vtype :=
  if num =? 1 then vs_kt kk kutf8 else if num =? 2 then vs_vt vk vutf8 else VtOther.

Lemma vs_skip_len2 num r : vr_skip num 2 r = match dec_bytes r with Ok (_, r') => Some r' | Err _ => None end.
Proof. unfold vr_skip. rewrite parse_val_eq. cbv iota. destruct (dec_bytes r) as [[v r']|e]; reflexivity. Qed.

Lemma vs_entry_action reqof g' kk kutf8 vk vutf8 vm num typ r sv i q :
  match vm_field_action (vs_entry_vt kk kutf8 vk vutf8 num) num typ r with
  | AInvalid => vs_entry_body reqof g' kk kutf8 vk vutf8 vm num typ r sv i q = VBad
  | ACont r' => vs_entry_body reqof g' kk kutf8 vk vutf8 vm num typ r sv i q =
                vr_entry reqof g' kk kutf8 vk vutf8 vm r' sv i q
  | APush nt e tail content =>
    exists tid, nt = VtMessage tid /\ vk = KMsg tid /\ num = 2 /\ typ = 2 /\ e = 0 /\
      vs_entry_body reqof g' kk kutf8 vk vutf8 vm num typ r sv i q =
      match vm tid 0 (x00 :: content) content with
      | VOk i1 q1 _ => vr_entry reqof g' kk kutf8 vk vutf8 vm tail true (i && i1) (q || q1)
      | e' => e'
      end
  end.
Proof.
  unfold vs_entry_body, vs_entry_vt. rewrite vs_kt_eq.
  destruct (typ =? 2) eqn:Ht2.
  - apply N.eqb_eq in Ht2. subst typ. rewrite vs_action_len, vs_skip_len2. rewrite !andb_true_r.
    destruct (num =? 1) eqn:Hn1.
    + assert (Hn2 : (num =? 2) = false) by lia. rewrite ?Hn2. cbn [andb].
      destruct (vr_is_string kk && kutf8); destruct (dec_bytes r) as [[v b3]|e]; try reflexivity.
      destruct (msg_utf8_valid v); reflexivity.
    + cbn [andb]. destruct (num =? 2) eqn:Hn2; cbn [andb].
      * destruct vk as [sk|tid|tid]; [rewrite vs_vt_scalar_eq|cbn [vs_vt]..].
        -- destruct (vr_is_string sk && vutf8); destruct (dec_bytes r) as [[v b3]|e]; try reflexivity.
           cbn [andb]. destruct (msg_utf8_valid v); reflexivity.
        -- destruct (dec_bytes r) as [[v b3]|e]; [|reflexivity].
           exists tid. apply N.eqb_eq in Hn2. repeat split; auto.
        -- destruct (dec_bytes r) as [[v b3]|e]; reflexivity.
      * destruct (dec_bytes r) as [[v b3]|e]; reflexivity.
  - rewrite !andb_false_r. cbn [andb].
    assert (Hi : vs_inert (if num =? 1 then if vr_is_string kk && kutf8 then VtUTF8 else VtOther
                           else if num =? 2 then vs_vt vk vutf8 else VtOther) typ = true).
    { apply N.eqb_neq in Ht2. apply vs_inert_nolen; [exact Ht2|]. intros t.
      destruct (num =? 1); [destruct (vr_is_string kk && kutf8); discriminate|].
      destruct (num =? 2); [|discriminate]. destruct vk as [sk|t'|t']; [rewrite vs_vt_scalar_eq|cbn [vs_vt]..];
        [destruct (vr_is_string sk && vutf8)| |]; discriminate. }
    rewrite vs_plain_action by exact Hi. destruct (vr_skip num typ r); reflexivity.
Qed.

Definition vs_otag (b : list byte) : option (N * N * list byte) :=
  match dec_tag b with
  | Ok (num, typ, r) => if msg_max_num <? num then None else Some (num, typ, r)
  | Err _ => None
  end.

Lemma vs_run_nil S f st below d init :
  vm_run S (Datatypes.S f) (st :: below) [] d init =
  if vs_end st =? 0 then vm_run S f below (vs_tail st) (Datatypes.S d) (init && vm_pop_ok S st) else VmInvalid.
Proof. reflexivity. Qed.

Lemma vs_run_cons S f st below b d init : b <> [] ->
  vm_run S (Datatypes.S f) (st :: below) b d init =
  match vs_otag b with
  | None => VmInvalid
  | Some (num, wtyp, b1) =>
    if wtyp =? 4 then
      (if vs_end st =? num then vm_run S f below b1 (Datatypes.S d) (init && vm_pop_ok S st) else VmInvalid)
    else
      match vm_field_action (fst (vm_info S st num)) num wtyp b1 with
      | AInvalid => VmInvalid
      | ACont b' => vm_run S f (vm_mark S st num wtyp :: below) b' d init
      | APush nt e tail content =>
        match d with
        | O => VmInvalid
        | Datatypes.S d' => vm_run S f (mkVS nt e tail [] :: vm_mark S st num wtyp :: below) content d' init
        end
      end
  end.
Proof.
  intros Hb. destruct b as [|b0 t]; [congruence|]. cbn [vm_run]. unfold vs_otag. rewrite <- vs_tag.
  destruct (vm_fast_varint (b0 :: t)) as [[tag b1]|]; [|reflexivity].
  destruct ((tag / 8 <? 1) || (msg_max_num <? tag / 8)); reflexivity.
Qed.

(* required bit: the machine's compatibility test is the recursive validator's *)
Lemma vs_compat fd typ :
  vr_is_req fd && vm_compat (vm_field_vtype fd) typ = vr_is_req fd && (typ =? kind_wt (f_kind fd)).
Proof.
  unfold vr_is_req, vm_field_vtype. destruct (f_card fd); try reflexivity.
  destruct (negb (f_ext fd)); [|reflexivity]. cbn [andb card_repeated].
  destruct (f_kind fd) as [sk|t|t]; try reflexivity.
  destruct sk; cbn [vm_scalar_vtype sk_wt kind_wt vm_compat]; try destruct (f_utf8 fd); reflexivity.
Qed.

Lemma vs_info_msg S st tid md num :
  (vs_typ st = VtMessage tid \/ vs_typ st = VtGroup tid) -> nth tid S [] = md ->
  fst (vm_info S st num) = vs_vt_of md num /\
  forall typ, vm_mark S st num typ =
    mkVS (vs_typ st) (vs_end st) (vs_tail st) (if vr_marks md num typ then num :: vs_mask st else vs_mask st).
Proof.
  intros Ht Hmd.
  assert (E : vm_md S (vs_typ st) = md) by (destruct Ht as [Ht|Ht]; rewrite Ht; exact Hmd).
  unfold vm_mark, vm_info, vs_vt_of, vr_marks.
  destruct Ht as [Ht|Ht]; rewrite Ht in E |- *; cbv iota beta; rewrite E.
  all: destruct (msg_find_field md num) as [fd|]; cbn [fst]; (split; [reflexivity|]); intros typ.
  (* a field of the table is marked iff it is required and the wire type fits ([vs_compat]), any other
     number never; an unmarked state is [st] itself, component by component *)
  all: try rewrite vs_compat; try destruct (vr_is_req fd && (typ =? kind_wt (f_kind fd))); cbn [andb]; try reflexivity.
  all: destruct st; cbn in Ht |- *; rewrite Ht; reflexivity.
Qed.

Lemma vs_action_bound vt num typ r :
  match vm_field_action vt num typ r with
  | AInvalid => True
  | ACont r' => (length r' <= length r)%nat
  | APush nt e tail c => (length c + length tail <= length r)%nat /\ nt = vt
  end.
Proof.
  destruct (typ =? 2) eqn:Ht2.
  { apply N.eqb_eq in Ht2. subst typ. rewrite vs_action_len.
    destruct (dec_bytes r) as [[v b3]|e] eqn:Eb; [|exact I].
    pose proof (dec_bytes_len _ _ _ Eb) as Hb.
    assert (H1 : (length b3 <= length r)%nat) by lia.
    assert (H2 : (length v + length b3 <= length r)%nat) by lia. clear Hb.
    destruct vt; try exact H1; try (split; [exact H2|reflexivity]).
    all: match goal with |- context [if ?c then _ else _] => destruct c end; [exact H1|exact I]. }
  (* the other wire types: 0, then 1 and 5, then 3 *)
  unfold vm_field_action. destruct_typ typ; try exact I; try discriminate Ht2.
  all: try (rewrite vs_skip_varint; destruct (dec_varint r) as [[v r']|e] eqn:E; [|exact I];
            pose proof (dec_varint_len _ _ _ E); lia).
  all: try (destruct (take _ r) as [[a r']|] eqn:E; [|exact I]; apply take_some in E; destruct E as [-> _];
            rewrite app_length; lia).
  destruct vt; try (destruct (vr_skip num 3 r) eqn:E; [apply vp_skip_len in E; exact E|exact I]).
  split; [cbn; lia|reflexivity].
Qed.

(* The invariant of "stack machine = recursive validator" (Msg/ValidateStackRunP.v).  The frame [st] on
   top of [below], with [bs] still to read at machine depth [d] and flag [A && i] ([A]: what the frames
   below have accumulated, [i]: this frame), is a pending call of the recursive form with result [res]:
   if the call returns [VOk i' q' rest] the machine needs n steps to pop the frame and then goes on below
   with [next rest] (the tail of a length-delimited frame, the rest after a group) at depth [S d] with flag
   [A && i']; if it returns [VBad] the machine answers Invalid.  The bounds n + 2|rest| <= 2|bs| + 1 add up
   to the fuel 2|bs| + 2 of [vm_validate_stack]: a byte costs at most two steps (push and pop).  Nothing is
   claimed for [VFuel], which the recursive validator never returns ([vp_validate_total]). *)
Definition vs_runs (S : schema) (st : vm_state) (below : list vm_state) (bs : list byte) (d : nat)
           (A i : bool) (res : vres) (next : list byte -> list byte) : Prop :=
  match res with
  | VFuel => True
  | VBad => exists n, (n <= 2 * length bs + 1)%nat /\
              forall fuel, vm_run S (n + fuel) (st :: below) bs d (A && i) = VmInvalid
  | VOk i' q' rest =>
    exists n, (n + 2 * length rest <= 2 * length bs + 1)%nat /\ (length rest <= length bs)%nat /\
      forall fuel, vm_run S (n + fuel) (st :: below) bs d (A && i) =
                   vm_run S fuel below (next rest) (Datatypes.S d) (A && i')
  end.

Lemma vs_otag_some b num typ r : dec_tag b = Ok (num, typ, r) -> (msg_max_num <? num) = false ->
  vs_otag b = Some (num, typ, r).
Proof. intros E H. unfold vs_otag. rewrite E, H. reflexivity. Qed.

