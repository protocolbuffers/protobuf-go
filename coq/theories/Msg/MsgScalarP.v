(* MsgScalarP — the scalar codec laws: dec (enc v) = Some v on the kind's range, and the
   wire scanner reads back exactly what the encoder wrote (any suffix). *)
From Coq Require Import List Arith NArith ZArith Lia Bool.
From Coq Require Import ZifyBool ZifyNat ZifyN.
From PB Require Import Base.PBytes Wire.WireModel Wire.VarintP Wire.PrimP.
From PB Require Import Msg.MsgSchema Msg.MsgValue Msg.MsgEnc Msg.MsgValid Msg.MsgWireP.
Import ListNotations.
Open Scope N_scope.

Lemma msg_s32_u64 z : (-2147483648 <= z < 2147483648)%Z -> msg_s32 (msg_u64 z) = z.
Proof. intros H. unfold msg_s32, msg_u64. destruct (_ <? _)%Z eqn:E; lia. Qed.
Lemma msg_s64_u64 z : (-9223372036854775808 <= z < 9223372036854775808)%Z -> msg_s64 (msg_u64 z) = z.
Proof. intros H. unfold msg_s64, msg_u64. destruct (_ <? _)%Z eqn:E; lia. Qed.
Lemma msg_s32_u32 z : (-2147483648 <= z < 2147483648)%Z -> msg_s32 (msg_u32 z) = z.
Proof. intros H. unfold msg_s32, msg_u32. destruct (_ <? _)%Z eqn:E; lia. Qed.
Lemma msg_u64_lt z : msg_u64 z < 18446744073709551616.
Proof. unfold msg_u64. lia. Qed.
Lemma msg_u32_lt z : msg_u32 z < 4294967296.
Proof. unfold msg_u32. lia. Qed.
Lemma msg_zz32_small z : (-2147483648 <= z < 2147483648)%Z -> zz_enc z < 4294967296.
Proof. intros H. unfold zz_enc. destruct (z <? 0)%Z; lia. Qed.
Lemma msg_zz64_small z : (-9223372036854775808 <= z < 9223372036854775808)%Z -> zz_enc z < 18446744073709551616.
Proof. intros H. unfold zz_enc. destruct (z <? 0)%Z; lia. Qed.

Lemma msg_dec_le4 n : n < 4294967296 -> dec_le (enc_fixed32 n) = n.
Proof. intros H. apply dec_enc_le. exact H. Qed.
Lemma msg_dec_le8 n : n < 18446744073709551616 -> dec_le (enc_fixed64 n) = n.
Proof. intros H. apply dec_enc_le. exact H. Qed.

Theorem msg_sk_dec_enc sk s : sk_ok sk s = true -> sk_dec sk (sk_enc sk s) = Some s.
Proof.
  destruct sk, s; cbn [sk_ok sk_enc sk_dec]; intros H; try discriminate; f_equal; f_equal.
  (* uint64, string and bytes are stored as they are; the others: *)
  - (* double *) apply msg_dec_le8; lia.
  - (* float *) apply msg_dec_le4; lia.
  - (* int64 *) apply msg_s64_u64; lia.
  - (* int32 *) apply msg_s32_u64; lia.
  - (* fixed64 *) apply msg_dec_le8; lia.
  - (* fixed32 *) apply msg_dec_le4; lia.
  - (* bool *) destruct b; reflexivity.
  - (* uint32 *) apply N.mod_small; lia.
  - (* enum *) apply msg_s32_u64; lia.
  - (* sfixed32 *) rewrite msg_dec_le4 by apply msg_u32_lt. apply msg_s32_u32; lia.
  - (* sfixed64 *) rewrite msg_dec_le8 by apply msg_u64_lt. apply msg_s64_u64; lia.
  - (* sint32 *) rewrite N.mod_small by (apply msg_zz32_small; lia). apply zz_dec_enc.
  - (* sint64 *) apply zz_dec_enc.
Qed.

(* every in-range scalar encodes to a wire value whose varint/length fits uint64, except for
   the length of byte strings, which is a separate hypothesis *)
Lemma msg_sk_ok_wval sk s :
  sk_ok sk s = true -> (match s with SBy b => N.of_nat (length b) < 2^64 | _ => True end) ->
  msg_wval_ok (sk_enc sk s) = true.
Proof.
  unfold msg_wval_ok, msg_two64. change (2^64) with 18446744073709551616.
  destruct sk, s; cbn [sk_ok sk_enc]; intros H Hb; try discriminate;
    try reflexivity;   (* fixed-width kinds: no bound to check *)
    try (pose proof (msg_u64_lt z); pose proof (msg_zz32_small z); pose proof (msg_zz64_small z); lia);   (* signed varints *)
    try (destruct b; reflexivity).   (* bool *)
  (* unsigned varints: the range of the kind; strings and bytes: the hypothesis on the length *)
  all: try exact H; lia.
Qed.

Lemma msg_enc_scalar_nonempty sk s : msg_enc_scalar sk s <> [].
Proof.
  unfold msg_enc_scalar.
  destruct sk, s; cbn [sk_enc render_val]; try apply enc_varint_nonempty; try discriminate.
  all: intros H; apply app_eq_nil in H; exact (enc_varint_nonempty _ (proj1 H)).
Qed.

Theorem msg_parse_scalar sk s dep num rest :
  sk_ok sk s = true -> msg_wval_ok (sk_enc sk s) = true ->
  parse_val dep num (sk_wt sk) (msg_enc_scalar sk s ++ rest) = Ok (sk_enc sk s, rest).
Proof.
  unfold msg_enc_scalar, msg_wval_ok, msg_two64.
  destruct sk, s; cbn [sk_ok sk_enc sk_wt render_val]; intros H Hw; try discriminate;
    destruct dep; cbn [parse_val];
    (* by wire type: varint; fixed32 / fixed64; length-delimited *)
    try (rewrite varint_roundtrip by (change (2^64) with 18446744073709551616; lia); reflexivity);
    try (rewrite msgw_take_len by (apply enc_le_length); reflexivity);
    try (fold (enc_bytes bs); rewrite msgw_dec_bytes_enc by (change (2^64) with 18446744073709551616; lia); reflexivity).
Qed.
