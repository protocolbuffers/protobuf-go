(* EqualCorP — proofs for C30, part 4: corollaries.
   - unknown fields: fields of different numbers may be interleaved freely;
   - the order of the bindings of a message is irrelevant (a copy made through reflection, a
     clone, a merge into an empty message list the same bindings in their own order);
   - a valid canonical value (C03's predicate) is well-formed in the sense of the equality model;
   - Equal holds between a message and its decoded encoding (corollary of C03). *)
From Coq Require Import List Arith NArith ZArith Lia Bool Permutation.
From Coq Require Import ZifyBool ZifyNat ZifyN.
From PB Require Import Base.PBytes Base.ListP Wire.WireModel Wire.WireGrammar Wire.VarintP Wire.ScanP.
From PB Require Import Msg.MsgSchema Msg.MsgValue Msg.MsgEnc Msg.MsgDec Msg.MsgValid Msg.MsgWireP Msg.MsgSizeP
     Msg.MsgAssocP Msg.MsgRoundP.
From PB Require Import Msg.DetModel Msg.DetP Msg.DetHistP Msg.EqualModel Msg.EqualP Msg.EqualMsgP.
Import ListNotations.
Open Scope N_scope.

(* a chunk: one complete well-formed field and its number *)
Definition eqm_is_chunk (c : N * list byte) : Prop :=
  exists typ, consume_field (snd c) = Ok (fst c, typ, N.of_nat (length (snd c))).

Definition eqm_flat (cs : list (N * list byte)) : list byte := concat (map snd cs).

Lemma eqm_chunk_nonempty c : eqm_is_chunk c -> snd c <> [].
Proof.
  intros [typ H] E. rewrite E in H. unfold consume_field in H. cbn in H. discriminate.
Qed.

Lemma eqm_chunk_extend c rest :
  eqm_is_chunk c -> exists typ, consume_field (snd c ++ rest) = Ok (fst c, typ, N.of_nat (length (snd c))).
Proof.
  intros [typ H]. exists typ. apply consume_field_iff in H. apply consume_field_iff.
  destruct H as (tag & val & r0 & E & Ht & Hv & Hn).
  assert (r0 = []) as ->.
  { apply (f_equal (@length byte)) in E. rewrite !app_length in E. apply Nat2N.inj in Hn.
    destruct r0; [reflexivity|]. cbn [length] in E. lia. }
  exists tag, val, rest. rewrite app_nil_r in E. split; [rewrite E; now rewrite <- app_assoc|].
  split; [exact Ht|]. split; [exact Hv|]. rewrite E, app_length. reflexivity.
Qed.

Lemma eqm_split_chunks : forall cs g,
  Forall eqm_is_chunk cs -> (length (eqm_flat cs) < length g)%nat -> eqm_split g (eqm_flat cs) = cs.
Proof.
  induction cs as [|c r IH]; intros g Hc Hg.
  - destruct g; reflexivity.
  - inversion Hc as [|? ? H1 H2]; subst. destruct g as [|g0 g']; [cbn [length] in Hg; lia|].
    unfold eqm_flat in *. cbn [map concat] in *.
    pose proof (eqm_chunk_nonempty _ H1) as Hne. destruct (eqm_chunk_extend c (concat (map snd r)) H1) as [typ E].
    destruct c as [num f]. cbn [fst snd] in *. destruct f as [|b0 f']; [congruence|].
    cbn [eqm_split app]. change (b0 :: f' ++ concat (map snd r)) with ((b0 :: f') ++ concat (map snd r)).
    rewrite E. rewrite Nat2N.id.
    rewrite firstn_app, Nat.sub_diag, firstn_all, firstn_O, app_nil_r.
    rewrite skipn_app, Nat.sub_diag, skipn_all. cbn [skipn app].
    f_equal. apply IH; [exact H2|]. rewrite app_length in Hg. cbn [length] in Hg. lia.
Qed.

Lemma eqm_flat_length_swap (c1 c2 : N * list byte) pre post :
  length (eqm_flat (pre ++ c1 :: c2 :: post)) = length (eqm_flat (pre ++ c2 :: c1 :: post)).
Proof.
  unfold eqm_flat. rewrite !map_app, !concat_app. cbn [map concat]. rewrite !app_length. lia.
Qed.

(* unknown sections made of the same fields number by number are equal, however the numbers are
   interleaved *)
Theorem eqm_unknown_same_groups cs cs' :
  Forall eqm_is_chunk cs -> Forall eqm_is_chunk cs' ->
  length (eqm_flat cs) = length (eqm_flat cs') -> (forall k, eqm_group cs k = eqm_group cs' k) ->
  eqm_unknown (eqm_flat cs) (eqm_flat cs') = true.
Proof.
  intros Hc Hc' L G. apply eqm_unknown_spec. split; [exact L|]. right.
  rewrite !eqm_split_chunks by (try assumption; cbn [length]; lia). exact G.
Qed.

(* in particular when two neighbours of different numbers are swapped *)
Theorem eqm_unknown_interleaving (c1 c2 : N * list byte) pre post :
  Forall eqm_is_chunk (pre ++ c1 :: c2 :: post) -> fst c1 <> fst c2 ->
  eqm_unknown (eqm_flat (pre ++ c1 :: c2 :: post)) (eqm_flat (pre ++ c2 :: c1 :: post)) = true.
Proof.
  intros Hc Hne. apply eqm_unknown_same_groups; [exact Hc| |apply eqm_flat_length_swap|now apply eqm_groups_interleave].
  rewrite Forall_forall in *. intros c Hin. apply Hc. apply in_app_or in Hin. apply in_or_app.
  destruct Hin as [H|[<-|[<-|H]]]; [now left|right; right; now left|right; now left|right; right; now right].
Qed.

Lemma eqm_fget_perm (fs fs' : fields) n :
  NoDup (map fst fs) -> Permutation fs fs' -> msg_fget fs n = msg_fget fs' n.
Proof.
  intros Hn P.
  assert (NoDup (map fst fs')) as Hn' by (eapply Permutation_NoDup; [apply Permutation_map; exact P|exact Hn]).
  destruct (in_dec N.eq_dec n (map fst fs)) as [Hin|Hni].
  - apply in_map_iff in Hin. destruct Hin as [[n' v] [E Hin]]. cbn [fst] in E. subst n'.
    rewrite (eqm_fget_nodup _ _ _ Hn Hin). symmetry. apply eqm_fget_nodup; [exact Hn'|].
    eapply Permutation_in; eassumption.
  - rewrite (msg_fget_notin _ _ Hni). symmetry. apply msg_fget_notin. intros Hin. apply Hni.
    eapply Permutation_in; [apply Permutation_sym, Permutation_map; exact P|exact Hin].
Qed.

Lemma eqm_forallb_perm {A} (f : A -> bool) l l' : Permutation l l' -> forallb f l = forallb f l'.
Proof.
  induction 1 as [|x l l' P IH|x y l|l l' l'' P1 IH1 P2 IH2]; cbn [forallb]; try congruence.
  destruct (f x), (f y); reflexivity.
Qed.

Lemma eqm_populated_perm fs fs' : Permutation fs fs' -> eqm_populated fs = eqm_populated fs'.
Proof. intros P. unfold eqm_populated. apply Permutation_length, list_perm_filter, P. Qed.

Theorem eqm_value_binding_order S k fa fa' ua fb fb' ub :
  Permutation fa fa' -> Permutation fb fb' -> NoDup (map fst fb) ->
  eqm_value S k (VMsg fa ua) (VMsg fb ub) = eqm_value S k (VMsg fa' ua) (VMsg fb' ub).
Proof.
  intros Pa Pb Nb. rewrite !eqm_value_msg.
  rewrite (eqm_populated_perm _ _ Pa), (eqm_populated_perm _ _ Pb). f_equal. f_equal.
  rewrite (eqm_forallb_perm _ _ _ Pa). apply list_forallb_ext_in. intros p _.
  unfold eqm_bind. now rewrite (eqm_fget_perm _ _ (fst p) Nb Pb).
Qed.

Lemma eqm_entries_sorted_nodup es : msg_entries_sorted es = true -> eqm_nodup_keys es = true.
Proof.
  induction es as [|e r IH]; cbn [msg_entries_sorted eqm_nodup_keys]; [reflexivity|].
  destruct e as [s|fs u|key x]; try discriminate.
  rewrite andb_true_iff. intros [Ha Hs]. rewrite (IH Hs), andb_true_r. apply negb_true_iff.
  destruct (existsb _ r) eqn:E; [|reflexivity]. exfalso.
  apply existsb_exists in E. destruct E as [e [He Hk]]. destruct e as [s|fs u|k' x']; try discriminate.
  apply eqm_key_eq in Hk. subst k'. unfold msg_keys_after in Ha. rewrite forallb_forall in Ha.
  specialize (Ha _ He). cbn in Ha. rewrite det_scmp_refl in Ha. discriminate.
Qed.

Section TypedWf.
  Variable slow : bool.
  Variable S : schema.

  Definition eqm_Q (x : value) : Prop :=
    forall dep tid k, eqm_md S k = nth tid S [] -> msg_typed slow S dep tid x = true -> eqm_wf S k x = true.
  Definition eqm_P_typed (x : value) : Prop :=
    eqm_Q x /\ (forall key inner, x = VEntry key inner -> eqm_Q inner).

  Lemma eqm_typed_elem_wf d fd v :
    eqm_P_typed v -> msg_typed_elem slow (msg_enc_body S) (msg_typed slow S d) fd v = true -> eqm_wf S (f_kind fd) v = true.
  Proof.
    intros [Q _]. unfold msg_typed_elem. destruct (f_kind fd) as [sk|t|t], v as [s|fs u|k0 x0]; try discriminate.
    - reflexivity.
    - intros H. eapply Q; [reflexivity|exact H].
    - rewrite !andb_true_iff. intros [H _]. eapply Q; [reflexivity|exact H].
  Qed.

  Lemma eqm_typed_wf_all : forall x, eqm_P_typed x.
  Proof.
    induction x as [s|fs unk IH|k0 x0 IH] using msg_value_ind.
    - split; [intros dep tid k _ H; discriminate H|intros key inner E; discriminate E].
    - split; [|intros key inner E; discriminate E].
      intros dep tid k Emd H. apply msg_typed_unfold in H.
      destruct H as (d & md & -> & Hnth & Hsort & Hall & _ & _).
      rewrite eqm_wf_msg, Emd, (msg_nth_error_nth _ _ _ Hnth). apply andb_true_iff. split.
      + apply eqm_nodup_n_spec. apply msg_keys_sorted_spec in Hsort. exact (msg_sorted_nodup _ _ Hsort).
      + rewrite forallb_forall in *. intros p Hp. specialize (Hall p Hp).
        rewrite Forall_forall in IH. specialize (IH p Hp). rewrite Forall_forall in IH.
        unfold msg_typed_chunk in Hall. unfold eqm_wf_bind.
        destruct (msg_find_field md (fst p)) as [fd|]; [|discriminate].
        unfold msg_typed_field in Hall. apply andb_true_iff in Hall. destruct Hall as [_ Hall].
        destruct (f_card fd) eqn:Ec.
        * destruct (snd p) as [|v [|? ?]] eqn:Ev; try discriminate. cbn [forallb]. rewrite andb_true_r.
          eapply eqm_typed_elem_wf; [apply IH; now left|exact Hall].
        * destruct (snd p) as [|v [|? ?]] eqn:Ev; try discriminate. cbn [forallb]. rewrite andb_true_r.
          apply andb_true_iff in Hall. destruct Hall as [Hall _].
          eapply eqm_typed_elem_wf; [apply IH; now left|exact Hall].
        * destruct (snd p) as [|v [|? ?]] eqn:Ev; try discriminate. cbn [forallb]. rewrite andb_true_r.
          eapply eqm_typed_elem_wf; [apply IH; now left|exact Hall].
        * destruct (snd p) as [|v r] eqn:Ev; [discriminate|]. rewrite forallb_forall in *. intros x Hx.
          eapply eqm_typed_elem_wf; [apply IH; exact Hx|now apply Hall].
        * destruct (snd p) as [|v r] eqn:Ev; [discriminate|]. rewrite forallb_forall in *. intros x Hx.
          eapply eqm_typed_elem_wf; [apply IH; exact Hx|now apply Hall].
        * rewrite !andb_true_iff in Hall. destruct Hall as [[_ Hent] Hs].
          rewrite (eqm_entries_sorted_nodup _ Hs). cbn [andb].
          destruct (snd p) as [|v r] eqn:Ev; [reflexivity|]. rewrite forallb_forall in *. intros e He.
          specialize (Hent _ He). unfold msg_typed_entry in Hent.
          destruct e as [s|fs' u'|key inner]; try discriminate.
          destruct (IH _ He) as [_ Qi]. specialize (Qi key inner eq_refl).
          rewrite !andb_true_iff in Hent. destruct Hent as [_ Hent].
          destruct (f_kind fd) as [sk|t|t], inner as [s|fs' u'|k1 x1]; try discriminate; [reflexivity|].
          destruct d as [|d1]; [discriminate|]. eapply Qi; [reflexivity|exact Hent].
    - destruct IH as [Q _]. split; [intros dep tid k _ H; discriminate H|].
      intros key inner E. inversion E; subst. exact Q.
  Qed.

  Theorem eqm_typed_wf dep tid v : msg_typed slow S dep tid v = true -> eqm_wf S (KMsg tid) v = true.
  Proof. intros H. destruct (eqm_typed_wf_all v) as [Q _]. eapply Q; [reflexivity|exact H]. Qed.
End TypedWf.

Lemma eqm_equal_valid_refl slow S limit tid v : msg_valid slow S limit tid v = true -> eqm_equal S tid v v = true.
Proof.
  intros Hv. unfold msg_valid in Hv. apply andb_true_iff in Hv. destruct Hv as [_ Ht].
  apply eqm_value_refl. eapply eqm_typed_wf; exact Ht.
Qed.

Theorem eqm_equal_decode_encode :
  forall (slow : bool) (S : schema) (limit : nat) (tid : nat) (v : value),
    msg_valid slow S limit tid v = true ->
    exists v', msg_decode slow S limit tid (msg_encode S tid v) = DOk v' /\ eqm_equal S tid v v' = true.
Proof.
  intros slow S limit tid v Hv. exists v. split; [now apply msg_roundtrip|exact (eqm_equal_valid_refl _ _ _ _ _ Hv)].
Qed.

(* equal deterministic bytes of two valid messages: same abstract content, hence proto.Equal *)
Theorem eqm_det_equal_converse :
  forall (slow : bool) (S : schema) (limit : nat) (tid : nat) (m1 m2 : value)
         (pf1 pf2 : fields -> fields) (pi1 pi2 : list value -> list value),
    det_perm_oracle pf1 -> det_perm_oracle pf2 -> det_perm_oracle pi1 -> det_perm_oracle pi2 ->
    det_wf m1 = true -> det_wf m2 = true ->
    msg_valid slow S limit tid (det_canon m1) = true -> msg_valid slow S limit tid (det_canon m2) = true ->
    det_encode pf1 pi1 S tid m1 = det_encode pf2 pi2 S tid m2 ->
    eqm_equal S tid (det_canon m1) (det_canon m2) = true.
Proof.
  intros slow S limit tid m1 m2 pf1 pf2 pi1 pi2 F1 F2 P1 P2 W1 W2 V1 V2 E.
  rewrite (det_equal_bytes_same_content slow S limit tid m1 m2 pf1 pf2 pi1 pi2 F1 F2 P1 P2 W1 W2 V1 V2 E).
  exact (eqm_equal_valid_refl _ _ _ _ _ V2).
Qed.
