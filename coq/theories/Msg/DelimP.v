(* DelimP — the protodelim model (Msg/DelimModel.v): io.ReadFull does not depend on the chunking and
   UnmarshalFrom not on the reader ([unmarshal_from_ref_eq]); on the reader-independent function: a whole
   frame is read back, io.EOF exactly on the empty stream, SizeTooLargeError exactly above the effective
   maximum, a cut frame gives ErrUnexpectedEOF; streams of frames ([roundtrip], [truncation],
   [eof_at_boundary]); the fuel of the model suffices. *)
From Coq Require Import List Arith NArith ZArith Lia Bool.
From Coq Require Import ZifyBool ZifyNat ZifyN.
From PB Require Import Base.PBytes Base.ListP Base.PBytesP Wire.WireModel Wire.VarintP Msg.DelimModel Gen.DelimConsts.
Import ListNotations.
Open Scope N_scope.

Lemma take_upto_spec : forall s n,
  take_upto s n = (firstn (N.to_nat n) s, skipn (N.to_nat n) s).
Proof.
  induction s as [|b r IH]; intros n; cbn [take_upto].
  - now rewrite firstn_nil, skipn_nil.
  - destruct (n =? 0) eqn:E.
    + replace (N.to_nat n) with O by lia. reflexivity.
    + rewrite IH. replace (N.to_nat n) with (S (N.to_nat (N.pred n))) by lia. reflexivity.
Qed.

Lemma read_full_spec : forall fuel o i need acc s,
  (length s < fuel)%nat ->
  read_full fuel o i need acc s =
    if need <=? N.of_nat (length s)
    then RFOk (acc ++ firstn (N.to_nat need) s) (skipn (N.to_nat need) s)
    else RFShort.
Proof.
  induction fuel as [|f IH]; intros o i need acc s Hf; [lia|].
  cbn [read_full].
  destruct (need =? 0) eqn:E0.
  - replace (need <=? N.of_nat (length s)) with true by lia.
    replace (N.to_nat need) with O by lia. cbn. now rewrite app_nil_r.
  - destruct s as [|b r].
    + cbn [length]. replace (need <=? N.of_nat 0) with false by lia. reflexivity.
    + set (s := b :: r) in *.
      set (c := N.min (N.max (chunk o i) 1) need).
      rewrite take_upto_spec.
      assert (Hc1 : 1 <= c) by (unfold c; lia).
      assert (Hc2 : c <= need) by (unfold c; lia).
      assert (Hls : (1 <= length s)%nat) by (unfold s; cbn; lia).
      set (k := N.to_nat c).
      assert (Hlen : length (firstn k s) = Nat.min k (length s)) by apply firstn_length.
      assert (Hlen2 : length (skipn k s) = (length s - k)%nat) by apply skipn_length.
      rewrite IH by (rewrite Hlen2; unfold k; lia).
      rewrite Hlen, Hlen2.
      destruct (need <=? N.of_nat (length s)) eqn:En.
      * (* enough data: the chunk is entirely available *)
        assert (Hk : (k <= length s)%nat) by (unfold k; lia).
        replace (Nat.min k (length s)) with k by lia.
        replace (need - N.of_nat k <=? N.of_nat (length s - k)) with true by lia.
        replace (N.to_nat need) with (k + N.to_nat (need - N.of_nat k))%nat by lia.
        rewrite firstn_add, skipn_add, app_assoc. reflexivity.
      * replace (need - N.of_nat (Nat.min k (length s)) <=? N.of_nat (length s - k)) with false by lia.
        reflexivity.
Qed.

Section DelimProofs.
Variable body_ok : list byte -> bool.

Lemma read_size_enc : forall k terr v first acc rest,
  (0 < k)%nat -> v < 2^(7 * N.of_nat k) ->
  read_size terr k first acc (enc_varint_fuel k v ++ rest) = RSBuf (acc ++ enc_varint_fuel k v) rest.
Proof.
  induction k as [|k IH]; intros terr v first acc rest Hk Hv; [lia|].
  cbn [enc_varint_fuel read_size].
  destruct (v <? 128) eqn:Hlt.
  - cbn [app]. rewrite b2n_n2b by lia. rewrite Hlt. reflexivity.
  - cbn [app]. rewrite b2n_n2b by (pose proof (N.mod_lt v 128); lia).
    replace (v mod 128 + 128 <? 128) with false by lia.
    assert (Hk' : (0 < k)%nat).
    { destruct k; [|lia]. change (2 ^ (7 * N.of_nat 1)) with 128 in Hv. lia. }
    rewrite IH; [now rewrite <- app_assoc | exact Hk' |].
    replace (7 * N.of_nat (S k)) with (7 * N.of_nat k + 7) in Hv by lia.
    rewrite N.pow_add_r in Hv. change (2^7) with 128 in Hv.
    apply N.div_lt_upper_bound; lia.
Qed.

Lemma read_size_varint terr v rest : v < 2^64 ->
  read_size terr size_arr_len true [] (enc_varint v ++ rest) = RSBuf (enc_varint v) rest.
Proof.
  intros Hv. unfold enc_varint, size_arr_len. rewrite read_size_enc; [reflexivity | lia |].
  change (7 * N.of_nat 10) with 70. assert (2^64 < 2^70) by (apply N.pow_lt_mono_r; lia). lia.
Qed.

Lemma dec_varint_enc v : v < 2^64 -> dec_varint (enc_varint v) = Ok (v, []).
Proof. intros H. rewrite <- (app_nil_r (enc_varint v)). now apply varint_roundtrip. Qed.

Lemma read_size_inv : forall k terr first acc s,
  match read_size terr k first acc s with
  | RSBuf _ r => (length r <= length s)%nat
  | RSErr e r => r = [] /\ (e = DReaderErr /\ terr = true \/
                            e = DEOF /\ terr = false /\ first = true /\ s = [])
  end.
Proof.
  induction k as [|k IH]; intros terr first acc s; cbn [read_size]; [lia|].
  destruct s as [|b r].
  - destruct terr; [intuition|]. destruct first; [intuition | cbn; lia].
  - destruct (b2n b <? 128); [cbn; lia|].
    specialize (IH terr false (acc ++ [b]) r).
    destruct (read_size terr k false (acc ++ [b]) r); [cbn; lia|].
    destruct IH as (-> & [H|(_ & _ & H & _)]); [|discriminate].
    split; [reflexivity | now left].
Qed.

Theorem unmarshal_from_ref_eq terr o max s :
  unmarshal_from body_ok terr o max s = unmarshal_from_ref body_ok terr max s.
Proof.
  unfold unmarshal_from, unmarshal_from_ref.
  destruct (read_size terr size_arr_len true [] s) as [buf r|e r]; [|reflexivity].
  destruct (dec_varint buf) as [[size rest]|e]; [|reflexivity].
  destruct (effective_max max <? size); [reflexivity|].
  destruct (max_int <? size) eqn:Ei.
  - (* int(size) / int64(size) is negative: no Peek, nothing read *)
    replace (size <=? max_int) with false by lia. rewrite andb_false_r, andb_false_l, orb_false_r.
    replace (size <=? max_prealloc_size) with false by (unfold max_prealloc_size, max_int in *; lia).
    reflexivity.
  - replace (size <=? max_int) with true by lia. rewrite andb_true_r, orb_true_r.
    destruct (size <=? N.of_nat (length r)) eqn:Es.
    + rewrite andb_true_r.
      destruct (is_bufio o && peek_ok o size).
      * now rewrite take_upto_spec.
      * rewrite read_full_spec by lia. rewrite Es. reflexivity.
    + rewrite andb_false_r. rewrite read_full_spec by lia. rewrite Es. reflexivity.
Qed.

(* a body is accepted or rejected by the message codec, nothing else *)
Lemma unmarshal_res b : unmarshal body_ok b = DOk b \/ unmarshal body_ok b = DBodyErr b.
Proof. unfold unmarshal. destruct (body_ok b); auto. Qed.

(* once the size has been read and is within the maximum: a body (possibly empty, possibly rejected)
   taken from the front of the rest, or the stream ends short *)
Lemma sized_body_cases (terr : bool) r size :
  let res := if max_int <? size then (unmarshal body_ok [], r)
             else if size <=? N.of_nat (length r)
             then (unmarshal body_ok (firstn (N.to_nat size) r), skipn (N.to_nat size) r)
             else (if terr then DReaderErr else DUnexpectedEOF, []) in
  (exists b r', res = (unmarshal body_ok b, r') /\ (length r' <= length r)%nat) \/
  res = (if terr then DReaderErr else DUnexpectedEOF, []).
Proof.
  cbv zeta. destruct (max_int <? size); [left; eauto|].
  destruct (size <=? N.of_nat (length r)); [left|right; reflexivity].
  eexists _, _. split; [reflexivity|]. rewrite skipn_length. lia.
Qed.

(* one complete frame, any reader *)
Lemma unmarshal_from_frame terr o max body rest :
  N.of_nat (length body) < 2^64 ->
  N.of_nat (length body) <= effective_max max ->
  N.of_nat (length body) <= max_int ->
  unmarshal_from body_ok terr o max (marshal_to body ++ rest) = (unmarshal body_ok body, rest).
Proof.
  intros H64 Hmax Halloc. rewrite unmarshal_from_ref_eq. unfold unmarshal_from_ref, marshal_to.
  rewrite <- app_assoc, read_size_varint, dec_varint_enc by exact H64. cbv zeta. rewrite app_length.
  replace (effective_max max <? N.of_nat (length body)) with false by lia.
  replace (max_int <? N.of_nat (length body)) with false by lia.
  replace (N.of_nat (length body) <=? N.of_nat (length body + length rest)) with true by lia.
  rewrite Nat2N.id, firstn_app_len, skipn_app_len. reflexivity.
Qed.

Theorem eof_exact terr o max s :
  fst (unmarshal_from body_ok terr o max s) = DEOF <-> s = [] /\ terr = false.
Proof.
  rewrite unmarshal_from_ref_eq. split; [|intros [-> ->]; reflexivity].
  unfold unmarshal_from_ref.
  pose proof (read_size_inv size_arr_len terr true [] s) as Hr.
  destruct (read_size terr size_arr_len true [] s) as [buf r|e r].
  - destruct (dec_varint buf) as [[size rest]|[]]; cbn [fst]; try discriminate. cbv zeta.
    destruct (effective_max max <? size); [discriminate|].
    destruct (sized_body_cases terr r size) as [(b & r' & -> & _)| ->]; cbn [fst].
    + destruct (unmarshal_res b) as [-> | ->]; discriminate.
    + destruct terr; discriminate.
  - cbn [fst]. intros ->. destruct Hr as (_ & [[H _]|(_ & Ht & _ & Hs)]); [discriminate | now split].
Qed.

Theorem too_large_iff terr o max s sz m :
  fst (unmarshal_from body_ok terr o max s) = DTooLarge sz m <->
  exists buf r rest, read_size terr size_arr_len true [] s = RSBuf buf r /\ dec_varint buf = Ok (sz, rest) /\
                     m = effective_max max /\ m < sz.
Proof.
  rewrite unmarshal_from_ref_eq. unfold unmarshal_from_ref. split.
  - pose proof (read_size_inv size_arr_len terr true [] s) as Hr.
    destruct (read_size terr size_arr_len true [] s) as [buf r|e r].
    + destruct (dec_varint buf) as [[size rest]|[]] eqn:Ed; cbn [fst]; try discriminate. cbv zeta.
      destruct (effective_max max <? size) eqn:Em.
      { cbn [fst]. intros H; inversion H; subst. exists buf, r, rest. repeat split; auto; lia. }
      destruct (sized_body_cases terr r size) as [(b & r' & -> & _)| ->]; cbn [fst].
      * destruct (unmarshal_res b) as [-> | ->]; discriminate.
      * destruct terr; discriminate.
    + cbn [fst]. intros ->. destruct Hr as (_ & [[H _]|(H & _)]); discriminate.
  - intros (buf & r & rest & -> & -> & -> & Hlt). cbv zeta.
    replace (effective_max max <? sz) with true by lia. reflexivity.
Qed.

Corollary too_large_frame terr o max sz rest :
  sz < 2^64 ->
  (fst (unmarshal_from body_ok terr o max (enc_varint sz ++ rest)) = DTooLarge sz (effective_max max)
   <-> effective_max max < sz).
Proof.
  intros H64. rewrite too_large_iff. rewrite read_size_varint by exact H64. split.
  - intros (buf & r & rest' & Hb & Hd & _ & Hlt). exact Hlt.
  - intros Hlt. exists (enc_varint sz), rest, []. rewrite dec_varint_enc by exact H64. auto.
Qed.

(* a varint byte with the continuation bit set *)
Definition cont_byte (b : byte) : Prop := 128 <= b2n b.

Lemma enc_varint_fuel_prefix : forall k v j,
  (j < length (enc_varint_fuel k v))%nat -> Forall cont_byte (firstn j (enc_varint_fuel k v)).
Proof.
  induction k as [|k IH]; intros v j Hj; cbn [enc_varint_fuel] in *; [cbn in Hj; lia|].
  destruct (v <? 128).
  - cbn in Hj. replace j with O by lia. constructor.
  - destruct j as [|j]; [constructor|]. cbn [firstn]. constructor.
    + unfold cont_byte. rewrite b2n_n2b by (pose proof (N.mod_lt v 128); lia). lia.
    + apply IH. cbn [length] in Hj. lia.
Qed.

Lemma enc_varint_fuel_len : forall k v, (length (enc_varint_fuel k v) <= k)%nat.
Proof.
  induction k as [|k IH]; intros v; cbn [enc_varint_fuel]; [cbn; lia|].
  destruct (v <? 128); cbn [length]; [lia|]. specialize (IH (v / 128)). lia.
Qed.

Lemma read_size_cont : forall k first acc p,
  Forall cont_byte p -> (length p < k)%nat -> (first = false \/ p <> []) ->
  read_size false k first acc p = RSBuf (acc ++ p) [].
Proof.
  induction k as [|k IH]; intros first acc p Hp Hl Hf; [lia|].
  cbn [read_size]. destruct p as [|b r].
  - destruct Hf as [->|Hf]; [now rewrite app_nil_r | congruence].
  - inversion Hp as [|? ? Hb Hr]; subst. unfold cont_byte in Hb.
    replace (b2n b <? 128) with false by lia.
    rewrite IH; [now rewrite <- app_assoc | exact Hr | cbn in Hl; lia | now left].
Qed.

Lemma dec_varint_cont : forall k shift acc p,
  Forall cont_byte p -> (length p < k)%nat -> dec_varint_aux k shift acc p = Err Truncated.
Proof.
  induction k as [|k IH]; intros shift acc p Hp Hl; [lia|].
  cbn [dec_varint_aux]. destruct p as [|b r]; [reflexivity|].
  inversion Hp as [|? ? Hb Hr]; subst. unfold cont_byte in Hb. cbn [length] in Hl.
  destruct k as [|k']; [lia|].
  replace (b2n b <? 128) with false by lia.
  apply IH; [exact Hr | lia].
Qed.

(* cut strictly inside the size varint *)
Lemma unmarshal_from_cut_size o max v j :
  (0 < j < length (enc_varint v))%nat ->
  unmarshal_from body_ok false o max (firstn j (enc_varint v)) = (DUnexpectedEOF, []).
Proof.
  intros Hj. unfold unmarshal_from.
  pose proof (enc_varint_fuel_prefix 10 v j (proj2 Hj)) as Hc.
  pose proof (enc_varint_fuel_len 10 v) as Hl.
  fold (enc_varint v) in Hc, Hl.
  assert (Hlen : length (firstn j (enc_varint v)) = j) by (apply firstn_length_le; lia).
  rewrite read_size_cont; [| exact Hc | unfold size_arr_len; lia | right; intros E; rewrite E in Hlen; cbn in Hlen; lia].
  cbn [app]. unfold dec_varint. rewrite dec_varint_cont; [reflexivity | exact Hc | lia].
Qed.

(* cut after the size, strictly inside the body (including: nothing of a non-empty body) *)
Lemma unmarshal_from_cut_body o max body j :
  N.of_nat (length body) < 2^64 ->
  N.of_nat (length body) <= effective_max max ->
  N.of_nat (length body) <= max_int ->
  (j < length body)%nat ->
  unmarshal_from body_ok false o max (enc_varint (N.of_nat (length body)) ++ firstn j body) = (DUnexpectedEOF, []).
Proof.
  intros H64 Hmax Halloc Hj. rewrite unmarshal_from_ref_eq. unfold unmarshal_from_ref.
  rewrite read_size_varint, dec_varint_enc by exact H64. cbv zeta.
  rewrite firstn_length_le by lia.
  replace (effective_max max <? N.of_nat (length body)) with false by lia.
  replace (max_int <? N.of_nat (length body)) with false by lia.
  replace (N.of_nat (length body) <=? N.of_nat j) with false by lia. reflexivity.
Qed.

Lemma marshal_to_length body : length (marshal_to body) = (length (enc_varint (N.of_nat (length body))) + length body)%nat.
Proof. unfold marshal_to. now rewrite app_length. Qed.

Definition frame_ok (max : Z) (body : list byte) : Prop :=
  N.of_nat (length body) < 2^64 /\ N.of_nat (length body) <= effective_max max /\
  N.of_nat (length body) <= max_int /\ body_ok body = true.

Lemma unmarshal_from_cut o max body j :
  frame_ok max body -> (0 < j < length (marshal_to body))%nat ->
  unmarshal_from body_ok false o max (firstn j (marshal_to body)) = (DUnexpectedEOF, []).
Proof.
  intros (H64 & Hmax & Halloc & _) Hj. rewrite marshal_to_length in Hj. unfold marshal_to.
  set (ev := enc_varint (N.of_nat (length body))) in *.
  rewrite firstn_app.
  destruct (Nat.lt_ge_cases j (length ev)) as [Hlt|Hge].
  - replace (j - length ev)%nat with O by lia. cbn [firstn]. rewrite app_nil_r.
    apply unmarshal_from_cut_size. fold ev. lia.
  - rewrite firstn_all2 by lia. apply unmarshal_from_cut_body; auto. lia.
Qed.

Definition stream_of (bs : list (list byte)) : list byte := concat (map marshal_to bs).

Lemma read_all_frames orc max : forall bs fuel i tail,
  Forall (frame_ok max) bs -> (length bs <= fuel)%nat ->
  read_all body_ok false fuel orc i max (stream_of bs ++ tail) =
  map DOk bs ++ read_all body_ok false (fuel - length bs) orc (i + length bs) max tail.
Proof.
  induction bs as [|b bs IH]; intros fuel i tail Hok Hf.
  - cbn. now rewrite Nat.sub_0_r, Nat.add_0_r.
  - inversion Hok as [|? ? (H64 & Hmax & Halloc & Hbody) Hrest]; subst.
    destruct fuel as [|f]; [cbn in Hf; lia|].
    unfold stream_of. cbn [map concat]. rewrite <- app_assoc.
    cbn [read_all]. rewrite unmarshal_from_frame by assumption.
    unfold unmarshal. rewrite Hbody. cbn [map app length]. f_equal.
    fold (stream_of bs). rewrite IH by (auto; cbn in Hf; lia).
    do 2 f_equal. cbn. lia.
Qed.

Lemma stream_of_length_ge bs : (length bs <= length (stream_of bs))%nat.
Proof.
  unfold stream_of. rewrite <- flat_map_concat_map. apply flat_map_length_ge.
  intros b C. apply app_eq_nil in C. destruct C as [C _]. now apply enc_varint_nonempty in C.
Qed.

Theorem roundtrip orc max bs :
  Forall (frame_ok max) bs ->
  read_stream body_ok false orc max (stream_of bs) = map DOk bs ++ [DEOF].
Proof.
  intros Hok. unfold read_stream.
  rewrite <- (app_nil_r (stream_of bs)) at 2.
  pose proof (stream_of_length_ge bs).
  rewrite read_all_frames by (auto; lia).
  f_equal. destruct (S (length (stream_of bs)) - length bs)%nat eqn:E; [lia|]. reflexivity.
Qed.

Theorem truncation orc max bs body j :
  Forall (frame_ok max) bs -> frame_ok max body -> (0 < j < length (marshal_to body))%nat ->
  read_stream body_ok false orc max (stream_of bs ++ firstn j (marshal_to body)) = map DOk bs ++ [DUnexpectedEOF].
Proof.
  intros Hok Hb Hj. unfold read_stream.
  pose proof (stream_of_length_ge bs).
  rewrite read_all_frames by (auto; rewrite app_length; lia).
  f_equal. rewrite app_length.
  destruct (S (length (stream_of bs) + length (firstn j (marshal_to body))) - length bs)%nat eqn:E; [lia|].
  cbn [read_all]. rewrite unmarshal_from_cut by assumption. reflexivity.
Qed.

(* io.EOF is returned exactly at a message boundary: after any number of whole
   frames, the next result is io.EOF iff nothing follows *)
Theorem eof_at_boundary orc max bs tail :
  Forall (frame_ok max) bs ->
  (read_stream body_ok false orc max (stream_of bs ++ tail) = map DOk bs ++ [DEOF] <-> tail = []).
Proof.
  intros Hok. split.
  - unfold read_stream. pose proof (stream_of_length_ge bs).
    rewrite read_all_frames by (auto; rewrite app_length; lia).
    intros Heq. apply app_inv_head in Heq. rewrite app_length in Heq.
    destruct (S (length (stream_of bs) + length tail) - length bs)%nat eqn:E; [lia|].
    cbn [read_all] in Heq.
    pose proof (eof_exact false (orc (0 + length bs)%nat) max tail) as [Hx _].
    destruct (unmarshal_from body_ok false (orc (0 + length bs)%nat) max tail) as [[] r] eqn:Eu;
      try discriminate; cbn [fst] in Hx.
    now destruct (Hx eq_refl).
  - intros ->. rewrite app_nil_r. now apply roundtrip.
Qed.

Lemma read_size_consumes terr k acc s buf r :
  read_size terr (S k) true acc s = RSBuf buf r -> (length r < length s)%nat.
Proof.
  cbn [read_size]. destruct s as [|b r0].
  - destruct terr; discriminate.
  - destruct (b2n b <? 128).
    + intros H; inversion H; subst. cbn; lia.
    + intros H. pose proof (read_size_inv k terr false (acc ++ [b]) r0) as Hi. rewrite H in Hi. cbn; lia.
Qed.

Lemma unmarshal_from_progress terr o max s :
  fst (unmarshal_from body_ok terr o max s) <> DOutOfFuel /\
  (forall b, fst (unmarshal_from body_ok terr o max s) = DOk b ->
             (length (snd (unmarshal_from body_ok terr o max s)) < length s)%nat).
Proof.
  rewrite unmarshal_from_ref_eq. unfold unmarshal_from_ref, size_arr_len.
  pose proof (read_size_inv 10 terr true [] s) as Hinv.
  destruct (read_size terr 10 true [] s) as [buf r|e r] eqn:Er.
  - apply read_size_consumes in Er.
    destruct (dec_varint buf) as [[size rest]|[]]; cbn [fst snd]; try (split; [discriminate | intros; discriminate]).
    cbv zeta. destruct (effective_max max <? size); [split; [discriminate | intros; discriminate]|].
    destruct (sized_body_cases terr r size) as [(b & r' & -> & Hl)| ->]; cbn [fst snd].
    + split; [destruct (unmarshal_res b) as [-> | ->]; discriminate|]. intros _ _. lia.
    + split; [destruct terr; discriminate | destruct terr; intros; discriminate].
  - cbn [fst snd]. destruct Hinv as (_ & [[-> _]|(-> & _)]); split; try discriminate; intros; discriminate.
Qed.

Lemma read_all_no_fuel terr orc max : forall fuel i s,
  (length s < fuel)%nat -> ~ In DOutOfFuel (read_all body_ok terr fuel orc i max s).
Proof.
  induction fuel as [|f IH]; intros i s Hf; [lia|].
  cbn [read_all].
  destruct (unmarshal_from_progress terr (orc i) max s) as [Hnf Hprog].
  destruct (unmarshal_from body_ok terr (orc i) max s) as [res r]. cbn [fst snd] in *.
  destruct res; try (intros [H|[]]; congruence).
  intros [H|H]; [discriminate|].
  specialize (Hprog body eq_refl). apply (IH (S i) r); [lia | exact H].
Qed.

Theorem read_stream_no_fuel terr orc max s :
  ~ In DOutOfFuel (read_stream body_ok terr orc max s).
Proof. unfold read_stream. apply read_all_no_fuel. lia. Qed.
End DelimProofs.

Lemma delim_consts_ok :
  default_max_size = DelimConsts.defaultMaxSize /\
  N.of_nat size_arr_len = DelimConsts.sizeArrLen /\
  max_int = DelimConsts.unlimitedBound /\
  effective_max DelimConsts.unlimitedMaxSize = DelimConsts.unlimitedBound /\
  effective_max 0 = DelimConsts.defaultMaxSize /\
  max_prealloc_size = DelimConsts.maxPreallocSize.
Proof. repeat split; reflexivity. Qed.

Definition f15_stream : list byte := [xff; xff; xff; xff; xff; xff; xff; xff; x7f].
Definition plain_oracle : oracle := {| is_bufio := false; peek_ok := fun _ => false; chunk := fun _ => 1 |}.
Lemma f15_unexpected_eof :
  unmarshal_from (fun _ => true) false plain_oracle (-1) f15_stream = (DUnexpectedEOF, []).
Proof. vm_compute. reflexivity. Qed.
