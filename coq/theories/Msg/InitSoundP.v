(* InitSoundP — the validator never reports a partial message as initialized:
     vm_validate S limit tid bs = (Valid, initialized = true, _)  and
     msg_decode false S limit tid bs = DOk v   imply   msg_check_init S tid v = true
   (Msg/ValidateMsgModel.v, Msg/MsgDec.v), for schema tables satisfying [is_schema_ok]: field numbers
   are unique within a message type, no required field is a member of a oneof (so no member of a
   oneof shares its number with a required field), and no map has group values.

   Invariant carried along the lockstep walk of validator and decoder:
     - every message value stored in the accumulator is fully initialized ([is_sub_ok]),
     - every required field whose bit the validator has set is present ([is_seen_ok]). *)
From Coq Require Import List Arith NArith ZArith Lia Bool.
From Coq Require Import ZifyBool ZifyNat ZifyN.
From PB Require Import Base.PBytes Base.ListP Wire.WireModel Wire.VarintP Wire.ScanP.
From PB Require Import Msg.MsgSchema Msg.MsgValue Msg.MsgUtf8 Msg.MsgDec Msg.MsgAssocP Msg.MsgStoreP Msg.MsgDecP Msg.ValidateMsgModel Msg.ValidateMsgP.
Import ListNotations.
Open Scope N_scope.

Definition is_chunk_ok (S : schema) (md : mdesc) (p : N * list value) : bool :=
  vm_ci_chunk (msg_check_init S) md p.
Definition is_sub_ok (S : schema) (md : mdesc) (fs : fields) : Prop :=
  forall p, In p fs -> is_chunk_ok S md p = true.

Lemma is_check_init_unfold S tid fs u :
  msg_check_init S tid (VMsg fs u) = true <->
  vm_req_present (nth tid S []) fs = true /\ is_sub_ok S (nth tid S []) fs.
Proof.
  cbn [msg_check_init]. rewrite andb_true_iff, forallb_forall. reflexivity.
Qed.

Lemma is_sub_ok_nil S md : is_sub_ok S md [].
Proof. intros p []. Qed.

Lemma is_sub_ok_fset S md fs k vs :
  is_sub_ok S md fs -> is_chunk_ok S md (k, vs) = true -> is_sub_ok S md (msg_fset fs k vs).
Proof. intros Hs Hc p Hp. destruct (msg_in_fset _ _ _ _ Hp) as [->|Hp']; [exact Hc|exact (Hs p Hp')]. Qed.

(* the values stored under a message-typed field are initialized *)
Lemma is_sub_ok_fget S md fs n fd t :
  is_sub_ok S md fs -> msg_find_field md n = Some fd ->
  (f_kind fd = KMsg t \/ f_kind fd = KGrp t) ->
  forallb (msg_check_init S t) (msg_fget fs n) = true.
Proof.
  intros Hs Hf Hk. destruct (msg_fget fs n) as [|v r] eqn:E; [reflexivity|]. rewrite <- E.
  assert (Hin : In (n, msg_fget fs n) fs) by (apply msg_fget_in; rewrite E; discriminate).
  pose proof (Hs _ Hin) as Hc. unfold is_chunk_ok, vm_ci_chunk in Hc. cbn [fst snd] in Hc.
  rewrite Hf in Hc. destruct Hk as [Hk|Hk]; rewrite Hk in Hc; exact Hc.
Qed.

Lemma is_chunk_ok_scalar S md n fd sk vs :
  msg_find_field md n = Some fd -> f_kind fd = KS sk -> is_chunk_ok S md (n, vs) = true.
Proof. intros Hf Hk. unfold is_chunk_ok, vm_ci_chunk. cbn [fst snd]. rewrite Hf, Hk. reflexivity. Qed.

Lemma is_chunk_ok_msg S md n fd t vs :
  msg_find_field md n = Some fd -> (f_kind fd = KMsg t \/ f_kind fd = KGrp t) ->
  forallb (msg_check_init S t) vs = true -> is_chunk_ok S md (n, vs) = true.
Proof.
  intros Hf Hk Hv. unfold is_chunk_ok, vm_ci_chunk. cbn [fst snd]. rewrite Hf.
  destruct Hk as [Hk|Hk]; rewrite Hk; exact Hv.
Qed.

Definition is_present (fs : fields) (n : N) : Prop := msg_fget fs n <> [].

(* no member of a oneof shares its number with a required field *)
Definition is_md_sep (md : mdesc) : Prop :=
  forall fd fd', In fd md -> In fd' md -> vr_is_req fd = true -> f_oneof fd' <> None -> f_num fd <> f_num fd'.
(* field numbers are unique, required fields are not members of a oneof *)
Definition is_md_ok (md : mdesc) : Prop :=
  NoDup (map f_num md) /\ forall fd, In fd md -> vr_is_req fd = true -> f_oneof fd = None.

Lemma is_nodup_num_inj (md : mdesc) fd fd0 :
  NoDup (map f_num md) -> In fd md -> In fd0 md -> f_num fd = f_num fd0 -> fd = fd0.
Proof.
  induction md as [|f r IH]; intros Hnd Hin Hin0 En; [contradiction|].
  cbn [map] in Hnd. inversion Hnd as [|? ? Hnot Hnd']; subst.
  destruct Hin as [<-|Hin], Hin0 as [<-|Hin0]; auto.
  - exfalso. apply Hnot. rewrite En. apply in_map. exact Hin0.
  - exfalso. apply Hnot. rewrite <- En. apply in_map. exact Hin.
Qed.

Lemma is_md_ok_sep md : is_md_ok md -> is_md_sep md.
Proof.
  intros [Hnd Hro] fd fd' Hin Hin' Hr Ho En.
  assert (fd = fd') by (eapply is_nodup_num_inj; eauto). subst fd'. apply Ho. apply Hro; assumption.
Qed.
(* map values are never groups *)
Definition is_md_maps_ok (md : mdesc) : Prop :=
  forall fd kk ku vd t, In fd md -> f_card fd = CMap kk ku vd -> f_kind fd <> KGrp t.
Definition is_schema_ok (S : schema) : Prop := forall md, In md S -> is_md_ok md /\ is_md_maps_ok md.

Definition is_req_num (md : mdesc) (n : N) : Prop :=
  exists fd, In fd md /\ vr_is_req fd = true /\ f_num fd = n.

Section Store.
  Variable S : schema.
  Variable md : mdesc.
  Hypothesis Hmdok : is_md_sep md.

  Lemma is_req_not_oneof n fd' : is_req_num md n -> In fd' md -> f_oneof fd' <> None -> n <> f_num fd'.
  Proof. intros (fd & Hin & Hr & <-) Hin' Ho. eapply Hmdok; eauto. Qed.

  Lemma is_set_field_sub_ok fd v fs :
    is_sub_ok S md fs -> is_chunk_ok S md (f_num fd, [v]) = true -> is_sub_ok S md (msg_set_field md fd v fs).
  Proof. intros Hs Hc p Hp. destruct (msg_in_set_field _ _ _ _ _ Hp) as [->|Hp']; [exact Hc|exact (Hs p Hp')]. Qed.

  Lemma is_set_field_present_other fd v fs n :
    is_req_num md n -> n <> f_num fd -> is_present fs n -> is_present (msg_set_field md fd v fs) n.
  Proof.
    intros Hr Hn Hp. unfold is_present. rewrite msg_fget_set_field_other; [exact Hp|exact Hn|].
    intros fd' Hin En. destruct (f_oneof fd') eqn:Eo; [|reflexivity].
    exfalso. apply (is_req_not_oneof n fd' Hr Hin); [rewrite Eo; discriminate|symmetry; exact En].
  Qed.

  (* a required field that is stored is present afterwards *)
  Lemma is_set_field_present_self fd v fs :
    vr_is_req fd = true -> is_present (msg_set_field md fd v fs) (f_num fd).
  Proof.
    intros Hr. unfold is_present. rewrite msg_fget_set_field_self; [discriminate|].
    unfold vr_is_req in Hr. destruct (f_card fd); try discriminate; reflexivity.
  Qed.

  Lemma is_append_sub_ok fd vs fs :
    is_sub_ok S md fs -> is_chunk_ok S md (f_num fd, msg_fget fs (f_num fd) ++ vs) = true ->
    is_sub_ok S md (msg_append_field fd vs fs).
  Proof. intros Hs Hc p Hp. destruct (msg_in_append_field _ _ _ _ Hp) as [->|Hp']; [exact Hc|exact (Hs p Hp')]. Qed.

  Lemma is_append_present_other fd vs fs n :
    n <> f_num fd -> is_present fs n -> is_present (msg_append_field fd vs fs) n.
  Proof. intros Hn Hp. unfold is_present. rewrite msg_fget_append_field_other; assumption. Qed.

  (* the old value a singular sub-message is merged into *)
  Lemma is_old_sub_ok fd fs num t :
    msg_find_field md num = Some fd -> (f_kind fd = KMsg t \/ f_kind fd = KGrp t) ->
    is_sub_ok S md fs -> is_sub_ok S (nth t S []) (fst (msg_old_sub fd fs)).
  Proof.
    intros Hf Hk Hs. unfold msg_old_sub. destruct (card_repeated (f_card fd)); [apply is_sub_ok_nil|].
    pose proof (msg_find_field_num _ _ _ Hf) as Hn. rewrite Hn.
    pose proof (is_sub_ok_fget S md fs num fd t Hs Hf Hk) as Hv.
    destruct (msg_fget fs num) as [|v r]; [apply is_sub_ok_nil|].
    cbn [forallb] in Hv. apply andb_prop in Hv. destruct Hv as [Hv _].
    destruct v as [s|fs' u|k v']; cbn [msg_macc_of fst]; try apply is_sub_ok_nil.
    apply is_check_init_unfold in Hv. tauto.
  Qed.

  (* storing a freshly decoded, initialized sub-message *)
  Lemma is_store_sub fd num t m fs :
    msg_find_field md num = Some fd -> (f_kind fd = KMsg t \/ f_kind fd = KGrp t) ->
    msg_check_init S t (VMsg (fst m) (snd m)) = true ->
    is_sub_ok S md fs ->
    is_sub_ok S md (msg_store_sub md fd m fs) /\
    (forall n, is_req_num md n -> is_present fs n -> is_present (msg_store_sub md fd m fs) n) /\
    (vr_is_req fd = true -> is_present (msg_store_sub md fd m fs) num).
  Proof.
    intros Hf Hk Hci Hs. pose proof (msg_find_field_num _ _ _ Hf) as Hn.
    pose proof (vp_find_field_in _ _ _ Hf) as Hin.
    unfold msg_store_sub. cbv zeta. destruct (card_repeated (f_card fd)) eqn:Er.
    - split; [|split].
      + apply is_append_sub_ok; [exact Hs|]. rewrite Hn. apply (is_chunk_ok_msg S md num fd t _ Hf Hk).
        rewrite forallb_app. rewrite (is_sub_ok_fget S md fs num fd t Hs Hf Hk). cbn [forallb andb]. rewrite andb_true_r. exact Hci.
      + intros n Hr Hp. destruct (N.eq_dec n (f_num fd)) as [->|Hne].
        * unfold msg_append_field, is_present. rewrite msg_fget_fset_same. destruct (msg_fget fs (f_num fd)); discriminate.
        * apply is_append_present_other; assumption.
      + intros Hr. unfold vr_is_req in Hr. destruct (f_card fd); try discriminate; cbn in Er; discriminate.
    - split; [|split].
      + apply is_set_field_sub_ok; [exact Hs|]. rewrite Hn. apply (is_chunk_ok_msg S md num fd t _ Hf Hk).
        cbn [forallb]. rewrite andb_true_r. exact Hci.
      + intros n Hr Hp. destruct (N.eq_dec n (f_num fd)) as [->|Hne].
        * unfold is_present. rewrite msg_fget_set_field_self; [discriminate|destruct (f_card fd); reflexivity].
        * apply is_set_field_present_other; assumption.
      + intros Hr. rewrite <- Hn. apply is_set_field_present_self; assumption.
  Qed.
End Store.

Lemma is_entry_init_mono reqof kk kutf8 vk vutf8 vm : forall g bs sv i q i' q' r,
  vr_entry reqof g kk kutf8 vk vutf8 vm bs sv i q = VOk i' q' r -> i' = true -> i = true.
Proof.
  induction g as [|x g IH]; intros bs sv i q i' q' r; cbn [vr_entry]; [discriminate|].
  destruct bs as [|b0 t0] eqn:Ebs.
  { intros H; inversion H; subst. intros E. apply andb_prop in E. tauto. }
  rewrite <- Ebs. clear Ebs.
  destruct (dec_tag bs) as [[[num typ] r0]|e]; [|discriminate].
  destruct (msg_max_num <? num); [discriminate|].
  destruct ((num =? 1) && (typ =? 2) && vr_is_string kk && kutf8).
  { destruct (dec_bytes r0) as [[p r1]|e]; [|discriminate]. destruct (msg_utf8_valid p); [apply IH|discriminate]. }
  destruct ((num =? 2) && (typ =? 2)).
  - destruct vk as [sk|tid|tid].
    + destruct (dec_bytes r0) as [[p r1]|e]; [|discriminate].
      destruct (vr_is_string sk && vutf8 && negb (msg_utf8_valid p)); [discriminate|apply IH].
    + destruct (dec_bytes r0) as [[p r1]|e]; [|discriminate].
      destruct (vm tid 0 (x00 :: p) p) as [i1 q1 r2| |]; try discriminate.
      intros H E. apply IH in H; [|exact E]. apply andb_prop in H. tauto.
    + destruct (vr_skip num typ r0); [apply IH|discriminate].
  - destruct (vr_skip num typ r0); [apply IH|discriminate].
Qed.

Lemma is_loop_init_mono reqof md vsub vsub2 grp : forall g bs seen i q i' q' r,
  vr_loop reqof md vsub vsub2 grp g bs seen i q = VOk i' q' r -> i' = true -> i = true.
Proof.
  induction g as [|x g IH]; intros bs seen i q i' q' r; cbn [vr_loop]; [discriminate|].
  destruct bs as [|b0 t0] eqn:Ebs.
  { destruct (grp =? 0); [|discriminate]. intros H; inversion H; subst. intros E. apply andb_prop in E. tauto. }
  rewrite <- Ebs. clear Ebs.
  destruct (dec_tag bs) as [[[num typ] r0]|e]; [|discriminate].
  destruct (msg_max_num <? num); [discriminate|].
  destruct (typ =? 4).
  { destruct (num =? grp); [|discriminate]. intros H; inversion H; subst. intros E. apply andb_prop in E. tauto. }
  destruct (vr_step reqof md vsub vsub2 num typ r0) as [i1 q1 r1| |]; try discriminate.
  intros H E. apply IH in H; [|exact E]. apply andb_prop in H. tauto.
Qed.

Lemma is_empty_init S tid : vr_reqof S tid = false -> msg_check_init S tid msg_empty = true.
Proof.
  unfold vr_reqof, vr_req_count, msg_empty. cbn [msg_check_init forallb]. rewrite andb_true_r.
  unfold vm_req_present. induction (nth tid S []) as [|fd r IH]; [reflexivity|].
  cbn [filter forallb msg_fget]. destruct (vr_is_req fd); cbn [length negb orb andb]; [discriminate|exact IH].
Qed.

Section EntryInit.
  Variable S : schema.
  Variables (kk : skind) (kutf8 : bool) (vk : kind) (vutf8 : bool).
  Variable vm : vr_t.
  Variable dm : list byte -> value -> dres value.
  Hypothesis Hvm : forall tid p v q r m, vk = KMsg tid ->
    vm tid 0 (x00 :: p) p = VOk true q r -> dm p v = DOk m ->
    is_sub_ok S (nth tid S []) (fst (msg_macc_of v)) -> msg_check_init S tid m = true.

  Definition is_val_inv (sv : bool) (val : value) : Prop :=
    forall tid, vk = KMsg tid ->
      (sv = true -> msg_check_init S tid val = true) /\ (sv = false -> val = msg_empty).

  Lemma is_val_sub_ok sv val tid : vk = KMsg tid -> is_val_inv sv val ->
    is_sub_ok S (nth tid S []) (fst (msg_macc_of val)).
  Proof.
    intros Ek H. destruct (H tid Ek) as [H1 H2]. destruct sv.
    - specialize (H1 eq_refl). destruct val as [s|fs u|k v]; cbn [msg_macc_of fst]; try apply is_sub_ok_nil.
      apply is_check_init_unfold in H1. tauto.
    - rewrite (H2 eq_refl). apply is_sub_ok_nil.
  Qed.

  Lemma is_entry_init : forall g bs sv i q key val q' r key' val',
    vr_entry (vr_reqof S) g kk kutf8 vk vutf8 vm bs sv i q = VOk true q' r ->
    msg_dec_entry g kk kutf8 vk vutf8 dm bs key val = DOk (key', val') ->
    is_val_inv sv val ->
    forall tid, vk = KMsg tid -> msg_check_init S tid val' = true.
  Proof.
    induction g as [|x g IH]; intros bs sv i q key val q' r key' val'; cbn [vr_entry msg_dec_entry]; [discriminate|].
    destruct bs as [|b0 t0] eqn:Ebs.
    { intros Hv Hd Hinv tid Ek. inversion Hd; subst key' val'. injection Hv as Hi _ _.
      destruct (Hinv tid Ek) as [H1 H2]. rewrite Ek in Hi. apply andb_prop in Hi. destruct Hi as [_ Hi].
      destruct sv; [apply H1; reflexivity|]. rewrite (H2 eq_refl).
      apply is_empty_init. rewrite orb_false_r in Hi. destruct (vr_reqof S tid); [discriminate|reflexivity]. }
    rewrite <- Ebs. clear Ebs.
    destruct (dec_tag bs) as [[[num typ] r0]|e]; [|discriminate].
    destruct (msg_max_num <? num); [discriminate|].
    destruct ((num =? 1) && (typ =? 2) && vr_is_string kk && kutf8) eqn:C1.
    { apply andb_prop in C1. destruct C1 as [C1 _]. apply andb_prop in C1. destruct C1 as [C1 _].
      apply andb_prop in C1. destruct C1 as [Hn1 Ht2]. apply N.eqb_eq in Hn1. apply N.eqb_eq in Ht2. subst num typ.
      rewrite msg_parse_val_len. destruct (dec_bytes r0) as [[p r1]|e]; [|discriminate].
      destruct (msg_utf8_valid p); [|discriminate]. cbn [N.eqb Pos.eqb].
      intros Hv Hd Hinv. destruct (msg_dec_scalar kk kutf8 (WLen p)) as [[s|e]|]; [|discriminate|]; exact (IH _ _ _ _ _ _ _ _ _ _ Hv Hd Hinv). }
    destruct ((num =? 2) && (typ =? 2)) eqn:C2.
    - apply andb_prop in C2. destruct C2 as [Hn2 Ht2]. apply N.eqb_eq in Hn2. apply N.eqb_eq in Ht2. subst num typ.
      cbn [N.eqb Pos.eqb]. rewrite msg_parse_val_len.
      destruct vk as [sk|tid0|tid0] eqn:Evk.
      + destruct (dec_bytes r0) as [[p r1]|e]; [|discriminate].
        destruct (vr_is_string sk && vutf8 && negb (msg_utf8_valid p)); [discriminate|].
        intros Hv Hd Hinv tid Ek. discriminate.
      + destruct (dec_bytes r0) as [[p r1]|e]; [|discriminate].
        destruct (vm tid0 0 (x00 :: p) p) as [i1 q1 r2| |] eqn:Em; try discriminate.
        intros Hv Hd Hinv.
        pose proof (is_entry_init_mono _ _ _ _ _ _ _ _ _ _ _ _ _ _ Hv eq_refl) as Hi1.
        apply andb_prop in Hi1. destruct Hi1 as [_ ->].
        destruct (dm p val) as [v'|e] eqn:Ed; [|discriminate].
        eapply IH; [exact Hv|exact Hd|].
        intros tid Ek. rewrite Evk in Ek. injection Ek as <-. split; [|discriminate]. intros _.
        eapply Hvm; [reflexivity|exact Em|exact Ed|]. eapply is_val_sub_ok; [exact Evk|exact Hinv].
      + unfold vr_skip. rewrite msg_parse_val_len. destruct (dec_bytes r0) as [[p r1]|e]; [|discriminate].
        intros Hv Hd Hinv tid Ek. discriminate.
    - unfold vr_skip. destruct (parse_val default_dep num typ r0) as [[w r1]|e] eqn:Ep; [|discriminate].
      intros Hv Hd Hinv.
      assert (Hrec : forall key2, msg_dec_entry g kk kutf8 vk vutf8 dm r1 key2 val = DOk (key', val') ->
                                  forall tid, vk = KMsg tid -> msg_check_init S tid val' = true).
      { intros key2 Hd2. exact (IH _ _ _ _ _ _ _ _ _ _ Hv Hd2 Hinv). }
      destruct (num =? 1).
      + destruct (msg_dec_scalar kk kutf8 w) as [[s|e]|]; [|discriminate|]; exact (Hrec _ Hd).
      + destruct (num =? 2) eqn:Hn2; [|exact (Hrec _ Hd)].
        cbn [andb] in C2. destruct vk as [sk|tid0|tid0] eqn:Evk.
        * intros tid Ek. discriminate.
        * destruct w; try exact (Hrec _ Hd). exfalso.
          apply vp_parse_val_wlen in Ep. subst typ. discriminate.
        * intros tid Ek. discriminate.
  Qed.
End EntryInit.

Lemma is_map_put_ok S t : forall es key v,
  forallb (msg_check_init S t) es = true -> msg_check_init S t v = true ->
  forallb (msg_check_init S t) (msg_map_put es key v) = true.
Proof.
  induction es as [|e r IH]; intros key v He Hv; cbn [msg_map_put forallb].
  - cbn [msg_check_init]. rewrite Hv. reflexivity.
  - cbn [forallb] in He. apply andb_prop in He. destruct He as [He Hr].
    destruct e as [s|fs u|k0 v0].
    + cbn [forallb]. rewrite He. apply IH; assumption.
    + cbn [forallb]. rewrite He. apply IH; assumption.
    + destruct (msg_scmp key k0); cbn [forallb].
      * cbn [msg_check_init]. rewrite Hv, Hr. reflexivity.
      * cbn [msg_check_init]. cbn [msg_check_init] in He. rewrite Hv, He, Hr. reflexivity.
      * rewrite He. apply IH; assumption.
Qed.

Section StepInit.
  Variable S : schema.
  Variable md : mdesc.
  Hypothesis Hmdfull : is_md_ok md.
  Hypothesis Hmaps : is_md_maps_ok md.
  Let Hmdok : is_md_sep md := is_md_ok_sep md Hmdfull.
  Variable vsub : vr_t.
  Variable dsub : msg_dec_t.
  Variable vsub2 : option vr_t.
  Variable dsub2 : option msg_dec_t.

  Definition is_sub_init (vm : vr_t) (dm : msg_dec_t) : Prop :=
    forall tid grp g bs acc q r m r2,
      vm tid grp g bs = VOk true q r -> dm tid grp g bs acc = DOk (m, r2) ->
      is_sub_ok S (nth tid S []) (fst acc) -> msg_check_init S tid (VMsg (fst m) (snd m)) = true.
  Hypothesis Hsub : is_sub_init vsub dsub.
  Hypothesis Hsub2 : match vsub2, dsub2 with
                     | None, None => True
                     | Some vm2, Some dm2 => is_sub_init vm2 dm2
                     | _, _ => False
                     end.

  Definition is_step_post (num typ : N) (acc acc' : msg_macc) : Prop :=
    is_sub_ok S md (fst acc') /\
    (forall n, is_req_num md n -> is_present (fst acc) n -> is_present (fst acc') n) /\
    (vr_marks md num typ = true -> is_present (fst acc') num).

  Lemma is_unknown_post tagraw num typ r acc acc' r' :
    vr_marks md num typ = false ->
    msg_unknown tagraw num typ r acc = DOk (acc', r') -> is_sub_ok S md (fst acc) -> is_step_post num typ acc acc'.
  Proof.
    unfold msg_unknown. intros Hm. destruct (parse_val default_dep num typ r) as [[w r0]|e]; [|discriminate].
    intros H Hs. inversion H; subst. split; [exact Hs|]. split; [auto|]. rewrite Hm. discriminate.
  Qed.

  Lemma is_marks_find num typ fd : msg_find_field md num = Some fd ->
    vr_marks md num typ = vr_is_req fd && (typ =? kind_wt (f_kind fd)).
  Proof. intros H. unfold vr_marks. rewrite H. reflexivity. Qed.

  (* scalars: stored under their own number, never a message value *)
  Lemma is_scalar_set_post num typ fd sk acc s u :
    msg_find_field md num = Some fd -> f_kind fd = KS sk ->
    is_sub_ok S md (fst acc) ->
    is_step_post num typ acc (msg_set_field md fd (VS s) (fst acc), u).
  Proof.
    intros Hf Hk Hs. pose proof (msg_find_field_num _ _ _ Hf) as Hn.
    pose proof (vp_find_field_in _ _ _ Hf) as Hin.
    split; [|split]; cbn [fst].
    - apply is_set_field_sub_ok; [exact Hs|]. rewrite Hn. eapply is_chunk_ok_scalar; eauto.
    - intros n Hr Hp. destruct (N.eq_dec n (f_num fd)) as [->|Hne].
      + destruct Hr as (fd0 & Hin0 & Hr0 & En).
        assert (fd0 = fd) by (eapply is_nodup_num_inj; eauto; apply Hmdfull). subst fd0.
        apply is_set_field_present_self; assumption.
      + apply is_set_field_present_other; assumption.
    - rewrite (is_marks_find _ _ _ Hf). intros Hm. apply andb_prop in Hm. destruct Hm as [Hrq _].
      rewrite <- Hn. apply is_set_field_present_self; assumption.
  Qed.

  Lemma is_scalar_append_post num typ fd sk acc vs u :
    msg_find_field md num = Some fd -> f_kind fd = KS sk -> card_repeated (f_card fd) = true ->
    is_sub_ok S md (fst acc) ->
    is_step_post num typ acc (msg_append_field fd vs (fst acc), u).
  Proof.
    intros Hf Hk Hrep Hs. pose proof (msg_find_field_num _ _ _ Hf) as Hn.
    split; [|split]; cbn [fst].
    - apply is_append_sub_ok; [exact Hs|]. rewrite Hn. eapply is_chunk_ok_scalar; eauto.
    - intros n Hr Hp. destruct (N.eq_dec n (f_num fd)) as [->|Hne].
      + unfold msg_append_field. destruct vs; [exact Hp|]. unfold is_present. rewrite msg_fget_fset_same.
        destruct (msg_fget (fst acc) (f_num fd)); discriminate.
      + apply is_append_present_other; assumption.
    - rewrite (is_marks_find _ _ _ Hf). unfold vr_is_req. destruct (f_card fd); try discriminate; cbn in Hrep; discriminate.
  Qed.
  (* the validator on the routes that lead into a sub-message *)
  Lemma vr_step_route reqof num typ r :
    match msg_route md num typ with
    | RMsg fd tid =>
      vr_step reqof md vsub vsub2 num typ r =
      match dec_bytes r with
      | Err _ => VBad
      | Ok (payload, r') =>
        match vsub tid 0 (x00 :: payload) payload with VOk i q _ => VOk i q r' | e => e end
      end
    | RGrp fd tid => vr_step reqof md vsub vsub2 num typ r = vsub tid num (x00 :: r) r
    | RMap fd kk kutf8 _ =>
      vr_step reqof md vsub vsub2 num typ r =
      match vsub2 with
      | None => VBad
      | Some vm2 =>
        match dec_bytes r with
        | Err _ => VBad
        | Ok (payload, r') =>
          match vr_entry reqof (x00 :: payload) kk kutf8 (f_kind fd) (f_utf8 fd) vm2 payload false true false with
          | VOk i q _ => VOk i q r'
          | e => e
          end
        end
      end
    | _ => True
    end.
  Proof.
    unfold vr_step, msg_route, msg_route_plain.
    destruct (msg_find_field md num) as [fd|]; [|exact I].
    destruct (f_card fd) eqn:Ec.
    6: { (* f_card fd = CMap _ _ _ *) destruct (typ =? 2); [reflexivity|exact I]. }
    all: destruct (f_kind fd) as [sk|tid|tid];
      [ destruct (typ =? sk_wt sk); [exact I|]; destruct ((typ =? 2) && msg_packable sk && _); exact I
      | destruct (typ =? 2); [reflexivity|exact I]
      | destruct (typ =? 3); [reflexivity|exact I] ].
  Qed.

  (* only an occurrence that is decoded as one value of a required field sets its bit *)
  Lemma is_marks_route num typ :
    vr_marks md num typ =
    match msg_route md num typ with
    | RScalar fd _ | RMsg fd _ | RGrp fd _ => vr_is_req fd
    | _ => false
    end.
  Proof.
    unfold vr_marks, msg_route, msg_route_plain.
    destruct (msg_find_field md num) as [fd|]; [|reflexivity].
    destruct (f_card fd) eqn:Ec.
    6: { (* f_card fd = CMap _ _ _ *) unfold vr_is_req. rewrite Ec. destruct (typ =? 2); reflexivity. }
    all: destruct (f_kind fd) as [sk|tid|tid]; cbn [kind_wt];
      [ destruct (typ =? sk_wt sk); [apply andb_true_r|];
        destruct ((typ =? 2) && msg_packable sk && _); apply andb_false_r
      | destruct (typ =? 2); [apply andb_true_r|apply andb_false_r]
      | destruct (typ =? 3); [apply andb_true_r|apply andb_false_r] ].
  Qed.

  (* a sub-message the validator found initialized is stored *)
  Lemma is_store_post num typ fd tid grp g bs acc q r1 m r3 u :
    msg_find_field md num = Some fd -> (f_kind fd = KMsg tid \/ f_kind fd = KGrp tid) ->
    vsub tid grp g bs = VOk true q r1 -> dsub tid grp g bs (msg_old_sub fd (fst acc)) = DOk (m, r3) ->
    is_sub_ok S md (fst acc) -> is_step_post num typ acc (msg_store_sub md fd m (fst acc), u).
  Proof.
    intros Ef Ek Evs Eds Hs.
    assert (Hci : msg_check_init S tid (VMsg (fst m) (snd m)) = true)
      by (eapply Hsub; [exact Evs|exact Eds|]; eapply is_old_sub_ok; eauto).
    destruct (is_store_sub S md Hmdok fd num tid m (fst acc) Ef Ek Hci Hs) as (P1 & P2 & P3).
    split; [exact P1|]. split; [exact P2|].
    rewrite (is_marks_find num typ fd Ef). intros Hm. apply andb_prop in Hm. destruct Hm as [Hrq _]. exact (P3 Hrq).
  Qed.

  Lemma is_step tagraw num typ r acc q1 r' acc' r'' :
    vr_step (vr_reqof S) md vsub vsub2 num typ r = VOk true q1 r' ->
    msg_step false md dsub dsub2 tagraw num typ r acc = DOk (acc', r'') ->
    is_sub_ok S md (fst acc) -> is_step_post num typ acc acc'.
  Proof.
    rewrite msg_step_route.
    pose proof (msg_route_field md num typ) as Hr. pose proof (is_marks_route num typ) as Hmk.
    pose proof (vr_step_route (vr_reqof S) num typ r) as Hvr.
    destruct (msg_route md num typ) as [|fd sk|fd sk|fd tid|fd tid|fd kk kutf8 vdef|]; intros Hv Hd Hs.
    - eapply is_unknown_post; eassumption.
    - (* one scalar: stored under its own number, never a message value *)
      destruct Hr as [[Ef Ek] ->].
      destruct (parse_val 0 num (sk_wt sk) r) as [[w r1]|e] eqn:Ep; [|discriminate].
      destruct (msg_dec_scalar sk (msg_field_utf8 false fd) w) as [[s|e]|] eqn:Es; [|discriminate|].
      + injection Hd as <- _. destruct (card_repeated (f_card fd)) eqn:Erep.
        * exact (is_scalar_append_post num (sk_wt sk) fd sk acc [VS s] (snd acc) Ef Ek Erep Hs).
        * exact (is_scalar_set_post num (sk_wt sk) fd sk acc s (snd acc) Ef Ek Hs).
      + exfalso. destruct (vp_sk_dec_some _ _ _ _ _ _ Ep) as (s0 & Es0).
        rewrite vp_dec_scalar_cases, Es0 in Es.
        match type of Es with context [if ?c then _ else _] => destruct c end; discriminate.
    - destruct Hr as [[Ef Ek] (_ & _ & Erep)].
      destruct (dec_bytes r) as [[payload r0]|e]; [|discriminate].
      destruct (msg_dec_packed (x00 :: payload) sk payload []) as [vs|e]; [|discriminate].
      injection Hd as <- _. exact (is_scalar_append_post num typ fd sk acc vs (snd acc) Ef Ek Erep Hs).
    - destruct Hr as [[Ef Ek] _]. rewrite Hvr in Hv.
      destruct (dec_bytes r) as [[payload r0]|e]; [|discriminate].
      destruct (vsub tid 0 (x00 :: payload) payload) as [i q r1| |] eqn:Evs; try discriminate.
      injection Hv as -> _ _. unfold msg_whole in Hd.
      destruct (dsub tid 0 (x00 :: payload) payload (msg_old_sub fd (fst acc))) as [[m r3]|e] eqn:Eds; [|discriminate].
      injection Hd as <- _. exact (is_store_post num typ fd tid _ _ _ acc q r1 m r3 (snd acc) Ef (or_introl Ek) Evs Eds Hs).
    - destruct Hr as [[Ef Ek] _]. rewrite Hvr in Hv.
      destruct (dsub tid num (x00 :: r) r (msg_old_sub fd (fst acc))) as [[m r3]|e] eqn:Eds; [|discriminate].
      injection Hd as <- _. exact (is_store_post num typ fd tid _ _ _ acc q1 r' m r3 (snd acc) Ef (or_intror Ek) Hv Eds Hs).
    - destruct Hr as (Ef & Ec & _). rewrite Hvr in Hv.
      pose proof (vp_find_field_in _ _ _ Ef) as Hin.
      destruct dsub2 as [dm2|]; [|discriminate].
      destruct vsub2 as [vm2|]; [|contradiction].
      destruct (dec_bytes r) as [[payload r0]|e]; [|discriminate].
      destruct (vr_entry (vr_reqof S) (x00 :: payload) kk kutf8 (f_kind fd) (f_utf8 fd) vm2 payload false true false)
        as [i q r1| |] eqn:Ev; try discriminate.
      injection Hv as -> _ _.
      destruct (msg_dec_entry _ _ _ _ _ _ _ _ _) as [[key v']|e] eqn:Ed; [|discriminate].
      pose proof (is_entry_init S kk kutf8 (f_kind fd) (f_utf8 fd) vm2 (msg_entry_dm dm2 (f_kind fd))) as He.
      injection Hd as <- _.
      match type of He with (?A -> _) => assert (Hvm : A) end.
      { intros tid p v qq rr2 m Ek Em Edm Hso. unfold msg_entry_dm in Edm. rewrite Ek in Edm. unfold msg_whole in Edm.
        destruct (dm2 tid 0 (x00 :: p) p (msg_macc_of v)) as [[m0 r3]|e] eqn:E2; [|discriminate].
        inversion Edm; subst m. eapply Hsub2; eauto. }
      specialize (He Hvm _ _ _ _ _ _ _ _ _ _ _ Ev Ed).
      assert (Hinv : is_val_inv S (f_kind fd) false (msg_entry_default (f_kind fd) vdef)).
      { intros tid Ek. split; [discriminate|]. intros _. rewrite Ek. reflexivity. }
      specialize (He Hinv).
      split; [|split]; cbn [fst].
      + apply is_sub_ok_fset; [exact Hs|].
        destruct (f_kind fd) as [sk|t|t] eqn:Ek.
        * eapply is_chunk_ok_scalar; eauto.
        * eapply is_chunk_ok_msg; [exact Ef|left; exact Ek|].
          apply is_map_put_ok; [eapply is_sub_ok_fget; eauto|apply He; reflexivity].
        * exfalso. eapply Hmaps; eauto.
      + intros n Hr Hp. unfold is_present. destruct (N.eq_dec n num) as [->|Hne].
        * rewrite msg_fget_fset_same. apply msg_map_put_nonempty.
        * rewrite msg_fget_fset_other; assumption.
      + rewrite Hmk. discriminate.
    - destruct dsub2; [|discriminate]. eapply is_unknown_post; eassumption.
  Qed.
End StepInit.

Section LoopInit.
  Variable S : schema.
  Hypothesis HS : is_schema_ok S.
  Notation dm := (msg_decode_msg false S).

  Lemma is_false_fl1 : False -> vp_fl1_free S. Proof. intros []. Qed.

  Lemma is_sub2_init d :
    (forall d1, d = Datatypes.S d1 -> is_sub_init S (vr_msg S d1) (dm d1)) ->
    match vp_vsub2 S d, vp_dsub2 S d with
    | None, None => True
    | Some vm2, Some dm2 => is_sub_init S vm2 dm2
    | _, _ => False
    end.
  Proof. intros H. destruct d as [|d1]; cbn; [exact I|]. apply H. reflexivity. Qed.

  Lemma is_sub2_agree d :
    match vp_vsub2 S d, vp_dsub2 S d with
    | None, None => True
    | Some vm2, Some dm2 => vp_sub_agree False vm2 dm2
    | _, _ => False
    end.
  Proof. destruct d as [|d1]; cbn; [exact I|]. apply vp_msg_agree. exact is_false_fl1. Qed.

  Definition is_seen_ok (md : mdesc) (seen : list N) (fs : fields) : Prop :=
    forall fd, In fd md -> vr_is_req fd = true -> vr_seen seen (f_num fd) = true -> is_present fs (f_num fd).

  Lemma is_req_ok_present md seen fs :
    vr_req_ok md seen = true -> is_seen_ok md seen fs -> vm_req_present md fs = true.
  Proof.
    unfold vr_req_ok, vm_req_present. intros H Hs. apply andb_prop in H. destruct H as [_ H].
    rewrite forallb_forall in H |- *. intros fd Hin. specialize (H fd Hin).
    destruct (vr_is_req fd) eqn:Hr; [|reflexivity]. cbn [negb orb] in H |- *.
    specialize (Hs fd Hin Hr H). unfold is_present in Hs. destruct (msg_fget fs (f_num fd)); [congruence|reflexivity].
  Qed.

  Lemma is_loop d tid grp md :
    nth_error S tid = Some md ->
    is_sub_init S (vr_msg S d) (dm d) ->
    (forall d1, d = Datatypes.S d1 -> is_sub_init S (vr_msg S d1) (dm d1)) ->
    forall g bs seen i q acc q' r m r2,
      vr_loop (vr_reqof S) md (vr_msg S d) (vp_vsub2 S d) grp g bs seen i q = VOk true q' r ->
      dm (Datatypes.S d) tid grp g bs acc = DOk (m, r2) ->
      is_sub_ok S md (fst acc) -> is_seen_ok md seen (fst acc) ->
      is_sub_ok S md (fst m) /\ vm_req_present md (fst m) = true.
  Proof.
    intros Hmd Hsub Hsub2.
    assert (Hin : In md S) by (eapply nth_error_In; eauto).
    destruct (HS md Hin) as [Hok Hmaps].
    induction g as [|x g IH]; intros bs seen i q acc q' r m r2 Hv Hd Hs Hseen; [cbn in Hv; discriminate|].
    rewrite (vp_dm_unfold _ _ _ _ _ _ _ _ _ Hmd) in Hd. cbn [vr_loop] in Hv.
    destruct bs as [|b0 t0] eqn:Ebs.
    { destruct (grp =? 0); [|discriminate]. injection Hv as Hi _ _. injection Hd as <- _.
      apply andb_prop in Hi. destruct Hi as [_ Hi]. split; [exact Hs|]. eapply is_req_ok_present; eauto. }
    rewrite <- Ebs in *. clear Ebs b0 t0.
    destruct (dec_tag bs) as [[[num typ] r0]|e]; [|discriminate].
    destruct (msg_max_num <? num); [discriminate|].
    destruct (typ =? 4).
    { destruct (num =? grp); [|discriminate]. injection Hv as Hi _ _. injection Hd as <- _.
      apply andb_prop in Hi. destruct Hi as [_ Hi]. split; [exact Hs|]. eapply is_req_ok_present; eauto. }
    pose proof (vp_step_agree False (vr_reqof S) md (vr_msg S d) (dm d) (vp_vsub2 S d) (vp_dsub2 S d)
                  (vp_msg_agree False S is_false_fl1 d) (is_sub2_agree d) (fun f => match f with end)
                  (enc_tag num typ) num typ r0 acc) as Hag.
    unfold vp_agree in Hag.
    destruct (vr_step (vr_reqof S) md (vr_msg S d) (vp_vsub2 S d) num typ r0) as [i1 q1 r1| |] eqn:Evs; try discriminate.
    pose proof (is_loop_init_mono _ _ _ _ _ _ _ _ _ _ _ _ _ Hv eq_refl) as Hi1.
    apply andb_prop in Hi1. destruct Hi1 as [-> ->].
    destruct (msg_step false md (dm d) (vp_dsub2 S d) (enc_tag num typ) num typ r0 acc) as [[acc' r1']|e] eqn:Eds; [|discriminate].
    destruct Hag as [_ Hag]. destruct q1; [discriminate|]. destruct Hag as (mm & Emm & Err). injection Emm as <-.
    cbn [vp_rest2 snd] in Err. subst r1'.
    pose proof (is_step S md Hok Hmaps (vr_msg S d) (dm d) (vp_vsub2 S d) (vp_dsub2 S d) Hsub (is_sub2_init d Hsub2)
                  (enc_tag num typ) num typ r0 acc false r1 acc' r1 Evs Eds Hs) as (P1 & P2 & P3).
    eapply IH; [exact Hv|exact Hd|exact P1|].
    intros fd Hfd Hr Hsn.
    destruct (vr_marks md num typ) eqn:Hm.
    - cbn [vr_seen existsb] in Hsn. apply orb_prop in Hsn. destruct Hsn as [Hsn|Hsn].
      + apply N.eqb_eq in Hsn. rewrite Hsn. apply P3. reflexivity.
      + apply P2; [exists fd; auto|]. apply Hseen; assumption.
    - apply P2; [exists fd; auto|]. apply Hseen; assumption.
  Qed.

  Theorem is_main : forall d, is_sub_init S (vr_msg S d) (dm d).
  Proof.
    induction d as [d IHd] using (well_founded_induction lt_wf).
    intros tid grp g bs acc q r m r2 Hv Hd Hs. destruct d as [|d]; [cbn in Hv; discriminate|].
    rewrite vp_vr_unfold in Hv. destruct (nth_error S tid) as [md|] eqn:Hmd; [|discriminate].
    rewrite (msg_nth_error_nth _ _ _ Hmd) in Hs.
    destruct (is_loop d tid grp md Hmd (IHd d ltac:(lia)) (fun d1 E => IHd d1 ltac:(lia))
                g bs [] true false acc q r m r2 Hv Hd Hs) as [H1 H2].
    { intros fd _ _ H. cbn in H. discriminate. }
    apply is_check_init_unfold. rewrite (msg_nth_error_nth _ _ _ Hmd). split; assumption.
  Qed.
End LoopInit.

Theorem is_validate_initialized_sound S limit tid bs q v :
  is_schema_ok S ->
  vm_validate S limit tid bs = (3, true, q) ->
  msg_decode false S limit tid bs = DOk v ->
  msg_check_init S tid v = true.
Proof.
  intros HS Hv Hd. unfold vm_validate in Hv. unfold msg_decode, msg_decode_into in Hd.
  destruct (vr_msg S limit tid 0 (x00 :: bs) bs) as [i q0 r| |] eqn:Ev; try discriminate.
  injection Hv as -> ->.
  destruct (msg_decode_msg false S limit tid 0 (x00 :: bs) bs (msg_macc_of msg_empty)) as [[m r2]|e] eqn:Ed; [|discriminate].
  injection Hd as <-.
  eapply (is_main S HS limit); [exact Ev|exact Ed|]. cbn. apply is_sub_ok_nil.
Qed.

(* decidable version of the schema hypothesis *)
Fixpoint is_nodupb (l : list N) : bool :=
  match l with [] => true | x :: r => negb (existsb (N.eqb x) r) && is_nodupb r end.
Lemma is_nodupb_spec l : is_nodupb l = true -> NoDup l.
Proof. apply (list_nodupb_spec is_nodupb); reflexivity. Qed.
Definition is_md_okb (md : mdesc) : bool :=
  is_nodupb (map f_num md) &&
  forallb (fun fd => negb (vr_is_req fd) || match f_oneof fd with None => true | Some _ => false end) md &&
  forallb (fun fd => match f_card fd, f_kind fd with CMap _ _ _, KGrp _ => false | _, _ => true end) md.
Definition is_schema_okb (S : schema) : bool := forallb is_md_okb S.
Lemma is_schema_okb_spec S : is_schema_okb S = true -> is_schema_ok S.
Proof.
  unfold is_schema_okb. rewrite forallb_forall. intros H md Hmd. specialize (H md Hmd).
  unfold is_md_okb in H. apply andb_prop in H. destruct H as [H H3]. apply andb_prop in H. destruct H as [H1 H2].
  rewrite forallb_forall in H2, H3. split; [split|].
  - apply is_nodupb_spec. exact H1.
  - intros fd Hin Hr. specialize (H2 fd Hin). rewrite Hr in H2. cbn in H2. destruct (f_oneof fd); [discriminate|reflexivity].
  - intros fd kk ku vd t Hin Hc Hk. specialize (H3 fd Hin). rewrite Hc, Hk in H3. discriminate.
Qed.
