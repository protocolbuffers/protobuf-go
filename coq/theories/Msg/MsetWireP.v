(* Tag facts used by the MessageSet proofs (MsetP, MsetSetP, MsetGoP) beside those of Wire/. *)
From Coq Require Import List Arith NArith Lia.
From Coq Require Import ZifyNat ZifyN.
From PB Require Import Base.PBytes Wire.WireModel Wire.WireGrammar Wire.VarintP Wire.PrimP Wire.ScanP.
Import ListNotations.
Open Scope N_scope.

(* [num_ok] of Wire/WireGrammar.v, spelled as a chain; the two are convertible *)
Definition valid_num (num : N) : Prop := 1 <= num <= 2147483647.

Lemma enc_tag_app_nonempty num typ x : enc_tag num typ ++ x <> [].
Proof. intros C. apply app_eq_nil in C. destruct C as [C _]. now apply enc_varint_nonempty in C. Qed.

Lemma size_tag_length num : valid_num num -> forall typ, typ < 8 ->
  size_tag num = N.of_nat (length (enc_tag num typ)).
Proof. intros Hn typ Ht. symmetry. exact (proj2 (tag_roundtrip num typ [] Hn Ht)). Qed.
