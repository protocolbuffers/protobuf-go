(* Proofs about Msg/PresenceModel.v (C11). *)
From Coq Require Import List Arith NArith ZArith Lia Bool.
From Coq Require Import ZifyBool ZifyNat ZifyN.
From PB Require Import Base.PBytes Base.PBytesP Wire.WireModel Wire.VarintP Msg.PresenceModel.
Import ListNotations.
Open Scope N_scope.

Definition table_ok (a : fattr) : bool :=
  implb (valid_attr a) (Bool.eqb (has_presence a) (presence_rule a)).

(* the finite table, checked by computation over the enumeration of all 432 combinations *)
Lemma table_ok_all : forallb table_ok all_attrs = true.
Proof. vm_compute. reflexivity. Qed.

(* the enumeration is complete *)
Lemma all_attrs_complete a : In a all_attrs.
Proof.
  assert (Hb : forall b, In b all_bool) by (intros []; cbn; tauto).
  destruct a as [s l o p m e f]. unfold all_attrs.
  apply in_flat_map. exists s. split; [destruct s; cbn; tauto|].
  apply in_flat_map. exists l. split; [destruct l; cbn; tauto|].
  apply in_flat_map. exists o. split; [apply Hb|].
  apply in_flat_map. exists p. split; [apply Hb|].
  apply in_flat_map. exists m. split; [apply Hb|].
  apply in_flat_map. exists e. split; [apply Hb|].
  apply in_map. destruct f; cbn; tauto.
Qed.

Theorem has_presence_spec : forall a, valid_attr a = true -> has_presence a = presence_rule a.
Proof.
  intros a Hv. pose proof table_ok_all as H. rewrite forallb_forall in H.
  specialize (H a (all_attrs_complete a)). unfold table_ok in H. rewrite Hv in H. now apply Bool.eqb_prop in H.
Qed.

(* Outside the well-formed combinations the code and the rule differ only in the cases listed
   here (all rejected by protoc; see the harness for which ones protodesc accepts). *)
Definition table_diff : list fattr :=
  filter (fun a => negb (Bool.eqb (has_presence a) (presence_rule a))) all_attrs.

Lemma has_presence_repeated_non_legacy : forall a,
  fa_label a = LRepeated -> fa_fp a <> FPLegacyRequired -> has_presence a = false.
Proof.
  intros [s l o p m e f] Hl Hf; cbn in *; subst. unfold has_presence, eff_card; cbn.
  destruct e; [reflexivity|]. destruct f; try reflexivity. congruence.
Qed.

Lemma resolve_fp_last_some d chain x : resolve_fp d (chain ++ [Some x]) = x.
Proof. unfold resolve_fp. now rewrite fold_left_app. Qed.
Lemma resolve_fp_last_none d chain : resolve_fp d (chain ++ [None]) = resolve_fp d chain.
Proof. unfold resolve_fp. now rewrite fold_left_app. Qed.
Lemma resolve_fp_all_none d chain : Forall (fun o => o = None) chain -> resolve_fp d chain = d.
Proof.
  unfold resolve_fp. revert d. induction chain as [|o r IH]; intros d H; [reflexivity|].
  inversion H; subst. cbn. now apply IH.
Qed.

Lemma use_presence_oneof a m l : fa_oneof a = true -> use_presence a m l = (false, false).
Proof. unfold use_presence. now intros ->. Qed.
Lemma use_presence_scalar a : fa_oneof a = false -> fa_msg a = false ->
  use_presence a false false = (has_presence a, false).
Proof. unfold use_presence. now intros -> ->. Qed.

Lemma pbit_eq num : pbit num = 2 ^ (num mod 32).
Proof.
  unfold pbit, u32. rewrite N.shiftl_1_l. apply N.mod_small.
  apply N.pow_lt_mono_r; [lia|]. pose proof (N.mod_lt num 32). lia.
Qed.

Lemma testbit_u32 x m : N.testbit (u32 x) m = N.testbit x m && (m <? 32).
Proof.
  unfold u32. destruct (m <? 32) eqn:E.
  - rewrite N.mod_pow2_bits_low by lia. now rewrite andb_true_r.
  - rewrite N.mod_pow2_bits_high by lia. now rewrite andb_false_r.
Qed.

Lemma part_present_testbit w num : part_present w num = N.testbit w (num mod 32).
Proof.
  unfold part_present. rewrite pbit_eq, land_pow2.
  destruct (N.testbit w (num mod 32)); [|reflexivity].
  apply N.ltb_lt. apply N.neq_0_lt_0. apply N.pow_nonzero. lia.
Qed.

Lemma testbit_part_set w i m : m < 32 ->
  N.testbit (part_set w i) m = (i mod 32 =? m) || N.testbit w m.
Proof.
  intros Hm. unfold part_set. rewrite testbit_u32, N.lor_spec, pbit_eq, N.pow2_bits_eqb.
  replace (m <? 32) with true by lia. rewrite andb_true_r. apply orb_comm.
Qed.

Lemma testbit_part_clear w i m :
  N.testbit (part_clear w i) m = negb (i mod 32 =? m) && N.testbit w m.
Proof.
  unfold part_clear. rewrite N.ldiff_spec, pbit_eq, N.pow2_bits_eqb. apply andb_comm.
Qed.

Lemma part_set_lt w i : part_set w i < 2^32.
Proof. unfold part_set, u32. apply N.mod_lt. lia. Qed.

Lemma part_clear_lt w i : w < 2^32 -> part_clear w i < 2^32.
Proof.
  (* clearing a bit of a uint32 leaves a uint32: bit by bit *)
  intros H. replace (part_clear w i) with (u32 (part_clear w i)); [apply N.mod_lt; lia|].
  apply N.bits_inj. intros m. rewrite testbit_u32, testbit_part_clear.
  destruct (m <? 32) eqn:E; [apply andb_true_r|]. rewrite andb_false_r.
  rewrite <- (N.mod_small w (2^32) H). fold (u32 w). now rewrite testbit_u32, E, !andb_false_r.
Qed.

(* word-level statement of the property (one uint32 word, two indices that live in it) *)
Lemma part_set_present w i j :
  part_present (part_set w i) j = (i mod 32 =? j mod 32) || part_present w j.
Proof.
  rewrite !part_present_testbit. apply testbit_part_set. pose proof (N.mod_lt j 32). lia.
Qed.
Lemma part_clear_present w i j :
  part_present (part_clear w i) j = negb (i mod 32 =? j mod 32) && part_present w j.
Proof. rewrite !part_present_testbit. apply testbit_part_clear. Qed.

Lemma upd_nth_length s k f : length (upd_nth s k f) = length s.
Proof. revert k; induction s as [|w r IH]; intros [|k]; cbn; auto. Qed.

Lemma upd_nth_same s k f : nth_error (upd_nth s k f) k = option_map f (nth_error s k).
Proof. revert k; induction s as [|w r IH]; intros [|k]; cbn; auto. Qed.

Lemma upd_nth_other s k k' f : k <> k' -> nth_error (upd_nth s k f) k' = nth_error s k'.
Proof.
  revert k k'; induction s as [|w r IH]; intros [|k] [|k'] H; cbn; auto; try congruence.
Qed.

Lemma index_split i j : (i =? j) = (pword i =? pword j) && (i mod 32 =? j mod 32).
Proof. unfold pword. lia. Qed.

Lemma pword_in_range (s : bitmap) i : i < 32 * N.of_nat (length s) -> (N.to_nat (pword i) < length s)%nat.
Proof. unfold pword. lia. Qed.

Theorem bm_set_present s i j :
  i < 32 * N.of_nat (length s) ->
  bm_present (bm_set s i) j = (i =? j) || bm_present s j.
Proof.
  intros Hi. unfold bm_present, bm_set.
  destruct (N.eq_dec (pword i) (pword j)) as [E|E].
  - rewrite <- E, upd_nth_same.
    destruct (nth_error s (N.to_nat (pword i))) eqn:Hn.
    + cbn [option_map]. rewrite part_set_present, (index_split i j), E, N.eqb_refl. reflexivity.
    + apply nth_error_None in Hn. apply pword_in_range in Hi. lia.
  - rewrite upd_nth_other by lia. rewrite index_split.
    replace (pword i =? pword j) with false by lia. reflexivity.
Qed.

Theorem bm_clear_present s i j :
  bm_present (bm_clear s i) j = negb (i =? j) && bm_present s j.
Proof.
  unfold bm_present, bm_clear.
  destruct (N.eq_dec (pword i) (pword j)) as [E|E].
  - rewrite <- E, upd_nth_same.
    destruct (nth_error s (N.to_nat (pword i))) eqn:Hn.
    + cbn [option_map]. rewrite part_clear_present, (index_split i j), E, N.eqb_refl. reflexivity.
    + cbn. now rewrite andb_false_r.
  - rewrite upd_nth_other by lia. rewrite index_split.
    replace (pword i =? pword j) with false by lia. reflexivity.
Qed.

Lemma bm_set_other_words s i k : k <> N.to_nat (pword i) -> nth_error (bm_set s i) k = nth_error s k.
Proof. intros H. unfold bm_set. apply upd_nth_other. congruence. Qed.
Lemma bm_clear_other_words s i k : k <> N.to_nat (pword i) -> nth_error (bm_clear s i) k = nth_error s k.
Proof. intros H. unfold bm_clear. apply upd_nth_other. congruence. Qed.
Lemma bm_set_length s i : length (bm_set s i) = length s.
Proof. apply upd_nth_length. Qed.
Lemma bm_clear_length s i : length (bm_clear s i) = length s.
Proof. apply upd_nth_length. Qed.

Definition bm_wf (s : bitmap) : Prop := Forall (fun w => w < 2^32) s.

Lemma upd_nth_wf s k f : bm_wf s -> (forall w, w < 2^32 -> f w < 2^32) -> bm_wf (upd_nth s k f).
Proof.
  unfold bm_wf. intros Hs Hf. revert k. induction Hs as [|w r Hw Hr IH]; intros [|k]; cbn; constructor; auto.
Qed.
Lemma bm_set_wf s i : bm_wf s -> bm_wf (bm_set s i).
Proof. intros H. apply upd_nth_wf; [assumption|]. intros; apply part_set_lt. Qed.
Lemma bm_clear_wf s i : bm_wf s -> bm_wf (bm_clear s i).
Proof. intros H. apply upd_nth_wf; [assumption|]. intros; now apply part_clear_lt. Qed.

Lemma bm_step_length s o : length (bm_step s o) = length s.
Proof. destruct o; cbn; auto using bm_set_length, bm_clear_length. Qed.
Lemma bm_step_wf s o : bm_wf s -> bm_wf (bm_step s o).
Proof. destruct o; cbn; auto using bm_set_wf, bm_clear_wf. Qed.

Definition bmop_index (o : bmop) : N := match o with BSet i | BSetNA i | BClear i => i end.

Theorem bm_run_refines : forall ops s j,
  Forall (fun o => bmop_index o < 32 * N.of_nat (length s)) ops ->
  bm_present (bm_run s ops) j = set_run (bm_present s) ops j.
Proof.
  unfold bm_run, set_run.
  assert (G : forall ops s P j,
    Forall (fun o => bmop_index o < 32 * N.of_nat (length s)) ops ->
    (forall j, bm_present s j = P j) ->
    bm_present (fold_left bm_step ops s) j = fold_left set_step ops P j).
  { induction ops as [|o r IH]; intros s P j Hops HP; cbn; [apply HP|].
    inversion Hops; subst. apply IH.
    - rewrite bm_step_length. assumption.
    - intros j'. destruct o; cbn in *; rewrite ?bm_set_present, ?bm_clear_present, ?HP by assumption; reflexivity. }
  intros. now apply G.
Qed.

Lemma bm_run_length ops s : length (bm_run s ops) = length s.
Proof.
  unfold bm_run. revert s; induction ops as [|o r IH]; intros s; cbn; [reflexivity|].
  now rewrite IH, bm_step_length.
Qed.
Lemma bm_run_wf ops s : bm_wf s -> bm_wf (bm_run s ops).
Proof.
  unfold bm_run. revert s; induction ops as [|o r IH]; intros s H; cbn; [assumption|].
  apply IH. now apply bm_step_wf.
Qed.

(* AnyPresent: true iff some bit of the scanned words is present *)
Lemma word_pos_bit w : w < 2^32 -> 0 < w -> exists b, b < 32 /\ N.testbit w b = true.
Proof.
  intros Hlt Hpos. exists (N.log2 w). split.
  - apply N.log2_lt_pow2; lia.
  - apply N.bit_log2. lia.
Qed.

Lemma any_words_spec : forall n s, bm_wf s -> (n <= length s)%nat ->
  (any_words s n = true <-> exists i, i < 32 * N.of_nat n /\ bm_present s i = true).
Proof.
  induction n as [|n IH]; intros s Hwf Hn.
  - cbn. split; [discriminate|]. intros [i [Hi _]]. lia.
  - destruct s as [|w r]; [cbn in Hn; lia|]. inversion Hwf; subst.
    cbn [any_words]. destruct (0 <? w) eqn:Ew.
    + split; [intros _|reflexivity].
      destruct (word_pos_bit w) as [b [Hb Ht]]; [assumption|lia|].
      exists b. split; [lia|]. unfold bm_present, pword.
      replace (N.to_nat (b / 32)) with O by lia. cbn [nth_error].
      rewrite part_present_testbit. replace (b mod 32) with b by lia. exact Ht.
    + assert (w = 0) by lia. subst w.
      rewrite IH by (assumption || (cbn in Hn; lia)). split.
      * intros [i [Hi Hp]]. exists (i + 32). split; [lia|].
        unfold bm_present, pword in *.
        replace (N.to_nat ((i + 32) / 32)) with (S (N.to_nat (i / 32))) by lia. cbn [nth_error].
        destruct (nth_error r (N.to_nat (i / 32))); [|discriminate].
        rewrite part_present_testbit in *. replace ((i + 32) mod 32) with (i mod 32) by lia. exact Hp.
      * intros [i [Hi Hp]]. unfold bm_present, pword in Hp.
        destruct (N.to_nat (i / 32)) as [|k] eqn:Ek.
        -- cbn [nth_error] in Hp. rewrite part_present_testbit, N.bits_0 in Hp. discriminate.
        -- cbn [nth_error] in Hp. exists (i - 32). split; [lia|].
           unfold bm_present, pword. replace (N.to_nat ((i - 32) / 32)) with k by lia.
           destruct (nth_error r k); [|discriminate].
           rewrite part_present_testbit in *. replace ((i - 32) mod 32) with (i mod 32) by lia. exact Hp.
Qed.

Theorem bm_any_spec s size :
  bm_wf s -> size + 31 < 2^32 -> (size + 31) / 32 <= N.of_nat (length s) ->
  (bm_any s size = true <-> exists i, i < 32 * ((size + 31) / 32) /\ bm_present s i = true).
Proof.
  intros Hwf Hsz Hlen. unfold bm_any, u32.
  rewrite (N.mod_small (size + 31)) by exact Hsz.
  rewrite N.mod_small by (pose proof (N.div_le_upper_bound (size+31) 32 (size+31)); lia).
  rewrite any_words_spec by (assumption || lia).
  rewrite N2Nat.id. reflexivity.
Qed.

Lemma nonzero_zero_like v : nonzero (zero_like v) = false.
Proof. destruct v; reflexivity. Qed.

(* -0.0 counts as non-zero; a float is "zero" only when all its bits are zero *)
Lemma float_has_iff_bits w bits : 0 < w -> bits < 2^w ->
  (float_ne0 w bits || float_signbit w bits = false <-> bits = 0).
Proof.
  intros Hw Hb. unfold float_ne0, float_signbit. split.
  - intros H. apply orb_false_iff in H. destruct H as [H1 H2].
    apply negb_false_iff, N.eqb_eq in H1.
    apply N.bits_inj. intros m. rewrite N.bits_0.
    destruct (N.lt_ge_cases m (w-1)) as [Hm|Hm].
    + assert (N.testbit (N.land bits (2^(w-1) - 1)) m = false) by (rewrite H1; apply N.bits_0).
      rewrite N.land_spec in H. replace (2^(w-1) - 1) with (N.ones (w-1)) in H
        by (rewrite N.ones_equiv; lia).
      rewrite N.ones_spec_low in H by lia. now rewrite andb_true_r in H.
    + destruct (N.eq_dec m (w-1)) as [->|Hne]; [exact H2|].
      destruct (N.eq_dec bits 0) as [->|Hnz]; [apply N.bits_0|].
      apply N.bits_above_log2. assert (N.log2 bits < w) by (apply N.log2_lt_pow2; lia). lia.
  - intros ->. rewrite N.land_0_l, N.bits_0. reflexivity.
Qed.

Lemma last_write_app ops o acc :
  last_write (ops ++ [o]) acc =
  match o with OpSet _ | OpClear | OpMutable => Some o | _ => last_write ops acc end.
Proof.
  revert acc; induction ops as [|x r IH]; intros acc; cbn; [destruct o; reflexivity|apply IH].
Qed.
Lemma last_setclear_app ops o acc :
  last_setclear (ops ++ [o]) acc =
  match o with OpSet _ | OpClear => Some o | _ => last_setclear ops acc end.
Proof.
  revert acc; induction ops as [|x r IH]; intros acc; cbn; [destruct o; reflexivity|apply IH].
Qed.

Lemma frun_app st ops o : frun st (ops ++ [o]) = fstep (frun st ops) o.
Proof. unfold frun. now rewrite fold_left_app. Qed.

Lemma frun_opt_shape' x ops : exists o, frun (StOpt x) ops = StOpt o.
Proof.
  induction ops as [|y r IH] using rev_ind; [now exists x|].
  destruct IH as [o Ho]. rewrite frun_app, Ho.
  destruct y, o; cbn; eauto.
Qed.
Lemma frun_opt_shape ops : exists o, frun (StOpt None) ops = StOpt o.
Proof. apply frun_opt_shape'. Qed.

Theorem explicit_has_correct ops : fhas (frun (StOpt None) ops) = rule_explicit ops.
Proof.
  unfold rule_explicit.
  induction ops as [|x r IH] using rev_ind; [reflexivity|].
  rewrite frun_app, last_write_app.
  destruct (frun_opt_shape r) as [o Ho]. rewrite Ho in *.
  destruct o, x; cbn in *; try reflexivity; try exact IH.
Qed.

Lemma frun_val_shape z ops : exists v, frun (StVal z) ops = StVal v.
Proof.
  induction ops as [|x r IH] using rev_ind; [now exists z|].
  destruct IH as [v Hv]. rewrite frun_app, Hv. destruct x; cbn; eauto.
Qed.

Theorem implicit_has_correct z ops : fhas (frun (StVal z) ops) = rule_implicit z ops.
Proof.
  unfold rule_implicit.
  induction ops as [|x r IH] using rev_ind; [reflexivity|].
  rewrite frun_app, last_setclear_app.
  destruct (frun_val_shape z r) as [v Hv]. rewrite Hv in *.
  destruct x; cbn; try reflexivity; try exact IH.
  apply nonzero_zero_like.
Qed.

(* the immediate readings of the property text *)
Corollary explicit_has_after_set ops v : fhas (frun (StOpt None) (ops ++ [OpSet v])) = true.
Proof. rewrite explicit_has_correct. unfold rule_explicit. now rewrite last_write_app. Qed.
Corollary explicit_not_has_after_clear ops : fhas (frun (StOpt None) (ops ++ [OpClear])) = false.
Proof. rewrite explicit_has_correct. unfold rule_explicit. now rewrite last_write_app. Qed.
Corollary implicit_has_after_set z ops v : fhas (frun (StVal z) (ops ++ [OpSet v])) = nonzero v.
Proof. rewrite implicit_has_correct. unfold rule_implicit. now rewrite last_setclear_app. Qed.
Corollary implicit_not_has_after_clear z ops : fhas (frun (StVal z) (ops ++ [OpClear])) = false.
Proof. rewrite implicit_has_correct. unfold rule_implicit. now rewrite last_setclear_app. Qed.

(* lists and maps: Has iff non-empty, where the contents are what the history built *)
Fixpoint list_contents (l : list pval) (ops : list pop) : list pval :=
  match ops with
  | [] => l
  | o :: r => list_contents (match o with
                             | OpClear => [] | OpAppend v => l ++ [v] | OpTruncate n => firstn n l
                             | OpSetList vs => vs | _ => l end) r
  end.
Theorem list_has_correct : forall ops l,
  frun (StList l) ops = StList (list_contents l ops) /\
  fhas (frun (StList l) ops) = negb (Nat.eqb (length (list_contents l ops)) 0).
Proof.
  assert (G : forall ops l, frun (StList l) ops = StList (list_contents l ops)).
  { unfold frun. induction ops as [|o r IH]; intros l; [reflexivity|].
    cbn [fold_left list_contents]. destruct o; cbn [fstep]; apply IH. }
  intros ops l. split; [apply G|]. now rewrite G.
Qed.

Fixpoint map_contents (m : list (N * pval)) (ops : list pop) : list (N * pval) :=
  match ops with
  | [] => m
  | o :: r => map_contents (match o with
                            | OpClear => [] | OpMapSet k v => map_put m k v | OpMapClear k => map_del m k
                            | _ => m end) r
  end.
Theorem map_has_correct : forall ops m,
  frun (StMap m) ops = StMap (map_contents m ops) /\
  fhas (frun (StMap m) ops) = negb (Nat.eqb (length (map_contents m ops)) 0).
Proof.
  assert (G : forall ops m, frun (StMap m) ops = StMap (map_contents m ops)).
  { unfold frun. induction ops as [|o r IH]; intros m; [reflexivity|].
    cbn [fold_left map_contents]. destruct o; cbn [fstep]; apply IH. }
  intros ops m. split; [apply G|]. now rewrite G.
Qed.

Lemma map_del_not_in m k : ~ In k (map fst (map_del m k)).
Proof.
  induction m as [|[k' v] r IH]; cbn; [tauto|].
  destruct (N.eqb_spec k' k); [assumption|]. cbn. intros [H|H]; [congruence|tauto].
Qed.
Lemma map_del_nodup m k : NoDup (map fst m) -> NoDup (map fst (map_del m k)).
Proof.
  induction m as [|[k' v] r IH]; cbn; intros H; [constructor|].
  inversion H; subst. destruct (N.eqb_spec k' k); [auto|]. cbn. constructor; [|auto].
  intros Hin. apply H2. clear -Hin. induction r as [|[k2 v2] r IH]; cbn in *; [tauto|].
  destruct (N.eqb_spec k2 k); cbn in *; tauto.
Qed.
(* keys stay unique: the list really is a finite map *)
Lemma map_contents_nodup ops : forall m, NoDup (map fst m) -> NoDup (map fst (map_contents m ops)).
Proof.
  induction ops as [|o r IH]; intros m H; [assumption|]. cbn [map_contents]. apply IH.
  destruct o; try assumption; [constructor| |now apply map_del_nodup].
  unfold map_put. cbn. constructor; [apply map_del_not_in|now apply map_del_nodup].
Qed.

(* opaque representation: presence bit in the shared bitmap *)
Lemma ostep_length s io : length (o_bits (ostep s io)) = length (o_bits s).
Proof. destruct io as [i []]; cbn; auto using bm_set_length, bm_clear_length. Qed.

Lemma orun_app s h io : orun s (h ++ [io]) = ostep (orun s h) io.
Proof. unfold orun. now rewrite fold_left_app. Qed.
Lemma orun_length h : forall s, length (o_bits (orun s h)) = length (o_bits s).
Proof.
  unfold orun. induction h as [|io r IH]; intros s; [reflexivity|].
  cbn [fold_left]. now rewrite IH, ostep_length.
Qed.
Lemma ops_of_app i h k o : ops_of i (h ++ [(k, o)]) = ops_of i h ++ (if k =? i then [o] else []).
Proof.
  unfold ops_of. rewrite filter_app, map_app. cbn [filter fst]. now destruct (k =? i).
Qed.
Lemma ostep_has s k o i : k < 32 * N.of_nat (length (o_bits s)) ->
  ohas (ostep s (k, o)) i =
  match o with
  | OpSet _ | OpMutable => (k =? i) || ohas s i
  | OpClear => negb (k =? i) && ohas s i
  | _ => ohas s i
  end.
Proof.
  intros Hk. unfold ohas. destruct o; cbn [ostep o_bits]; try reflexivity;
    [apply bm_set_present|apply bm_clear_present|apply bm_set_present]; exact Hk.
Qed.

Theorem opaque_has_correct : forall h s i,
  Forall (fun io => fst io < 32 * N.of_nat (length (o_bits s))) h ->
  ohas (orun s h) i =
  fhas (frun (StOpt (if ohas s i then Some (o_vals s i) else None)) (ops_of i h)).
Proof.
  induction h as [|[k o] r IH] using rev_ind; intros s i Hh.
  - cbn. now destruct (ohas s i).
  - apply Forall_app in Hh. destruct Hh as [Hr Hk]. inversion Hk as [|? ? Hk' _]; subst. cbn [fst] in Hk'.
    rewrite orun_app, ops_of_app. specialize (IH s i Hr).
    rewrite ostep_has by (rewrite orun_length; exact Hk').
    destruct (N.eqb_spec k i) as [->|Hne].
    + rewrite frun_app.
      destruct (frun_opt_shape' (if ohas s i then Some (o_vals s i) else None) (ops_of i r)) as [a Ha].
      rewrite Ha in *. destruct a, o; cbn in *; try reflexivity; exact IH.
    + rewrite app_nil_r. destruct o; exact IH.
Qed.

Corollary opaque_has_rule : forall h nwords vals i,
  Forall (fun io => fst io < 32 * N.of_nat nwords) h ->
  ohas (orun (mkO (repeat 0 nwords) vals) h) i = rule_explicit (ops_of i h).
Proof.
  intros h nwords vals i Hh.
  rewrite opaque_has_correct by (cbn [o_bits]; rewrite repeat_length; exact Hh).
  assert (Hz : ohas (mkO (repeat 0 nwords) vals) i = false).
  { unfold ohas, bm_present. cbn [o_bits].
    destruct (nth_error (repeat 0 nwords) (N.to_nat (pword i))) eqn:E; [|reflexivity].
    apply nth_error_In, repeat_spec in E. subst. rewrite part_present_testbit. apply N.bits_0. }
  rewrite Hz. apply explicit_has_correct.
Qed.

Theorem implicit_encoded_iff_has num v :
  (enc_implicit num v = [] <-> (v =? 0) = true).
Proof.
  unfold enc_implicit. destruct (v =? 0); split; try reflexivity; try discriminate.
  intros H. apply app_eq_nil in H. destruct H as [H _]. now apply enc_varint_nonempty in H.
Qed.

Theorem implicit_zero_not_encoded num st :
  (exists n, st = StVal (PVInt n)) \/ (exists b, st = StVal (PVBool b)) ->
  (enc_field FCImplicit num st = [] <-> fhas st = false).
Proof.
  intros [[n ->]|[b ->]]; cbn [enc_field fhas nonzero].
  - rewrite implicit_encoded_iff_has. destruct (n =? 0); cbn; split; congruence.
  - rewrite implicit_encoded_iff_has. destruct b; cbn; split; congruence.
Qed.

Lemma dec_fields_nil f num acc : dec_fields f num [] acc = Ok acc.
Proof. destruct f; reflexivity. Qed.

Theorem explicit_roundtrip num st :
  encode_tag num 0 < 2^64 ->
  match st with Some v => v < 2^64 | None => True end ->
  dec_explicit num (enc_explicit num st) = Ok st.
Proof.
  intros Ht Hv. unfold dec_explicit. destruct st as [v|]; [|reflexivity].
  cbn [enc_explicit].
  destruct (length (enc_varint (encode_tag num 0) ++ enc_varint v)) eqn:El.
  - apply length_zero_iff_nil, app_eq_nil in El. destruct El as [El _]. now apply enc_varint_nonempty in El.
  - cbn [dec_fields].
    destruct (enc_varint (encode_tag num 0) ++ enc_varint v) eqn:Eb.
    + apply app_eq_nil in Eb. destruct Eb as [Eb _]. now apply enc_varint_nonempty in Eb.
    + rewrite <- Eb. rewrite varint_roundtrip by exact Ht.
      rewrite <- (app_nil_r (enc_varint v)). rewrite varint_roundtrip by exact Hv.
      rewrite N.eqb_refl. apply dec_fields_nil.
Qed.

(* Explicit presence survives the binary round trip of this codec, also for the value 0;
   an implicit-presence zero is never encoded and decodes as "not present". *)
Corollary explicit_survives_roundtrip num ops v :
  encode_tag num 0 < 2^64 -> v < 2^64 ->
  frun (StOpt None) ops = StOpt (Some (PVInt v)) ->
  dec_explicit num (enc_field FCExplicit num (frun (StOpt None) ops)) = Ok (Some v).
Proof.
  intros Ht Hv ->. cbn [enc_field]. now apply explicit_roundtrip.
Qed.
Corollary explicit_unset_roundtrip num : dec_explicit num (enc_field FCExplicit num (StOpt None)) = Ok None.
Proof. reflexivity. Qed.

Lemma count_indices_app a b : count_indices (a ++ b) = count_indices a + count_indices b.
Proof. induction a as [|[o l] r IH]; cbn [app count_indices]; [reflexivity|]. rewrite IH. lia. Qed.

Lemma presence_index_lt_size fs j b :
  nth_error fs j = Some (false, b) -> fst (presence_index fs j) < snd (presence_index fs j).
Proof.
  intros H. apply nth_error_split in H. destruct H as [l1 [l2 [-> Hlen]]].
  unfold presence_index. cbn [fst snd].
  rewrite firstn_app, <- Hlen, Nat.sub_diag, firstn_all. cbn [firstn]. rewrite app_nil_r.
  rewrite count_indices_app. cbn [count_indices negb orb]. lia.
Qed.

Lemma presence_index_strict fs i j bi :
  (i < j)%nat -> nth_error fs i = Some (false, bi) ->
  fst (presence_index fs i) < fst (presence_index fs j).
Proof.
  intros Hij H. apply nth_error_split in H. destruct H as [l1 [l2 [-> Hlen]]].
  unfold presence_index. cbn [fst].
  rewrite !firstn_app, <- Hlen, Nat.sub_diag, firstn_all. cbn [firstn]. rewrite app_nil_r.
  replace (firstn j l1) with l1 by (symmetry; apply firstn_all2; lia).
  destruct (j - length l1)%nat as [|k] eqn:E; [lia|]. cbn [firstn].
  rewrite count_indices_app. cbn [count_indices negb orb]. lia.
Qed.

Theorem presence_index_distinct fs i j bi bj :
  i <> j -> nth_error fs i = Some (false, bi) -> nth_error fs j = Some (false, bj) ->
  fst (presence_index fs i) <> fst (presence_index fs j).
Proof.
  intros Hne Hi Hj. destruct (Nat.lt_total i j) as [H|[H|H]]; [|congruence|].
  - pose proof (presence_index_strict fs i j bi H Hi). lia.
  - pose proof (presence_index_strict fs j i bj H Hj). lia.
Qed.
