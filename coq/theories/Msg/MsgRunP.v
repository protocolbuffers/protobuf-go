(* MsgRunP — the fuel of the tag loop does not matter: [msg_decode_msg] gives the same result for
   every fuel list longer than its input ([msg_dm_fuel]; each step leaves a suffix of what it was
   given, DecTotalP).  So facts about the loop can be stated on [msg_run] (MsgDecP: the loop with
   the fuel [x00 :: bs] that msg_decode and msg_step pass) as plain equations: [msg_run_unfold],
   [msg_run_tagged] for one field, [msg_run_nil].  MsgRoundP, MergeP and UnkP are written that way;
   [msg_run_threaded] turns such an equation into the form with an explicit fuel list in which
   Props/C07 and C09 state their theorems. *)
From Coq Require Import List Arith NArith ZArith Lia Bool.
From PB Require Import Base.PBytes Wire.WireModel Wire.PrimP Wire.ScanP.
From PB Require Import Msg.MsgSchema Msg.MsgValue Msg.MsgUtf8 Msg.MsgDec Msg.MsgDecP Msg.DecTotalP.
Import ListNotations.
Open Scope N_scope.

Section Run.
  Variable slow : bool.
  Variable S : schema.
  Notation dm := (msg_decode_msg slow S).
  Notation msg_run := (msg_run slow S).

  Lemma msg_step_rest_len d md tagraw num typ r acc acc' r' :
    In md S ->
    msg_step slow md (dm d) (msg_sub2 slow S d) tagraw num typ r acc = DOk (acc', r') ->
    (length r' <= length r)%nat.
  Proof.
    intros Hmd E.
    assert (Hsub2 : match msg_sub2 slow S d with
                    | Some dm2 => dt_sub_ok S False dm2 | None => True end).
    { destruct d as [|d1]; [exact I|]. apply dt_main. intros []. }
    pose proof (dt_step slow S False (fun w => match w with end) md Hmd (dm d) (msg_sub2 slow S d)
                  (dt_main slow S False (fun w => match w with end) d) Hsub2 tagraw num typ r acc) as H.
    rewrite E in H. apply dt_suffix_len. exact H.
  Qed.

  Lemma msg_dm_fuel d tid grp : forall g g' bs acc,
    (length bs < length g)%nat -> (length bs < length g')%nat ->
    dm d tid grp g bs acc = dm d tid grp g' bs acc.
  Proof.
    destruct d as [|d]; [reflexivity|].
    destruct (nth_error S tid) as [md|] eqn:Hmd;
      [|intros g g' bs acc _ _; rewrite !msg_dm_none by exact Hmd; reflexivity].
    induction g as [|x g IH]; intros g' bs acc Hg Hg'; [cbn in Hg; lia|].
    destruct g' as [|x' g']; [cbn in Hg'; lia|].
    rewrite !(msg_dm_unfold slow S d tid grp md _ _ bs acc Hmd).
    destruct bs as [|b0 t0] eqn:Ebs; [reflexivity|]. rewrite <- Ebs in *. clear Ebs b0 t0.
    destruct (dec_tag bs) as [[[num typ] r]|e] eqn:Et; [|reflexivity].
    pose proof (dec_tag_len _ _ _ _ Et) as Hr.
    destruct (msg_max_num <? num); [reflexivity|].
    destruct ((typ =? 4) && negb slow); [reflexivity|]. cbv zeta.
    destruct (msg_step slow md (dm d) (msg_sub2 slow S d) _ num typ r acc) as [[acc' r']|e] eqn:Es; [|reflexivity].
    pose proof (msg_step_rest_len d md _ num typ r acc acc' r' (nth_error_In _ _ Hmd) Es) as Hr'.
    cbn [length] in Hg, Hg'. apply IH; lia.
  Qed.

  Lemma msg_run_fuel d tid grp g bs acc :
    (length bs < length g)%nat -> dm d tid grp g bs acc = msg_run d tid grp bs acc.
  Proof. intros H. apply msg_dm_fuel; [exact H|cbn [length]; lia]. Qed.

  Lemma msg_run_nil d tid md acc :
    nth_error S tid = Some md -> msg_run (Datatypes.S d) tid 0 [] acc = DOk (acc, []).
  Proof. intros H. unfold msg_run. rewrite (msg_dm_unfold slow S d tid 0 md _ _ _ _ H). reflexivity. Qed.

  Lemma msg_run_unfold d tid grp md bs acc :
    nth_error S tid = Some md ->
    msg_run (Datatypes.S d) tid grp bs acc =
    match bs with
    | [] => if grp =? 0 then DOk (acc, []) else DErr DParse
    | _ =>
      match dec_tag bs with
      | Err _ => DErr DParse
      | Ok (num, typ, r) =>
        if msg_max_num <? num then DErr DParse
        else if (typ =? 4) && negb slow then (if num =? grp then DOk (acc, r) else DErr DParse)
        else
          let tagraw := if slow then firstn (length bs - length r) bs else enc_tag num typ in
          match msg_step slow md (dm d) (msg_sub2 slow S d) tagraw num typ r acc with
          | DErr e => DErr e
          | DOk (acc', r') => msg_run (Datatypes.S d) tid grp r' acc'
          end
      end
    end.
  Proof.
    intros H. unfold msg_run at 1. rewrite (msg_dm_unfold slow S d tid grp md _ _ bs acc H).
    destruct bs as [|b0 t0] eqn:Ebs; [reflexivity|]. rewrite <- Ebs. clear Ebs b0 t0.
    destruct (dec_tag bs) as [[[num typ] r]|e] eqn:Et; [|reflexivity].
    pose proof (dec_tag_len _ _ _ _ Et) as Hr.
    destruct (msg_max_num <? num); [reflexivity|].
    destruct ((typ =? 4) && negb slow); [reflexivity|]. cbv zeta.
    destruct (msg_step slow md (dm d) (msg_sub2 slow S d) _ num typ r acc) as [[acc' r']|e] eqn:Es; [|reflexivity].
    pose proof (msg_step_rest_len d md _ num typ r acc acc' r' (nth_error_In _ _ H) Es) as Hr'.
    apply msg_run_fuel. lia.
  Qed.

  (* one field: the loop goes on with what the step leaves *)
  Lemma msg_run_tagged d tid grp md num typ r acc :
    nth_error S tid = Some md -> 1 <= num -> num <= msg_max_num -> typ < 8 ->
    msg_run (Datatypes.S d) tid grp (enc_tag num typ ++ r) acc =
    if (typ =? 4) && negb slow then (if num =? grp then DOk (acc, r) else DErr DParse)
    else match msg_step slow md (dm d) (msg_sub2 slow S d) (enc_tag num typ) num typ r acc with
         | DErr e => DErr e
         | DOk (acc', r') => msg_run (Datatypes.S d) tid grp r' acc'
         end.
  Proof.
    intros H Hlo Hhi Ht. unfold msg_run at 1.
    rewrite (msg_dm_tagged slow S d tid grp md _ _ num typ r acc H Hlo Hhi Ht).
    destruct ((typ =? 4) && negb slow); [reflexivity|].
    destruct (msg_step slow md (dm d) (msg_sub2 slow S d) (enc_tag num typ) num typ r acc) as [[acc' r']|e] eqn:Es;
      [|reflexivity].
    pose proof (msg_step_rest_len d md _ num typ r acc acc' r' (nth_error_In _ _ H) Es) as Hr'.
    pose proof (enc_tag_nonempty num typ).
    apply msg_run_fuel. rewrite app_length. lia.
  Qed.

  (* a step lemma stated on [msg_run] serves every caller that threads its own fuel *)
  Lemma msg_run_threaded d tid grp g x tail acc acc' :
    msg_run d tid grp (x ++ tail) acc = msg_run d tid grp tail acc' ->
    (length (x ++ tail) < length g)%nat ->
    exists g2, (length tail < length g2)%nat /\ dm d tid grp g (x ++ tail) acc = dm d tid grp g2 tail acc'.
  Proof.
    intros E Hg. exists (x00 :: tail). split; [cbn [length]; lia|].
    rewrite (msg_run_fuel d tid grp g _ acc Hg). exact E.
  Qed.
End Run.
