(* NilP — a typed nil message pointer against an allocated empty message (Msg/NilModel.v), C31:
   every read-only operation gives the same answer on both; they differ in IsValid, Equal, Clone,
   the debug format and the nil-ness of an empty Marshal buffer; as a Merge source both are no-ops. *)
From Coq Require Import List NArith Bool Lia.
From PB Require Import Base.PBytes Base.ListP Msg.NilModel.
Import ListNotations.
Open Scope N_scope.

Definition nil_state : mstate := None.
Definition empty_state : mstate := Some empty_msg.

Lemma nil_invalid : is_valid nil_state = false /\ is_valid empty_state = true.
Proof. split; reflexivity. Qed.

Lemma has_nil f : has nil_state f = has empty_state f.
Proof. reflexivity. Qed.
Lemma has_nil_false f : has nil_state f = false.
Proof. reflexivity. Qed.

Lemma get_nil f : get nil_state f = get empty_state f.
Proof. reflexivity. Qed.
Lemma get_nil_zero f : get nil_state f = zero_value f.
Proof. reflexivity. Qed.

Lemma range_nil : range nil_state = range empty_state /\ range nil_state = [].
Proof. split; reflexivity. Qed.

Lemma find_ext {A} (p q : A -> bool) l : (forall x, p x = q x) -> find p l = find q l.
Proof. intros H. induction l as [|a l IH]; cbn; [reflexivity|]. rewrite H, IH. reflexivity. Qed.

Lemma find_none_false {A} (p : A -> bool) l : (forall x, p x = false) -> find p l = None.
Proof. intros H. apply find_none_intro. intros x _. apply H. Qed.

Lemma which_oneof_nil sch o : which_oneof sch nil_state o = which_oneof sch empty_state o.
Proof.
  cbn. rewrite find_none_false; [reflexivity|].
  intros f. cbn. apply andb_false_r.
Qed.

Lemma unknown_nil : get_unknown nil_state = get_unknown empty_state.
Proof. reflexivity. Qed.

Lemma check_init_nil sch : check_init sch nil_state = check_init sch empty_state.
Proof.
  cbn. rewrite (find_ext frequired (fun f => frequired f && negb (has (Some empty_msg) f))); [reflexivity|].
  intros f. cbn. now rewrite andb_true_r.
Qed.

Lemma size_nil enc : size enc nil_state = size enc empty_state.
Proof. reflexivity. Qed.

(* same error or same bytes; the only difference is the nil-ness of an empty buffer *)
Definition mres_bytes (r : mres) : option N + list byte :=
  match r with MErr n => inl (Some n) | MBuf _ b => inr b end.

Lemma marshal_nil enc ap sch :
  mres_bytes (marshal enc ap sch nil_state) = mres_bytes (marshal enc ap sch empty_state).
Proof.
  unfold marshal. destruct ap.
  - reflexivity.
  - rewrite check_init_nil. destruct (check_init sch empty_state); reflexivity.
Qed.

Lemma marshal_nilbuf_iff_invalid enc ap sch s nb :
  marshal enc ap sch s = MBuf nb [] -> nb = negb (is_valid s).
Proof.
  unfold marshal.
  destruct (if ap then None else check_init sch s); [discriminate|].
  destruct s as [m|]; cbn.
  - destruct (encode enc m); intros H; inversion H; reflexivity.
  - intros H; inversion H; reflexivity.
Qed.

Lemma marshal_append_nil enc p sch :
  marshal_append enc p sch nil_state = marshal_append enc p sch empty_state
  /\ marshal_append enc p sch nil_state = Some p.
Proof. split; cbn; now rewrite ?app_nil_r. Qed.

Lemma format_nil render : format render nil_state = format render empty_state.
Proof. reflexivity. Qed.

Lemma debug_format_nil render : debug_format render nil_state = nil_marker.
Proof. reflexivity. Qed.

Lemma equal_nil eqm m :
  equal eqm nil_state nil_state = true /\
  equal eqm nil_state (Some m) = false /\ equal eqm (Some m) nil_state = false.
Proof. repeat split. Qed.

Lemma clone_nil : clone nil_state = nil_state /\ is_valid (clone nil_state) = false.
Proof. split; reflexivity. Qed.

Lemma merge_nil dst : merge dst nil_state = dst /\ merge dst empty_state = dst.
Proof.
  split; [reflexivity|]. destruct dst as [p u]. cbn. unfold merge_msg. cbn.
  now rewrite !app_nil_r.
Qed.
