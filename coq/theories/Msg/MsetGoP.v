(* Tier T for the MessageSet item codec: the functions of
   internal/encoding/messageset/messageset.go as translated by srcmodel_mset
   (Gen/MsetGo.v, regenerated on every run) equal the hand-written model
   Msg/MsetModel.v on their whole domain and never return Panic / Fuel there.
   The calls of protowire.* in messageset.go are calls of the translated
   wire.go functions (Gen/WireGo.v), whose "= model" theorems (Wire/WireGo*P.v)
   are used as their meaning. *)
From Coq Require Import List NArith ZArith Bool Lia ZifyBool ZifyNat ZifyN.
From Coq Require String.
From PB Require Import Base.PBytes Base.GoInt Wire.WireModel Wire.WireGrammar Wire.VarintP Wire.PrimP Wire.ScanP Wire.WireGoBaseP Wire.WireGoConsumeP
  Wire.WireGoAppendP Wire.WireGoP Wire.WireGoLoopP Gen.WireGo Msg.MsetGoRt Gen.MsetGo
  Msg.MsetModel Msg.MsetWireP Msg.MsetP Msg.MsetSetP.
Import ListNotations.
Import String.StringSyntax.
Local Open Scope string_scope.
Open Scope Z_scope.

Lemma zbytes_nil : zbytes [] = [].
Proof. reflexivity. Qed.

Theorem go_SizeField_spec num :
  (num <= 2147483647)%N -> go_SizeField (Z.of_N num) = Z.of_N (size_field num).
Proof.
  intros Hn. unfold go_SizeField, size_field, field_item, field_type_id.
  change (go_SizeTag 1) with (Z.of_N (size_tag 1)). change (go_SizeTag 2) with (Z.of_N (size_tag 2)).
  rewrite (wrap_u64_small (Z.of_N num)) by lia.
  assert (Hv : (num < 2^64)%N) by (change (2^64)%N with 18446744073709551616%N; lia).
  rewrite go_SizeVarint_spec by exact Hv.
  pose proof (size_varint_range num Hv) as Hr.
  change (size_tag 1) with 1%N. change (size_tag 2) with 1%N.
  change (wrap_i64 (2 * Z.of_N 1)) with 2. change (wrap_i64 (2 + Z.of_N 1)) with 3.
  rewrite wrap_i64_small by lia. lia.
Qed.

Theorem go_AppendFieldStart_spec b num :
  (num <= 2147483647)%N ->
  go_AppendFieldStart (zbytes b) (Z.of_N num) = zbytes (b ++ append_field_start num).
Proof.
  intros Hn. unfold go_AppendFieldStart, append_field_start, field_item, field_type_id. cbv zeta.
  change 1 with (Z.of_N 1). change 3 with (Z.of_N 3) at 1. change 2 with (Z.of_N 2). change 0 with (Z.of_N 0).
  rewrite (go_AppendTag_spec b 1 3) by lia.
  rewrite (go_AppendTag_spec _ 2 0) by lia.
  rewrite (wrap_u64_small (Z.of_N num)) by lia.
  rewrite go_AppendVarint_spec by (change (2^64)%N with 18446744073709551616%N; lia).
  now rewrite <- !app_assoc.
Qed.

Theorem go_AppendFieldEnd_spec b :
  go_AppendFieldEnd (zbytes b) = zbytes (b ++ append_field_end).
Proof.
  unfold go_AppendFieldEnd, append_field_end, field_item.
  change 1 with (Z.of_N 1). change 4 with (Z.of_N 4).
  apply go_AppendTag_spec; lia.
Qed.

(* ConsumeFieldValue: the item loop *)
Definition cfvm_loop (v_wantLen : bool) (v_ilen : Z) :=
  fix loop1 (lfuel : nat) (v_b : list Z) (v_b_nil : bool) (v_message : list Z) (v_message_nil : bool) (v_typeid : Z)
      {struct lfuel} : outcome (Z * list Z * Z * go_error) :=
    match lfuel with
    | O => Fuel
    | S lfuel' =>
      bind (WireGo.go_ConsumeTag v_b) (fun '(v_num, v_wtyp, v_n1) =>
      if (v_n1 <? 0) then Val (0, (@nil Z), 0, (WireGo.go_ParseError v_n1))
      else
        bind (slice_lo v_b v_n1) (fun t1 =>
        if ((v_num =? 1) && (v_wtyp =? 4)) then
          if (v_wantLen && ((len v_message) =? 0)) then
            Val (v_typeid, WireGo.go_AppendVarint v_message 0, (wrap_i64 (v_ilen - (len t1))), GoNil)
          else
            Val (v_typeid, v_message, (wrap_i64 (v_ilen - (len t1))), GoNil)
        else
          if ((v_num =? 2) && (v_wtyp =? 0)) then
            bind (WireGo.go_ConsumeVarint t1) (fun '(v_v, v_n2) =>
            if (v_n2 <? 0) then Val (0, (@nil Z), 0, (WireGo.go_ParseError v_n2))
            else
              bind (slice_lo t1 v_n2) (fun t2 =>
              if ((v_v <? 1) || (2147483647 <? v_v)) then
                Val (0, (@nil Z), 0, (GoErr "errors.New:invalid type_id in message set"))
              else loop1 lfuel' t2 v_b_nil v_message v_message_nil (wrap_i32 v_v)))
          else
            if ((v_num =? 3) && (v_wtyp =? 2)) then
              bind (WireGo.go_ConsumeBytes t1) (fun '(v_m, v_n3) =>
              if (v_n3 <? 0) then Val (0, (@nil Z), 0, (WireGo.go_ParseError v_n3))
              else
                if v_message_nil then
                  if v_wantLen then
                    bind (slice3 t1 0 v_n3 v_n3) (fun t4 =>
                    bind (slice_lo t1 v_n3) (fun t5 =>
                    loop1 lfuel' t5 v_b_nil t4 v_b_nil v_typeid))
                  else
                    bind (slice3 v_m 0 (len v_m) (len v_m)) (fun t6 =>
                    bind (slice_lo t1 v_n3) (fun t7 =>
                    loop1 lfuel' t7 v_b_nil t6 (if (v_n3 <? 0) then true else v_b_nil) v_typeid))
                else
                  if v_wantLen then
                    bind (WireGo.go_ConsumeVarint v_message) (fun '(_, v_nn) =>
                    bind (slice_lo v_message v_nn) (fun v_m0 =>
                    let a := WireGo.go_AppendVarint (@nil Z) (wrap_u64 (wrap_i64 ((len v_m0) + (len v_m)))) in
                    bind (slice_lo t1 v_n3) (fun t9 =>
                    loop1 lfuel' t9 v_b_nil ((a ++ v_m0) ++ v_m)
                      (((true && ((len a) =? 0)) && ((len v_m0) =? 0)) && ((len v_m) =? 0)) v_typeid)))
                  else
                    bind (slice_lo t1 v_n3) (fun t10 =>
                    loop1 lfuel' t10 v_b_nil (v_message ++ v_m) (v_message_nil && ((len v_m) =? 0)) v_typeid))
            else
              bind (WireGo.go_ConsumeFieldValue v_num v_wtyp t1) (fun t11 =>
              if (t11 <? 0) then Val (0, (@nil Z), 0, (WireGo.go_ParseError t11))
              else
                bind (slice_lo t1 t11) (fun t12 =>
                loop1 lfuel' t12 v_b_nil v_message v_message_nil v_typeid))))
    end.

(* the tie to the generated text: fails when the loop in messageset.go changes *)
Lemma ConsumeFieldValue_shape b bn wl :
  MsetGo.go_ConsumeFieldValue b bn wl = cfvm_loop wl (len b) (S (length b + length (@nil Z))) b bn (@nil Z) true 0.
Proof. reflexivity. Qed.

(* Go's view of the model state and result *)
Definition zmsg (msg : option (list byte)) : list Z := zbytes (match msg with Some m => m | None => [] end).
Definition nilb (msg : option (list byte)) : bool := match msg with None => true | Some _ => false end.

(* (typeid, message, n, err) of ConsumeFieldValue; the model's "impossible"
   state is the state in which the Go code panics (message[nn:] with nn < 0) *)
Definition zres_item (ilen : Z) (R : mres (N * list byte * list byte)) : outcome (Z * list Z * Z * go_error) :=
  match R with
  | MOk (tid, m, r) => Val (Z.of_N tid, zbytes m, ilen - Z.of_nat (length r), GoNil)
  | MErr (MWire e) => Val (0, [], 0, WireGo.go_ParseError (werr_code e))
  | MErr MTypeId => Val (0, [], 0, GoErr "errors.New:invalid type_id in message set")
  | MErr MFuel => Fuel
  | MErr _ => Panic
  end.

Definition minv (wl : bool) (msg : option (list byte)) (cur : list byte) : Prop :=
  match msg with
  | Some old => if wl then exists p, lp old p /\ Z.of_nat (length p + length cur) < 9223372036854775808 else True
  | None => True
  end.

Lemma minv_mono wl msg cur r : minv wl msg cur -> (length r <= length cur)%nat -> minv wl msg r.
Proof.
  unfold minv. destruct msg as [old|]; [|auto]. destruct wl; [|auto].
  intros (p & H1 & H2) Hr. exists p. split; [exact H1|lia].
Qed.

Lemma slice3_zbytes r k : (k <= length r)%nat ->
  slice3 (zbytes r) 0 (Z.of_nat k) (Z.of_nat k) = Val (zbytes (firstn k r)).
Proof.
  intros Hk. unfold slice3. rewrite len_zbytes.
  replace ((0 <? 0) || (Z.of_nat k <? 0) || (Z.of_nat k <? Z.of_nat k) || (Z.of_nat (length r) <? Z.of_nat k)) with false by lia.
  rewrite Z.sub_0_r, Nat2Z.id. change (Z.to_nat 0) with 0%nat. cbn [skipn]. now rewrite zbytes_firstn.
Qed.

Lemma of_nat_ltb0 n : (Z.of_nat n <? 0) = false.
Proof. lia. Qed.

(* the tests of the translated switch on (number, wire type) are the model's *)
Lemma tag_test num typ a b : (Z.of_N num =? Z.of_N a) && (Z.of_N typ =? Z.of_N b) = ((num =? a)%N && (typ =? b)%N).
Proof. lia. Qed.

Lemma av0 : WireGo.go_AppendVarint [] 0 = zbytes (enc_varint 0).
Proof. reflexivity. Qed.

(* the message returned at the end of the item *)
Lemma finish_msg_go wl msg :
  (if wl && (len (zmsg msg) =? 0) then WireGo.go_AppendVarint (zmsg msg) 0 else zmsg msg) = zbytes (finish_msg wl msg).
Proof.
  destruct msg as [m|]; unfold zmsg, finish_msg; [rewrite len_zbytes|]; destruct wl; try reflexivity.
  destruct m; reflexivity.
Qed.

(* a further chunk with wantLen: the code reads the length prefix of what it holds
   again, drops it, and writes the prefix for the longer payload *)
Lemma reread_prefix_go {X} old p (K : list Z -> outcome X) : lp old p ->
  bind (WireGo.go_ConsumeVarint (zbytes old)) (fun '(_, nn) => bind (slice_lo (zbytes old) nn) K) = K (zbytes p).
Proof.
  intros Hp. pose proof (lp_dec_varint _ _ Hp) as Hdv. rewrite go_ConsumeVarint_spec, Hdv. cbn [bind zres_vn].
  destruct (dec_varint_suffix _ _ _ Hdv) as (q & Eold & _). now rewrite (slice_lo_consumed old q p Eold).
Qed.

Lemma len_prefix_go p m : Z.of_nat (length p + length m) < 9223372036854775808 ->
  WireGo.go_AppendVarint [] (wrap_u64 (wrap_i64 (len (zbytes p) + len (zbytes m))))
  = zbytes (enc_varint (N.of_nat (length p + length m))).
Proof.
  intros H. rewrite !len_zbytes, wrap_i64_small, wrap_u64_small by lia.
  replace (Z.of_nat (length p) + Z.of_nat (length m)) with (Z.of_N (N.of_nat (length p + length m))) by lia.
  apply (go_AppendVarint_spec []). change (2^64)%N with 18446744073709551616%N. lia.
Qed.

Lemma len_enc_varint_eqb n : (len (zbytes (enc_varint n)) =? 0) = false.
Proof.
  rewrite len_zbytes. pose proof (enc_varint_nonempty n). destruct (enc_varint n); [congruence|reflexivity].
Qed.

Lemma minv_chunk p m r : Z.of_nat (length p + length m + length r) < 9223372036854775808 ->
  minv true (Some (enc_varint (N.of_nat (length p + length m)) ++ p ++ m)) r.
Proof.
  intros H. exists (p ++ m). rewrite app_length. split; [|exact H].
  rewrite <- app_length. change (enc_varint (N.of_nat (length (p ++ m))) ++ p ++ m) with (enc_bytes (p ++ m)).
  apply lp_enc_bytes. rewrite app_length. change (2^64)%N with 18446744073709551616%N. lia.
Qed.

Lemma cfvm_loop_spec wl ilen : Z.of_nat ilen < 2^63 ->
  forall g lfuel cur tid msg bn,
  (length cur < length g)%nat -> (length cur < lfuel)%nat -> (bn = true -> cur = []) ->
  (length cur <= ilen)%nat -> (tid <= 2147483647)%N -> minv wl msg cur ->
  cfvm_loop wl (Z.of_nat ilen) lfuel (zbytes cur) bn (zmsg msg) (nilb msg) (Z.of_N tid)
  = zres_item (Z.of_nat ilen) (item_loop wl g cur tid msg).
Proof.
  change (2^63) with 9223372036854775808. intros Hil.
  induction g as [|g0 g IH]; intros lfuel cur tid msg bn Hg Hf Hbn Hle Htid Hinv; [cbn [length] in Hg; lia|].
  destruct lfuel as [|lfuel]; [lia|].
  cbn [length] in Hg.
  unfold cfvm_loop at 1. cbv beta iota fix. fold (cfvm_loop wl (Z.of_nat ilen)).
  cbn [item_loop].
  rewrite go_ConsumeTag_spec. cbn [bind].
  destruct (dec_tag cur) as [[[num typ] r]|e] eqn:Et; cbn [zres_tag].
  2:{ rewrite werr_code_ltb. reflexivity. }
  pose proof (dec_tag_len _ _ _ _ Et) as Hr.
  destruct (dec_tag_sound _ _ _ _ Et) as (pre & Ecur & _ & _ & Htyp & Hnum).
  rewrite of_nat_ltb0.
  destruct bn; [rewrite (Hbn eq_refl) in Et; discriminate|]. clear Hbn.
  rewrite (slice_lo_consumed cur pre r Ecur). cbn [bind].
  (* every recursive call is on a rest no longer than r, of a slice that is not nil *)
  assert (Hnext : forall r' tid' msg', (length r' <= length r)%nat -> (tid' <= 2147483647)%N -> minv wl msg' r' ->
    cfvm_loop wl (Z.of_nat ilen) lfuel (zbytes r') false (zmsg msg') (nilb msg') (Z.of_N tid')
    = zres_item (Z.of_nat ilen) (item_loop wl g r' tid' msg')).
  { intros r' tid' msg' Hr' Ht' Hm'. apply IH; [lia|lia|discriminate|lia|exact Ht'|exact Hm']. }
  clear IH.
  rewrite (tag_test num typ field_item 4 : (_ =? 1) && (_ =? 4) = _).
  destruct ((num =? field_item)%N && (typ =? 4)%N) eqn:C1.
  { (* end of the item *)
    rewrite len_zbytes. rewrite wrap_i64_small by lia.
    cbn [zres_item]. rewrite <- finish_msg_go. destruct (wl && (len (zmsg msg) =? 0)); reflexivity. }
  rewrite (tag_test num typ field_type_id 0 : (_ =? 2) && (_ =? 0) = _).
  destruct ((num =? field_type_id)%N && (typ =? 0)%N) eqn:C2.
  { (* type_id *)
    rewrite go_ConsumeVarint_spec. cbn [bind].
    destruct (dec_varint r) as [[v r']|e] eqn:Ev; cbn [zres_vn].
    2:{ rewrite werr_code_ltb. reflexivity. }
    pose proof (dec_varint_len _ _ _ Ev) as Hr'.
    destruct (dec_varint_suffix _ _ _ Ev) as (p2 & Er & _).
    rewrite of_nat_ltb0.
    rewrite (slice_lo_consumed r p2 r' Er). cbn [bind].
    replace ((Z.of_N v <? 1) || (2147483647 <? Z.of_N v)) with ((v <? 1)%N || (max_int32 <? v)%N) by (unfold max_int32; lia).
    destruct ((v <? 1)%N || (max_int32 <? v)%N) eqn:Cv; [reflexivity|].
    unfold max_int32 in Cv. rewrite wrap_i32_small by lia.
    apply Hnext; [lia|lia|]. eapply minv_mono; [exact Hinv|lia]. }
  rewrite (tag_test num typ field_message 2 : (_ =? 3) && (_ =? 2) = _).
  destruct ((num =? field_message)%N && (typ =? 2)%N) eqn:C3.
  { (* message *)
    rewrite go_ConsumeBytes_spec by (change (2^63) with 9223372036854775808; lia). cbn [bind].
    destruct (dec_bytes r) as [[m r']|e] eqn:Eb; cbn [zres_bytes].
    2:{ rewrite werr_code_ltb. reflexivity. }
    pose proof (dec_bytes_len _ _ _ Eb) as Hr'.
    pose proof (dec_bytes_raw _ _ _ Eb) as [Hlp Hsplit].
    rewrite of_nat_ltb0, (slice_lo_consumed r _ r' Hsplit).
    destruct msg as [old|]; cbn [nilb add_chunk]; unfold zmsg.
    - (* a further chunk *)
      destruct wl.
      + destruct Hinv as (p & Hp & Hpl).
        rewrite (lp_dec_varint _ _ Hp), (reread_prefix_go old p _ Hp). cbv zeta.
        rewrite len_prefix_go by lia. cbn [bind].
        rewrite len_enc_varint_eqb. cbn [andb]. rewrite <- !zbytes_app, <- app_assoc.
        apply (Hnext r' tid (Some (enc_varint (N.of_nat (length p + length m)) ++ p ++ m))); [lia|exact Htid|].
        apply minv_chunk. lia.
      + cbn [bind andb]. rewrite <- zbytes_app.
        apply (Hnext r' tid (Some (old ++ m))); [lia|exact Htid|exact I].
    - (* the first chunk *)
      destruct wl.
      + rewrite (slice3_zbytes r (length r - length r')) by lia. cbn [bind].
        apply (Hnext r' tid (Some (firstn (length r - length r') r))); [lia|exact Htid|].
        exists m. split; [exact Hlp|lia].
      + rewrite len_zbytes, (slice3_zbytes m (length m)), firstn_all by lia. cbn [bind].
        apply (Hnext r' tid (Some m)); [lia|exact Htid|exact I]. }
  (* any other subfield is skipped *)
  rewrite go_ConsumeFieldValue_spec by (change (2^63) with 9223372036854775808; lia). cbn [bind].
  unfold consume_field_value.
  destruct (parse_val default_dep num typ r) as [[v0 r']|e] eqn:Ep; cbn [zres_len].
  2:{ rewrite werr_code_ltb. reflexivity. }
  destruct (parse_val_suffix _ _ _ _ _ _ Ep) as (p3 & Er).
  assert (Hr' : (length r' <= length r)%nat) by (rewrite Er, app_length; lia).
  rewrite nat_N_Z.
  rewrite of_nat_ltb0.
  rewrite (slice_lo_consumed r p3 r' Er). cbn [bind].
  apply Hnext; [lia|exact Htid|]. eapply minv_mono; [exact Hinv|lia].
Qed.

(* ConsumeFieldValue as translated = consume_item of the model, on every input
   ([bn] says whether the argument slice is nil; a nil slice is empty) *)
Theorem go_ConsumeFieldValue_eq_model bs bn wl :
  Z.of_nat (length bs) < 2^63 -> (bn = true -> bs = []) ->
  MsetGo.go_ConsumeFieldValue (zbytes bs) bn wl = zres_item (Z.of_nat (length bs)) (consume_item wl bs).
Proof.
  intros Hlen Hbn. rewrite ConsumeFieldValue_shape, len_zbytes. unfold consume_item.
  apply (cfvm_loop_spec wl (length bs) Hlen (x00 :: bs) (S (length (zbytes bs) + length (@nil Z))) bs 0%N None bn);
    cbn [length]; try rewrite zbytes_length; try lia; [exact Hbn|exact I].
Qed.

(* the item loop produces only wire errors, the type_id error, and the two
   outcomes excluded by consume_item_sim *)
Lemma item_loop_errs wl : forall g bs tid msg e,
  item_loop wl g bs tid msg = MErr e -> e <> MPayload /\ e <> MUnknownData.
Proof.
  induction g as [|g0 g IH]; intros bs tid msg e H; cbn [item_loop] in H; [inversion H; split; discriminate|].
  destruct (dec_tag bs) as [[[num typ] r]|e0]; [|inversion H; split; discriminate].
  destruct ((num =? field_item)%N && (typ =? 4)%N); [discriminate|].
  destruct ((num =? field_type_id)%N && (typ =? 0)%N).
  { destruct (dec_varint r) as [[v r']|e1]; [|inversion H; split; discriminate].
    destruct ((v <? 1)%N || (max_int32 <? v)%N); [inversion H; split; discriminate|]. eapply IH; eauto. }
  destruct ((num =? field_message)%N && (typ =? 2)%N).
  { destruct (dec_bytes r) as [[m r']|e1]; [|inversion H; split; discriminate].
    destruct (add_chunk wl msg (firstn (length r - length r') r) m) as [a|e1] eqn:Ea; [eapply IH; eauto|].
    inversion H; subst e1. unfold add_chunk in Ea. destruct msg as [old|]; [|discriminate].
    destruct wl; [|discriminate]. destruct (dec_varint old) as [[? ?]|?]; inversion Ea; split; discriminate. }
  destruct (parse_val default_dep num typ r) as [[v0 r']|e1]; [eapply IH; eauto|inversion H; split; discriminate].
Qed.

(* ... and it never panics and never runs out of fuel *)
Theorem go_ConsumeFieldValue_total bs bn wl :
  Z.of_nat (length bs) < 2^63 -> (bn = true -> bs = []) ->
  exists v, MsetGo.go_ConsumeFieldValue (zbytes bs) bn wl = Val v.
Proof.
  intros Hlen Hbn. rewrite go_ConsumeFieldValue_eq_model by assumption.
  assert (H64 : (N.of_nat (length bs) < 2^64)%N).
  { change (2^63) with 9223372036854775808 in Hlen. change (2^64)%N with 18446744073709551616%N. lia. }
  pose proof (consume_item_sim bs H64) as H.
  destruct (consume_item false bs) as [[[id p] r]|e] eqn:E.
  - destruct H as (v & Ht & _). destruct wl; [rewrite Ht|rewrite E]; eexists; reflexivity.
  - destruct H as (Ht & H1 & H2). destruct (item_loop_errs _ _ _ _ _ _ E) as [H3 H4].
    destruct wl; [rewrite Ht|rewrite E]; destruct e; try congruence; eexists; reflexivity.
Qed.

(* the translated writers followed by the translated reader *)
(* AppendFieldStart, the message subfield as marshal writes it, AppendFieldEnd *)
Definition go_write_item (id : N) (p : list byte) : list Z :=
  go_AppendFieldEnd (WireGo.go_AppendBytes (WireGo.go_AppendTag (go_AppendFieldStart [] (Z.of_N id)) 3 2) (zbytes p)).

Lemma go_write_item_spec id p :
  (id <= 2147483647)%N -> (N.of_nat (length p) < 2^64)%N ->
  go_write_item id p = zbytes (append_item id p).
Proof.
  intros Hid Hp. unfold go_write_item, append_item, field_message.
  change (@nil Z) with (zbytes []). rewrite go_AppendFieldStart_spec by exact Hid.
  change 3 with (Z.of_N 3). change 2 with (Z.of_N 2).
  rewrite (go_AppendTag_spec _ 3 2) by lia.
  rewrite go_AppendBytes_spec by exact Hp.
  rewrite go_AppendFieldEnd_spec. cbn [app]. now rewrite <- !app_assoc.
Qed.

Theorem go_item_roundtrip (wl : bool) (id : N) (p rest : list byte) :
  valid_id id -> Z.of_nat (length (append_item id p ++ rest)) < 2^63 ->
  let msg := zbytes (if wl then enc_bytes p else p) in
  exists body,
    (* what the translated writers produce is start tag + body *)
    go_write_item id p = zbytes (enc_tag 1 3)%N ++ zbytes body /\
    WireGo.go_ConsumeTag (go_write_item id p ++ zbytes rest) = Val (1, 3, Z.of_nat (length (enc_tag 1 3)%N)) /\
    (* the translated reader returns the type id and the message ... *)
    MsetGo.go_ConsumeFieldValue (zbytes body ++ zbytes rest) false wl
      = Val (Z.of_N id, msg, Z.of_nat (length body), GoNil) /\
    (* ... also when the message subfield precedes the type_id subfield *)
    exists n,
    MsetGo.go_ConsumeFieldValue
      (zbytes (enc_tag 3 2 ++ enc_bytes p ++ enc_tag 2 0 ++ enc_varint id ++ enc_tag 1 4)%N ++ zbytes rest) false wl
      = Val (Z.of_N id, msg, n, GoNil).
Proof.
  intros Hid Hlen msg. change (2^63) with 9223372036854775808 in Hlen.
  assert (Hid' : (id <= 2147483647)%N) by (unfold valid_id, max_int32 in Hid; lia).
  rewrite append_item_body in Hlen. rewrite !app_length in Hlen.
  assert (Hp : (N.of_nat (length p) < 2^64)%N).
  { change (2^64)%N with 18446744073709551616%N. unfold item_body, enc_bytes in Hlen. rewrite !app_length in Hlen. lia. }
  exists (item_body id p).
  rewrite go_write_item_spec by assumption. rewrite append_item_body, zbytes_app.
  split; [reflexivity|]. split.
  { rewrite <- app_assoc, <- !zbytes_app, go_ConsumeTag_spec.
    rewrite (dec_tag_enc 1 3) by (unfold num_ok; lia). cbn [zres_tag].
    f_equal. f_equal. rewrite !app_length. lia. }
  split.
  { rewrite <- zbytes_app. rewrite go_ConsumeFieldValue_eq_model; [|change (2^63) with 9223372036854775808; rewrite app_length; lia|discriminate].
    rewrite item_body_roundtrip by assumption. cbn [zres_item]. subst msg. f_equal. f_equal. f_equal. rewrite !app_length. lia. }
  eexists. rewrite <- zbytes_app.
  rewrite go_ConsumeFieldValue_eq_model; [| |discriminate].
  - rewrite <- !app_assoc. rewrite item_body_swapped, item_body_roundtrip by assumption. cbn [zres_item]. reflexivity.
  - change (2^63) with 9223372036854775808. unfold item_body in Hlen. rewrite !app_length in *. lia.
Qed.

(* SizeField + SizeTag(3) + SizeBytes(len) of the translation = the length of
   what the translated writers append *)
Theorem go_size_eq_length id p :
  valid_id id -> (N.of_nat (length p) < 2^62)%N ->
  go_SizeField (Z.of_N id) + WireGo.go_SizeTag 3 + WireGo.go_SizeBytes (len (zbytes p)) = len (go_write_item id p).
Proof.
  intros Hid Hp.
  assert (Hid' : (id <= 2147483647)%N) by (unfold valid_id, max_int32 in Hid; lia).
  assert (Hp64 : (N.of_nat (length p) < 2^64)%N).
  { change (2^62)%N with 4611686018427387904%N in Hp. change (2^64)%N with 18446744073709551616%N. lia. }
  rewrite go_write_item_spec by assumption. rewrite !len_zbytes, go_SizeField_spec by exact Hid'.
  change 3 with (Z.of_N 3). rewrite go_SizeTag_spec by lia.
  rewrite <- nat_N_Z. rewrite go_SizeBytes_spec by exact Hp.
  pose proof (append_item_length id p Hid Hp64) as H. unfold size_item, field_message in H. lia.
Qed.
