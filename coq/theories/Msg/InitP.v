(* InitP — proofs about Msg/InitModel.v (C10).

   msg_checkinit_exact        check_init = false  <->  some message of the tree lacks a required field
   msg_mask_sound(_gen)       requiredMask accounting: popcount(mask) = numRequiredFields implies that
                              every required field was decoded -- for EVERY number of required
                              fields (more than 64: the equality never holds)
   msg_fast_flag_sound        flag set -> the decoded message is initialized, for schemas satisfying
                              msg_init_wf; maps are covered when the value type needs no init check or
                              is a leaf type (all fields of scalar kind, e.g. map<int32, TestRequired>:
                              msg_entry_sync, using that decoding never removes a required field,
                              msg_dm_keeps); finding FA5 lives in map values with sub-messages
   msg_unmarshal_exact, msg_unmarshal_slow_exact, msg_marshal_exact, msg_allow_partial_*
   msg_fast_flag_sound_refuted_FA5, msg_unmarshal_lazy_exact_refuted_FA1   witnesses;
   msg_flag_oneof_member_FA2_repaired   finding FA2 (a partial message in a non-first oneof member): the
                                        model follows the code with the repair, where the flag is cleared *)
From Coq Require Import List Arith NArith ZArith Bool Lia.
From Coq Require Import ZifyBool ZifyNat ZifyN.
From PB Require Import Base.PBytes Wire.WireModel Msg.MsgSchema Msg.MsgValue Msg.MsgEnc Msg.MsgDec Msg.MsgValid
  Msg.MsgAssocP Msg.MsgStoreP Msg.MsgSizeP Msg.MsgDecP Msg.MsgRoundP Msg.InitModel.
Import ListNotations.
Open Scope N_scope.

(* AllowPartial: never a required-field error *)
Lemma msg_allow_partial_unmarshal S ni limit tid bs : msg_unmarshal S ni limit tid true bs <> URequired.
Proof. unfold msg_unmarshal. destruct (msg_decode false S limit tid bs); discriminate. Qed.
Lemma msg_allow_partial_unmarshal_slow S limit tid bs : msg_unmarshal_slow S limit tid true bs <> URequired.
Proof. unfold msg_unmarshal_slow. destruct (msg_decode true S limit tid bs); cbn [orb]; discriminate. Qed.
Lemma msg_allow_partial_marshal S tid v : msg_marshal_checked S tid true v = Some (msg_encode S tid v).
Proof. reflexivity. Qed.

Lemma msg_forallb_false {A} (f : A -> bool) l : forallb f l = false -> exists x, In x l /\ f x = false.
Proof.
  induction l as [|a l IH]; [discriminate|]. cbn [forallb]. destruct (f a) eqn:E.
  - cbn [andb]. intros H. destruct (IH H) as (x & Hx & Hf). exists x. split; [right; exact Hx|exact Hf].
  - intros _. exists a. split; [left; reflexivity|exact E].
Qed.
Lemma msg_forallb_in_false {A} (f : A -> bool) l x : In x l -> f x = false -> forallb f l = false.
Proof.
  intros Hin Hf. destruct (forallb f l) eqn:E; [|reflexivity].
  rewrite forallb_forall in E. rewrite (E x Hin) in Hf. discriminate.
Qed.

(* the function MsgValueP.msg_uv, under the name the statements of this file use *)
Definition msg_unentry (x : value) : value := match x with VEntry _ x' => x' | _ => x end.

(* some message of the tree lacks a required field *)
Inductive msg_missing (S : schema) : nat -> value -> Prop :=
| MissHere tid fs u fd :
    In fd (nth tid S []) -> msg_is_req fd = true -> msg_present fs (f_num fd) = false ->
    msg_missing S tid (VMsg fs u)
| MissBelow tid fs u p fd t x :
    In p fs -> msg_find_field (nth tid S []) (fst p) = Some fd ->
    (f_kind fd = KMsg t \/ f_kind fd = KGrp t) -> In x (snd p) ->
    msg_missing S t (msg_unentry x) ->
    msg_missing S tid (VMsg fs u).

Lemma msg_check_elem_unentry S t x : msg_check_elem (msg_check_init S) t x = msg_check_init S t (msg_unentry x).
Proof. destruct x; reflexivity. Qed.

Lemma msg_missing_check S tid v : msg_missing S tid v -> msg_check_init S tid v = false.
Proof.
  induction 1 as [tid fs u fd Hin Hreq Hp|tid fs u p fd t x Hin Hf Hk Hx _ IH].
  - cbn [msg_check_init]. apply andb_false_iff. left. unfold msg_required_present.
    apply (msg_forallb_in_false _ _ fd Hin). rewrite Hreq, Hp. reflexivity.
  - cbn [msg_check_init]. apply andb_false_iff. right.
    apply (msg_forallb_in_false _ _ p Hin). unfold msg_check_chunk. rewrite Hf.
    assert (forallb (msg_check_elem (msg_check_init S) t) (snd p) = false) as E.
    { apply (msg_forallb_in_false _ _ x Hx). rewrite msg_check_elem_unentry. exact IH. }
    destruct Hk as [-> | ->]; exact E.
Qed.

Definition msg_check_stmt (S : schema) (v : value) : Prop :=
  forall tid, msg_check_init S tid v = false -> msg_missing S tid v.

Lemma msg_check_missing_all S : forall v, msg_check_stmt S v.
Proof.
  induction v as [s|fs unk IH|k v] using msg_value_uv_ind; intros tid H; try discriminate.
  cbn [msg_check_init] in H. apply andb_false_iff in H. destruct H as [H|H].
  - unfold msg_required_present in H. apply msg_forallb_false in H. destruct H as (fd & Hin & Hf).
    apply orb_false_iff in Hf. destruct Hf as [Hr Hp]. apply negb_false_iff in Hr.
    eapply MissHere; eassumption.
  - apply msg_forallb_false in H. destruct H as (p & Hin & Hc).
    unfold msg_check_chunk in Hc. destruct (msg_find_field (nth tid S []) (fst p)) as [fd|] eqn:Hf; [|discriminate].
    assert (Hgo : forall t, (f_kind fd = KMsg t \/ f_kind fd = KGrp t) ->
              forallb (msg_check_elem (msg_check_init S) t) (snd p) = false -> msg_missing S tid (VMsg fs unk)).
    { intros t Hk Hall. apply msg_forallb_false in Hall. destruct Hall as (x & Hx & Hxe).
      rewrite msg_check_elem_unentry in Hxe.
      eapply MissBelow; try eassumption. exact (IH p x Hin Hx t Hxe). }
    destruct (f_kind fd) as [sk|t|t] eqn:Hk; [discriminate| |].
    + apply (Hgo t); [left; reflexivity|exact Hc].
    + apply (Hgo t); [right; reflexivity|exact Hc].
Qed.

Theorem msg_checkinit_exact S tid v : msg_check_init S tid v = false <-> msg_missing S tid v.
Proof. split; [apply msg_check_missing_all|apply msg_missing_check]. Qed.

Lemma msg_popcount_div2 a : msg_popcount a = N.b2n (N.odd a) + msg_popcount (N.div2 a).
Proof. destruct a as [|[p|p|]]; reflexivity. Qed.

Lemma msg_testbit_div2 a i : N.testbit (N.div2 a) i = N.testbit a (N.succ i).
Proof. rewrite N.div2_spec. rewrite N.shiftr_spec by lia. f_equal. lia. Qed.

Lemma msg_popcount_le : forall (n : nat) a,
  (forall i, N.testbit a i = true -> i < N.of_nat n) -> msg_popcount a <= N.of_nat n.
Proof.
  induction n as [|n IH]; intros a H.
  - assert (a = 0) as ->.
    { apply N.bits_inj_0. intros i. destruct (N.testbit a i) eqn:E; [|reflexivity]. specialize (H i E). lia. }
    reflexivity.
  - rewrite msg_popcount_div2.
    assert (msg_popcount (N.div2 a) <= N.of_nat n).
    { apply IH. intros i Hi. rewrite msg_testbit_div2 in Hi. specialize (H _ Hi). lia. }
    destruct (N.odd a); cbn [N.b2n]; lia.
Qed.

Lemma msg_popcount_full : forall (n : nat) a,
  (forall i, N.testbit a i = true -> i < N.of_nat n) -> msg_popcount a = N.of_nat n ->
  forall i, i < N.of_nat n -> N.testbit a i = true.
Proof.
  induction n as [|n IH]; intros a H Hpc i Hi; [lia|].
  rewrite msg_popcount_div2 in Hpc.
  assert (Hd : forall j, N.testbit (N.div2 a) j = true -> j < N.of_nat n).
  { intros j Hj. rewrite msg_testbit_div2 in Hj. specialize (H _ Hj). lia. }
  pose proof (msg_popcount_le n (N.div2 a) Hd) as Hle.
  destruct (N.odd a) eqn:Hodd; cbn [N.b2n] in Hpc; [|lia].
  destruct (N.eq_dec i 0) as [->|Hne].
  - rewrite N.bit0_odd. exact Hodd.
  - replace i with (N.succ (N.pred i)) by lia. rewrite <- msg_testbit_div2.
    apply (IH (N.div2 a) Hd); lia.
Qed.

Lemma msg_req_bit_testbit idx i :
  N.testbit (msg_req_bit idx) i = true <-> (idx <> 0 /\ idx <= 64 /\ i = idx - 1).
Proof.
  unfold msg_req_bit. destruct (N.eqb_spec idx 0) as [->|Hne].
  - rewrite N.bits_0. split; [discriminate|intros (H & _); congruence].
  - destruct (N.leb_spec idx 64) as [Hle|Hgt].
    + rewrite N.pow2_bits_eqb. split.
      * intros H. apply N.eqb_eq in H. repeat split; try assumption. lia.
      * intros (_ & _ & ->). apply N.eqb_refl.
    + rewrite N.bits_0. split; [discriminate|intros (_ & H & _); lia].
Qed.

Lemma msg_req_index_range : forall md num n,
  msg_req_index md num n = 0 \/ (n < msg_req_index md num n /\ msg_req_index md num n <= n + msg_count_required md).
Proof.
  induction md as [|fd r IH]; intros num n; [left; reflexivity|].
  cbn [msg_req_index msg_count_required].
  destruct (msg_req_counted fd); cbn [andb].
  - destruct (N.ltb_spec n 255) as [Hlt|Hge].
    + destruct (N.eqb_spec (f_num fd) num); [right; lia|].
      destruct (IH num (n + 1)) as [H|H]; [left; exact H|right; lia].
    + destruct (N.eqb_spec (f_num fd) num); [left; reflexivity|].
      destruct (IH num n) as [H|H]; [left; exact H|right; lia].
  - destruct (N.eqb_spec (f_num fd) num); [left; reflexivity|].
    destruct (IH num n) as [H|H]; [left; exact H|right; lia].
Qed.

Lemma msg_req_index_inj : forall md a b n,
  msg_req_index md a n = msg_req_index md b n -> msg_req_index md a n <> 0 -> a = b.
Proof.
  induction md as [|fd r IH]; intros a b n E Hne; [cbn in Hne; congruence|].
  cbn [msg_req_index] in *.
  destruct (N.eqb_spec (f_num fd) a) as [Ha|Ha]; destruct (N.eqb_spec (f_num fd) b) as [Hb|Hb].
  - congruence.
  - destruct (msg_req_counted fd && (n <? 255)) eqn:Hh; [|congruence].
    destruct (msg_req_index_range r b (n + 1)) as [H0|H0]; lia.
  - destruct (msg_req_counted fd && (n <? 255)) eqn:Hh; [|congruence].
    destruct (msg_req_index_range r a (n + 1)) as [H0|H0]; lia.
  - eapply IH; eassumption.
Qed.

(* a required field that is found by its number has an index, as long as the counter does not saturate *)
Lemma msg_req_index_found : forall md num fd n,
  msg_find_field md num = Some fd -> f_ext fd = false -> msg_is_req fd = true ->
  n + msg_count_required md <= 255 -> n < msg_req_index md num n.
Proof.
  induction md as [|fd0 r IH]; intros num fd n Hf Hext Hreq Hcnt; [discriminate|].
  cbn [msg_find_field msg_req_index msg_count_required] in *.
  destruct (N.eqb_spec (f_num fd0) num) as [Hnum|Hnum].
  - inversion Hf; subst fd0. unfold msg_req_counted in *. rewrite Hext, Hreq in *. cbn [negb andb] in *.
    destruct (N.ltb_spec n 255); lia.
  - destruct (msg_req_counted fd0); cbn [andb].
    + destruct (N.ltb_spec n 255); [|lia].
      assert (n + 1 < msg_req_index r num (n + 1)) by (eapply IH; try eassumption; try lia). lia.
    + eapply IH; try eassumption; try lia.
Qed.

(* a nonzero index belongs to a required field *)
Lemma msg_req_index_nonzero : forall md h n, msg_req_index md h n <> 0 ->
  exists fd, msg_find_field md h = Some fd /\ msg_is_req fd = true /\ f_ext fd = false.
Proof.
  induction md as [|fd r IH]; intros h n H; cbn [msg_req_index msg_find_field] in *; [congruence|].
  destruct (N.eqb_spec (f_num fd) h) as [Hn|Hn].
  - exists fd. split; [reflexivity|]. unfold msg_req_counted in H.
    destruct (f_ext fd); destruct (msg_is_req fd); cbn [negb andb] in H; try congruence. split; reflexivity.
  - eapply IH. exact H.
Qed.

Definition msg_bit_of (md : mdesc) (num : N) : N := msg_req_bit (msg_req_index md num 0).
Definition msg_mask_of (md : mdesc) (hits : list N) (m0 : N) : N :=
  fold_left (fun m num => N.lor m (msg_bit_of md num)) hits m0.

Lemma msg_mask_of_testbit md : forall hits m0 i,
  N.testbit (msg_mask_of md hits m0) i = true <->
  (N.testbit m0 i = true \/ exists h, In h hits /\ N.testbit (msg_bit_of md h) i = true).
Proof.
  induction hits as [|h hits IH]; intros m0 i; cbn [msg_mask_of fold_left].
  - split; [intros H; left; exact H|intros [H|(h & [] & _)]; exact H].
  - fold (msg_mask_of md hits (N.lor m0 (msg_bit_of md h))). rewrite IH, N.lor_spec, orb_true_iff. split.
    + intros [[H|H]|(h' & Hin & H)]; [left; exact H|right; exists h; split; [left; reflexivity|exact H]|
                                       right; exists h'; split; [right; exact Hin|exact H]].
    + intros [H|(h' & [->|Hin] & H)]; [left; left; exact H|left; right; exact H|right; exists h'; split; assumption].
Qed.

Definition msg_nums_unique (md : mdesc) : Prop :=
  forall fd, In fd md -> msg_find_field md (f_num fd) = Some fd.

Lemma msg_count_required_pos md fd :
  In fd md -> f_ext fd = false -> msg_is_req fd = true -> 1 <= msg_count_required md.
Proof.
  induction md as [|fd0 r IH]; [contradiction|]. intros Hin Hext Hreq.
  cbn [msg_count_required]. destruct Hin as [->|Hin].
  - unfold msg_req_counted. rewrite Hext, Hreq. cbn [negb andb]. lia.
  - specialize (IH Hin Hext Hreq). lia.
Qed.

(* requiredMask accounting is sound for every number of required fields: if every bit of the mask
   is the bit of a field with property P, and the popcount of the mask equals numRequiredFields,
   then every required field has property P *)
Theorem msg_mask_sound_gen md (P : N -> Prop) mask :
  msg_nums_unique md ->
  (forall i, N.testbit mask i = true -> exists h, P h /\ N.testbit (msg_bit_of md h) i = true) ->
  msg_popcount mask = msg_num_required md ->
  forall fd, In fd md -> f_ext fd = false -> msg_is_req fd = true -> P (f_num fd).
Proof.
  intros Huniq Hcover Hpc fd Hin Hext Hreq.
  set (cnt := msg_count_required md) in *.
  assert (Hbits : forall i, N.testbit mask i = true -> i < N.min cnt 64).
  { intros i Hi. destruct (Hcover i Hi) as (h & _ & Hb).
    unfold msg_bit_of in Hb. apply msg_req_bit_testbit in Hb. destruct Hb as (Hne & Hle & ->).
    destruct (msg_req_index_range md h 0) as [H0|[_ H1]]; [congruence|]. fold cnt in H1. lia. }
  pose proof (msg_count_required_pos md fd Hin Hext Hreq) as Hcntpos. fold cnt in Hcntpos.
  unfold msg_num_required in Hpc. fold cnt in Hpc.
  destruct (N.leb_spec cnt 64) as [Hsmall|Hbig].
  - assert (Hall : forall i, i < cnt -> N.testbit mask i = true).
    { replace cnt with (N.of_nat (N.to_nat cnt)) by lia.
      apply msg_popcount_full.
      - intros i Hi. specialize (Hbits i Hi). lia.
      - lia. }
    pose proof (msg_req_index_found md (f_num fd) fd 0 (Huniq fd Hin) Hext Hreq) as Hidx.
    fold cnt in Hidx. specialize (Hidx ltac:(lia)).
    destruct (msg_req_index_range md (f_num fd) 0) as [H0|[_ Hhi]]; [lia|]. fold cnt in Hhi.
    specialize (Hall (msg_req_index md (f_num fd) 0 - 1) ltac:(lia)).
    destruct (Hcover _ Hall) as (h & Hh & Hb).
    unfold msg_bit_of in Hb. apply msg_req_bit_testbit in Hb. destruct Hb as (Hne & _ & Heq).
    assert (msg_req_index md h 0 = msg_req_index md (f_num fd) 0) as E by lia.
    rewrite <- (msg_req_index_inj md h (f_num fd) 0 E Hne). exact Hh.
  - exfalso.
    assert (msg_popcount mask <= N.of_nat 64).
    { apply msg_popcount_le. intros i Hi. specialize (Hbits i Hi). lia. }
    lia.
Qed.

(* the list form: the mask of a sequence of decoded field numbers *)
Corollary msg_mask_sound md hits :
  msg_nums_unique md ->
  msg_popcount (msg_mask_of md hits 0) = msg_num_required md ->
  forall fd, In fd md -> f_ext fd = false -> msg_is_req fd = true -> In (f_num fd) hits.
Proof.
  intros Huniq Hpc. apply (msg_mask_sound_gen md (fun h => In h hits) (msg_mask_of md hits 0) Huniq); [|exact Hpc].
  intros i Hi. apply msg_mask_of_testbit in Hi.
  destruct Hi as [Hi|(h & Hh & Hb)]; [rewrite N.bits_0 in Hi; discriminate|]. exists h. split; assumption.
Qed.

Record msg_md_wf (ni : nat -> bool) (md : mdesc) : Prop := {
  wf_uniq : msg_nums_unique md;
  wf_req : forall fd, In fd md -> msg_is_req fd = true -> f_ext fd = false /\ f_oneof fd = None
}.
(* a message type all of whose fields are of scalar kind (scalars, lists and maps of scalars) *)
Definition msg_leaf (md : mdesc) : bool :=
  forallb (fun fd => match f_kind fd with KS _ => true | _ => false end) md.
(* restriction [maps]: the value type of a map either needs no init check, or is a leaf type
   (e.g. map<int32, TestRequired>); finding FA5 lives in map values with sub-messages *)
Definition msg_maps_wf (S : schema) (ni : nat -> bool) : Prop :=
  forall tid md fd kk ku vd t, nth_error S tid = Some md -> In fd md -> f_card fd = CMap kk ku vd ->
    (f_kind fd = KMsg t \/ f_kind fd = KGrp t) ->
    ni t = false \/ (f_kind fd = KMsg t /\ msg_leaf (nth t S []) = true).
Definition msg_ni_sound (S : schema) (ni : nat -> bool) : Prop :=
  forall tid v, ni tid = false -> msg_check_init S tid v = true.
Definition msg_init_wf (S : schema) (ni : nat -> bool) : Prop :=
  (forall tid md, nth_error S tid = Some md -> msg_md_wf ni md) /\ msg_ni_sound S ni /\ msg_maps_wf S ni.

Definition msg_elems_ok (S : schema) (md : mdesc) (p : N * list value) : Prop :=
  forall fd t, msg_find_field md (fst p) = Some fd -> (f_kind fd = KMsg t \/ f_kind fd = KGrp t) ->
               forall x, In x (snd p) -> msg_check_elem (msg_check_init S) t x = true.
Definition msg_subs_ok (S : schema) (md : mdesc) (fs : fields) : Prop :=
  forall p, In p fs -> msg_elems_ok S md p.

Lemma msg_elems_ok_chunk S md p : msg_elems_ok S md p -> msg_check_chunk (msg_check_init S) md p = true.
Proof.
  intros H. unfold msg_check_chunk. destruct (msg_find_field md (fst p)) as [fd|] eqn:Hf; [|reflexivity].
  destruct (f_kind fd) as [sk|t|t] eqn:Hk; [reflexivity| |]; apply forallb_forall; intros x Hx.
  - exact (H fd t Hf (or_introl Hk) x Hx).
  - exact (H fd t Hf (or_intror Hk) x Hx).
Qed.
Lemma msg_chunk_elems_ok S md p : msg_check_chunk (msg_check_init S) md p = true -> msg_elems_ok S md p.
Proof.
  intros H fd t Hf Hk x Hx. unfold msg_check_chunk in H. rewrite Hf in H.
  destruct Hk as [Hk|Hk]; rewrite Hk in H; rewrite forallb_forall in H; exact (H x Hx).
Qed.

Definition msg_mask_ok (md : mdesc) (fs : fields) (mask : N) : Prop :=
  forall i, N.testbit mask i = true ->
            exists h, msg_present fs h = true /\ N.testbit (msg_bit_of md h) i = true.
Definition msg_inv (S : schema) (md : mdesc) (fs : fields) (st : msg_ist) : Prop :=
  msg_mask_ok md fs (fst st) /\ (snd st = true -> msg_subs_ok S md fs).

(* presence of required fields is kept *)
Definition msg_keeps (md : mdesc) (fs fs' : fields) : Prop :=
  forall h fdh, msg_find_field md h = Some fdh -> msg_is_req fdh = true ->
                msg_present fs h = true -> msg_present fs' h = true.

Lemma msg_bit_of_req md h i : N.testbit (msg_bit_of md h) i = true ->
  exists fd, msg_find_field md h = Some fd /\ msg_is_req fd = true /\ f_ext fd = false.
Proof.
  intros H. unfold msg_bit_of in H. apply msg_req_bit_testbit in H. destruct H as (Hne & _ & _).
  exact (msg_req_index_nonzero md h 0 Hne).
Qed.

Lemma msg_mask_ok_keeps md fs fs' mask : msg_keeps md fs fs' -> msg_mask_ok md fs mask -> msg_mask_ok md fs' mask.
Proof.
  intros Hk Hm i Hi. destruct (Hm i Hi) as (h & Hp & Hb). exists h. split; [|exact Hb].
  destruct (msg_bit_of_req md h i Hb) as (fd & Hf & Hr & _). exact (Hk h fd Hf Hr Hp).
Qed.

Lemma msg_mask_ok_hit md fs mask num :
  msg_mask_ok md fs mask ->
  (forall i, N.testbit (msg_bit_of md num) i = true -> msg_present fs num = true) ->
  msg_mask_ok md fs (N.lor mask (msg_bit_of md num)).
Proof.
  intros Hm Hnew i Hi. rewrite N.lor_spec in Hi. apply orb_true_iff in Hi. destruct Hi as [Hi|Hi].
  - exact (Hm i Hi).
  - exists num. split; [exact (Hnew i Hi)|exact Hi].
Qed.

(* the mask after a hit on field [fd]: its bit is set only if [fd] is required, and then it is present *)
Lemma msg_mask_ok_ihit md fd fs fs' st :
  msg_find_field md (f_num fd) = Some fd -> msg_keeps md fs fs' ->
  (msg_is_req fd = true -> msg_present fs' (f_num fd) = true) ->
  msg_mask_ok md fs (fst st) -> msg_mask_ok md fs' (fst (msg_ihit md fd st)).
Proof.
  intros Hf Hk Hp Hm. apply (msg_mask_ok_keeps md fs fs' _ Hk) in Hm.
  unfold msg_ihit. cbn [fst]. destruct (f_ext fd); [rewrite N.lor_0_r; exact Hm|].
  apply msg_mask_ok_hit; [exact Hm|]. intros i Hi.
  destruct (msg_bit_of_req md _ i Hi) as (fd' & Hf' & Hr & _). rewrite Hf in Hf'. inversion Hf'; subst fd'. exact (Hp Hr).
Qed.

(* a field that is not required contributes no bit *)
Lemma msg_bit_of_nonreq md num fd : msg_find_field md num = Some fd -> msg_is_req fd = false -> msg_bit_of md num = 0.
Proof.
  intros Hf Hr. unfold msg_bit_of.
  destruct (N.eq_dec (msg_req_index md num 0) 0) as [->|Hne]; [reflexivity|].
  destruct (msg_req_index_nonzero md num 0 Hne) as (fd' & Hf' & Hr' & _). congruence.
Qed.
Lemma msg_bit_of_ext md num fd : msg_find_field md num = Some fd -> f_ext fd = true -> msg_bit_of md num = 0.
Proof.
  intros Hf Hr. unfold msg_bit_of.
  destruct (N.eq_dec (msg_req_index md num 0) 0) as [->|Hne]; [reflexivity|].
  destruct (msg_req_index_nonzero md num 0 Hne) as (fd' & Hf' & _ & Hx'). congruence.
Qed.

Lemma msg_present_fset_same fs k vs : vs <> [] -> msg_present (msg_fset fs k vs) k = true.
Proof. intros H. unfold msg_present. rewrite msg_fget_fset_same. destruct vs; [congruence|reflexivity]. Qed.
Lemma msg_present_fset_other fs k vs h : h <> k -> msg_present (msg_fset fs k vs) h = msg_present fs h.
Proof. intros H. unfold msg_present. rewrite msg_fget_fset_other by exact H. reflexivity. Qed.

Section Stores.
  Variable ni : nat -> bool.
  Variable md : mdesc.
  Hypothesis Hwf : msg_md_wf ni md.

  Lemma msg_set_field_keeps fd v fs :
    msg_find_field md (f_num fd) = Some fd -> msg_keeps md fs (msg_set_field md fd v fs).
  Proof.
    intros Hfd h fdh Hf Hr Hp. unfold msg_present in *. destruct (N.eq_dec h (f_num fd)) as [->|Hne].
    - rewrite msg_fget_set_field_self; [reflexivity|].
      rewrite Hfd in Hf. inversion Hf; subst fdh. unfold msg_is_req in Hr. destruct (f_card fd); try discriminate. reflexivity.
    - rewrite msg_fget_set_field_other; [exact Hp|exact Hne|]. intros fd' Hin En.
      pose proof (wf_uniq ni md Hwf fd' Hin) as Hu. rewrite En, Hf in Hu. inversion Hu; subst fd'.
      exact (proj2 (wf_req ni md Hwf fdh Hin Hr)).
  Qed.

  Lemma msg_set_field_present fd v fs :
    (match f_card fd, v with CImp, VS s => msg_scalar_is_zero s | _, _ => false end) = false ->
    msg_present (msg_set_field md fd v fs) (f_num fd) = true.
  Proof. intros Hd. unfold msg_present. rewrite msg_fget_set_field_self by exact Hd. reflexivity. Qed.

  Lemma msg_append_field_keeps fd vs fs : msg_keeps md fs (msg_append_field fd vs fs).
  Proof.
    intros h fdh _ _ Hp. unfold msg_present in *. destruct (N.eq_dec h (f_num fd)) as [->|Hne].
    - rewrite msg_fget_append_field_self. destruct (msg_fget fs (f_num fd)); [discriminate|reflexivity].
    - rewrite msg_fget_append_field_other by exact Hne. exact Hp.
  Qed.
  (* storing one element, as the decoder does it for every field that is not a map *)
  Lemma msg_store_keeps fd v fs :
    msg_find_field md (f_num fd) = Some fd ->
    msg_keeps md fs (if card_repeated (f_card fd) then msg_append_field fd [v] fs else msg_set_field md fd v fs).
  Proof.
    intros Hf. destruct (card_repeated (f_card fd)); [apply msg_append_field_keeps|apply msg_set_field_keeps; exact Hf].
  Qed.
  Lemma msg_append_field_present fd vs fs : vs <> [] -> msg_present (msg_append_field fd vs fs) (f_num fd) = true.
  Proof.
    intros H. unfold msg_present. rewrite msg_fget_append_field_self.
    destruct (msg_fget fs (f_num fd)); [destruct vs; [congruence|reflexivity]|reflexivity].
  Qed.

  (* sub-values stay initialized when the field [num] receives the elements [vs], each of them either
     an old element of that field or initialized *)
  Lemma msg_subs_ok_store (S : schema) fs fs' num fd vs :
    msg_find_field md num = Some fd ->
    (forall p, In p fs' -> p = (num, vs) \/ In p fs) ->
    (forall x, In x vs -> In x (msg_fget fs num) \/
       forall t, (f_kind fd = KMsg t \/ f_kind fd = KGrp t) -> msg_check_elem (msg_check_init S) t x = true) ->
    msg_subs_ok S md fs -> msg_subs_ok S md fs'.
  Proof.
    intros Hf Hin Hvs Hs p Hp. destruct (Hin p Hp) as [->|Hold]; [|exact (Hs p Hold)].
    intros fd' t Hf' Hk x Hx. cbn [fst] in Hf'. rewrite Hf in Hf'. inversion Hf'; subst fd'.
    destruct (Hvs x Hx) as [Ho|Hn]; [|exact (Hn t Hk)].
    assert (Hne : msg_fget fs num <> []) by (intros E; rewrite E in Ho; exact Ho).
    exact (Hs _ (msg_fget_in fs num Hne) fd t Hf Hk x Ho).
  Qed.
  (* a field of scalar kind has no sub-values *)
  Lemma msg_subs_ok_store_scalar (S : schema) fs fs' num fd vs sk :
    msg_find_field md num = Some fd -> f_kind fd = KS sk ->
    (forall p, In p fs' -> p = (num, vs) \/ In p fs) ->
    msg_subs_ok S md fs -> msg_subs_ok S md fs'.
  Proof.
    intros Hf Hk Hin. apply (msg_subs_ok_store S fs fs' num fd vs Hf Hin).
    intros x _. right. intros t [E|E]; congruence.
  Qed.
End Stores.

(* the flag pass takes the same route through a field as the decoder (MsgDecP.msg_step_route) *)
Lemma msg_istep_route ni md isub isub2 num typ r st :
  msg_istep ni md isub isub2 num typ r st =
  match msg_route md num typ with
  | RUnknown => msg_iskip num typ r st
  | RScalar fd sk =>
    match parse_val 0 num typ r with
    | Err _ => DErr DParse
    | Ok (w, r') =>
      match msg_dec_scalar sk (msg_field_utf8 false fd) w with
      | None => msg_iskip num typ r st
      | Some (DErr e) => DErr e
      | Some (DOk _) => DOk (msg_ihit md fd st, r')
      end
    end
  | RPacked fd sk =>
    match dec_bytes r with
    | Err _ => DErr DParse
    | Ok (_, r') => DOk (msg_ihit md fd st, r')
    end
  | RMsg fd tid =>
    match dec_bytes r with
    | Err _ => DErr DParse
    | Ok (payload, r') =>
      match msg_iwhole isub tid payload with
      | DErr e => DErr e
      | DOk f => DOk (msg_iupd fd f (msg_ihit md fd st), r')
      end
    end
  | RGrp fd tid =>
    match isub tid num (x00 :: r) r with
    | DErr e => DErr e
    | DOk (f, r') => DOk (msg_iupd fd f (msg_ihit md fd st), r')
    end
  | RMap fd _ _ _ =>
    match isub2 with
    | None => DErr DDepth
    | Some im2 =>
      match dec_bytes r with
      | Err _ => DErr DParse
      | Ok (payload, r') =>
        match f_kind fd with
        | KMsg tid =>
          match msg_ientry (x00 :: payload) (msg_iwhole im2 tid) payload false with
          | DErr e => DErr e
          | DOk f => DOk ((fst st, snd st && (f || negb (ni tid))), r')
          end
        | _ => DOk (st, r')
        end
      end
    end
  | RMapOther => match isub2 with None => DErr DDepth | Some _ => msg_iskip num typ r st end
  end.
Proof.
  unfold msg_istep, msg_route, msg_route_plain.
  destruct (msg_find_field md num) as [fd|]; [|reflexivity].
  destruct (f_card fd) eqn:Ec.
  6: { (* f_card fd = CMap _ _ _ *) destruct (typ =? 2); destruct isub2; reflexivity. }
  all: destruct (f_kind fd) as [sk|tid|tid];
    [ destruct (typ =? sk_wt sk); [reflexivity|];
      destruct ((typ =? 2) && msg_packable sk && _); reflexivity
    | destruct (typ =? 2); reflexivity
    | destruct (typ =? 3); reflexivity ].
Qed.

Lemma msg_find_field_self md num fd : msg_find_field md num = Some fd -> msg_find_field md (f_num fd) = Some fd.
Proof. intros H. rewrite (msg_find_field_num _ _ _ H). exact H. Qed.

Section Flag.
  Variable S : schema.
  Variable ni : nat -> bool.
  Hypothesis Hwf : msg_init_wf S ni.
  Notation dm := (msg_decode_msg false S).
  Notation im := (msg_init_msg S ni).

  (* both passes stop at the same place; and decoding [bs] into an accumulator whose sub-values are
     initialized, with the flag set, gives an initialized message *)
  Definition msg_flag_stmt (d : nat) : Prop :=
    forall tid grp g bs acc acc' rest g2 f rest2,
      dm d tid grp g bs acc = DOk (acc', rest) ->
      im d tid grp g2 bs = DOk (f, rest2) ->
      rest2 = rest /\
      (f = true -> msg_subs_ok S (nth tid S []) (fst acc) ->
       msg_check_init S tid (VMsg (fst acc') (snd acc')) = true).

  Definition msg_isub2 (d : nat) : option msg_init_t :=
    match d with O => None | Datatypes.S d1 => Some (im d1) end.

  Lemma msg_subs_ok_old_sub md fd fs t :
    msg_subs_ok S md fs -> msg_find_field md (f_num fd) = Some fd ->
    (f_kind fd = KMsg t \/ f_kind fd = KGrp t) ->
    msg_subs_ok S (nth t S []) (fst (msg_old_sub fd fs)).
  Proof.
    intros Hs Hf Hk. unfold msg_old_sub. destruct (card_repeated (f_card fd)); [intros p []|].
    destruct (msg_fget fs (f_num fd)) as [|v vs] eqn:E; [intros p []|].
    assert (Hne : msg_fget fs (f_num fd) <> []) by (rewrite E; discriminate).
    pose proof (Hs _ (msg_fget_in fs (f_num fd) Hne) fd t Hf Hk v) as Hv.
    rewrite E in Hv. specialize (Hv (or_introl eq_refl)).
    destruct v as [s|fs0 u0|k0 v0]; cbn [msg_macc_of fst]; try (intros p []).
    cbn [msg_check_elem msg_check_init] in Hv. apply andb_true_iff in Hv. destruct Hv as [_ Hv].
    rewrite forallb_forall in Hv. intros p Hp. apply msg_chunk_elems_ok. exact (Hv p Hp).
  Qed.

  (* the statement for a length-delimited sub-message *)
  Lemma msg_whole_sync d t payload acc m f :
    msg_flag_stmt d -> msg_whole (dm d) t payload acc = DOk m -> msg_iwhole (im d) t payload = DOk f ->
    f = true -> msg_subs_ok S (nth t S []) (fst acc) -> msg_check_init S t (VMsg (fst m) (snd m)) = true.
  Proof.
    intros IH Hw Hiw. unfold msg_whole in Hw. unfold msg_iwhole in Hiw.
    destruct (dm d t 0 (x00 :: payload) payload acc) as [[m' rest1]|e] eqn:E1; [|discriminate].
    destruct (im d t 0 (x00 :: payload) payload) as [[f' rest2]|e] eqn:E2; [|discriminate].
    inversion Hw; subst m'. inversion Hiw; subst f'. exact (proj2 (IH _ _ _ _ _ _ _ _ _ _ E1 E2)).
  Qed.

  Section Step.
    Variables (d : nat) (md : mdesc).
    Hypothesis Hmdwf : msg_md_wf ni md.
    Variable tidfix : nat.
    Hypothesis Hmdfix : nth_error S tidfix = Some md.
    Hypothesis IHd : msg_flag_stmt d.
    (* one level further down (values of map entries) *)
    Hypothesis IHd1 : forall d1, d = Datatypes.S d1 -> msg_flag_stmt d1.
    Hypothesis Hkeeps1 : forall d1 t mdt, d = Datatypes.S d1 -> nth_error S t = Some mdt -> msg_md_wf ni mdt ->
      forall grp g bs acc acc' rest, dm d1 t grp g bs acc = DOk (acc', rest) -> msg_keeps mdt (fst acc) (fst acc').

    Lemma msg_keeps_refl fs : msg_keeps md fs fs.
    Proof. intros h fdh _ _ H. exact H. Qed.
    Lemma msg_store_sub_keeps fd m fs :
      msg_find_field md (f_num fd) = Some fd -> msg_keeps md fs (msg_store_sub md fd m fs).
    Proof. exact (msg_store_keeps ni md Hmdwf fd _ fs). Qed.

    Lemma msg_inv_store_sub fd t m fs st f :
      msg_find_field md (f_num fd) = Some fd -> (f_kind fd = KMsg t \/ f_kind fd = KGrp t) ->
      (f = true -> msg_subs_ok S (nth t S []) (fst (msg_old_sub fd fs)) ->
       msg_check_init S t (VMsg (fst m) (snd m)) = true) ->
      msg_inv S md fs st ->
      msg_inv S md (msg_store_sub md fd m fs) (msg_iupd fd f (msg_ihit md fd st)).
    Proof.
      intros Hf Hk Hm [Hmask Hsub].
      assert (Hpres : msg_present (msg_store_sub md fd m fs) (f_num fd) = true).
      { unfold msg_store_sub. destruct (card_repeated (f_card fd)).
        - apply msg_append_field_present. discriminate.
        - apply msg_set_field_present. destruct (f_card fd); reflexivity. }
      split.
      - pose proof (msg_mask_ok_ihit md fd fs _ st Hf (msg_store_sub_keeps fd m fs Hf) (fun _ => Hpres) Hmask) as Hm2.
        unfold msg_iupd. destruct f; exact Hm2.
      - intros Hok.
        assert (Hf_true : f = true /\ snd st = true).
        { unfold msg_iupd, msg_ihit in Hok. destruct f; [split; [reflexivity|exact Hok]|]. discriminate. }
        destruct Hf_true as [-> Hst]. specialize (Hsub Hst).
        specialize (Hm eq_refl (msg_subs_ok_old_sub md fd fs t Hsub Hf Hk)).
        assert (Hnew : forall t', (f_kind fd = KMsg t' \/ f_kind fd = KGrp t') ->
                  msg_check_elem (msg_check_init S) t' (VMsg (fst m) (snd m)) = true).
        { intros t' Hk'. assert (t' = t) as -> by (destruct Hk as [Hk|Hk]; destruct Hk' as [Hk'|Hk']; congruence).
          exact Hm. }
        unfold msg_store_sub. destruct (card_repeated (f_card fd)).
        + apply (msg_subs_ok_store md S fs _ _ fd _ Hf (msg_in_append_field fd _ fs)); [|exact Hsub].
          intros x Hx. apply in_app_or in Hx. destruct Hx as [Hx|[<-|[]]]; [left; exact Hx|right; exact Hnew].
        + apply (msg_subs_ok_store md S fs _ _ fd _ Hf (msg_in_set_field md fd _ fs)); [|exact Hsub].
          intros x [<-|[]]. right. exact Hnew.
    Qed.

    Lemma msg_inv_store_scalar fd sk s fs st :
      msg_find_field md (f_num fd) = Some fd -> f_kind fd = KS sk ->
      msg_inv S md fs st ->
      msg_inv S md (if card_repeated (f_card fd) then msg_append_field fd [VS s] fs else msg_set_field md fd (VS s) fs)
              (msg_ihit md fd st).
    Proof.
      intros Hf Hk [Hmask Hsub]. split.
      - apply (msg_mask_ok_ihit md fd fs _ st Hf (msg_store_keeps ni md Hmdwf fd (VS s) fs Hf)); [|exact Hmask].
        intros Hr. unfold msg_is_req in Hr. destruct (f_card fd) eqn:Hc; try discriminate. cbn [card_repeated].
        apply msg_set_field_present. rewrite Hc. reflexivity.
      - unfold msg_ihit. cbn [snd]. intros Hst. specialize (Hsub Hst).
        destruct (card_repeated (f_card fd)).
        + exact (msg_subs_ok_store_scalar md S fs _ _ fd _ sk Hf Hk (msg_in_append_field fd _ fs) Hsub).
        + exact (msg_subs_ok_store_scalar md S fs _ _ fd _ sk Hf Hk (msg_in_set_field md fd _ fs) Hsub).
    Qed.

    Lemma msg_inv_append_packed fd sk vs fs st :
      msg_find_field md (f_num fd) = Some fd -> f_kind fd = KS sk -> card_repeated (f_card fd) = true ->
      msg_inv S md fs st -> msg_inv S md (msg_append_field fd vs fs) (msg_ihit md fd st).
    Proof.
      intros Hf Hk Hrep [Hmask Hsub]. split.
      - apply (msg_mask_ok_ihit md fd fs _ st Hf (msg_append_field_keeps md fd vs fs)); [|exact Hmask].
        intros Hr. unfold msg_is_req in Hr. destruct (f_card fd); discriminate.
      - unfold msg_ihit. cbn [snd]. intros Hst.
        exact (msg_subs_ok_store_scalar md S fs _ _ fd _ sk Hf Hk (msg_in_append_field fd vs fs) (Hsub Hst)).
    Qed.

    Lemma msg_unknown_sync tagraw num typ r acc st acc' r' st' r2 :
      msg_unknown tagraw num typ r acc = DOk (acc', r') ->
      msg_iskip num typ r st = DOk (st', r2) ->
      r2 = r' /\ (msg_inv S md (fst acc) st -> msg_inv S md (fst acc') st').
    Proof.
      intros H1 H2. unfold msg_unknown in H1. unfold msg_iskip in H2.
      destruct (parse_val default_dep num typ r) as [[w rr]|e]; [|discriminate].
      inversion H1; subst. inversion H2; subst. cbn [fst]. split; [reflexivity|exact (fun H => H)].
    Qed.

    Lemma msg_unknown_keeps tagraw num typ r acc acc' r' :
      msg_unknown tagraw num typ r acc = DOk (acc', r') -> msg_keeps md (fst acc) (fst acc').
    Proof.
      unfold msg_unknown. destruct (parse_val default_dep num typ r) as [[w rr]|e]; [|discriminate].
      intros H. inversion H; subst. cbn [fst]. apply msg_keeps_refl.
    Qed.
    Lemma msg_map_put_keeps fs num key v :
      msg_keeps md fs (msg_fset fs num (msg_map_put (msg_fget fs num) key v)).
    Proof.
      intros h fdh _ _ Hp. destruct (N.eq_dec h num) as [->|Hne].
      - apply msg_present_fset_same. apply msg_map_put_nonempty.
      - rewrite msg_present_fset_other by exact Hne. exact Hp.
    Qed.
    Lemma msg_step_keeps tagraw num typ r acc acc' r' :
      msg_step false md (dm d) (msg_dsub2 false S d) tagraw num typ r acc = DOk (acc', r') ->
      msg_keeps md (fst acc) (fst acc').
    Proof.
      rewrite msg_step_route. pose proof (msg_route_field md num typ) as Hr.
      destruct (msg_route md num typ) as [|fd sk|fd sk|fd t|fd t|fd kk ku vd|]; intros Hdm.
      - exact (msg_unknown_keeps _ _ _ _ _ _ _ Hdm).
      - destruct Hr as [[Hf _] _]. apply msg_find_field_self in Hf.
        destruct (parse_val 0 num typ r) as [[w rr]|e]; [|discriminate].
        destruct (msg_dec_scalar sk (msg_field_utf8 false fd) w) as [[s|e]|];
          [|discriminate|exact (msg_unknown_keeps _ _ _ _ _ _ _ Hdm)].
        inversion Hdm; subst; cbn [fst]. exact (msg_store_keeps ni md Hmdwf fd (VS s) (fst acc) Hf).
      - destruct (dec_bytes r) as [[payload rr]|e]; [|discriminate].
        destruct (msg_dec_packed (x00 :: payload) sk payload []) as [vs|e]; [|discriminate].
        inversion Hdm; subst; cbn [fst]. exact (msg_append_field_keeps md fd vs (fst acc)).
      - destruct Hr as [[Hf _] _]. apply msg_find_field_self in Hf.
        destruct (dec_bytes r) as [[payload rr]|e]; [|discriminate].
        destruct (msg_whole (dm d) t payload (msg_old_sub fd (fst acc))) as [m|e]; [|discriminate].
        inversion Hdm; subst; cbn [fst]. apply msg_store_sub_keeps; exact Hf.
      - destruct Hr as [[Hf _] _]. apply msg_find_field_self in Hf.
        destruct (dm d t num (x00 :: r) r (msg_old_sub fd (fst acc))) as [[m rr]|e]; [|discriminate].
        inversion Hdm; subst; cbn [fst]. apply msg_store_sub_keeps; exact Hf.
      - destruct (msg_dsub2 false S d); [|discriminate].
        destruct (dec_bytes r) as [[payload rr]|e]; [|discriminate].
        destruct (msg_dec_entry _ _ _ _ _ _ _ _ _) as [[key v]|e0]; [|discriminate].
        inversion Hdm; subst; cbn [fst]. apply msg_map_put_keeps.
      - destruct (msg_dsub2 false S d); [exact (msg_unknown_keeps _ _ _ _ _ _ _ Hdm)|discriminate].
    Qed.

    (* a leaf type has no sub-values to check *)
    Lemma msg_leaf_subs_ok t fs : msg_leaf (nth t S []) = true -> msg_subs_ok S (nth t S []) fs.
    Proof.
      intros Hl p _ fd t' Hf Hk. unfold msg_leaf in Hl. rewrite forallb_forall in Hl.
      specialize (Hl fd (msg_find_field_in _ _ _ Hf)). destruct Hk as [Hk|Hk]; rewrite Hk in Hl; discriminate.
    Qed.
    Lemma msg_leaf_check t fs u :
      msg_leaf (nth t S []) = true ->
      msg_check_init S t (VMsg fs u) = msg_required_present (nth t S []) fs.
    Proof.
      intros Hl. cbn [msg_check_init].
      assert (E : forallb (fun p => msg_check_chunk (msg_check_init S) (nth t S []) p) fs = true).
      { apply forallb_forall. intros p Hp. exact (msg_elems_ok_chunk S _ p (msg_leaf_subs_ok t fs Hl p Hp)). }
      rewrite E. apply andb_true_r.
    Qed.

    Definition msg_reqp (t : nat) (v : value) : Prop :=
      msg_required_present (nth t S []) (fst (msg_macc_of v)) = true.

    Lemma msg_entry_sync d1 t mdt kk ku vu :
      d = Datatypes.S d1 -> nth_error S t = Some mdt -> msg_leaf mdt = true ->
      forall g g2 bs key0 val0 key v seen,
        msg_dec_entry g kk ku (KMsg t) vu (msg_entry_dm (dm d1) (KMsg t)) bs key0 val0 = DOk (key, v) ->
        msg_ientry g2 (msg_iwhole (im d1) t) bs seen = DOk true ->
        (seen = true -> msg_reqp t val0) -> msg_reqp t v.
    Proof.
      intros Hd Hmdt Hleaf.
      pose proof (msg_nth_error_nth S t mdt Hmdt) as Hnth. rewrite <- Hnth in Hleaf.
      pose proof (proj1 Hwf _ _ Hmdt) as Hwft.
      induction g as [|x g IH]; intros g2 bs key0 val0 key v seen Hdm Him Hseen; [discriminate|].
      destruct g2 as [|x2 g2]; [discriminate|].
      cbn [msg_dec_entry] in Hdm. cbn [msg_ientry] in Him.
      destruct bs as [|b0 bs0].
      - inversion Hdm; subst key v. inversion Him; subst seen. exact (Hseen eq_refl).
      - destruct (dec_tag (b0 :: bs0)) as [[[num typ] r]|e]; [|discriminate].
        destruct (msg_max_num <? num); [discriminate|].
        destruct (parse_val default_dep num typ r) as [[w r']|e]; [|discriminate].
        destruct (N.eqb_spec num 1) as [->|Hn1].
        + cbn [N.eqb Pos.eqb] in Him.
          destruct (msg_dec_scalar kk ku w) as [[s|e]|]; [|discriminate|];
            exact (IH _ _ _ _ _ _ _ Hdm Him Hseen).
        + destruct (num =? 2).
          * destruct w as [?|?|?|payload|?]; try exact (IH _ _ _ _ _ _ _ Hdm Him Hseen).
            unfold msg_entry_dm in Hdm.
            destruct (msg_whole (dm d1) t payload (msg_macc_of val0)) as [m|e] eqn:Hw; [|discriminate].
            destruct (msg_iwhole (im d1) t payload) as [f1|e] eqn:Hiw; [|discriminate].
            apply (IH _ _ _ _ _ _ _ Hdm Him). intros Hs.
            unfold msg_reqp. cbn [msg_macc_of fst]. rewrite Hnth.
            apply orb_true_iff in Hs. destruct Hs as [Hs|Hs].
            -- (* already seen an initialized occurrence: required fields stay present *)
               unfold msg_whole in Hw.
               destruct (dm d1 t 0 (x00 :: payload) payload (msg_macc_of val0)) as [[m' rest1]|e] eqn:E1; [|discriminate].
               inversion Hw; subst m'.
               specialize (Hseen Hs). unfold msg_reqp in Hseen. rewrite Hnth in Hseen.
               pose proof (Hkeeps1 d1 t mdt Hd Hmdt Hwft 0 _ _ _ _ _ E1) as Hk.
               unfold msg_required_present in *. rewrite forallb_forall in *. intros fd Hin.
               specialize (Hseen fd Hin). destruct (msg_is_req fd) eqn:Hr; [|reflexivity]. cbn [negb orb] in *.
               exact (Hk (f_num fd) fd (wf_uniq ni mdt Hwft fd Hin) Hr Hseen).
            -- (* this occurrence is initialized *)
               subst f1.
               pose proof (msg_whole_sync d1 t payload _ m true (IHd1 d1 Hd) Hw Hiw eq_refl (msg_leaf_subs_ok t _ Hleaf)) as Hc.
               rewrite (msg_leaf_check t (fst m) (snd m) Hleaf), Hnth in Hc. exact Hc.
          * exact (IH _ _ _ _ _ _ _ Hdm Him Hseen).
    Qed.

    (* a message-typed map value is initialized if its flag is set or its type needs no check *)
    Lemma msg_map_value_init d1 fd kk ku vd t payload key v f :
      d = Datatypes.S d1 -> In fd md -> f_card fd = CMap kk ku vd -> f_kind fd = KMsg t ->
      msg_dec_entry (x00 :: payload) kk ku (KMsg t) (f_utf8 fd) (msg_entry_dm (dm d1) (KMsg t)) payload
                    (sk_zero kk) (msg_entry_default (KMsg t) vd) = DOk (key, v) ->
      msg_ientry (x00 :: payload) (msg_iwhole (im d1) t) payload false = DOk f ->
      f || negb (ni t) = true -> msg_check_init S t v = true.
    Proof.
      intros Hd1 Hinfd Hc Hk Hent Hie Hb.
      destruct (ni t) eqn:Hni; [|exact (proj1 (proj2 Hwf) t v Hni)].
      cbn [negb] in Hb. rewrite orb_false_r in Hb. subst f.
      destruct (proj2 (proj2 Hwf) _ md fd kk ku vd t Hmdfix Hinfd Hc (or_introl Hk)) as [Hn|[_ Hleaf]]; [congruence|].
      destruct v as [s|fs u|k0 v0]; try reflexivity. rewrite (msg_leaf_check t fs u Hleaf).
      destruct (nth_error S t) as [mdt|] eqn:Hmdt;
        [|rewrite (nth_overflow S []) by (apply nth_error_None; exact Hmdt); reflexivity].
      rewrite (msg_nth_error_nth S t mdt Hmdt) in Hleaf.
      exact (msg_entry_sync d1 t mdt kk ku (f_utf8 fd) Hd1 Hmdt Hleaf _ _ _ _ _ _ _ _
               Hent Hie (fun H => match Bool.diff_false_true H with end)).
    Qed.

    (* a map entry is put under its key; the flag survives only if the value is initialized *)
    Lemma msg_inv_map_put fd num key v fs st st' :
      msg_find_field md num = Some fd -> fst st' = fst st ->
      (snd st' = true -> snd st = true /\
         forall t, (f_kind fd = KMsg t \/ f_kind fd = KGrp t) -> msg_check_init S t v = true) ->
      msg_inv S md fs st -> msg_inv S md (msg_fset fs num (msg_map_put (msg_fget fs num) key v)) st'.
    Proof.
      intros Hf Hfst Hsnd [Hmask Hsub]. split.
      - rewrite Hfst. exact (msg_mask_ok_keeps md fs _ _ (msg_map_put_keeps _ _ _ _) Hmask).
      - intros Hb. destruct (Hsnd Hb) as [Hst Hchk].
        apply (msg_subs_ok_store md S fs _ num fd _ Hf (msg_in_fset fs num _)); [|exact (Hsub Hst)].
        intros x Hx. apply msg_in_map_put in Hx. destruct Hx as [->|Hx]; [right; exact Hchk|left; exact Hx].
    Qed.

    Lemma msg_step_sync tagraw num typ r acc acc' r' st st' r2 :
      msg_step false md (dm d) (msg_dsub2 false S d) tagraw num typ r acc = DOk (acc', r') ->
      msg_istep ni md (im d) (msg_isub2 d) num typ r st = DOk (st', r2) ->
      r2 = r' /\ (msg_inv S md (fst acc) st -> msg_inv S md (fst acc') st').
    Proof.
      rewrite msg_step_route, msg_istep_route. pose proof (msg_route_field md num typ) as Hr.
      destruct (msg_route md num typ) as [|fd sk|fd sk|fd t|fd t|fd kk ku vd|]; intros Hdm Him.
      - exact (msg_unknown_sync _ _ _ _ _ _ _ _ _ _ Hdm Him).
      - destruct Hr as [[Hf Hk] _]. apply msg_find_field_self in Hf.
        destruct (parse_val 0 num typ r) as [[w rr]|e]; [|discriminate].
        destruct (msg_dec_scalar sk (msg_field_utf8 false fd) w) as [[s|e]|];
          [|discriminate|exact (msg_unknown_sync _ _ _ _ _ _ _ _ _ _ Hdm Him)].
        inversion Hdm; subst acc' r'. inversion Him; subst st' r2. cbn [fst]. split; [reflexivity|].
        intros Hinv. apply (msg_inv_store_scalar fd sk s); assumption.
      - destruct Hr as [[Hf Hk] (_ & _ & Hrep)]. apply msg_find_field_self in Hf.
        destruct (dec_bytes r) as [[payload rr]|e]; [|discriminate].
        destruct (msg_dec_packed (x00 :: payload) sk payload []) as [vs|e]; [|discriminate].
        inversion Hdm; subst acc' r'. inversion Him; subst st' r2. cbn [fst]. split; [reflexivity|].
        intros Hinv. apply (msg_inv_append_packed fd sk vs); assumption.
      - destruct Hr as [[Hf Hk] _]. apply msg_find_field_self in Hf.
        destruct (dec_bytes r) as [[payload rr]|e]; [|discriminate].
        destruct (msg_whole (dm d) t payload (msg_old_sub fd (fst acc))) as [m|e] eqn:Hw; [|discriminate].
        destruct (msg_iwhole (im d) t payload) as [f|e] eqn:Hiw; [|discriminate].
        inversion Hdm; subst acc' r'. inversion Him; subst st' r2. cbn [fst]. split; [reflexivity|].
        exact (msg_inv_store_sub fd t m (fst acc) st f Hf (or_introl Hk) (msg_whole_sync d t payload _ m f IHd Hw Hiw)).
      - destruct Hr as [[Hf Hk] _]. apply msg_find_field_self in Hf.
        destruct (dm d t num (x00 :: r) r (msg_old_sub fd (fst acc))) as [[m rr]|e] eqn:E1; [|discriminate].
        destruct (im d t num (x00 :: r) r) as [[f rr2]|e] eqn:E2; [|discriminate].
        inversion Hdm; subst acc' r'. inversion Him; subst st' r2. cbn [fst].
        destruct (IHd _ _ _ _ _ _ _ _ _ _ E1 E2) as [Hrest Hflag]. split; [exact Hrest|].
        exact (msg_inv_store_sub fd t m (fst acc) st f Hf (or_intror Hk) Hflag).
      - destruct Hr as (Hf & Hc & _).
        destruct (Nat.zero_or_succ d) as [Hd0|(d1 & Hd1)]; [rewrite Hd0 in Hdm; cbn [msg_dsub2] in Hdm; discriminate|].
        rewrite Hd1 in Hdm, Him. cbn [msg_dsub2 msg_isub2] in Hdm, Him.
        destruct (dec_bytes r) as [[payload rr]|e]; [|discriminate].
        destruct (msg_dec_entry _ _ _ _ _ _ _ _ _) as [[key v]|e0] eqn:Hent; [|discriminate].
        inversion Hdm; subst acc' r'. cbn [fst].
        pose proof (msg_find_field_in _ _ _ Hf) as Hinfd.
        assert (Hres : r2 = rr /\ fst st' = fst st /\ (snd st' = true -> snd st = true /\
                  forall t, (f_kind fd = KMsg t \/ f_kind fd = KGrp t) -> msg_check_init S t v = true)).
        { destruct (f_kind fd) as [sk|t0|t0] eqn:Hk.
          - inversion Him; subst st' r2. split; [reflexivity|split; [reflexivity|]].
            intros Hs. split; [exact Hs|]. intros t [Hk'|Hk']; discriminate.
          - destruct (msg_ientry (x00 :: payload) (msg_iwhole (im d1) t0) payload false) as [f|e0] eqn:Hie; [|discriminate].
            inversion Him; subst st' r2. split; [reflexivity|split; [reflexivity|]]. cbn [snd].
            intros Hs. apply andb_true_iff in Hs. destruct Hs as [Hs Hb]. split; [exact Hs|].
            intros t [[= <-]|[=]].
            exact (msg_map_value_init d1 fd kk ku vd t0 payload key v f Hd1 Hinfd Hc Hk Hent Hie Hb).
          - inversion Him; subst st' r2. split; [reflexivity|split; [reflexivity|]].
            intros Hs. split; [exact Hs|]. intros t [[=]|[= <-]].
            destruct (proj2 (proj2 Hwf) _ md fd kk ku vd t0 Hmdfix Hinfd Hc (or_intror Hk)) as [Hn|[Hbad _]]; [|congruence].
            exact (proj1 (proj2 Hwf) t0 v Hn). }
        destruct Hres as (-> & Hfst & Hsnd). split; [reflexivity|].
        exact (msg_inv_map_put fd num key v (fst acc) st st' Hf Hfst Hsnd).
      - destruct (Nat.zero_or_succ d) as [Hd0|(d1 & Hd1)]; [rewrite Hd0 in Hdm; discriminate|].
        rewrite Hd1 in Hdm, Him. exact (msg_unknown_sync _ _ _ _ _ _ _ _ _ _ Hdm Him).
    Qed.
  End Step.
End Flag.

Section Flag2.
  Variable S : schema.
  Variable ni : nat -> bool.
  Hypothesis Hwf : msg_init_wf S ni.
  Notation dm := (msg_decode_msg false S).
  Notation im := (msg_init_msg S ni).

  Lemma msg_keeps_trans md a b c : msg_keeps md a b -> msg_keeps md b c -> msg_keeps md a c.
  Proof. intros H1 H2 h fdh Hf Hr Hp. exact (H2 h fdh Hf Hr (H1 h fdh Hf Hr Hp)). Qed.

  Lemma msg_dm_keeps d tid md grp :
    nth_error S tid = Some md -> msg_md_wf ni md ->
    forall g bs acc acc' rest,
      dm (Datatypes.S d) tid grp g bs acc = DOk (acc', rest) -> msg_keeps md (fst acc) (fst acc').
  Proof.
    intros Hmd Hmdwf. induction g as [|x g IH]; intros bs acc acc' rest Hdm.
    - cbn [msg_decode_msg] in Hdm. rewrite Hmd in Hdm. discriminate.
    - rewrite (msg_dm_unfold false S d tid grp md x g bs acc Hmd) in Hdm.
      destruct bs as [|b0 bs0].
      + destruct (grp =? 0); [|discriminate]. inversion Hdm; subst. intros h fdh _ _ H. exact H.
      + destruct (dec_tag (b0 :: bs0)) as [[[num typ] r]|e]; [|discriminate].
        destruct (msg_max_num <? num); [discriminate|].
        destruct ((typ =? 4) && negb false).
        * destruct (num =? grp); [|discriminate]. inversion Hdm; subst. intros h fdh _ _ H. exact H.
        * cbv zeta in Hdm.
          destruct (msg_step false md (dm d) (msg_sub2 false S d) (enc_tag num typ) num typ r acc) as [[acc1 r1]|e] eqn:E1; [|discriminate].
          eapply msg_keeps_trans; [|exact (IH _ _ _ _ Hdm)].
          eapply (msg_step_keeps S ni); eassumption.
  Qed.

  Lemma msg_dm_keeps_all d t mdt :
    nth_error S t = Some mdt -> msg_md_wf ni mdt ->
    forall grp g bs acc acc' rest, dm d t grp g bs acc = DOk (acc', rest) -> msg_keeps mdt (fst acc) (fst acc').
  Proof.
    intros Hm Hw grp g bs acc acc' rest H. destruct d as [|d]; [cbn [msg_decode_msg] in H; discriminate|].
    exact (msg_dm_keeps d t mdt grp Hm Hw g bs acc acc' rest H).
  Qed.

  Lemma msg_loop_sync d tid md grp :
    nth_error S tid = Some md -> msg_md_wf ni md -> msg_flag_stmt S ni d ->
    (forall d1, d = Datatypes.S d1 -> msg_flag_stmt S ni d1) ->
    forall g g2 bs acc st acc' rest st' rest2,
      dm (Datatypes.S d) tid grp g bs acc = DOk (acc', rest) ->
      msg_iloop (msg_istep ni md (im d) (msg_isub2 S ni d)) grp g2 bs st = DOk (st', rest2) ->
      rest2 = rest /\ (msg_inv S md (fst acc) st -> msg_inv S md (fst acc') st').
  Proof.
    intros Hmd Hmdwf IHd IHd1. induction g as [|x g IH]; intros g2 bs acc st acc' rest st' rest2 Hdm Him.
    - cbn [msg_decode_msg] in Hdm. rewrite Hmd in Hdm. discriminate.
    - destruct g2 as [|x2 g2]; [discriminate|].
      rewrite (msg_dm_unfold false S d tid grp md x g bs acc Hmd) in Hdm. cbn [msg_iloop] in Him.
      destruct bs as [|b0 bs0].
      + destruct (grp =? 0); [|discriminate]. inversion Hdm; subst acc' rest. inversion Him; subst st' rest2.
        split; [reflexivity|exact (fun H => H)].
      + destruct (dec_tag (b0 :: bs0)) as [[[num typ] r]|e]; [|discriminate].
        destruct (msg_max_num <? num); [discriminate|].
        destruct (typ =? 4).
        * destruct (num =? grp); [|discriminate]. inversion Hdm; subst acc' rest. inversion Him; subst st' rest2.
          split; [reflexivity|exact (fun H => H)].
        * cbv zeta in Hdm.
          destruct (msg_step false md (dm d) (msg_sub2 false S d) (enc_tag num typ) num typ r acc) as [[acc1 r1]|e] eqn:E1; [|discriminate].
          destruct (msg_istep ni md (im d) (msg_isub2 S ni d) num typ r st) as [[st1 r1']|e] eqn:E2; [|discriminate].
          destruct (msg_step_sync S ni Hwf d md Hmdwf tid Hmd IHd IHd1
                      (fun d1 t mdt _ Hm Hw grp0 g0 bs1 acc0 acc0' rest0 H0 => msg_dm_keeps_all d1 t mdt Hm Hw grp0 g0 bs1 acc0 acc0' rest0 H0)
                      _ _ _ _ _ _ _ _ _ _ E1 E2) as [-> Hinv1].
          destruct (IH _ _ _ _ _ _ _ _ Hdm Him) as [Hr Hinv2]. split; [exact Hr|].
          intros H. exact (Hinv2 (Hinv1 H)).
  Qed.

  Theorem msg_flag_all : forall d, msg_flag_stmt S ni d.
  Proof.
    induction d as [d IHall] using (well_founded_induction lt_wf).
    intros tid grp g bs acc acc' rest g2 f rest2 Hdm Him.
    destruct d as [|d]; [cbn [msg_decode_msg] in Hdm; discriminate|].
    - pose proof (IHall d (Nat.lt_succ_diag_r d)) as IHd.
      assert (IHd1 : forall d1, d = Datatypes.S d1 -> msg_flag_stmt S ni d1) by (intros d1 Hd1; apply IHall; lia).
      cbn [msg_init_msg] in Him. destruct (nth_error S tid) as [md|] eqn:Hmd.
      2:{ cbn [msg_decode_msg] in Hdm. rewrite Hmd in Hdm. discriminate. }
      change (match d with O => None | Datatypes.S d1 => Some (im d1) end) with (msg_isub2 S ni d) in Him.
      destruct (msg_iloop (msg_istep ni md (im d) (msg_isub2 S ni d)) grp g2 bs (0, true)) as [[st rest2']|e] eqn:El; [|discriminate].
      inversion Him; subst f rest2'. clear Him.
      pose proof (proj1 Hwf _ _ Hmd) as Hmdwf.
      destruct (msg_loop_sync d tid md grp Hmd Hmdwf IHd IHd1 g g2 bs acc (0, true) acc' rest st rest2 Hdm El) as [-> Hinv].
      split; [reflexivity|]. intros Hfin Hsubs.
      rewrite (msg_nth_error_nth S tid md Hmd) in Hsubs.
      assert (Hinv0 : msg_inv S md (fst acc) (0, true)).
      { split; [intros i Hi; cbn [fst] in Hi; rewrite N.bits_0 in Hi; discriminate|intros _; exact Hsubs]. }
      destruct (Hinv Hinv0) as [Hmask Hsub].
      unfold msg_ifinish in Hfin. apply andb_true_iff in Hfin. destruct Hfin as [Hok Hcnt].
      cbn [msg_check_init]. rewrite (msg_nth_error_nth S tid md Hmd). apply andb_true_iff. split.
      + unfold msg_required_present. apply forallb_forall. intros fd Hin.
        destruct (msg_is_req fd) eqn:Hr; [|reflexivity]. cbn [negb orb].
        destruct (wf_req ni md Hmdwf fd Hin Hr) as [Hx _].
        apply orb_true_iff in Hcnt. destruct Hcnt as [Hz|Hpc].
        * exfalso. apply N.eqb_eq in Hz. pose proof (msg_count_required_pos md fd Hin Hx Hr).
          unfold msg_num_required in Hz. lia.
        * apply N.eqb_eq in Hpc.
          exact (msg_mask_sound_gen md (fun h => msg_present (fst acc') h = true) (fst st)
                                    (wf_uniq ni md Hmdwf) Hmask Hpc fd Hin Hx Hr).
      + apply forallb_forall. intros p Hp. apply msg_elems_ok_chunk. exact (Hsub Hok p Hp).
  Qed.
End Flag2.

(* the fast path never marks a partial message as initialized (restriction [maps]) *)
Theorem msg_fast_flag_sound S ni limit tid bs v :
  msg_init_wf S ni ->
  msg_decode false S limit tid bs = DOk v ->
  msg_init_flag S ni limit tid bs = DOk true ->
  msg_check_init S tid v = true.
Proof.
  intros Hwf Hd Hf. unfold msg_decode, msg_decode_into in Hd. unfold msg_init_flag in Hf.
  destruct (msg_decode_msg false S limit tid 0 (x00 :: bs) bs (msg_macc_of msg_empty)) as [[m r1]|e] eqn:E1; [|discriminate].
  destruct (msg_init_msg S ni limit tid 0 (x00 :: bs) bs) as [[f r2]|e] eqn:E2; [|discriminate].
  inversion Hd; subst v. inversion Hf; subst f.
  apply (proj2 (msg_flag_all S ni Hwf limit _ _ _ _ _ _ _ _ _ _ E1 E2) eq_refl).
  intros p [].
Qed.

(* proto.Unmarshal without AllowPartial reports a required-field error iff the decoded message is partial *)
Theorem msg_unmarshal_exact S ni limit tid bs :
  msg_init_wf S ni ->
  (msg_unmarshal S ni limit tid false bs = URequired <->
   exists v, msg_decode false S limit tid bs = DOk v /\ msg_check_init S tid v = false).
Proof.
  intros Hwf. unfold msg_unmarshal. destruct (msg_decode false S limit tid bs) as [v|e] eqn:Hd.
  - split.
    + intros H. exists v. split; [reflexivity|].
      destruct (msg_init_flag S ni limit tid bs) as [[|]|e]; try discriminate;
        destruct (msg_check_init S tid v); [discriminate|reflexivity|discriminate|reflexivity].
    + intros (v' & Hv & Hc). inversion Hv; subst v'.
      destruct (msg_init_flag S ni limit tid bs) as [[|]|e] eqn:Hf; try (rewrite Hc; reflexivity).
      rewrite (msg_fast_flag_sound S ni limit tid bs v Hwf Hd Hf) in Hc. discriminate.
  - split; [discriminate|]. intros (v & Hv & _). discriminate.
Qed.

Theorem msg_unmarshal_ok_exact S ni limit tid bs v :
  msg_init_wf S ni ->
  (msg_unmarshal S ni limit tid false bs = UOk v <->
   msg_decode false S limit tid bs = DOk v /\ msg_check_init S tid v = true).
Proof.
  intros Hwf. unfold msg_unmarshal. destruct (msg_decode false S limit tid bs) as [v0|e] eqn:Hd.
  - split.
    + intros H.
      destruct (msg_init_flag S ni limit tid bs) as [[|]|e] eqn:Hf.
      * inversion H; subst v0. split; [reflexivity|]. exact (msg_fast_flag_sound S ni limit tid bs v Hwf Hd Hf).
      * destruct (msg_check_init S tid v0) eqn:Hc; [|discriminate]. inversion H; subst v0. split; [reflexivity|exact Hc].
      * destruct (msg_check_init S tid v0) eqn:Hc; [|discriminate]. inversion H; subst v0. split; [reflexivity|exact Hc].
    + intros [Hv Hc]. inversion Hv; subst v0.
      destruct (msg_init_flag S ni limit tid bs) as [[|]|e]; try reflexivity; rewrite Hc; reflexivity.
  - split; [discriminate|]. intros [Hv _]. discriminate.
Qed.

Theorem msg_unmarshal_slow_exact S limit tid bs :
  msg_unmarshal_slow S limit tid false bs = URequired <->
  exists v, msg_decode true S limit tid bs = DOk v /\ msg_check_init S tid v = false.
Proof.
  unfold msg_unmarshal_slow. destruct (msg_decode true S limit tid bs) as [v|e].
  - cbn [orb]. split.
    + intros H. exists v. split; [reflexivity|]. destruct (msg_check_init S tid v); [discriminate|reflexivity].
    + intros (v' & Hv & Hc). inversion Hv; subst v'. rewrite Hc. reflexivity.
  - split; [discriminate|]. intros (v & Hv & _). discriminate.
Qed.

Theorem msg_marshal_exact S tid v :
  msg_marshal_checked S tid false v = None <-> msg_check_init S tid v = false.
Proof. unfold msg_marshal_checked. cbn [orb]. destruct (msg_check_init S tid v); split; congruence. Qed.

Definition ex_req : mdesc := [mkF 1 (KS SkInt32) CReq None false false false].
(* FA2: One { oneof u { int32 x = 1; Req m = 2; } } *)
Definition ex_fa2 : schema :=
  [[mkF 1 (KS SkInt32) COpt (Some 0) false false false; mkF 2 (KMsg 1) COpt (Some 0) false false false]; ex_req].
(* the code checks every message-typed oneof member, and so does the model: a partial non-first member
   clears the flag *)
Lemma msg_flag_oneof_member_FA2_repaired :
  msg_init_flag ex_fa2 (fun _ => true) 100 0 [n2b 18; n2b 0] = DOk false /\
  msg_init_flag ex_fa2 (fun _ => true) 100 0 [n2b 18; n2b 2; n2b 8; n2b 1] = DOk true.
Proof. vm_compute. split; reflexivity. Qed.
(* FA5: MapV { map<int32, V> mv = 1; }  V { optional Req child = 4; } ; entry = key 1, value {}, value {child {}} *)
Definition ex_fa5 : schema :=
  [[mkF 1 (KMsg 1) (CMap SkInt32 false 0) None false false false];
   [mkF 4 (KMsg 2) COpt None false false false]; ex_req].
Lemma msg_fast_flag_sound_refuted_FA5 :
  exists S ni bs v, msg_decode false S 100 0 bs = DOk v /\ msg_init_flag S ni 100 0 bs = DOk true /\
                    msg_check_init S 0 v = false.
Proof.
  exists ex_fa5, (fun _ => true), (map n2b [10; 8; 8; 1; 18; 0; 18; 2; 34; 0]). eexists. vm_compute. repeat split; reflexivity.
Qed.
(* FA1: TestRequiredLazy { optional TestRequired m = 1 [lazy = true]; } <- 0a 00, lazy decoding *)
Definition ex_fa1 : schema := [[mkF 1 (KMsg 1) COpt None false false true]; ex_req].
Lemma msg_unmarshal_lazy_exact_refuted_FA1 :
  exists S ni bs v, msg_unmarshal_lazy S ni 100 0 false bs = UOk v /\ msg_check_init S 0 v = false.
Proof.
  exists ex_fa1, (fun _ => true), [n2b 10; n2b 0]. eexists. vm_compute. split; reflexivity.
Qed.

(* non-vacuity of msg_init_wf: TestRequiredForeign (singular, repeated, map value and oneof member of
   a message with a required field) *)
Definition ex_wf : schema :=
  [[mkF 1 (KMsg 1) COpt None false false false; mkF 2 (KMsg 1) CRep None false false false;
    mkF 3 (KMsg 1) (CMap SkInt32 false 0) None false false false;
    mkF 4 (KMsg 1) COpt (Some 0) false false false]; ex_req].
Lemma ex_wf_ok : msg_init_wf ex_wf (fun _ => true).
Proof.
  split; [|split; [intros tid v H; discriminate|]].
  - intros tid md Hmd. destruct tid as [|[|tid]]; cbn in Hmd; [| |destruct tid; discriminate];
      inversion Hmd; subst md; constructor.
    + intros fd [<-|[<-|[<-|[<-|[]]]]]; reflexivity.
    + intros fd [<-|[<-|[<-|[<-|[]]]]] H; discriminate.
    + intros fd [<-|[]]; reflexivity.
    + intros fd [<-|[]] _. split; reflexivity.
  - intros tid md fd kk ku vd t Hmd Hin Hc Hk. right.
    destruct tid as [|[|tid]]; cbn in Hmd; [| |destruct tid; discriminate]; inversion Hmd; subst md.
    + destruct Hin as [<-|[<-|[<-|[<-|[]]]]]; try discriminate.
      destruct Hk as [Hk|Hk]; inversion Hk; subst t. split; reflexivity.
    + destruct Hin as [<-|[]]. discriminate.
Qed.
