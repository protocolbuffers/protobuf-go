(* UnkP — proofs about unknown-field handling (C09).

   msg_unknown_preserved_step   a rejected occurrence is appended verbatim to the unknown section
   msg_unknown_untouched_step   any other occurrence leaves the unknown section alone
   (MsgRoundP.msg_run_unknown, MergeP.msg_unknown_loop_k)  a run of rejected fields inside any input is
                                appended in input order
   msg_unknown_reemitted        Marshal writes the unknown bytes after the known fields
   msg_discard_unknown          DiscardUnknown: no message of the tree keeps unknown bytes
   msg_schema_evolution_arbitrary_bytes_refuted, msg_schema_evolution_example
   msg_schema_evolution_agree         schema evolution, when the reduced table treats the kept populated
                                      fields of the root message as the full one does; instances:
   msg_schema_evolution_kept_scalar   any deleted fields, kept populated fields of scalar kind
   msg_schema_evolution_top           any fields of the (non-recursive) root type deleted, kept and
                                      deleted fields of every kind (msg_agree_all: encoder, sizes and
                                      typing of the nested types do not change) *)
From Coq Require Import List Arith NArith ZArith Lia Bool Permutation.
From Coq Require Import ZifyBool ZifyNat ZifyN.
From PB Require Import Base.PBytes Base.ListP Wire.WireModel Wire.VarintP Wire.ScanP Msg.MsgSchema Msg.MsgValue Msg.MsgUtf8 Msg.MsgEnc Msg.MsgDec Msg.MsgValid
  Msg.MsgWireP Msg.MsgScalarP Msg.MsgAssocP Msg.MsgSizeP Msg.MsgDecP Msg.MsgRoundP Msg.ValidateMsgModel Msg.ValidateMsgP Msg.MsgExample Msg.UnkModel Msg.MergeModel Msg.MergeP.
Import ListNotations.
Open Scope N_scope.

(* DiscardUnknown: no message of the decoded tree keeps unknown bytes *)
Lemma msg_strip_no_unknown : forall v, msg_has_unknown (msg_strip_unknown v) = false.
Proof.
  induction v as [s|fs unk IH|k v IH] using msg_value_ind.
  - reflexivity.
  - cbn [msg_strip_unknown msg_has_unknown negb orb].
    induction fs as [|p r IHr]; [reflexivity|].
    inversion IH as [|? ? Hp Hr]; subst.
    cbn [map existsb snd]. rewrite (IHr Hr), orb_false_r.
    clear - Hp. induction (snd p) as [|x l IHl]; [reflexivity|].
    inversion Hp as [|? ? Hx Hl]; subst. cbn [map existsb]. rewrite Hx, (IHl Hl). reflexivity.
  - exact IH.
Qed.

Theorem msg_discard_unknown slow S limit tid bs v :
  msg_decode_discard slow S limit tid bs = DOk v -> msg_has_unknown v = false.
Proof.
  unfold msg_decode_discard. destruct (msg_decode slow S limit tid bs) as [v0|e]; [|discriminate].
  intros H. inversion H; subst. apply msg_strip_no_unknown.
Qed.

(* a value parsed with the wire type of a scalar kind decodes as that kind *)
Lemma msg_dec_scalar_some sk utf8 num r w r' :
  parse_val 0 num (sk_wt sk) r = Ok (w, r') -> msg_dec_scalar sk utf8 w <> None.
Proof.
  intros H. destruct (vp_sk_dec_some _ _ _ _ _ _ H) as (s & Es). rewrite vp_dec_scalar_cases, Es.
  destruct (vr_is_string sk && utf8 && _); discriminate.
Qed.

Section UnkStep.
  Variable slow : bool.
  Variable S : schema.
  Variable d : nat.
  Variable md : mdesc.
  Notation has2 := (match d with O => false | _ => true end).
  Notation step := (msg_step slow md (msg_decode_msg slow S d) (msg_dsub2 slow S d)).

  (* a field the schema has no entry for, or whose wire type the field's kind rejects, is appended
     to the unknown section: the tag bytes given by the caller (minimal re-encoding on the
     table-driven path, the raw bytes on the reflection path) and the value bytes exactly as read *)
  Lemma msg_unknown_preserved_step tagraw num typ r acc acc' r' :
    msg_rejects md has2 num typ = true ->
    step tagraw num typ r acc = DOk (acc', r') ->
    acc' = (fst acc, snd acc ++ tagraw ++ firstn (length r - length r') r) /\
    exists w, parse_val default_dep num typ r = Ok (w, r').
  Proof.
    intros Hrej H. rewrite (msg_rejects_step slow S d md tagraw num typ r acc Hrej) in H.
    unfold msg_unknown in H. destruct (parse_val default_dep num typ r) as [[w rr]|e]; [|discriminate].
    inversion H; subst. split; [reflexivity|]. exists w. reflexivity.
  Qed.

  (* every other field leaves the unknown section as it is *)
  Lemma msg_unknown_untouched_step tagraw num typ r acc acc' r' :
    msg_rejects md has2 num typ = false ->
    step tagraw num typ r acc = DOk (acc', r') ->
    snd acc' = snd acc.
  Proof.
    rewrite msg_rejects_route, msg_step_route. pose proof (msg_route_field md num typ) as Hr.
    destruct (msg_route md num typ) as [|fd sk|fd sk|fd t|fd t|fd kk ku vd|]; intros Hrej H.
    - discriminate.
    - destruct Hr as [_ ->].
      destruct (parse_val 0 num (sk_wt sk) r) as [[w rr]|e] eqn:Hp; [|discriminate].
      pose proof (msg_dec_scalar_some sk (msg_field_utf8 slow fd) num r w rr Hp) as Hs.
      destruct (msg_dec_scalar sk (msg_field_utf8 slow fd) w) as [[s|e]|]; [|discriminate|congruence].
      inversion H; subst. reflexivity.
    - destruct (dec_bytes r) as [[payload rr]|e]; [|discriminate].
      destruct (msg_dec_packed (x00 :: payload) sk payload []) as [vs|e]; [|discriminate].
      inversion H; subst. reflexivity.
    - destruct (dec_bytes r) as [[payload rr]|e]; [|discriminate].
      destruct (msg_whole (msg_decode_msg slow S d) t payload (msg_old_sub fd (fst acc))) as [m|e]; [|discriminate].
      inversion H; subst. reflexivity.
    - destruct slow.
      + destruct (consume_group num r) as [[[content|] n]|e]; try discriminate.
        destruct (msg_whole (msg_decode_msg true S d) t content (msg_old_sub fd (fst acc))) as [m|e]; [|discriminate].
        inversion H; subst. reflexivity.
      + destruct (msg_decode_msg false S d t num (x00 :: r) r (msg_old_sub fd (fst acc))) as [[m rr]|e]; [|discriminate].
        inversion H; subst. reflexivity.
    - destruct (msg_dsub2 slow S d) as [dm2|]; [|discriminate].
      destruct (dec_bytes r) as [[payload rr]|e]; [|discriminate].
      destruct (msg_dec_entry _ _ _ _ _ _ _ _ _) as [[key v]|e0]; [|discriminate].
      inversion H; subst. reflexivity.
    - destruct d; [discriminate H|discriminate Hrej].
  Qed.
End UnkStep.

(* Marshal re-emits the unknown bytes, after all known fields *)
Lemma msg_unknown_reemitted S tid fs u : msg_encode S tid (VMsg fs u) = msg_encode S tid (VMsg fs []) ++ u.
Proof. unfold msg_encode. cbn [msg_enc_body]. rewrite app_nil_r. reflexivity. Qed.

(* schema evolution is false for arbitrary byte strings: a oneof split between a known and a
   deleted member.  S: oneof { int32 a = 1; int32 b = 2 }, S' = S without b, input: b = 2, a = 1 *)
Definition ex_evo : schema :=
  [[mkF 1 (KS SkInt32) COpt (Some 0) false false false; mkF 2 (KS SkInt32) COpt (Some 0) false false false]].
Lemma msg_schema_evolution_arbitrary_bytes_refuted :
  exists S keep bs v v',
    msg_decode false S 100 0 bs = DOk v /\
    msg_evolve false S (msg_restrict keep S) 100 bs = DOk v' /\ v <> v'.
Proof.
  exists ex_evo, (fun _ n => negb (n =? 2)), (map n2b [16; 2; 8; 1]). do 2 eexists.
  split; [vm_compute; reflexivity|]. split; [vm_compute; reflexivity|]. discriminate.
Qed.

(* ... and holds (by computation) on the example message of C03 with fields, an extension and a
   field of the nested message type deleted *)
Definition ex_keep (tid : nat) (n : N) : bool := negb (existsb (N.eqb n) [1; 3; 4; 7; 100]).
Example msg_schema_evolution_example :
  msg_evolve false ex_schema (msg_restrict ex_keep ex_schema) 3 (msg_encode ex_schema 0 ex_msg) = DOk ex_msg /\
  (exists v', msg_decode true (msg_restrict ex_keep ex_schema) 3 0 (msg_encode ex_schema 0 ex_msg) = DOk v' /\
              msg_has_unknown v' = true /\ v' <> ex_msg).
Proof. split; [vm_compute; reflexivity|]. eexists. split; [vm_compute; reflexivity|]. split; [vm_compute; reflexivity|discriminate]. Qed.

Lemma msg_restrict_from_nth keep : forall S k tid,
  nth_error (msg_restrict_from keep k S) tid =
  match nth_error S tid with
  | Some md => Some (filter (fun fd => keep (k + tid)%nat (f_num fd)) md)
  | None => None
  end.
Proof.
  induction S as [|md S IH]; intros k tid; cbn [msg_restrict_from]; [destruct tid; reflexivity|].
  destruct tid as [|tid]; cbn [nth_error].
  - rewrite Nat.add_0_r. reflexivity.
  - rewrite IH. replace (Datatypes.S k + tid)%nat with (k + Datatypes.S tid)%nat by lia. reflexivity.
Qed.

Lemma msg_find_filter (f : N -> bool) : forall md num,
  msg_find_field (filter (fun fd => f (f_num fd)) md) num =
  if f num then msg_find_field md num else None.
Proof.
  induction md as [|fd md IH]; intros num; cbn [filter msg_find_field]; [destruct (f num); reflexivity|].
  destruct (N.eqb_spec (f_num fd) num) as [E|E].
  - rewrite E. destruct (f num) eqn:Hf.
    + cbn [msg_find_field]. rewrite <- E at 1. rewrite N.eqb_refl. reflexivity.
    + rewrite IH, Hf. reflexivity.
  - destruct (f (f_num fd)); [cbn [msg_find_field]; destruct (N.eqb_spec (f_num fd) num); [congruence|]|]; apply IH.
Qed.


Lemma msg_enc_elem_ext eb eb' num k v :
  (forall t fs u, (k = KMsg t \/ k = KGrp t) -> v = VMsg fs u -> eb' t v = eb t v) ->
  msg_enc_elem eb' num k v = msg_enc_elem eb num k v.
Proof.
  intros H. destruct k as [sk|t|t]; destruct v; cbn [msg_enc_elem]; try reflexivity.
  - rewrite (H t _ _ (or_introl eq_refl) eq_refl). reflexivity.
  - rewrite (H t _ _ (or_intror eq_refl) eq_refl). reflexivity.
Qed.
Lemma msg_enc_field_ext eb eb' fd vs :
  (forall t x, (f_kind fd = KMsg t \/ f_kind fd = KGrp t) -> In x vs -> eb' t (msg_uv x) = eb t (msg_uv x)) ->
  msg_enc_field eb' fd vs = msg_enc_field eb fd vs.
Proof.
  intros H. unfold msg_enc_field.
  assert (Hel : flat_map (fun e => msg_enc_elem eb' (f_num fd) (f_kind fd) e) vs =
                flat_map (fun e => msg_enc_elem eb (f_num fd) (f_kind fd) e) vs).
  { apply list_flat_map_ext_in. intros x Hx. apply msg_enc_elem_ext. intros t fs u Hk ->.
    exact (H t (VMsg fs u) Hk Hx). }
  destruct (f_card fd) as [| | | | |kk ku vd]; try exact Hel.
  - destruct (f_kind fd) as [sk|t|t] eqn:Hk; [|exact Hel|exact Hel].
    destruct vs; [reflexivity|]. destruct (msg_packable sk); [reflexivity|exact Hel].
  - apply list_flat_map_ext_in. intros x Hx. destruct x as [| |key v]; cbn [msg_enc_entry]; try reflexivity.
    f_equal. f_equal. f_equal. apply msg_enc_elem_ext. intros t fs u Hk _. exact (H t (VEntry key v) Hk Hx).
Qed.

Lemma msg_size_elem_ext sb sb' num k v :
  (forall t fs u, (k = KMsg t \/ k = KGrp t) -> v = VMsg fs u -> sb' t v = sb t v) ->
  msg_size_elem sb' num k v = msg_size_elem sb num k v.
Proof.
  intros H. destruct k as [sk|t|t]; destruct v; cbn [msg_size_elem]; try reflexivity.
  - rewrite (H t _ _ (or_introl eq_refl) eq_refl). reflexivity.
  - rewrite (H t _ _ (or_intror eq_refl) eq_refl). reflexivity.
Qed.
Lemma msg_size_field_ext sb sb' fd vs :
  (forall t x, (f_kind fd = KMsg t \/ f_kind fd = KGrp t) -> In x vs -> sb' t (msg_uv x) = sb t (msg_uv x)) ->
  msg_size_field sb' fd vs = msg_size_field sb fd vs.
Proof.
  intros H. unfold msg_size_field.
  assert (Hel : map (msg_size_elem sb' (f_num fd) (f_kind fd)) vs = map (msg_size_elem sb (f_num fd) (f_kind fd)) vs).
  { apply map_ext_in. intros x Hx. apply msg_size_elem_ext. intros t fs u Hk ->. exact (H t (VMsg fs u) Hk Hx). }
  destruct (f_card fd) as [| | | | |kk ku vd]; try (f_equal; exact Hel).
  - destruct (f_kind fd) as [sk|t|t] eqn:Hk; rewrite ?Hk in Hel; try (f_equal; exact Hel).
    destruct vs; [reflexivity|]. destruct (msg_packable sk); [reflexivity|f_equal; exact Hel].
  - f_equal. apply map_ext_in. intros x Hx. destruct x as [| |key v]; cbn [msg_size_entry]; try reflexivity.
    f_equal. f_equal. f_equal. apply msg_size_elem_ext. intros t fs u Hk _. exact (H t (VEntry key v) Hk Hx).
Qed.

Lemma msg_szok_elem_ext sb ok sb' ok' k v :
  (forall t fs u, (k = KMsg t \/ k = KGrp t) -> v = VMsg fs u -> sb' t v = sb t v /\ ok' t v = ok t v) ->
  msg_szok_elem sb' ok' k v = msg_szok_elem sb ok k v.
Proof.
  intros H. destruct k as [sk|t|t]; destruct v; cbn [msg_szok_elem]; try reflexivity.
  - destruct (H t _ _ (or_introl eq_refl) eq_refl) as [-> ->]. reflexivity.
  - destruct (H t _ _ (or_intror eq_refl) eq_refl) as [_ ->]. reflexivity.
Qed.
Lemma msg_szok_field_ext sb ok sb' ok' fd vs :
  (forall t x, (f_kind fd = KMsg t \/ f_kind fd = KGrp t) -> In x vs ->
               sb' t (msg_uv x) = sb t (msg_uv x) /\ ok' t (msg_uv x) = ok t (msg_uv x)) ->
  msg_szok_field sb' ok' fd vs = msg_szok_field sb ok fd vs.
Proof.
  intros H. unfold msg_szok_field. f_equal.
  assert (Hel : forallb (msg_szok_elem sb' ok' (f_kind fd)) vs = forallb (msg_szok_elem sb ok (f_kind fd)) vs).
  { apply list_forallb_ext_in. intros x Hx. apply msg_szok_elem_ext. intros t fs u Hk ->. exact (H t (VMsg fs u) Hk Hx). }
  destruct (f_card fd) as [| | | | |kk ku vd]; try exact Hel.
  - destruct (f_kind fd) as [sk|t|t] eqn:Hk; rewrite ?Hk in Hel; try exact Hel.
    destruct vs; [reflexivity|]. destruct (msg_packable sk); [rewrite Hel; reflexivity|exact Hel].
  - apply list_forallb_ext_in. intros x Hx. destruct x as [| |key v]; cbn [msg_szok_entry]; try reflexivity.
    assert (E1 : msg_szok_elem sb' ok' (f_kind fd) v = msg_szok_elem sb ok (f_kind fd) v).
    { apply msg_szok_elem_ext. intros t fs u Hk _. exact (H t (VEntry key v) Hk Hx). }
    assert (E2 : msg_size_elem sb' 2 (f_kind fd) v = msg_size_elem sb 2 (f_kind fd) v).
    { apply msg_size_elem_ext. intros t fs u Hk _. exact (proj1 (H t (VEntry key v) Hk Hx)). }
    rewrite E1, E2. reflexivity.
Qed.

Lemma msg_typed_elem_ext slow eb tv eb' tv' fd v :
  (forall t fs u, (f_kind fd = KMsg t \/ f_kind fd = KGrp t) -> v = VMsg fs u -> tv' t v = tv t v /\ eb' t v = eb t v) ->
  msg_typed_elem slow eb' tv' fd v = msg_typed_elem slow eb tv fd v.
Proof.
  intros H. unfold msg_typed_elem. destruct (f_kind fd) as [sk|t|t] eqn:Hk; destruct v; try reflexivity.
  - destruct (H t _ _ (or_introl eq_refl) eq_refl) as [-> _]. reflexivity.
  - destruct (H t _ _ (or_intror eq_refl) eq_refl) as [-> ->]. reflexivity.
Qed.
Lemma msg_typed_field_ext slow eb tv tv2 eb' tv' tv2' has2 fd vs :
  (forall t x, (f_kind fd = KMsg t \/ f_kind fd = KGrp t) -> In x vs ->
               tv' t (msg_uv x) = tv t (msg_uv x) /\ tv2' t (msg_uv x) = tv2 t (msg_uv x) /\
               eb' t (msg_uv x) = eb t (msg_uv x)) ->
  msg_typed_field slow eb' tv' tv2' has2 fd vs = msg_typed_field slow eb tv tv2 has2 fd vs.
Proof.
  intros H. unfold msg_typed_field. f_equal.
  assert (Hone : forall v, In v vs -> msg_typed_elem slow eb' tv' fd v = msg_typed_elem slow eb tv fd v).
  { intros v Hv. apply msg_typed_elem_ext. intros t fs u Hk ->.
    destruct (H t (VMsg fs u) Hk Hv) as (H1 & _ & H3). split; assumption. }
  assert (Hel : forallb (msg_typed_elem slow eb' tv' fd) vs = forallb (msg_typed_elem slow eb tv fd) vs)
    by (apply list_forallb_ext_in; exact Hone).
  destruct (f_card fd) as [| | | | |kk ku vd].
  - destruct vs as [|v [|]]; try reflexivity. apply Hone. left. reflexivity.
  - destruct vs as [|v [|]]; try reflexivity. rewrite (Hone v (or_introl eq_refl)). reflexivity.
  - destruct vs as [|v [|]]; try reflexivity. apply Hone. left. reflexivity.
  - destruct vs; [reflexivity|exact Hel].
  - destruct vs; [reflexivity|exact Hel].
  - f_equal. f_equal. destruct vs as [|v0 vs0]; [reflexivity|].
    apply list_forallb_ext_in. intros x Hx. unfold msg_typed_entry. destruct x as [| |key v]; try reflexivity.
    f_equal. destruct (f_kind fd) as [sk|t|t] eqn:Hk; destruct v as [s1|fs1 u1|k1 v1]; try reflexivity.
    exact (proj1 (proj2 (H t (VEntry key (VMsg fs1 u1)) (or_introl eq_refl) Hx))).
Qed.

Lemma msg_sk_wt_ne4 sk : sk_wt sk <> 4.
Proof. destruct sk; discriminate. Qed.

Section EvoDec.
  Variable S' : schema.
  Notation run' := (msg_run true S').
  Variables (d tid : nat) (md' : mdesc) (grp : N).
  Hypothesis Hmd' : nth_error S' tid = Some md'.
  Notation has2 := (match d with O => false | _ => true end).

  (* one well-formed field that md' rejects, on the reflection path: kept verbatim *)
  Lemma msg_run_rejected num typ val tail accf U w :
    1 <= num -> num <= msg_max_num -> typ < 8 -> typ <> 4 ->
    msg_rejects md' has2 num typ = true ->
    parse_val default_dep num typ (val ++ tail) = Ok (w, tail) ->
    run' (Datatypes.S d) tid grp (enc_tag num typ ++ val ++ tail) (accf, U) =
    run' (Datatypes.S d) tid grp tail (accf, U ++ enc_tag num typ ++ val).
  Proof.
    intros Hlo Hhi Ht Ht4 Hrej Hpv.
    apply (msg_run_field true S' d tid md' grp Hmd' num typ val tail); try assumption.
    rewrite msg_rejects_step by exact Hrej. unfold msg_unknown. rewrite Hpv. cbn [fst snd].
    rewrite (list_firstn_app_length val tail) by (rewrite app_length; lia). reflexivity.
  Qed.

  (* the encoding (by the full schema S) of a field that md' does not have: every occurrence goes
     to the unknown section verbatim *)
  Variable S : schema.
  Notation eb := (msg_enc_body S).
  Variable fd : fdesc.
  Hypothesis Hlo : 1 <= f_num fd.
  Hypothesis Hhi : f_num fd <= msg_max_num.
  Hypothesis Hnone : msg_find_field md' (f_num fd) = None.

  Lemma msg_deleted_rejects typ : msg_rejects md' has2 (f_num fd) typ = true.
  Proof. unfold msg_rejects. rewrite Hnone. reflexivity. Qed.

  Lemma msg_run_deleted_len payload accf U tail :
    N.of_nat (length payload) < 2^64 ->
    run' (Datatypes.S d) tid grp (enc_tag (f_num fd) 2 ++ enc_bytes payload ++ tail) (accf, U) =
    run' (Datatypes.S d) tid grp tail (accf, U ++ enc_tag (f_num fd) 2 ++ enc_bytes payload).
  Proof.
    intros Hlen. apply (msg_run_rejected (f_num fd) 2 (enc_bytes payload) tail accf U (WLen payload));
      try assumption; try lia; [apply msg_deleted_rejects|].
    rewrite msg_parse_val_len, (msgw_dec_bytes_enc _ _ Hlen). reflexivity.
  Qed.

  (* one element: a scalar, a length-delimited message, a group *)
  Lemma msg_run_deleted_elem tv v accf U tail :
    msg_typed_elem true eb tv fd v = true ->
    msg_szok_elem (msg_size_body S) (msg_sizes_ok S) (f_kind fd) v = true ->
    run' (Datatypes.S d) tid grp (msg_enc_elem eb (f_num fd) (f_kind fd) v ++ tail) (accf, U) =
    run' (Datatypes.S d) tid grp tail (accf, U ++ msg_enc_elem eb (f_num fd) (f_kind fd) v).
  Proof.
    intros Hty Hsz. unfold msg_typed_elem in Hty. unfold msg_enc_elem, msg_szok_elem in *.
    destruct (f_kind fd) as [sk|t|t]; destruct v as [s|fs' u'|k0 v0]; try discriminate.
    - apply andb_true_iff in Hty. destruct Hty as [Hok _]. rewrite <- app_assoc.
      apply (msg_run_rejected (f_num fd) (sk_wt sk) (msg_enc_scalar sk s) tail accf U (sk_enc sk s));
        try assumption; [apply msg_sk_wt_lt8|apply msg_sk_wt_ne4|apply msg_deleted_rejects|].
      apply msg_parse_scalar; assumption.
    - apply andb_true_iff in Hsz. destruct Hsz as [Hsok Hslt]. rewrite <- app_assoc.
      apply msg_run_deleted_len. exact (msg_body_len S t _ Hsok Hslt).
    - apply andb_true_iff in Hty. destruct Hty as [_ Hscan]. cbn [negb orb] in Hscan.
      unfold msg_group_scans in Hscan.
      destruct (parse_val default_dep (f_num fd) 3 (eb t (VMsg fs' u') ++ enc_tag (f_num fd) 4)) as [[w [|? ?]]|e] eqn:Hpv;
        try discriminate.
      destruct (msg_parse_val_ext _ _ _ _ _ _ tail Hpv) as (w' & Hpv'). cbn [app] in Hpv'.
      rewrite <- !app_assoc. rewrite (app_assoc (eb t (VMsg fs' u'))).
      rewrite (msg_run_rejected (f_num fd) 3 (eb t (VMsg fs' u') ++ enc_tag (f_num fd) 4) tail accf U w');
        try assumption; try lia; [|apply msg_deleted_rejects].
      reflexivity.
  Qed.

  Lemma msg_run_deleted_elems tv : forall vs accf U tail,
    forallb (msg_typed_elem true eb tv fd) vs = true ->
    forallb (msg_szok_elem (msg_size_body S) (msg_sizes_ok S) (f_kind fd)) vs = true ->
    run' (Datatypes.S d) tid grp (flat_map (fun e => msg_enc_elem eb (f_num fd) (f_kind fd) e) vs ++ tail) (accf, U) =
    run' (Datatypes.S d) tid grp tail (accf, U ++ flat_map (fun e => msg_enc_elem eb (f_num fd) (f_kind fd) e) vs).
  Proof.
    induction vs as [|v vs IH]; intros accf U tail Hty Hsz; [cbn [flat_map app]; rewrite app_nil_r; reflexivity|].
    cbn [forallb] in Hty, Hsz. apply andb_true_iff in Hty, Hsz. destruct Hty as [Htv Hty], Hsz as [Hsv Hsz].
    cbn [flat_map]. rewrite <- app_assoc, (msg_run_deleted_elem tv v accf U _ Htv Hsv), (IH _ _ _ Hty Hsz).
    rewrite <- app_assoc. reflexivity.
  Qed.

  Lemma msg_run_deleted_entries tv kk kutf8 : forall es accf U tail,
    forallb (msg_typed_entry tv fd kk kutf8) es = true ->
    forallb (msg_szok_entry (msg_size_body S) (msg_sizes_ok S) kk (f_kind fd)) es = true ->
    run' (Datatypes.S d) tid grp (flat_map (fun e => msg_enc_entry eb (f_num fd) kk (f_kind fd) e) es ++ tail) (accf, U) =
    run' (Datatypes.S d) tid grp tail (accf, U ++ flat_map (fun e => msg_enc_entry eb (f_num fd) kk (f_kind fd) e) es).
  Proof.
    induction es as [|e es IH]; intros accf U tail Hty Hsz; [cbn [flat_map app]; rewrite app_nil_r; reflexivity|].
    cbn [forallb] in Hty, Hsz. apply andb_true_iff in Hty, Hsz. destruct Hty as [Hte Hty], Hsz as [Hse Hsz].
    unfold msg_typed_entry in Hte. destruct e as [|?|key v]; try discriminate.
    cbn [msg_szok_entry] in Hse.
    apply andb_true_iff in Hse. destruct Hse as [Hse Hblen]. apply andb_true_iff in Hse. destruct Hse as [Hkw Hvsz].
    assert (Hbody : N.of_nat (length (msg_enc_key kk key ++ msg_enc_elem eb 2 (f_kind fd) v)) < 2^64).
    { rewrite app_length, Nnat.Nat2N.inj_add.
      rewrite <- (msg_size_key_eq kk key Hkw).
      rewrite <- (msg_size_elem_eq (msg_size_body S) eb (msg_sizes_ok S) 2 (f_kind fd) v);
        [rewrite <- msg_two64_eq; lia|cbn; lia|apply (proj1 (msg_size_eq_deep S v))|exact Hvsz]. }
    cbn [flat_map msg_enc_entry]. rewrite <- !app_assoc.
    rewrite (msg_run_deleted_len _ accf U _ Hbody), (IH _ _ _ Hty Hsz). rewrite <- !app_assoc. reflexivity.
  Qed.

  Lemma msg_run_deleted_field vs accf U tail :
    msg_typed_field true eb (msg_typed true S d)
      (fun t x => match d with O => false | Datatypes.S d1 => msg_typed true S d1 t x end) has2 fd vs = true ->
    msg_szok_field (msg_size_body S) (msg_sizes_ok S) fd vs = true ->
    run' (Datatypes.S d) tid grp (msg_enc_field eb fd vs ++ tail) (accf, U) =
    run' (Datatypes.S d) tid grp tail (accf, U ++ msg_enc_field eb fd vs).
  Proof.
    intros Hty Hsz. destruct (msg_field_cases true S d fd vs Hty Hsz) as (_ & _ & Hmode).
    destruct Hmode as [v _ _ _ Htyv _ Hszv ->|_ _ _ Htyv Hszv ->|sk _ _ _ _ _ Hlen ->|kk kutf8 vdef d1 _ _ _ Htye Hsze _ ->].
    - exact (msg_run_deleted_elem _ v accf U tail Htyv Hszv).
    - exact (msg_run_deleted_elems _ vs accf U tail Htyv Hszv).
    - rewrite <- !app_assoc. rewrite (msg_run_deleted_len _ accf U tail Hlen). reflexivity.
    - exact (msg_run_deleted_entries _ kk kutf8 vs accf U tail Htye Hsze).
  Qed.
End EvoDec.

(* deleting fields only makes the message type reject more *)
Lemma msg_rejects_filter (f : N -> bool) md h num typ :
  msg_rejects md h num typ = true -> msg_rejects (filter (fun fd => f (f_num fd)) md) h num typ = true.
Proof. unfold msg_rejects. rewrite msg_find_filter. destruct (f num); [exact (fun H => H)|reflexivity]. Qed.

Lemma msg_unknown_ok_filter (f : N -> bool) md h : forall g u,
  msg_unknown_ok true md h g u = true -> msg_unknown_ok true (filter (fun fd => f (f_num fd)) md) h g u = true.
Proof.
  induction g as [|x g IH]; intros u H; [discriminate|]. cbn [msg_unknown_ok] in *.
  destruct u as [|b0 u0]; [reflexivity|].
  destruct (dec_tag (b0 :: u0)) as [[[num typ] r]|e]; [|discriminate].
  destruct (parse_val default_dep num typ r) as [[w r']|e]; [|discriminate].
  repeat (apply andb_true_iff in H; destruct H as [H ?]).
  repeat (apply andb_true_iff; split); try assumption.
  - apply msg_rejects_filter; assumption.
  - apply IH; assumption.
Qed.

(* the kept populated fields of the root message are encoded, typed and sized alike by both tables *)
Definition msg_kept_agree (S S' : schema) (kp : N -> bool) (d : nat) (md : mdesc) (fs : fields) : Prop :=
  forall p fd, In p fs -> kp (fst p) = true -> msg_find_field md (fst p) = Some fd ->
    msg_enc_field (msg_enc_body S') fd (snd p) = msg_enc_field (msg_enc_body S) fd (snd p) /\
    msg_typed_field true (msg_enc_body S') (msg_typed true S' d)
      (fun t x => match d with O => false | Datatypes.S d1 => msg_typed true S' d1 t x end)
      (match d with O => false | _ => true end) fd (snd p) =
    msg_typed_field true (msg_enc_body S) (msg_typed true S d)
      (fun t x => match d with O => false | Datatypes.S d1 => msg_typed true S d1 t x end)
      (match d with O => false | _ => true end) fd (snd p) /\
    msg_szok_field (msg_size_body S') (msg_sizes_ok S') fd (snd p) =
    msg_szok_field (msg_size_body S) (msg_sizes_ok S) fd (snd p).

Section Evo.
  Variable S : schema.
  Variable keep : nat -> N -> bool.
  Notation S' := (msg_restrict keep S).
  Notation dm' := (msg_decode_msg true S').
  Notation eb := (msg_enc_body S).
  Variables (d : nat) (md : mdesc) (fs : fields).
  Hypothesis Hmd : nth_error S O = Some md.
  Notation md' := (filter (fun fd => keep O (f_num fd)) md).
  Notation has2 := (match d with O => false | _ => true end).
  Notation tv2 := (fun t x => match d with O => false | Datatypes.S d1 => msg_typed true S d1 t x end).
  Notation kp := (fun p : N * list value => keep O (fst p)).
  Notation chunk := (fun p => snd (msg_enc_chunk eb md p)).

  Hypothesis Hchunks : forall p, In p fs -> msg_typed_chunk true eb (msg_typed true S d) tv2 has2 md p = true.
  Hypothesis Hszc : forall p, In p fs -> msg_szok_chunk (msg_size_body S) (msg_sizes_ok S) md p = true.
  Hypothesis Hone : msg_oneofs_ok md fs = true.
  Hypothesis Hagree : msg_kept_agree S S' (keep O) d md fs.

  Lemma msg_restrict_md' : nth_error S' O = Some md'.
  Proof. unfold msg_restrict. rewrite msg_restrict_from_nth, Hmd. reflexivity. Qed.

  Lemma msg_evo_field_of p : In p fs ->
    exists fd, msg_find_field md (fst p) = Some fd /\ f_num fd = fst p.
  Proof.
    intros Hp. pose proof (Hchunks p Hp) as Hty. unfold msg_typed_chunk in Hty.
    destruct (msg_find_field md (fst p)) as [fd|] eqn:Hf; [|discriminate].
    exists fd. split; [reflexivity|exact (msg_find_field_num _ _ _ Hf)].
  Qed.

  (* decoding the encoding (full schema) of the fields P with the reduced schema: kept fields are
     decoded, the others are retained, in the order of the input *)
  Lemma msg_evo_chunks grp : forall P accf U tail,
    (forall p, In p P -> In p fs) ->
    NoDup (msg_keys P ++ msg_keys accf) ->
    (forall k, In k (msg_keys accf) -> In k (msg_keys fs)) ->
    msg_run true S' (Datatypes.S d) O grp (flat_map chunk P ++ tail) (accf, U) =
    msg_run true S' (Datatypes.S d) O grp tail
      (msg_ins_all (filter kp P) accf, U ++ flat_map chunk (filter (fun p => negb (kp p)) P)).
  Proof.
    induction P as [|p P IH]; intros accf U tail Hin Hnd Hsub.
    - cbn [flat_map app filter msg_ins_all fold_left]. rewrite app_nil_r. reflexivity.
    - assert (Hp : In p fs) by (apply Hin; left; reflexivity).
      destruct (msg_evo_field_of p Hp) as (fd & Hf & Hnum).
      pose proof (Hchunks p Hp) as Hty. pose proof (Hszc p Hp) as Hsz.
      unfold msg_typed_chunk in Hty. unfold msg_szok_chunk in Hsz. rewrite Hf in Hty, Hsz.
      assert (Hc : chunk p = msg_enc_field eb fd (snd p)) by (unfold msg_enc_chunk; rewrite Hf; reflexivity).
      cbn [flat_map filter]. cbv beta in Hc. rewrite Hc. rewrite <- app_assoc.
      cbn [msg_keys map app] in Hnd. fold (msg_keys P) in Hnd.
      assert (HinP : forall q, In q P -> In q fs) by (intros q Hq; apply Hin; right; exact Hq).
      destruct (keep O (fst p)) eqn:Hkp; cbn [negb].
      + assert (Hf' : msg_find_field md' (f_num fd) = Some fd).
        { rewrite (msg_find_filter (keep O)), Hnum, Hkp, Hf. reflexivity. }
        assert (Hnot : ~ In (f_num fd) (msg_keys accf)).
        { rewrite Hnum. inversion Hnd as [|? ? Hn _]; subst. intros Hk'. apply Hn, in_or_app. right. exact Hk'. }
        assert (Hfree : msg_oneof_free md' fd (f_num fd :: msg_keys accf)).
        { pose proof (msg_oneofs_ok_free md fs p fd Hone Hp Hf) as Hfr.
          intros oi Hoi fd' Hin' Hoi' Hne Hk'. apply filter_In in Hin'. destruct Hin' as [Hin' _].
          apply (Hfr oi Hoi fd' Hin' Hoi' Hne).
          destruct Hk' as [Hk'|Hk']; [congruence|apply Hsub; exact Hk']. }
        destruct (Hagree p fd Hp Hkp Hf) as (Eenc & Ety & Esz).
        rewrite <- Ety in Hty. rewrite <- Esz in Hsz. rewrite <- Eenc.
        rewrite (msg_run_field_vals true S' d O md' grp msg_restrict_md' (msg_dec_at_all true S' d)
                   (fun d1 _ => msg_dec_at_all true S' d1) fd (snd p) accf U _ Hf' Hty Hsz Hnot Hfree).
        rewrite (IH (msg_fset accf (f_num fd) (snd p)) U tail HinP).
        * cbn [msg_ins_all fold_left]. rewrite Hnum. reflexivity.
        * rewrite Hnum. apply msg_nodup_step. exact Hnd.
        * intros k Hk'. apply msg_keys_fset in Hk'. destruct Hk' as [->|Hk']; [|apply Hsub; exact Hk'].
          rewrite Hnum. apply (in_map fst fs p). exact Hp.
      + assert (Hnone : msg_find_field md' (f_num fd) = None).
        { rewrite (msg_find_filter (keep O)), Hnum, Hkp. reflexivity. }
        destruct (msg_field_cases true S d fd (snd p) Hty Hsz) as (Hlo & Hhi & _).
        rewrite (msg_run_deleted_field S' d O md' grp msg_restrict_md' S fd Hlo Hhi Hnone (snd p) accf U _ Hty Hsz).
        rewrite (IH accf _ tail HinP); [|inversion Hnd; assumption|exact Hsub].
        cbn [flat_map]. rewrite Hc. rewrite <- !app_assoc. reflexivity.
  Qed.
End Evo.

(* the decoder accepts the fields of a valid message in any order (C03's round trip is the case of
   the encoder's order): the chunks of any permutation of the fields, then the unknown bytes *)
Theorem msg_decode_any_order slow S limit tid fs unk P :
  msg_valid slow S limit tid (VMsg fs unk) = true -> Permutation P fs ->
  msg_decode slow S limit tid
    (flat_map (fun p => snd (msg_enc_chunk (msg_enc_body S) (nth tid S []) p)) P ++ unk) = DOk (VMsg fs unk).
Proof.
  intros Hv Hperm. unfold msg_valid in Hv. apply andb_true_iff in Hv. destruct Hv as [Hsz Hty].
  destruct (msg_typed_unfold slow S limit tid fs unk Hty) as (d & md & -> & Hmd & Hsorted & Hchunks & Hone & Hunk).
  pose proof (msg_sizes_ok_unfold S tid fs unk Hsz) as Hszc.
  rewrite (msg_nth_error_nth S tid md Hmd) in *.
  rewrite forallb_forall in Hchunks, Hszc. apply msg_keys_sorted_spec in Hsorted.
  assert (HinP : forall p, In p P -> In p fs) by (intros p Hp; eapply Permutation_in; [exact Hperm|exact Hp]).
  assert (Hnd : NoDup (msg_keys P ++ msg_keys [])).
  { cbn [msg_keys map]. rewrite app_nil_r. eapply Permutation_NoDup.
    - apply Permutation_sym. apply (Permutation_map fst). exact Hperm.
    - eapply msg_sorted_nodup. exact Hsorted. }
  assert (Hins : msg_ins_all P [] = fs).
  { destruct (msg_ins_all_props P [] 0 Hnd I) as [Hs Hp].
    - intros k Hk. apply (msg_sorted_keys_gt 0 fs Hsorted).
      eapply Permutation_in; [apply (Permutation_map fst); exact Hperm|exact Hk].
    - rewrite app_nil_r in Hp.
      eapply msg_sorted_perm_eq; [exact Hs|exact Hsorted|]. rewrite Hp. exact Hperm. }
  pose proof (msg_run_unknown slow S d tid md 0 Hmd (x00 :: unk) unk fs [] [] Hunk) as E2.
  rewrite app_nil_r, (msg_run_nil slow S d tid md _ Hmd) in E2.
  assert (E : msg_run slow S (Datatypes.S d) tid 0
                (flat_map (fun p => snd (msg_enc_chunk (msg_enc_body S) md p)) P ++ unk) ([], []) =
              DOk ((fs, unk), [])).
  { etransitivity; [|exact E2]. rewrite <- Hins.
    apply (msg_run_chunks slow S d tid md 0 Hmd (msg_dec_at_all slow S d) (fun d1 _ => msg_dec_at_all slow S d1)
             fs Hone P [] [] unk); try assumption; [| |intros k []].
    - apply forallb_forall. intros p Hp. apply Hchunks, HinP, Hp.
    - apply forallb_forall. intros p Hp. apply Hszc, HinP, Hp. }
  unfold msg_decode, msg_decode_into, msg_empty. cbn [msg_macc_of]. unfold msg_run in E. rewrite E. reflexivity.
Qed.

(* schema evolution: decode with the reduced schema, re-encode with it, decode with the full schema.
   The reduced table need only treat the kept populated fields of the root message as the full one does *)
Theorem msg_schema_evolution_agree slow S keep limit fs unk :
  msg_valid slow S limit O (VMsg fs unk) = true ->
  msg_valid true S limit O (VMsg fs unk) = true ->
  msg_kept_agree S (msg_restrict keep S) (keep O) (Nat.pred limit) (nth O S []) fs ->
  msg_evolve slow S (msg_restrict keep S) limit (msg_encode S O (VMsg fs unk)) = DOk (VMsg fs unk).
Proof.
  intros Hv Hvt Hagree. pose proof (fun P => msg_decode_any_order slow S limit O fs unk P Hv) as Hany.
  unfold msg_valid in Hvt. apply andb_true_iff in Hvt. destruct Hvt as [Hsz Htyt].
  destruct (msg_typed_unfold true S limit O fs unk Htyt) as (d & md & -> & Hmd & Hsorted & Hchunks & Hone & Hunk).
  pose proof (msg_sizes_ok_unfold S O fs unk Hsz) as Hszc.
  rewrite (msg_nth_error_nth S O md Hmd) in Hszc, Hagree, Hany. cbn [Nat.pred] in Hagree.
  rewrite forallb_forall in Hchunks, Hszc.
  apply msg_keys_sorted_spec in Hsorted.
  set (S' := msg_restrict keep S) in *.
  set (md' := filter (fun fd => keep O (f_num fd)) md).
  pose proof (msg_restrict_md' S keep md Hmd) as Hmd'. fold S' md' in Hmd'.
  destruct (msg_enc_body_perm S O fs unk) as (P & Hperm & Ebody).
  rewrite (msg_nth_error_nth S O md Hmd) in Ebody.
  assert (HinP : forall p, In p P -> In p fs) by (intros p Hp; eapply Permutation_in; [exact Hperm|exact Hp]).
  assert (HndP : NoDup (msg_keys P)).
  { eapply Permutation_NoDup; [apply Permutation_sym, (Permutation_map fst), Hperm|].
    eapply msg_sorted_nodup. exact Hsorted. }
  set (kp := fun p : N * list value => keep O (fst p)).
  set (chunk := fun p => snd (msg_enc_chunk (msg_enc_body S) md p)).
  set (KP := filter kp P). set (DP := filter (fun p => negb (kp p)) P).
  (* 1. decode with the reduced schema *)
  assert (Hdec1 : msg_decode true S' (Datatypes.S d) O (msg_encode S O (VMsg fs unk)) =
                  DOk (VMsg (msg_ins_all KP []) (flat_map chunk DP ++ unk))).
  { pose proof (msg_run_unknown true S' d O md' 0 Hmd' (x00 :: unk) unk (msg_ins_all KP []) (flat_map chunk DP) []
                  (msg_unknown_ok_filter (keep O) md _ _ _ Hunk)) as E2.
    rewrite app_nil_r, (msg_run_nil true S' d O md' _ Hmd') in E2.
    assert (E : msg_run true S' (Datatypes.S d) O 0 (flat_map chunk P ++ unk) ([], []) =
                DOk ((msg_ins_all KP [], flat_map chunk DP ++ unk), [])).
    { etransitivity; [|exact E2].
      apply (msg_evo_chunks S keep d md fs Hmd Hchunks Hszc Hone Hagree 0 P [] [] unk HinP);
        [cbn [msg_keys map]; rewrite app_nil_r; exact HndP|intros k []]. }
    unfold msg_decode, msg_decode_into, msg_encode, msg_empty. cbn [msg_macc_of]. rewrite Ebody. fold chunk.
    unfold msg_run in E. rewrite E. reflexivity. }
  unfold msg_evolve. fold S'. rewrite Hdec1.
  (* 2. the re-encoding: the kept fields in some order, then the deleted ones, then the unknown bytes *)
  destruct (msg_enc_body_perm S' O (msg_ins_all KP []) (flat_map chunk DP ++ unk)) as (P2 & Hperm2 & Ebody2).
  rewrite (msg_nth_error_nth S' O md' Hmd') in Ebody2.
  assert (HndK : NoDup (msg_keys KP ++ msg_keys [])).
  { cbn [msg_keys map]. rewrite app_nil_r. exact (list_nodup_map_filter fst kp P HndP). }
  destruct (msg_ins_all_props KP [] 0 HndK I) as [HsK HpK].
  { intros k Hk. apply (msg_sorted_keys_gt 0 fs Hsorted).
    apply in_map_iff in Hk. destruct Hk as (p & <- & Hp). apply filter_In in Hp. destruct Hp as [Hp _].
    apply (in_map fst). exact (HinP p Hp). }
  rewrite app_nil_r in HpK.
  assert (HinP2 : forall p, In p P2 -> In p P /\ kp p = true).
  { intros p Hp. apply (Permutation_in _ Hperm2) in Hp. apply (Permutation_in _ HpK) in Hp.
    apply filter_In in Hp. exact Hp. }
  assert (Echunks : flat_map (fun p => snd (msg_enc_chunk (msg_enc_body S') md' p)) P2 = flat_map chunk P2).
  { apply list_flat_map_ext_in. intros p Hp. destruct (HinP2 p Hp) as [HpP Hkp].
    destruct (msg_evo_field_of S d md fs Hchunks p (HinP p HpP)) as (fd & Hf & Hnum).
    unfold kp in Hkp.
    unfold chunk, msg_enc_chunk. unfold md'. rewrite (msg_find_filter (keep O)). rewrite Hkp, Hf.
    cbn [snd]. exact (proj1 (Hagree p fd (HinP p HpP) Hkp Hf)). }
  unfold msg_encode. rewrite Ebody2, Echunks.
  (* 3. decode with the full schema: a permutation of the fields of the message *)
  set (P3 := P2 ++ DP).
  assert (Hperm3 : Permutation P3 fs).
  { unfold P3. rewrite Hperm2, HpK. unfold KP, DP. rewrite (list_filter_split_perm kp P). exact Hperm. }
  assert (E3 : flat_map chunk P2 ++ flat_map chunk DP ++ unk = flat_map chunk P3 ++ unk).
  { unfold P3. rewrite flat_map_app, <- app_assoc. reflexivity. }
  rewrite E3.
  exact (Hany P3 Hperm3).
Qed.

(* any fields deleted, the kept populated fields of the root message of scalar kind *)
Theorem msg_schema_evolution_kept_scalar slow S keep limit fs unk :
  msg_valid slow S limit O (VMsg fs unk) = true ->
  msg_valid true S limit O (VMsg fs unk) = true ->
  msg_kept_scalar (keep O) (nth O S []) fs = true ->
  msg_evolve slow S (msg_restrict keep S) limit (msg_encode S O (VMsg fs unk)) = DOk (VMsg fs unk).
Proof.
  intros Hv Hvt Hflat. apply msg_schema_evolution_agree; [exact Hv|exact Hvt|].
  intros p fd Hp Hk Hf.
  unfold msg_kept_scalar in Hflat. rewrite forallb_forall in Hflat. specialize (Hflat p Hp).
  rewrite Hk, Hf in Hflat. cbn [negb orb] in Hflat.
  unfold msg_scalar_kind in Hflat. destruct (f_kind fd) as [sk| |] eqn:Hkind; try discriminate.
  assert (Hno : forall t, ~ (f_kind fd = KMsg t \/ f_kind fd = KGrp t)) by (intros t [E|E]; congruence).
  split; [apply msg_enc_field_ext|split; [apply msg_typed_field_ext|apply msg_szok_field_ext]];
    intros t x Hkt; destruct (Hno t Hkt).
Qed.

(* non-vacuity: the C03 example; its message-typed fields (a map with message values, a nested
   recursive message, a group list) and one scalar field are deleted *)
Definition ex_keep_scalar (tid : nat) (n : N) : bool := negb (existsb (N.eqb n) [3; 5; 6; 7]).
Example ex_kept_scalar_ok :
  msg_valid false ex_schema 3 O ex_msg = true /\ msg_valid true ex_schema 3 O ex_msg = true /\
  (match ex_msg with VMsg fs _ => msg_kept_scalar (ex_keep_scalar O) (nth O ex_schema []) fs | _ => false end) = true.
Proof. vm_compute. repeat split; reflexivity. Qed.

(* two schema tables that agree on every type except the root (index 0) *)
Definition msg_agree_ne0 (S S' : schema) : Prop := forall t, t <> O -> nth_error S' t = nth_error S t.

Lemma msg_agree_nth S S' t : msg_agree_ne0 S S' -> t <> O -> nth t S' [] = nth t S [].
Proof.
  intros H Ht. specialize (H t Ht).
  destruct (nth_error S t) as [md|] eqn:E.
  - rewrite (msg_nth_error_nth S t md E), (msg_nth_error_nth S' t md H). reflexivity.
  - rewrite (nth_overflow S []) by (apply nth_error_None; exact E).
    rewrite (nth_overflow S' []) by (apply nth_error_None; exact H). reflexivity.
Qed.

Lemma msg_restrict_agree S keep : (forall t n, t <> O -> keep t n = true) -> msg_agree_ne0 S (msg_restrict keep S).
Proof.
  intros Hkeep t Ht. unfold msg_restrict. rewrite msg_restrict_from_nth. destruct (nth_error S t) as [mdt|]; [|reflexivity].
  f_equal. induction mdt as [|fd0 r IH]; [reflexivity|]. cbn [filter]. rewrite (Hkeep (0 + t)%nat (f_num fd0) Ht), IH. reflexivity.
Qed.

Lemma msg_map_ext_in' {A B} (f g : A -> B) l : (forall x, In x l -> f x = g x) -> map f l = map g l.
Proof. intros H. apply map_ext_in. exact H. Qed.


Section Agree.
  Variables S S' : schema.
  Hypothesis Hag : msg_agree_ne0 S S'.
  Hypothesis Hun : msg_root_unref S.

  Lemma msg_kind_ne0 t fd t' :
    In fd (nth t S []) -> (f_kind fd = KMsg t' \/ f_kind fd = KGrp t') -> t' <> O.
  Proof.
    intros Hin Hk. destruct (nth_error S t) as [md|] eqn:E.
    - rewrite (msg_nth_error_nth S t md E) in Hin. exact (Hun t md fd t' E Hin Hk).
    - rewrite (nth_overflow S []) in Hin by (apply nth_error_None; exact E). destruct Hin.
  Qed.

  (* as a value of any type but the root, v is encoded, sized and typed alike by both tables *)
  Definition msg_agree_at (v : value) : Prop :=
    forall t, t <> O ->
      msg_enc_body S' t v = msg_enc_body S t v /\
      msg_size_body S' t v = msg_size_body S t v /\
      msg_sizes_ok S' t v = msg_sizes_ok S t v /\
      forall slow dep, msg_typed slow S' dep t v = msg_typed slow S dep t v.

  Lemma msg_agree_all : forall v, msg_agree_at v.
  Proof.
    induction v as [s|fs unk IH|k v] using msg_value_uv_ind; intros t Ht.
    - split; [|split; [|split]]; reflexivity.
    - pose proof (msg_agree_nth S S' t Hag Ht) as Hnth.
      assert (Hsub : forall p fd t' x, In p fs -> msg_find_field (nth t S []) (fst p) = Some fd ->
                 (f_kind fd = KMsg t' \/ f_kind fd = KGrp t') -> In x (snd p) ->
                 msg_enc_body S' t' (msg_uv x) = msg_enc_body S t' (msg_uv x) /\
                 msg_size_body S' t' (msg_uv x) = msg_size_body S t' (msg_uv x) /\
                 msg_sizes_ok S' t' (msg_uv x) = msg_sizes_ok S t' (msg_uv x) /\
                 forall slow dep, msg_typed slow S' dep t' (msg_uv x) = msg_typed slow S dep t' (msg_uv x)).
      { intros p fd t' x Hp Hf Hk Hx.
        exact (IH p x Hp Hx t' (msg_kind_ne0 t fd t' (msg_find_field_in _ _ _ Hf) Hk)). }
      split; [|split; [|split]].
      + cbn [msg_enc_body]. rewrite Hnth.
        f_equal. f_equal. f_equal. f_equal. apply map_ext_in. intros p Hp.
        unfold msg_enc_chunk. destruct (msg_find_field (nth t S []) (fst p)) as [fd|] eqn:Hf; [|reflexivity].
        f_equal. apply msg_enc_field_ext. intros t' x Hk Hx. exact (proj1 (Hsub p fd t' x Hp Hf Hk Hx)).
      + cbn [msg_size_body]. rewrite Hnth.
        f_equal. f_equal. apply map_ext_in. intros p Hp. unfold msg_size_chunk.
        destruct (msg_find_field (nth t S []) (fst p)) as [fd|] eqn:Hf; [|reflexivity].
        apply msg_size_field_ext. intros t' x Hk Hx. exact (proj1 (proj2 (Hsub p fd t' x Hp Hf Hk Hx))).
      + cbn [msg_sizes_ok]. rewrite Hnth.
        apply list_forallb_ext_in. intros p Hp. unfold msg_szok_chunk.
        destruct (msg_find_field (nth t S []) (fst p)) as [fd|] eqn:Hf; [|reflexivity].
        apply msg_szok_field_ext. intros t' x Hk Hx.
        destruct (Hsub p fd t' x Hp Hf Hk Hx) as (_ & Hsz & Hok & _). split; assumption.
      + intros slow dep. cbn [msg_typed]. destruct dep as [|d]; [reflexivity|].
        rewrite (Hag t Ht). destruct (nth_error S t) as [md|] eqn:Hmd; [|reflexivity].
        rewrite (msg_nth_error_nth S t md Hmd) in Hsub.
        f_equal. f_equal. f_equal.
        apply list_forallb_ext_in. intros p Hp. unfold msg_typed_chunk.
        destruct (msg_find_field md (fst p)) as [fd|] eqn:Hf; [|reflexivity].
        apply msg_typed_field_ext. intros t' x Hk Hx.
        destruct (Hsub p fd t' x Hp Hf Hk Hx) as (Hen & _ & _ & Hty).
        split; [exact (Hty slow d)|]. split; [|exact Hen].
        destruct d as [|d1]; [reflexivity|exact (Hty slow d1)].
    - split; [|split; [|split]]; reflexivity.
  Qed.
End Agree.

(* any fields of the (non-recursive) root type deleted, kept and deleted fields of every kind *)
Theorem msg_schema_evolution_top slow S keep limit fs unk :
  (forall t n, t <> O -> keep t n = true) -> msg_root_unref S ->
  msg_valid slow S limit O (VMsg fs unk) = true ->
  msg_valid true S limit O (VMsg fs unk) = true ->
  msg_evolve slow S (msg_restrict keep S) limit (msg_encode S O (VMsg fs unk)) = DOk (VMsg fs unk).
Proof.
  intros Hkeep Hun Hv Hvt. apply msg_schema_evolution_agree; [exact Hv|exact Hvt|].
  intros p fd _ _ Hf.
  assert (Hsub : forall t x, (f_kind fd = KMsg t \/ f_kind fd = KGrp t) ->
            msg_agree_at S (msg_restrict keep S) (msg_uv x) /\ t <> O).
  { intros t x Hk. split; [apply (msg_agree_all S _ (msg_restrict_agree S keep Hkeep) Hun)|].
    exact (msg_kind_ne0 S Hun O fd t (msg_find_field_in _ _ _ Hf) Hk). }
  split; [|split].
  - apply msg_enc_field_ext. intros t x Hk _. destruct (Hsub t x Hk) as [Ha Ht]. exact (proj1 (Ha t Ht)).
  - apply msg_typed_field_ext. intros t x Hk _. destruct (Hsub t x Hk) as [Ha Ht].
    destruct (Ha t Ht) as (Hen & _ & _ & Hty).
    split; [apply Hty|]. split; [|exact Hen]. destruct (Nat.pred limit); [reflexivity|apply Hty].
  - apply msg_szok_field_ext. intros t x Hk _. destruct (Hsub t x Hk) as [Ha Ht].
    destruct (Ha t Ht) as (_ & Hsz & Hok & _). split; assumption.
Qed.

(* non-vacuity: a root type with a singular, a repeated and a map field of a message type *)
Definition ex_top : schema :=
  [[mkF 1 (KMsg 1) COpt None false false false; mkF 2 (KS SkInt32) COpt None false false false;
    mkF 3 (KMsg 1) CRep None false false false; mkF 4 (KMsg 1) (CMap SkInt32 false 0) None false false false];
   [mkF 1 (KS SkInt32) COpt None false false false; mkF 2 (KS SkString) COpt None true false false]].
Definition ex_top_sub (z : Z) : value := VMsg [(1, [VS (SZ z)]); (2, [VS (SBy [x68; x69])])] [x98; x06; x07].
Definition ex_top_msg : value :=
  VMsg [(1, [ex_top_sub 5]); (2, [VS (SZ (-1))]); (3, [ex_top_sub 6; msg_empty]); (4, [VEntry (SZ 7) (ex_top_sub 8)])] [x98; x06; x07].
Lemma ex_top_unref : msg_root_unref ex_top.
Proof.
  intros t md fd t' Hmd Hin Hk. destruct t as [|[|t]]; cbn in Hmd; [| |destruct t; discriminate]; inversion Hmd; subst md.
  - destruct Hin as [<-|[<-|[<-|[<-|[]]]]]; destruct Hk as [Hk|Hk]; inversion Hk; discriminate.
  - destruct Hin as [<-|[<-|[]]]; destruct Hk as [Hk|Hk]; discriminate.
Qed.
Example ex_top_ok :
  msg_valid false ex_top 4 O ex_top_msg = true /\ msg_valid true ex_top 4 O ex_top_msg = true.
Proof. vm_compute. split; reflexivity. Qed.
