(* DetHistP — C05, second part: the sorted view of a well-formed concrete message does not depend
   on the iteration-order oracles, operation histories preserve well-formedness, deterministic
   bytes are a function of the abstract content, and the converse from C03. *)
From Coq Require Import List Arith NArith ZArith Lia Bool Permutation Sorting.Sorted.
From Coq Require Import ZifyBool ZifyNat ZifyN.
From PB Require Import Base.PBytes Base.ListP Wire.WireModel.
From PB Require Import Msg.MsgSchema Msg.MsgValue Msg.MsgEnc Msg.MsgDec Msg.MsgValid Msg.MsgStoreP Msg.MsgSizeP Msg.MsgRoundP.
From PB Require Import Msg.DetModel Msg.DetP.
Import ListNotations.
Open Scope N_scope.

(* an iteration-order oracle returns a permutation of what it is given *)
Definition det_perm_oracle {A} (f : list A -> list A) : Prop := forall l, Permutation (f l) l.

Lemma det_id_oracle {A} : det_perm_oracle (@det_id (list A)).
Proof. intros l. reflexivity. Qed.

Lemma det_nodup_n_spec l : det_nodup_n l = true <-> NoDup l.
Proof. apply list_nodupb_spec; reflexivity. Qed.

Lemma det_fields_pairwise (l : fields) :
  NoDup (map fst l) -> det_pairwise det_field_lt l.
Proof.
  induction l as [|p r IH]; cbn [det_pairwise map]; intros H; [exact I|].
  inversion H as [|? ? Hn Hr]; subst. split; [|now apply IH].
  intros q Hq. unfold det_field_lt.
  assert (fst p <> fst q) as Hne by (intros E; apply Hn; rewrite E; now apply in_map).
  destruct (fst p <? fst q) eqn:E1; [now left|right]. lia.
Qed.

Lemma det_sort_fields_perm (l l' : fields) :
  NoDup (map fst l) -> Permutation l l' -> det_sort det_field_lt l = det_sort det_field_lt l'.
Proof.
  intros Hn P.
  apply (det_sort_perm_eq det_field_lt (fun _ => True)).
  - intros a b c _ _ _. unfold det_field_lt. lia.
  - intros a b _ _. unfold det_field_lt. lia.
  - apply Forall_forall. trivial.
  - now apply det_fields_pairwise.
  - exact P.
Qed.

Lemma det_entries_pairwise (l : list value) :
  forallb det_is_entry l = true -> det_nodup_keys l = true -> det_pairwise det_entry_lt l.
Proof.
  induction l as [|e r IH]; cbn [det_pairwise forallb det_nodup_keys]; intros He Hn; [exact I|].
  apply andb_true_iff in He. destruct He as [He Hr].
  destruct e as [s|fs u|k x]; try discriminate.
  apply andb_true_iff in Hn. destruct Hn as [Hk Hn]. split; [|now apply IH].
  intros q Hq.
  assert (det_is_entry q = true) as Hqe by (rewrite forallb_forall in Hr; now apply Hr).
  destruct q as [s|fs u|k' x']; try discriminate.
  unfold det_entry_lt, det_klt.
  destruct (det_kcmp k k') eqn:E.
  - exfalso. apply det_kcmp_eq in E. subst k'.
    apply negb_true_iff in Hk.
    assert (existsb (det_has_key k) r = true) as F.
    { apply existsb_exists. exists (VEntry k x'). split; [exact Hq|]. cbn [det_has_key]. now apply det_key_eqb_eq. }
    congruence.
  - now left.
  - right. rewrite det_kcmp_antisym, E. reflexivity.
Qed.

Lemma det_sort_entries_perm (l l' : list value) :
  forallb det_is_entry l = true -> det_nodup_keys l = true -> Permutation l l' ->
  det_sort det_entry_lt l = det_sort det_entry_lt l'.
Proof.
  intros He Hn P.
  apply (det_sort_perm_eq det_entry_lt (fun e => det_is_entry e = true)).
  - intros a b c Ha Hb Hc. destruct a, b, c; try discriminate. unfold det_entry_lt, det_klt.
    destruct (det_kcmp k k0) eqn:E1; try discriminate. destruct (det_kcmp k0 k1) eqn:E2; try discriminate.
    intros _ _. now rewrite (det_kcmp_trans _ _ _ E1 E2).
  - intros a b Ha Hb. destruct a, b; try discriminate. unfold det_entry_lt, det_klt.
    rewrite (det_kcmp_antisym k k0). destruct (det_kcmp k k0); cbn [CompOpp]; discriminate.
  - apply Forall_forall. rewrite forallb_forall in He. exact He.
  - now apply det_entries_pairwise.
  - exact P.
Qed.

Lemma det_arrange_entry_shape sorte pf pi e : det_is_entry (det_arrange sorte pf pi e) = det_is_entry e.
Proof. destruct e; reflexivity. Qed.

Lemma det_arrange_is_entries sorte pf pi l :
  forallb det_is_entry (map (det_arrange sorte pf pi) l) = forallb det_is_entry l.
Proof. induction l as [|e r IH]; cbn [map forallb]; [reflexivity|]. now rewrite det_arrange_entry_shape, IH. Qed.

Lemma det_arrange_has_key sorte pf pi k e : det_has_key k (det_arrange sorte pf pi e) = det_has_key k e.
Proof. destruct e; reflexivity. Qed.

Lemma det_arrange_existsb_key sorte pf pi k l :
  existsb (det_has_key k) (map (det_arrange sorte pf pi) l) = existsb (det_has_key k) l.
Proof.
  induction l as [|e r IH]; cbn [map existsb]; [reflexivity|].
  now rewrite det_arrange_has_key, IH.
Qed.

Lemma det_arrange_nodup_keys sorte pf pi l :
  det_nodup_keys (map (det_arrange sorte pf pi) l) = det_nodup_keys l.
Proof.
  induction l as [|e r IH]; cbn [map det_nodup_keys]; [reflexivity|].
  destruct e as [s|fs u|k x]; cbn [det_arrange]; try exact IH.
  now rewrite IH, det_arrange_existsb_key.
Qed.

Lemma det_is_map_spec vs : det_is_map vs = true -> forallb det_is_entry vs = true.
Proof. destruct vs; [discriminate|]. trivial. Qed.

Lemma det_shape_entries vs : det_shape vs = true -> forallb det_is_entry vs = true -> det_nodup_keys vs = true.
Proof. unfold det_shape. intros H E. now rewrite E in H. Qed.

Lemma det_wf_unfold fs u :
  det_wf (VMsg fs u) =
  det_nodup_n (map fst fs) && forallb (fun p => det_shape (snd p) && forallb det_wf (snd p)) fs.
Proof. reflexivity. Qed.

Lemma det_arrange_unfold sorte pf pi fs u :
  det_arrange sorte pf pi (VMsg fs u) =
  VMsg (det_sort det_field_lt
          (filter det_nonempty
             (pf (map (fun p => (fst p,
                                 let vs := map (det_arrange sorte pf pi) (snd p) in
                                 if det_is_map vs
                                 then (if sorte then det_sort det_entry_lt (pi vs) else pi vs)
                                 else vs)) fs)))) u.
Proof. reflexivity. Qed.

Theorem det_arrange_canon : forall v (pf : fields -> fields) (pi : list value -> list value),
  det_perm_oracle pf -> det_perm_oracle pi ->
  det_wf v = true -> det_arrange true pf pi v = det_canon v.
Proof.
  intros v pf pi Hpf Hpi. unfold det_canon.
  induction v as [s|fs unk IH|k x IH] using msg_value_ind; intros Hwf.
  - reflexivity.
  - rewrite det_wf_unfold in Hwf. apply andb_true_iff in Hwf. destruct Hwf as [Hnd Hall].
    rewrite !det_arrange_unfold. f_equal.
    set (gL := fun p : N * list value => (fst p, let vs := map (det_arrange true pf pi) (snd p) in
              if det_is_map vs then det_sort det_entry_lt (pi vs) else vs)).
    set (gR := fun p : N * list value => (fst p, let vs := map (det_arrange true det_id det_id) (snd p) in
              if det_is_map vs then det_sort det_entry_lt (det_id vs) else vs)).
    assert (map gL fs = map gR fs) as EL.
    { apply map_ext_in. intros p Hp. unfold gL, gR. f_equal. cbv zeta.
      rewrite forallb_forall in Hall. specialize (Hall p Hp). apply andb_true_iff in Hall. destruct Hall as [Hsh Hw].
      rewrite Forall_forall in IH. specialize (IH p Hp).
      assert (map (det_arrange true pf pi) (snd p) = map (det_arrange true det_id det_id) (snd p)) as EM.
      { apply map_ext_in. intros e He. rewrite Forall_forall in IH. apply IH; [exact He|].
        rewrite forallb_forall in Hw. now apply Hw. }
      rewrite EM. destruct (det_is_map (map (det_arrange true det_id det_id) (snd p))) eqn:EMap; [|reflexivity].
      unfold det_id at 3. symmetry. apply det_sort_entries_perm.
      - now apply det_is_map_spec.
      - rewrite det_arrange_nodup_keys. apply det_shape_entries; [exact Hsh|].
        apply det_is_map_spec in EMap. now rewrite det_arrange_is_entries in EMap.
      - apply Permutation_sym, Hpi. }
    rewrite EL. unfold det_id at 1.
    symmetry. apply det_sort_fields_perm.
    + apply list_nodup_map_filter. rewrite map_map. cbn [fst gR].
      replace (map (fun x => fst (gR x)) fs) with (map fst fs) by (apply map_ext; reflexivity).
      now apply det_nodup_n_spec.
    + apply list_perm_filter, Permutation_sym, Hpf.
  - cbn [det_arrange det_wf] in *. f_equal. now apply IH.
Qed.

Definition det_typed_binding (md : mdesc) (p : N * list value) : bool :=
  match msg_find_field md (fst p) with
  | None => false
  | Some fd =>
    (if det_card_is_map (f_card fd)
     then forallb det_is_entry (snd p) && det_nodup_keys (snd p)
     else negb (existsb det_is_entry (snd p)))
    && forallb det_wf (snd p)
  end.

Definition det_inv (md : mdesc) (fs : fields) : Prop :=
  NoDup (map fst fs) /\ forallb (det_typed_binding md) fs = true.

Lemma det_fdel_keys fs num : forall k, In k (map fst (msg_fdel fs num)) -> In k (map fst fs).
Proof.
  induction fs as [|[k0 v0] r IH]; cbn [msg_fdel map]; intros k Hk; [contradiction|].
  destruct (num =? k0); cbn [map] in *; [now right|]. destruct Hk as [<-|Hk]; [now left|right; now apply IH].
Qed.

Lemma det_inv_fdel md fs num : det_inv md fs -> det_inv md (msg_fdel fs num).
Proof.
  intros [Hn Ht]. split.
  - clear Ht. induction fs as [|[k0 v0] r IH]; cbn [msg_fdel map] in *; [constructor|].
    inversion Hn as [|? ? Hk0 Hr]; subst. destruct (num =? k0); [assumption|]. cbn [map]. constructor; [|now apply IH].
    intros Hin. apply Hk0. eapply det_fdel_keys; exact Hin.
  - rewrite forallb_forall in *. intros p Hp. apply Ht. eapply msg_in_fdel; exact Hp.
Qed.

Lemma det_inv_clear_oneof md' md oi num fs : det_inv md fs -> det_inv md (msg_clear_oneof md' oi num fs).
Proof. intros H. apply msg_clear_oneof_ind; [|exact H]. intros fs' fd' _ _ _. apply det_inv_fdel. Qed.

Lemma det_cset_keys fs num vs : forall k, In k (map fst (det_cset fs num vs)) -> k = num \/ In k (map fst fs).
Proof.
  induction fs as [|[k0 v0] r IH]; cbn [det_cset map]; intros k Hk.
  - destruct Hk as [<-|[]]. now left.
  - destruct (num =? k0) eqn:E; cbn [map] in Hk.
    + destruct Hk as [<-|Hk]; [right; now left|right; now right].
    + destruct Hk as [<-|Hk]; [right; now left|]. destruct (IH _ Hk); [now left|right; now right].
Qed.

Lemma det_cset_in fs num vs : forall p, In p (det_cset fs num vs) -> p = (num, vs) \/ In p fs.
Proof.
  induction fs as [|[k0 v0] r IH]; cbn [det_cset]; intros p Hp.
  - destruct Hp as [<-|[]]. now left.
  - destruct (num =? k0) eqn:E.
    + apply N.eqb_eq in E. subst k0. destruct Hp as [<-|Hp]; [now left|right; now right].
    + destruct Hp as [<-|Hp]; [right; now left|]. destruct (IH _ Hp); [now left|right; now right].
Qed.

Lemma det_inv_cset md fs num vs :
  det_inv md fs -> det_typed_binding md (num, vs) = true -> det_inv md (det_cset fs num vs).
Proof.
  intros [Hn Ht] Hb. split.
  - clear Ht Hb. induction fs as [|[k0 v0] r IH]; cbn [det_cset map] in *.
    + constructor; [intros []|constructor].
    + inversion Hn; subst. destruct (num =? k0) eqn:E; cbn [map].
      * constructor; assumption.
      * constructor; [|now apply IH]. intros Hin. destruct (det_cset_keys _ _ _ _ Hin) as [Ek|H]; [|contradiction].
        cbn [fst] in Ek. subst k0. rewrite N.eqb_refl in E. discriminate.
  - rewrite forallb_forall in *. intros p Hp. destruct (det_cset_in _ _ _ _ Hp) as [->|H]; [exact Hb|now apply Ht].
Qed.

Lemma det_eput_entries es k v : forallb det_is_entry es = true -> forallb det_is_entry (det_eput es k v) = true.
Proof.
  induction es as [|e r IH]; cbn [det_eput forallb]; [reflexivity|].
  destruct e as [s|fs u|k0 x]; try discriminate. cbn [det_is_entry andb]. intros H.
  destruct (det_key_eqb k0 k); cbn [forallb det_is_entry andb]; [exact H|now apply IH].
Qed.

Lemma det_eput_has_key es k v k' :
  forallb det_is_entry es = true ->
  existsb (det_has_key k') (det_eput es k v) = existsb (det_has_key k') es || det_key_eqb k k'.
Proof.
  induction es as [|e r IH]; cbn [det_eput existsb forallb]; intros He.
  - cbn [det_has_key]. now rewrite orb_false_r.
  - destruct e as [s|fs u|k0 x]; try discriminate. cbn [det_is_entry andb] in He.
    destruct (det_key_eqb k0 k) eqn:E; cbn [existsb det_has_key].
    + apply det_key_eqb_eq in E. subst k0. destruct (det_key_eqb k k'); cbn [orb]; [reflexivity|]. now rewrite orb_false_r.
    + rewrite (IH He). now rewrite orb_assoc.
Qed.

Lemma det_eput_nodup es k v :
  forallb det_is_entry es = true -> det_nodup_keys es = true -> det_nodup_keys (det_eput es k v) = true.
Proof.
  induction es as [|e r IH]; cbn [det_eput det_nodup_keys forallb]; intros He Hn; [reflexivity|].
  destruct e as [s|fs u|k0 x]; try discriminate. cbn [det_is_entry andb] in He.
  apply andb_true_iff in Hn. destruct Hn as [H1 H2].
  destruct (det_key_eqb k0 k) eqn:E; cbn [det_nodup_keys].
  - apply det_key_eqb_eq in E. subst k0. now rewrite H1, H2.
  - rewrite (IH He H2), andb_true_r. rewrite (det_eput_has_key _ _ _ _ He).
    apply negb_true_iff in H1. rewrite H1. cbn [orb].
    destruct (det_key_eqb k k0) eqn:E2; [|reflexivity].
    apply det_key_eqb_eq in E2. subst. rewrite (proj2 (det_key_eqb_eq k0 k0) eq_refl) in E. discriminate.
Qed.

Lemma det_eput_wf es k v : forallb det_wf es = true -> det_wf v = true -> forallb det_wf (det_eput es k v) = true.
Proof.
  induction es as [|e r IH]; cbn [det_eput forallb]; intros He Hv.
  - cbn [det_wf]. now rewrite Hv.
  - apply andb_true_iff in He. destruct He as [H1 H2].
    destruct e as [s|fs u|k0 x]; cbn [forallb].
    + now rewrite H1, IH.
    + now rewrite H1, IH.
    + destruct (det_key_eqb k0 k); cbn [forallb det_wf]; [now rewrite Hv, H2|]. cbn [det_wf] in H1. now rewrite H1, IH.
Qed.

Lemma det_edel_sub es k : forall e, In e (det_edel es k) -> In e es.
Proof.
  induction es as [|e0 r IH]; cbn [det_edel]; intros e He; [contradiction|].
  destruct e0 as [s|fs u|k0 x].
  - destruct He as [<-|He]; [now left|right; now apply IH].
  - destruct He as [<-|He]; [now left|right; now apply IH].
  - destruct (det_key_eqb k0 k); [now right|]. destruct He as [<-|He]; [now left|right; now apply IH].
Qed.

Lemma det_edel_nodup es k : det_nodup_keys es = true -> det_nodup_keys (det_edel es k) = true.
Proof.
  induction es as [|e r IH]; cbn [det_edel det_nodup_keys]; intros Hn; [reflexivity|].
  destruct e as [s|fs u|k0 x]; cbn [det_nodup_keys]; try (now apply IH).
  apply andb_true_iff in Hn. destruct Hn as [H1 H2].
  destruct (det_key_eqb k0 k); [exact H2|]. cbn [det_nodup_keys]. rewrite (IH H2), andb_true_r.
  apply negb_true_iff in H1. apply negb_true_iff.
  destruct (existsb (det_has_key k0) (det_edel r k)) eqn:E; [|reflexivity].
  apply existsb_exists in E. destruct E as [e [He Hk]].
  assert (existsb (det_has_key k0) r = true) as F by (apply existsb_exists; exists e; split; [eapply det_edel_sub; exact He|exact Hk]).
  congruence.
Qed.

Lemma det_forallb_sub {A} (f : A -> bool) (l l' : list A) :
  (forall e, In e l' -> In e l) -> forallb f l = true -> forallb f l' = true.
Proof. intros H. rewrite !forallb_forall. intros F e He. apply F, H, He. Qed.

(* the binding a map operation starts from *)
Lemma det_old_binding md fs num fd :
  det_inv md fs -> msg_find_field md num = Some fd -> det_card_is_map (f_card fd) = true ->
  forallb det_is_entry (msg_fget fs num) = true /\ det_nodup_keys (msg_fget fs num) = true /\
  forallb det_wf (msg_fget fs num) = true.
Proof.
  intros [_ Ht] Hf Hm. destruct (msg_fget_cases fs num) as [(vs & Hin & <-)|[-> _]]; [|repeat split].
  rewrite forallb_forall in Ht. specialize (Ht _ Hin). unfold det_typed_binding in Ht. cbn [fst snd] in Ht.
  rewrite Hf, Hm in Ht. apply andb_true_iff in Ht. destruct Ht as [H1 H2]. apply andb_true_iff in H1. tauto.
Qed.

Lemma det_step_inv md st o :
  det_op_ok o = true -> det_inv md (fst st) -> det_inv md (fst (det_step md st o)).
Proof.
  intros Hok Hinv. destruct o as [num vs|num|num k v|num k|u]; cbn [det_step].
  - destruct (msg_find_field md num) as [fd|] eqn:Hf; [|exact Hinv].
    destruct (det_card_is_map (f_card fd)) eqn:Hm; cbn [orb]; [exact Hinv|].
    destruct (existsb det_is_entry vs) eqn:He; [exact Hinv|].
    match goal with |- context [if ?d then _ else _] => destruct d end; cbn [fst].
    + now apply det_inv_fdel.
    + assert (det_inv md (det_cset (fst st) num vs)) as H1.
      { apply det_inv_cset; [exact Hinv|]. unfold det_typed_binding. cbn [fst snd]. rewrite Hf, Hm, He. exact Hok. }
      destruct (f_oneof fd); [now apply det_inv_clear_oneof|exact H1].
  - cbn [fst]. now apply det_inv_fdel.
  - destruct (msg_find_field md num) as [fd|] eqn:Hf; [|exact Hinv].
    destruct (det_card_is_map (f_card fd)) eqn:Hm; [|exact Hinv]. cbn [fst].
    destruct (det_old_binding _ _ _ _ Hinv Hf Hm) as [H1 [H2 H3]].
    apply det_inv_cset; [exact Hinv|]. unfold det_typed_binding. cbn [fst snd]. rewrite Hf, Hm.
    rewrite det_eput_entries, det_eput_nodup, det_eput_wf by assumption. reflexivity.
  - destruct (msg_find_field md num) as [fd|] eqn:Hf; [|exact Hinv].
    destruct (det_card_is_map (f_card fd)) eqn:Hm; [|exact Hinv]. cbn [fst].
    destruct (det_old_binding _ _ _ _ Hinv Hf Hm) as [H1 [H2 H3]].
    apply det_inv_cset; [exact Hinv|]. unfold det_typed_binding. cbn [fst snd]. rewrite Hf, Hm.
    rewrite (det_forallb_sub _ _ _ (det_edel_sub _ k) H1), (det_forallb_sub _ _ _ (det_edel_sub _ k) H3), det_edel_nodup by assumption.
    reflexivity.
  - exact Hinv.
Qed.

Lemma det_typed_binding_shape md p : det_typed_binding md p = true -> det_shape (snd p) && forallb det_wf (snd p) = true.
Proof.
  unfold det_typed_binding, det_shape. destruct (msg_find_field md (fst p)) as [fd|]; [|discriminate].
  intros H. apply andb_true_iff in H. destruct H as [H1 H2]. rewrite H2, andb_true_r.
  destruct (det_card_is_map (f_card fd)).
  - apply andb_true_iff in H1. destruct H1 as [E N]. now rewrite E.
  - destruct (forallb det_is_entry (snd p)) eqn:E; [|exact H1].
    destruct (snd p) as [|e r]; [reflexivity|]. cbn [forallb existsb] in *. apply andb_true_iff in E. destruct E as [E _].
    rewrite E in H1. discriminate.
Qed.

Theorem det_run_wf md ops : det_ops_ok ops = true -> det_wf (det_run md ops) = true.
Proof.
  intros Hok. unfold det_run.
  assert (forall st, det_inv md (fst st) -> det_inv md (fst (fold_left (det_step md) ops st))) as H.
  { unfold det_ops_ok in Hok. induction ops as [|o r IH]; intros st Hi; cbn [fold_left]; [exact Hi|].
    cbn [forallb] in Hok. apply andb_true_iff in Hok. destruct Hok as [H1 H2].
    apply IH; [exact H2|]. now apply det_step_inv. }
  specialize (H ([], [])).
  destruct H as [Hn Ht]; [split; [constructor|reflexivity]|].
  rewrite det_wf_unfold. apply andb_true_iff. split; [now apply det_nodup_n_spec|].
  rewrite forallb_forall in *. intros p Hp. apply (det_typed_binding_shape md). now apply Ht.
Qed.

(* deterministic bytes of two well-formed concrete messages with the same abstract content are
   equal, whatever the iteration orders *)
Theorem det_content_determines_bytes :
  forall (S : schema) (tid : nat) (m1 m2 : value)
         (pf1 pf2 : fields -> fields) (pi1 pi2 : list value -> list value),
    det_perm_oracle pf1 -> det_perm_oracle pf2 -> det_perm_oracle pi1 -> det_perm_oracle pi2 ->
    det_wf m1 = true -> det_wf m2 = true -> det_canon m1 = det_canon m2 ->
    det_encode pf1 pi1 S tid m1 = det_encode pf2 pi2 S tid m2.
Proof.
  intros S tid m1 m2 pf1 pf2 pi1 pi2 F1 F2 P1 P2 W1 W2 E. unfold det_encode.
  rewrite (det_arrange_canon _ pf1 pi1 F1 P1 W1), (det_arrange_canon _ pf2 pi2 F2 P2 W2). now rewrite E.
Qed.

(* in particular for the messages two histories of operations build *)
Theorem det_history_independent :
  forall (S : schema) (tid : nat) (md : mdesc) (h1 h2 : list det_op)
         (pf1 pf2 : fields -> fields) (pi1 pi2 : list value -> list value),
    det_perm_oracle pf1 -> det_perm_oracle pf2 -> det_perm_oracle pi1 -> det_perm_oracle pi2 ->
    det_ops_ok h1 = true -> det_ops_ok h2 = true ->
    det_canon (det_run md h1) = det_canon (det_run md h2) ->
    det_encode pf1 pi1 S tid (det_run md h1) = det_encode pf2 pi2 S tid (det_run md h2).
Proof.
  intros S tid md h1 h2 pf1 pf2 pi1 pi2 F1 F2 P1 P2 O1 O2.
  exact (det_content_determines_bytes S tid _ _ pf1 pf2 pi1 pi2 F1 F2 P1 P2 (det_run_wf md h1 O1) (det_run_wf md h2 O2)).
Qed.

(* Deterministic = default marshal with an oracle that happens to sort *)
Theorem det_is_nondet_sorted : forall pf pi S tid v,
  det_encode pf pi S tid v = det_encode_nondet pf (fun l => det_sort det_entry_lt (pi l)) S tid v.
Proof. reflexivity. Qed.

(* converse (from the injectivity of the encoder on valid canonical values, C03) *)
Theorem det_equal_bytes_same_content :
  forall (slow : bool) (S : schema) (limit : nat) (tid : nat) (m1 m2 : value)
         (pf1 pf2 : fields -> fields) (pi1 pi2 : list value -> list value),
    det_perm_oracle pf1 -> det_perm_oracle pf2 -> det_perm_oracle pi1 -> det_perm_oracle pi2 ->
    det_wf m1 = true -> det_wf m2 = true ->
    msg_valid slow S limit tid (det_canon m1) = true -> msg_valid slow S limit tid (det_canon m2) = true ->
    det_encode pf1 pi1 S tid m1 = det_encode pf2 pi2 S tid m2 ->
    det_canon m1 = det_canon m2.
Proof.
  intros slow S limit tid m1 m2 pf1 pf2 pi1 pi2 F1 F2 P1 P2 W1 W2 V1 V2 E. unfold det_encode in E.
  rewrite (det_arrange_canon _ pf1 pi1 F1 P1 W1), (det_arrange_canon _ pf2 pi2 F2 P2 W2) in E.
  eapply msg_encode_injective; eassumption.
Qed.
