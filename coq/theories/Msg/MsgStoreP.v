(* MsgStoreP — what the decoder's storing operations (Msg/MsgValue.v msg_fset, msg_fdel, msg_map_put;
   Msg/MsgDec.v msg_clear_oneof, msg_set_field, msg_append_field) do to the bindings of an
   association list.  No sortedness is assumed (for sorted lists see MsgAssocP). *)
From Coq Require Import List NArith Bool.
From PB Require Import Msg.MsgSchema Msg.MsgValue Msg.MsgDec Msg.AssocP Msg.MsgAssocP.
Import ListNotations.
Open Scope N_scope.

Lemma msg_fget_fset_other fs k vs h : h <> k -> msg_fget (msg_fset fs k vs) h = msg_fget fs h.
Proof.
  intros Hne. induction fs as [|[k0 v0] r IH]; cbn [msg_fset msg_fget].
  - destruct (N.eqb_spec h k); [congruence|reflexivity].
  - destruct (N.ltb_spec k k0) as [Hlt|Hge].
    + cbn [msg_fget]. destruct (N.eqb_spec h k); [congruence|reflexivity].
    + destruct (N.eqb_spec k k0) as [->|Hk].
      * cbn [msg_fget]. destruct (N.eqb_spec h k0); [congruence|reflexivity].
      * cbn [msg_fget]. destruct (N.eqb_spec h k0); [reflexivity|exact IH].
Qed.

Lemma msg_fget_fdel_other fs k h : h <> k -> msg_fget (msg_fdel fs k) h = msg_fget fs h.
Proof.
  intros Hne. induction fs as [|[k0 v0] r IH]; cbn [msg_fdel msg_fget]; [reflexivity|].
  destruct (N.eqb_spec k k0) as [->|Hk].
  - destruct (N.eqb_spec h k0); [congruence|reflexivity].
  - cbn [msg_fget]. destruct (N.eqb_spec h k0); [reflexivity|exact IH].
Qed.

Lemma msg_in_fset fs k vs p : In p (msg_fset fs k vs) -> p = (k, vs) \/ In p fs.
Proof.
  induction fs as [|[k0 v0] r IH]; cbn [msg_fset].
  - intros [H|[]]. left. symmetry. exact H.
  - destruct (N.ltb_spec k k0) as [Hlt|Hge].
    + intros [H|H]; [left; symmetry; exact H|right; exact H].
    + destruct (N.eqb_spec k k0) as [->|Hk].
      * intros [H|H]; [left; symmetry; exact H|right; right; exact H].
      * intros [H|H]; [right; left; exact H|]. destruct (IH H) as [E|E]; [left; exact E|right; right; exact E].
Qed.

Lemma msg_in_fdel fs k p : In p (msg_fdel fs k) -> In p fs.
Proof.
  induction fs as [|[k0 v0] r IH]; cbn [msg_fdel]; [intros []|].
  destruct (N.eqb_spec k k0); [intros H; right; exact H|].
  intros [H|H]; [left; exact H|right; exact (IH H)].
Qed.

(* the fields of a message are an instance of AssocP's lists: msg_fget is aget with default [] *)
Lemma msg_fget_cases fs n :
  (exists vs, In (n, vs) fs /\ msg_fget fs n = vs) \/ (msg_fget fs n = [] /\ forall vs, ~ In (n, vs) fs).
Proof. exact (aget_cases (list value) [] fs n). Qed.

Lemma msg_fget_in fs h : msg_fget fs h <> [] -> In (h, msg_fget fs h) fs.
Proof. intros H. destruct (msg_fget_cases fs h) as [(vs & Hin & ->)|[E _]]; [exact Hin|contradiction]. Qed.

(* msg_clear_oneof only deletes, and only members of the oneof [oi] other than [num]: whatever
   these deletions preserve, it preserves *)
Lemma msg_clear_oneof_ind (P : fields -> Prop) md oi num :
  (forall fs fd, In fd md -> f_oneof fd = Some oi -> f_num fd <> num -> P fs -> P (msg_fdel fs (f_num fd))) ->
  forall fs, P fs -> P (msg_clear_oneof md oi num fs).
Proof.
  induction md as [|fd r IH]; intros Hdel fs H; cbn [msg_clear_oneof]; [exact H|].
  apply IH; [intros fs' fd' Hin; apply Hdel; right; exact Hin|].
  destruct (f_oneof fd) as [j|] eqn:Ho; [|exact H].
  destruct (N.eqb_spec j oi) as [->|_]; cbn [andb]; [|exact H].
  destruct (N.eqb_spec (f_num fd) num) as [_|Hn]; cbn [negb]; [exact H|].
  exact (Hdel fs fd (or_introl eq_refl) Ho Hn H).
Qed.

Lemma msg_in_clear_oneof md oi num : forall fs p, In p (msg_clear_oneof md oi num fs) -> In p fs.
Proof.
  intros fs. apply (msg_clear_oneof_ind (fun fs' => forall p, In p fs' -> In p fs)); [|exact (fun p H => H)].
  intros fs' fd _ _ _ H p Hp. exact (H p (msg_in_fdel _ _ _ Hp)).
Qed.

Lemma msg_fget_clear_oneof md oi num h : forall fs,
  (forall fd, In fd md -> f_num fd = h -> f_oneof fd = Some oi -> h = num) ->
  msg_fget (msg_clear_oneof md oi num fs) h = msg_fget fs h.
Proof.
  intros fs Hh. apply (msg_clear_oneof_ind (fun fs' => msg_fget fs' h = msg_fget fs h)); [|reflexivity].
  intros fs' fd Hin Ho Hn E. rewrite msg_fget_fdel_other; [exact E|].
  intros Eh. apply Hn. rewrite <- Eh. exact (Hh fd Hin (eq_sym Eh) Ho).
Qed.

Lemma msg_in_set_field md fd v fs p : In p (msg_set_field md fd v fs) -> p = (f_num fd, [v]) \/ In p fs.
Proof.
  unfold msg_set_field. intros H.
  assert (H1 : In p (if match f_card fd, v with CImp, VS s => msg_scalar_is_zero s | _, _ => false end
                     then msg_fdel fs (f_num fd) else msg_fset fs (f_num fd) [v])).
  { destruct (f_oneof fd); [exact (msg_in_clear_oneof _ _ _ _ _ H)|exact H]. }
  destruct (match f_card fd, v with CImp, VS s => msg_scalar_is_zero s | _, _ => false end).
  - right. exact (msg_in_fdel _ _ _ H1).
  - exact (msg_in_fset _ _ _ _ H1).
Qed.

Lemma msg_in_append_field fd vs fs p :
  In p (msg_append_field fd vs fs) -> p = (f_num fd, msg_fget fs (f_num fd) ++ vs) \/ In p fs.
Proof.
  unfold msg_append_field. destruct vs as [|v vs]; [intros H; right; exact H|]. apply msg_in_fset.
Qed.

(* what is bound to a number after a store.  A singular store clears the other members of the
   field's oneof: numbers that no member of a oneof carries are not affected *)
Lemma msg_fget_set_field_self md fd v fs :
  (match f_card fd, v with CImp, VS s => msg_scalar_is_zero s | _, _ => false end) = false ->
  msg_fget (msg_set_field md fd v fs) (f_num fd) = [v].
Proof.
  intros Hd. unfold msg_set_field. rewrite Hd.
  destruct (f_oneof fd) as [oi|]; [rewrite msg_fget_clear_oneof by (intros; reflexivity)|]; apply msg_fget_fset_same.
Qed.

Lemma msg_fget_set_field_other md fd v fs h :
  h <> f_num fd -> (forall fd', In fd' md -> f_num fd' = h -> f_oneof fd' = None) ->
  msg_fget (msg_set_field md fd v fs) h = msg_fget fs h.
Proof.
  intros Hne Hno. unfold msg_set_field.
  assert (E : msg_fget (if match f_card fd, v with CImp, VS s => msg_scalar_is_zero s | _, _ => false end
                        then msg_fdel fs (f_num fd) else msg_fset fs (f_num fd) [v]) h = msg_fget fs h).
  { destruct (match f_card fd, v with CImp, VS s => msg_scalar_is_zero s | _, _ => false end);
      [apply msg_fget_fdel_other|apply msg_fget_fset_other]; exact Hne. }
  destruct (f_oneof fd) as [oi|]; [|exact E].
  rewrite msg_fget_clear_oneof; [exact E|]. intros fd' Hin En Ho. rewrite (Hno fd' Hin En) in Ho. discriminate.
Qed.

Lemma msg_fget_append_field_self fd vs fs :
  msg_fget (msg_append_field fd vs fs) (f_num fd) = msg_fget fs (f_num fd) ++ vs.
Proof. unfold msg_append_field. destruct vs; [symmetry; apply app_nil_r|apply msg_fget_fset_same]. Qed.

Lemma msg_fget_append_field_other fd vs fs h : h <> f_num fd -> msg_fget (msg_append_field fd vs fs) h = msg_fget fs h.
Proof. intros Hne. unfold msg_append_field. destruct vs; [reflexivity|apply msg_fget_fset_other; exact Hne]. Qed.

Lemma msg_in_map_put : forall es key v x, In x (msg_map_put es key v) -> x = VEntry key v \/ In x es.
Proof.
  induction es as [|e r IH]; intros key v x; cbn [msg_map_put].
  - intros [H|[]]. left. symmetry. exact H.
  - destruct e as [s|fs u|k0 v0].
    + intros [H|H]; [right; left; exact H|]. destruct (IH _ _ _ H) as [E|E]; [left; exact E|right; right; exact E].
    + intros [H|H]; [right; left; exact H|]. destruct (IH _ _ _ H) as [E|E]; [left; exact E|right; right; exact E].
    + destruct (msg_scmp key k0).
      * intros [H|H]; [left; symmetry; exact H|right; right; exact H].
      * intros [H|H]; [left; symmetry; exact H|right; exact H].
      * intros [H|H]; [right; left; exact H|]. destruct (IH _ _ _ H) as [E|E]; [left; exact E|right; right; exact E].
Qed.

Lemma msg_map_put_nonempty es key v : msg_map_put es key v <> [].
Proof. destruct es as [|[s|fs u|k0 v0] r]; cbn [msg_map_put]; try discriminate. destruct (msg_scmp key k0); discriminate. Qed.

(* a key above every key of a sorted map is appended *)
Lemma msg_map_put_last : forall pre key v,
  Forall (fun e' => match e' with VEntry k' _ => msg_scmp key k' = Gt | _ => False end) pre ->
  msg_map_put pre key v = pre ++ [VEntry key v].
Proof.
  induction pre as [|e pre IH]; intros key v H; [reflexivity|].
  inversion H as [|? ? He Hpre]; subst. cbn [msg_map_put app].
  destruct e as [|?|k' v']; try contradiction. rewrite He. f_equal. apply IH. exact Hpre.
Qed.
