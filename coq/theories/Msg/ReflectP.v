(* ReflectP — proofs about the protoreflect contract model (Msg/ReflectModel.v), C28.

   The invariant [refl_wf] (numbers strictly increasing, no empty field,
   declared fields only, at most one member of every oneof, recursively in every sub-message) is
   preserved by every operation at every path, hence along every history; consequences:
   Range visits exactly the populated fields, each once; oneofs are exclusive; Get of an
   unpopulated field is the default / an empty read-only composite; writes through read-only
   composites panic and change nothing.  (The concrete representations: Msg/ReflectCellP.v.) *)
From Coq Require Import List NArith ZArith Bool Lia.
From PB Require Import Base.PBytes Wire.WireModel Msg.MsgSchema Msg.MsgValue Msg.ReflectModel Msg.AssocP.
Import ListNotations.
Open Scope N_scope.

(* [above] of Msg/AssocP.v under the name the statements of C28 use; equal by conversion *)
Definition lo_lt (lo : option N) (k : N) : Prop :=
  match lo with Some l => l < k | None => True end.

Lemma ks_cons : forall lo k vs r,
  refl_keys_sorted lo ((k, vs) :: r) = true <->
  lo_lt lo k /\ vs <> [] /\ refl_keys_sorted (Some k) r = true.
Proof.
  intros. cbn [refl_keys_sorted]. rewrite !andb_true_iff. split.
  - intros [[H1 H2] H3]. repeat split; auto.
    + destruct lo; cbn; auto. apply N.ltb_lt; auto.
    + destruct vs; [discriminate | discriminate].
  - intros [H1 [H2 H3]]. repeat split; auto.
    + destruct lo; cbn in *; auto. apply N.ltb_lt; auto.
    + destruct vs; auto.
Qed.

(* the fields are a key-sorted association list (Msg/AssocP.v) without empty entries *)
Lemma ks_split : forall fs lo,
  refl_keys_sorted lo fs = true <-> asorted lo fs /\ Forall (fun p => snd p <> []) fs.
Proof.
  induction fs as [|[k vs] r IH]; intros lo; [cbn; intuition|].
  rewrite ks_cons, IH. cbn [asorted]. rewrite Forall_cons_iff. cbn [snd]. unfold lo_lt, above. tauto.
Qed.

Lemma ks_weaken : forall fs lo lo',
  (forall k, lo_lt lo k -> lo_lt lo' k) ->
  refl_keys_sorted lo fs = true -> refl_keys_sorted lo' fs = true.
Proof. intros fs lo lo' H. rewrite !ks_split. intros [Hs Hf]. split; [exact (asorted_weaken _ _ _ _ H Hs)|exact Hf]. Qed.

Lemma ks_in : forall fs lo k vs,
  refl_keys_sorted lo fs = true -> In (k, vs) fs -> lo_lt lo k /\ vs <> [].
Proof.
  intros fs lo k vs Hs Hin. apply ks_split in Hs. destruct Hs as [Hs Hf]. split.
  - exact (asorted_in _ _ _ _ _ Hs Hin).
  - rewrite Forall_forall in Hf. exact (Hf _ Hin).
Qed.

Lemma ks_fget_in : forall fs lo k vs,
  refl_keys_sorted lo fs = true -> In (k, vs) fs -> msg_fget fs k = vs.
Proof. intros fs lo k vs Hs. apply ks_split in Hs. exact (aget_in _ [] fs lo k vs (proj1 Hs)). Qed.

Lemma fget_in : forall fs k, msg_fget fs k <> [] -> In (k, msg_fget fs k) fs.
Proof.
  intros fs k H. destruct (aget_cases _ [] fs k) as [[a [Hin E]]|[E _]].
  - change (msg_fget fs k = a) in E. rewrite E. exact Hin.
  - destruct (H E).
Qed.

Lemma fget_notin : forall fs k, ~ In k (map fst fs) -> msg_fget fs k = [].
Proof.
  induction fs as [|[k0 v0] r IH]; intros k H; cbn [msg_fget]; auto.
  cbn in H. destruct (N.eqb_spec k k0); [subst; tauto|]. apply IH. tauto.
Qed.

Lemma has_of_fget : forall fs f, msg_fget fs f <> [] -> refl_has fs f = true.
Proof. intros. unfold refl_has. destruct (msg_fget fs f); congruence. Qed.

Lemma fget_of_has : forall fs f, refl_has fs f = true -> msg_fget fs f <> [].
Proof. intros fs f H Z. unfold refl_has in H. rewrite Z in H. discriminate. Qed.

Lemma fget_of_has_false : forall fs f, refl_has fs f = false -> msg_fget fs f = [].
Proof. intros fs f H. unfold refl_has in H. destruct (msg_fget fs f); [reflexivity|discriminate]. Qed.

Lemma in_fset : forall fs lo n vs k x,
  refl_keys_sorted lo fs = true ->
  (In (k, x) (msg_fset fs n vs) <-> (k = n /\ x = vs) \/ (k <> n /\ In (k, x) fs)).
Proof. intros fs lo n vs k x Hs. apply ks_split in Hs. exact (in_aput _ fs lo n vs k x (proj1 Hs)). Qed.

Lemma in_fdel : forall fs lo n k x,
  refl_keys_sorted lo fs = true ->
  (In (k, x) (msg_fdel fs n) <-> k <> n /\ In (k, x) fs).
Proof. intros fs lo n k x Hs. apply ks_split in Hs. exact (in_adel _ fs lo n k x (proj1 Hs)). Qed.

Lemma ks_fset : forall fs lo n vs,
  refl_keys_sorted lo fs = true -> lo_lt lo n -> vs <> [] ->
  refl_keys_sorted lo (msg_fset fs n vs) = true.
Proof.
  intros fs lo n vs Hs Hlo Hne. pose proof (in_fset fs lo n vs) as Hin.
  apply ks_split in Hs. destruct Hs as [Hs Hf]. apply ks_split. split.
  - exact (aput_sorted _ fs lo n vs Hs Hlo).
  - rewrite Forall_forall in *. intros [k x] Hp. apply Hin in Hp; [|apply ks_split; rewrite Forall_forall; auto].
    destruct Hp as [[_ ->]|[_ Hp]]; [exact Hne|exact (Hf _ Hp)].
Qed.

Lemma ks_fdel : forall fs lo n,
  refl_keys_sorted lo fs = true -> refl_keys_sorted lo (msg_fdel fs n) = true.
Proof.
  intros fs lo n Hs. pose proof (in_fdel fs lo n) as Hin.
  apply ks_split. pose proof Hs as Hs'. apply ks_split in Hs'. destruct Hs' as [Ha Hf]. split.
  - exact (adel_sorted _ fs lo n Ha).
  - rewrite Forall_forall in *. intros [k x] Hp. apply (Hin k x Hs) in Hp. exact (Hf _ (proj2 Hp)).
Qed.

Lemma ks_filter : forall (P : N * list value -> bool) fs lo,
  refl_keys_sorted lo fs = true -> refl_keys_sorted lo (filter P fs) = true.
Proof.
  intros P fs lo Hs. apply ks_split in Hs. destruct Hs as [Hs Hf]. apply ks_split. split.
  - exact (afilter_sorted _ P fs lo Hs).
  - rewrite Forall_forall in *. intros p Hp. apply filter_In in Hp. exact (Hf _ (proj1 Hp)).
Qed.

Lemma ks_nodup : forall fs lo, refl_keys_sorted lo fs = true -> NoDup (map fst fs).
Proof. intros fs lo Hs. apply ks_split in Hs. exact (asorted_nodup _ fs lo (proj1 Hs)). Qed.

Lemma ks_has_iff : forall fs lo k,
  refl_keys_sorted lo fs = true -> (In k (map fst fs) <-> refl_has fs k = true).
Proof.
  intros fs lo k Hs. unfold refl_has. split.
  - intros Hin. apply in_map_iff in Hin. destruct Hin as [[k' x] [E Hin]]. cbn in E. subst.
    rewrite (ks_fget_in _ _ _ _ Hs Hin). destruct (ks_in _ _ _ _ Hs Hin) as [_ Hne].
    destruct x; congruence.
  - intros H. apply in_map_iff. exists (k, msg_fget fs k). split; auto.
    apply fget_in, fget_of_has, H.
Qed.

(* [find_field_num] and [find_some_in] below are also in Msg/MsgDecP.v (msg_find_field_num, _in),
   which this file does not import: it would load the decoder and the wire lemmas for two facts *)
Lemma find_field_num : forall md n fd, msg_find_field md n = Some fd -> f_num fd = n.
Proof.
  induction md as [|fd0 r IH]; intros n fd H; cbn [msg_find_field] in H; [discriminate|].
  destruct (N.eqb_spec (f_num fd0) n).
  - inversion H; subst; auto.
  - auto.
Qed.

Definition oneofs_okP (md : mdesc) (fs : fields) : Prop :=
  forall p, In p fs ->
    exists fd, msg_find_field md (fst p) = Some fd /\
      forall i, f_oneof fd = Some i ->
        forall q, In q fs -> refl_in_oneof md i (fst q) = true -> fst q = fst p.

Lemma oneofs_ok_iff : forall md fs, refl_oneofs_ok md fs = true <-> oneofs_okP md fs.
Proof.
  intros md fs. unfold refl_oneofs_ok, oneofs_okP. rewrite forallb_forall. split.
  - intros H p Hp. specialize (H p Hp).
    destruct (msg_find_field md (fst p)) as [fd|]; [|discriminate].
    exists fd. split; auto. intros i Hi q Hq Hin. rewrite Hi in H.
    rewrite forallb_forall in H. specialize (H q Hq).
    rewrite Hin in H. cbn in H. rewrite orb_false_r in H. apply N.eqb_eq in H. auto.
  - intros H p Hp. destruct (H p Hp) as [fd [Hf Ho]]. rewrite Hf.
    destruct (f_oneof fd) as [i|] eqn:Hi; auto.
    apply forallb_forall. intros q Hq.
    destruct (refl_in_oneof md i (fst q)) eqn:Hin; cbn; [|apply orb_true_r].
    rewrite orb_false_r. apply N.eqb_eq. eapply Ho; eauto.
Qed.

Lemma oneofs_sub : forall md fs fs',
  (forall p, In p fs' -> In p fs) -> oneofs_okP md fs -> oneofs_okP md fs'.
Proof.
  intros md fs fs' Hsub H p Hp. destruct (H p (Hsub p Hp)) as [fd [Hf Ho]].
  exists fd. split; auto. intros i Hi q Hq. apply Ho; auto.
Qed.

Lemma in_oneof_clear : forall md fd fs p,
  In p (refl_oneof_clear md fd fs) ->
  In p fs /\ (forall i, f_oneof fd = Some i -> fst p <> f_num fd -> refl_in_oneof md i (fst p) = false).
Proof.
  intros md fd fs p. unfold refl_oneof_clear. destruct (f_oneof fd) as [i|].
  - rewrite filter_In. intros [Hin Hk]. split; auto. intros i' E Hne. inversion E; subst.
    apply orb_true_iff in Hk. destruct Hk as [Hk|Hk].
    + apply negb_true_iff in Hk; auto.
    + apply N.eqb_eq in Hk. congruence.
  - intros; split; auto. intros; discriminate.
Qed.

Lemma ks_oneof_clear : forall md fd fs lo,
  refl_keys_sorted lo fs = true -> refl_keys_sorted lo (refl_oneof_clear md fd fs) = true.
Proof.
  intros. unfold refl_oneof_clear. destruct (f_oneof fd); auto. apply ks_filter; auto.
Qed.

Lemma oneofs_store : forall md fd fs vs,
  refl_keys_sorted None fs = true -> oneofs_okP md fs ->
  msg_find_field md (f_num fd) = Some fd ->
  oneofs_okP md (msg_fset (refl_oneof_clear md fd fs) (f_num fd) vs).
Proof.
  intros md fd fs vs Hs Hok Hfd [k x] Hp.
  pose proof (ks_oneof_clear md fd fs None Hs) as Hsc.
  apply (in_fset _ None _ _ _ _ Hsc) in Hp. cbn [fst].
  destruct Hp as [[-> ->]|[Hne Hin]].
  - exists fd. split; auto. intros i Hi [k' x'] Hq Hio. cbn [fst] in *.
    apply (in_fset _ None _ _ _ _ Hsc) in Hq. destruct Hq as [[-> _]|[Hne' Hin']]; auto.
    destruct (in_oneof_clear _ _ _ _ Hin') as [_ Hc]. cbn [fst] in Hc.
    rewrite (Hc i Hi Hne') in Hio. discriminate.
  - destruct (in_oneof_clear _ _ _ _ Hin) as [Hinfs Hc]. cbn [fst] in Hc.
    destruct (Hok _ Hinfs) as [fdp [Hfp Hop]]. cbn [fst] in *.
    exists fdp. split; auto. intros i Hi [k' x'] Hq Hio. cbn [fst] in *.
    apply (in_fset _ None _ _ _ _ Hsc) in Hq. destruct Hq as [[-> _]|[Hne' Hin']].
    + (* the stored field is in oneof i, so the clearing removed p *)
      exfalso. unfold refl_in_oneof in Hio. rewrite Hfd in Hio.
      destruct (f_oneof fd) as [j|] eqn:Hj; [|discriminate]. apply N.eqb_eq in Hio. subst j.
      specialize (Hc i eq_refl Hne). unfold refl_in_oneof in Hc. rewrite Hfp, Hi, N.eqb_refl in Hc.
      discriminate.
    + destruct (in_oneof_clear _ _ _ _ Hin') as [Hq _].
      apply (Hop i Hi (k', x') Hq Hio).
Qed.

(* [refl_wf] at one message, as propositions: LW the level (sorted, no empty entry, oneofs
   exclusive, declared fields only), CW the children (every chunk well formed for its field) *)
Definition LW (md : mdesc) (fs : fields) : Prop :=
  refl_keys_sorted None fs = true /\ oneofs_okP md fs.
Definition CW (S : schema) (md : mdesc) (fs : fields) : Prop :=
  forall p, In p fs -> refl_wf_chunk (refl_wf S) md p = true.
Definition WFm (S : schema) (md : mdesc) (fs : fields) : Prop := LW md fs /\ CW S md fs.

Lemma wf_unfold : forall S tid fs u,
  refl_wf S tid (VMsg fs u) = true <-> WFm S (nth tid S []) fs.
Proof.
  intros. cbn [refl_wf]. unfold WFm, LW, CW, refl_level_wf.
  rewrite !andb_true_iff, oneofs_ok_iff, forallb_forall. tauto.
Qed.

Lemma wf_empty : forall S tid, refl_wf S tid msg_empty = true.
Proof. intros. apply wf_unfold. repeat split; cbn; auto; intros ? []. Qed.

Lemma wf_vals_nil : forall S fd, refl_wf_vals (refl_wf S) fd [] = true.
Proof. intros. unfold refl_wf_vals. destruct (f_kind fd); auto. Qed.

Lemma wf_fget : forall S md fs f fd,
  WFm S md fs -> msg_find_field md f = Some fd ->
  refl_wf_vals (refl_wf S) fd (msg_fget fs f) = true.
Proof.
  intros S md fs f fd [[Hs _] Hc] Hf.
  destruct (msg_fget fs f) eqn:E; [apply wf_vals_nil|].
  assert (Hne : msg_fget fs f <> []) by (rewrite E; discriminate).
  apply fget_in in Hne. specialize (Hc _ Hne). unfold refl_wf_chunk in Hc. cbn [fst snd] in Hc.
  rewrite Hf in Hc. rewrite E in Hc. auto.
Qed.

Lemma wfm_fdel : forall S md fs n, WFm S md fs -> WFm S md (msg_fdel fs n).
Proof.
  intros S md fs n [[Hs Ho] Hc].
  assert (Hsub : forall p, In p (msg_fdel fs n) -> In p fs).
  { intros [k x] Hp. apply (in_fdel _ None _ _ _ Hs) in Hp. tauto. }
  repeat split.
  - apply ks_fdel; auto.
  - eapply oneofs_sub; eauto.
  - intros p Hp. auto.
Qed.

Lemma wfm_store : forall S md fd fs vs,
  WFm S md fs -> msg_find_field md (f_num fd) = Some fd ->
  refl_wf_vals (refl_wf S) fd vs = true ->
  WFm S md (refl_store md fd fs vs).
Proof.
  intros S md fd fs vs H Hfd Hv. unfold refl_store.
  destruct vs as [|v r]; [apply wfm_fdel; auto|].
  destruct H as [[Hs Ho] Hc].
  pose proof (ks_oneof_clear md fd fs None Hs) as Hsc.
  repeat split.
  - apply ks_fset; cbn; auto. discriminate.
  - apply oneofs_store; auto.
  - intros [k x] Hp. apply (in_fset _ None _ _ _ _ Hsc) in Hp.
    destruct Hp as [[-> ->]|[_ Hin]].
    + unfold refl_wf_chunk. cbn [fst snd]. rewrite Hfd. auto.
    + apply Hc. apply in_oneof_clear in Hin. tauto.
Qed.

Lemma wfm_set : forall S md fd fs vs,
  WFm S md fs -> msg_find_field md (f_num fd) = Some fd ->
  refl_wf_vals (refl_wf S) fd vs = true ->
  WFm S md (refl_set md fd fs vs).
Proof.
  intros. unfold refl_set.
  destruct (f_card fd); try (apply wfm_store; auto).
  destruct vs as [|[s| |] [|]]; try (apply wfm_store; auto).
  destruct (msg_scalar_is_zero s); [apply wfm_fdel; auto | apply wfm_store; auto].
Qed.

(* plain replacement of the values of a populated field (navigation puts a child back) *)
Lemma wfm_fset_plain : forall S md fd fs f vs,
  WFm S md fs -> msg_find_field md f = Some fd -> msg_fget fs f <> [] -> vs <> [] ->
  refl_wf_vals (refl_wf S) fd vs = true ->
  WFm S md (msg_fset fs f vs).
Proof.
  intros S md fd fs f vs [[Hs Ho] Hc] Hfd Hhas Hne Hv.
  pose proof (fget_in fs f Hhas) as Hin.
  repeat split.
  - apply ks_fset; cbn; auto.
  - intros [k x] Hp. apply (in_fset _ None _ _ _ _ Hs) in Hp. cbn [fst].
    destruct Hp as [[-> ->]|[Hnek Hp]].
    + destruct (Ho _ Hin) as [fd' [Hf' Ho']]. cbn [fst] in *. exists fd'. split; auto.
      intros i Hi [k' x'] Hq Hio. cbn [fst] in *.
      apply (in_fset _ None _ _ _ _ Hs) in Hq. destruct Hq as [[-> _]|[_ Hq]]; auto.
      apply (Ho' i Hi (k', x') Hq Hio).
    + destruct (Ho _ Hp) as [fd' [Hf' Ho']]. cbn [fst] in *. exists fd'. split; auto.
      intros i Hi [k' x'] Hq Hio. cbn [fst] in *.
      apply (in_fset _ None _ _ _ _ Hs) in Hq. destruct Hq as [[-> _]|[_ Hq]].
      * apply (Ho' i Hi (f, msg_fget fs f) Hin Hio).
      * apply (Ho' i Hi (k', x') Hq Hio).
  - intros [k x] Hp. apply (in_fset _ None _ _ _ _ Hs) in Hp.
    destruct Hp as [[-> ->]|[_ Hp]]; auto.
    unfold refl_wf_chunk. cbn [fst snd]. rewrite Hfd. auto.
Qed.

Lemma forallb_firstn : forall (A : Type) (P : A -> bool) n l,
  forallb P l = true -> forallb P (firstn n l) = true.
Proof.
  induction n; intros l H; cbn; auto. destruct l; cbn in *; auto.
  apply andb_true_iff in H. destruct H. rewrite H. cbn. auto.
Qed.

Lemma forallb_replace_nth : forall (P : value -> bool) l i v,
  forallb P l = true -> P v = true -> forallb P (refl_replace_nth l i v) = true.
Proof.
  induction l as [|x r IH]; intros i v H Hv; cbn; auto.
  cbn in H. apply andb_true_iff in H. destruct H as [H1 H2].
  destruct i; cbn; rewrite ?Hv, ?H1; cbn; auto.
Qed.

Lemma forallb_map_put : forall (P : value -> bool) es k v,
  forallb P es = true -> P (VEntry k v) = true -> forallb P (msg_map_put es k v) = true.
Proof.
  induction es as [|e r IH]; intros k v H Hv; cbn [msg_map_put].
  - cbn. rewrite Hv. auto.
  - cbn in H. apply andb_true_iff in H. destruct H as [H1 H2].
    destruct e; try (cbn; rewrite H1; cbn; apply IH; auto).
    destruct (msg_scmp k k0); cbn; rewrite ?Hv, ?H1, ?H2; cbn; auto.
Qed.

Lemma forallb_map_del : forall (P : value -> bool) es k,
  forallb P es = true -> forallb P (refl_map_del es k) = true.
Proof.
  induction es as [|e r IH]; intros k H; cbn [refl_map_del]; auto.
  cbn in H. apply andb_true_iff in H. destruct H as [H1 H2].
  destruct e; try (cbn; rewrite H1; cbn; apply IH; auto).
  destruct (refl_scalar_eqb k k0); auto. cbn. rewrite H1. cbn. auto.
Qed.

Lemma forallb_map_replace : forall (P : value -> bool) es k v,
  forallb P es = true -> (forall k0, P (VEntry k0 v) = true) ->
  forallb P (refl_map_replace es k v) = true.
Proof.
  induction es as [|e r IH]; intros k v H Hv; cbn [refl_map_replace]; auto.
  cbn in H. apply andb_true_iff in H. destruct H as [H1 H2].
  destruct e; try (cbn; rewrite H1; cbn; apply IH; auto).
  destruct (refl_scalar_eqb k k0); cbn; rewrite ?Hv, ?H1, ?H2; cbn; auto.
Qed.

Lemma map_get_in : forall es k v, refl_map_get es k = Some v -> exists k0, In (VEntry k0 v) es.
Proof.
  induction es as [|e r IH]; intros k v H; cbn [refl_map_get] in H; [discriminate|].
  destruct e; try (destruct (IH _ _ H) as [k0 Hk]; exists k0; right; auto).
  destruct (refl_scalar_eqb k k0).
  - inversion H; subst. exists k0. left; auto.
  - destruct (IH _ _ H) as [k1 Hk]. exists k1; right; auto.
Qed.

(* closure of [refl_wf_vals] under the list and map edits *)
Section Vals.
  Variable S : schema.
  Variable fd : fdesc.
  Notation wfv := (refl_wf_vals (refl_wf S) fd).
  Definition wfarg (v : value) : bool :=
    match f_kind fd with KS _ => true | KMsg t | KGrp t => refl_wf S t v end.

  Lemma wfarg_val : forall v, wfarg v = true ->
    match f_kind fd with KS _ => True | KMsg t | KGrp t => refl_wf_val (refl_wf S) t v = true end.
  Proof.
    unfold wfarg. intros v H. destruct (f_kind fd); auto; destruct v; cbn in *; auto; discriminate.
  Qed.

  Lemma wfv_app : forall vs v, wfv vs = true -> wfarg v = true -> wfv (vs ++ [v]) = true.
  Proof.
    unfold refl_wf_vals. intros vs v H Hv. pose proof (wfarg_val v Hv) as Hv'.
    destruct (f_kind fd); auto; rewrite forallb_app, H; cbn; rewrite Hv'; auto.
  Qed.
  Lemma wfv_replace : forall vs i v, wfv vs = true -> wfarg v = true -> wfv (refl_replace_nth vs i v) = true.
  Proof.
    unfold refl_wf_vals. intros vs i v H Hv. pose proof (wfarg_val v Hv) as Hv'.
    destruct (f_kind fd); auto; apply forallb_replace_nth; auto.
  Qed.
  Lemma wfv_firstn : forall vs n, wfv vs = true -> wfv (firstn n vs) = true.
  Proof.
    unfold refl_wf_vals. intros vs n H. destruct (f_kind fd); auto; apply forallb_firstn; auto.
  Qed.
  Lemma wfv_map_put : forall es k v, wfv es = true -> wfarg v = true -> wfv (msg_map_put es k v) = true.
  Proof.
    unfold refl_wf_vals, wfarg. intros es k v H Hv.
    destruct (f_kind fd); auto; apply forallb_map_put; auto.
  Qed.
  Lemma wfv_map_del : forall es k, wfv es = true -> wfv (refl_map_del es k) = true.
  Proof.
    unfold refl_wf_vals. intros es k H. destruct (f_kind fd); auto; apply forallb_map_del; auto.
  Qed.
  Lemma wfv_map_replace : forall es k v, wfv es = true -> wfarg v = true -> wfv (refl_map_replace es k v) = true.
  Proof.
    unfold refl_wf_vals, wfarg. intros es k v H Hv.
    destruct (f_kind fd); auto; apply forallb_map_replace; auto.
  Qed.
  Lemma wfarg_empty : wfarg msg_empty = true.
  Proof. unfold wfarg. destruct (f_kind fd); auto; apply wf_empty. Qed.
  Lemma wfv_one : forall v, wfarg v = true -> wfv [v] = true.
  Proof. intros. apply (wfv_app [] v); auto. apply wf_vals_nil. Qed.
End Vals.

Lemma list_edit_wf : forall S D tid fd lro o vs vs' out,
  refl_wf_vals (refl_wf S) fd vs = true ->
  match o with LSet _ v | LAppend v => wfarg S fd v = true | _ => True end ->
  refl_list_edit D tid fd lro o vs = (Some vs', out) ->
  refl_wf_vals (refl_wf S) fd vs' = true.
Proof.
  intros S D tid fd lro o vs vs' out Hold Harg E. unfold refl_list_edit in E.
  destruct o.
  - inversion E.
  - destruct (nth_error _ _); inversion E.
  - destruct (_ <? _); inversion E; subst. apply wfv_replace; auto.
  - destruct lro; inversion E; subst. apply wfv_app; auto.
  - destruct lro; [inversion E|]. destruct (_ <=? _); inversion E; subst. apply wfv_firstn; auto.
  - destruct lro; [inversion E|]. destruct (refl_kind_is_msg _); inversion E; subst.
    apply wfv_app; auto. apply wfarg_empty.
  - destruct (f_kind fd); inversion E.
Qed.

Lemma map_edit_wf : forall S fd mro o es es' out,
  refl_wf_vals (refl_wf S) fd es = true ->
  match o with MSet _ v => wfarg S fd v = true | _ => True end ->
  refl_map_edit fd mro o es = (Some es', out) ->
  refl_wf_vals (refl_wf S) fd es' = true.
Proof.
  intros S fd mro o es es' out Hold Harg E. unfold refl_map_edit in E.
  destruct o; try (inversion E; fail).
  - destruct mro; inversion E; subst. apply wfv_map_put; auto.
  - destruct mro; inversion E; subst. apply wfv_map_del; auto.
  - destruct mro; [inversion E|]. destruct (refl_kind_is_msg _); [|inversion E].
    destruct (refl_map_get _ _); inversion E; subst. apply wfv_map_put; auto. apply wfarg_empty.
  - destruct (f_kind fd) as [[]| |]; inversion E.
Qed.

Lemma list_op_wf : forall S D tid md fd lro o fs fs' out,
  WFm S md fs -> msg_find_field md (f_num fd) = Some fd ->
  match o with LSet _ v | LAppend v => wfarg S fd v = true | _ => True end ->
  refl_list_op D tid md fd lro o fs = (fs', out) -> WFm S md fs'.
Proof.
  intros S D tid md fd lro o fs fs' out H Hfd Harg E.
  pose proof (wf_fget S md fs (f_num fd) fd H Hfd) as Hold.
  unfold refl_list_op in E.
  destruct (refl_list_edit D tid fd lro o (msg_fget fs (f_num fd))) as [[vs'|] out'] eqn:Ee;
    inversion E; subst; auto.
  apply wfm_store; auto. eapply list_edit_wf; eauto.
Qed.

Lemma map_op_wf : forall S md fd mro o fs fs' out,
  WFm S md fs -> msg_find_field md (f_num fd) = Some fd ->
  match o with MSet _ v => wfarg S fd v = true | _ => True end ->
  refl_map_op md fd mro o fs = (fs', out) -> WFm S md fs'.
Proof.
  intros S md fd mro o fs fs' out H Hfd Harg E.
  pose proof (wf_fget S md fs (f_num fd) fd H Hfd) as Hold.
  unfold refl_map_op in E.
  destruct (refl_map_edit fd mro o (msg_fget fs (f_num fd))) as [[vs'|] out'] eqn:Ee;
    inversion E; subst; auto.
  apply wfm_store; auto. eapply map_edit_wf; eauto.
Qed.

Lemma step_wf : forall S D tid ro op fs u m' out,
  WFm S (nth tid S []) fs ->
  refl_step S D tid ro op (fs, u) = (m', out) ->
  WFm S (nth tid S []) (fst m').
Proof.
  intros S D tid ro op fs u m' out H E. unfold refl_step in E.
  destruct (refl_op_wf S (nth tid S []) op) eqn:Hop; cbn [negb] in E; [|inversion E; subst; auto].
  set (md := nth tid S []) in *.
  destruct op; cbn beta iota zeta in E;
    (* Which, Range, GetUnknown: the message is returned as it is *)
    try (inversion E; subst; auto; fail);
    try (destruct (msg_find_field md f) as [fd|] eqn:Hf; [|inversion E; subst; auto];
         pose proof (find_field_num _ _ _ Hf) as Hn; subst f).
  - (* Has *) inversion E; subst; auto.
  - (* Get *) inversion E; subst; auto.
  - (* Set *) destruct ro; inversion E; subst; auto. cbn [fst].
    apply wfm_set; auto. cbn in Hop. rewrite Hf in Hop. apply andb_true_iff in Hop. tauto.
  - (* Clear *) destruct ro; inversion E; subst; auto. cbn [fst]. apply wfm_fdel; auto.
  - (* Mutable *) destruct ro; [inversion E; subst; auto|].
    destruct (_ || _); [inversion E; subst; auto|].
    destruct (refl_kind_is_msg _); [|inversion E; subst; auto].
    destruct (msg_fget fs _); inversion E; subst; auto. cbn [fst].
    apply (wfm_store S md fd fs [msg_empty]); auto. apply wfv_one. apply wfarg_empty.
  - (* NewField *) inversion E; subst; auto.
  - (* SetUnknown *) destruct ro; inversion E; subst; auto.
  - (* list operations *) destruct (negb (refl_is_list fd)); [inversion E; subst; auto|].
    destruct (ro && negb viaget); [inversion E; subst; auto|].
    destruct (refl_list_op _ _ _ _ _ _ _) as [fs' o'] eqn:El. inversion E; subst. cbn [fst].
    eapply list_op_wf; eauto.
    cbn in Hop. rewrite Hf in Hop. destruct o; auto.
  - (* map operations *) destruct (negb (refl_is_map fd)); [inversion E; subst; auto|].
    destruct (ro && negb viaget); [inversion E; subst; auto|].
    destruct (refl_map_op _ _ _ _ _) as [fs' o'] eqn:El. inversion E; subst. cbn [fst].
    eapply map_op_wf; eauto.
    cbn in Hop. rewrite Hf in Hop. destruct o; auto.
Qed.

Lemma wfm_nil : forall S md, WFm S md [].
Proof. intros. repeat split; cbn; auto; intros ? []. Qed.

Lemma macc_wf : forall S t sub,
  match sub with VMsg _ _ => refl_wf S t sub = true | _ => True end ->
  WFm S (nth t S []) (fst (msg_macc_of sub)).
Proof.
  intros S t [s|fs u|k v] H; cbn; try apply wfm_nil. apply wf_unfold in H. auto.
Qed.

Lemma wf_val_sub : forall S t sub,
  refl_wf_val (refl_wf S) t sub = true ->
  match sub with VMsg _ _ => refl_wf S t sub = true | _ => True end.
Proof. intros S t [s|fs u|k v] H; cbn in *; auto. Qed.

Lemma val_wfarg : forall S fd (m : msg_macc),
  WFm S (nth (refl_kind_tid (f_kind fd)) S []) (fst m) ->
  wfarg S fd (refl_val_of m) = true.
Proof.
  intros S fd [fs u] H. unfold wfarg, refl_val_of. cbn [fst snd] in *.
  destruct (f_kind fd); auto; cbn [refl_kind_tid] in H; apply wf_unfold; auto.
Qed.

Lemma replace_nth_nonnil : forall l i v, l <> [] -> refl_replace_nth l i v <> [].
Proof. destruct l; intros; [congruence|]. destruct i; cbn; discriminate. Qed.

Lemma map_replace_nonnil : forall es k v, es <> [] -> refl_map_replace es k v <> [].
Proof.
  destruct es as [|e r]; intros; [congruence|]. cbn. destruct e; try discriminate.
  destruct (refl_scalar_eqb k k0); discriminate.
Qed.

Lemma wf_vals_elem : forall S fd vs sub,
  refl_kind_is_msg (f_kind fd) = true ->
  refl_wf_vals (refl_wf S) fd vs = true -> In sub vs ->
  refl_wf_val (refl_wf S) (refl_kind_tid (f_kind fd)) sub = true.
Proof.
  intros S fd vs sub K H Hin. unfold refl_wf_vals in H.
  destruct (f_kind fd); cbn [refl_kind_tid]; [discriminate| |];
    rewrite forallb_forall in H; auto.
Qed.

Lemma is_msg_not_list : forall fd, refl_is_msg fd = true ->
  refl_is_map fd = false /\ refl_is_list fd = false /\ refl_kind_is_msg (f_kind fd) = true.
Proof.
  intros fd H. unfold refl_is_msg in H. apply andb_true_iff in H. destruct H as [H H2].
  apply andb_true_iff in H. destruct H as [H0 H1].
  apply negb_true_iff in H1. apply negb_true_iff in H2. auto.
Qed.

Lemma wf_val_macc : forall S t sub,
  refl_wf_val (refl_wf S) t sub = true -> WFm S (nth t S []) (fst (msg_macc_of sub)).
Proof. intros. apply macc_wf, wf_val_sub. assumption. Qed.

(* The child a path step selects: its type, whether it is the read-only empty message, its
   contents, and how the fields of the parent are rebuilt around its new contents.
   None: the step panics. *)
Definition refl_child (S : schema) (w : bool) (tid : nat) (ro : bool) (st : pstep) (fs : fields)
    : option (nat * bool * msg_macc * (msg_macc -> fields)) :=
  let md := nth tid S [] in
  match msg_find_field md match st with PF f => f | PL f _ => f | PM f _ => f end with
  | None => None
  | Some fd =>
    let t := refl_kind_tid (f_kind fd) in
    match st with
    | PF f =>
      if negb (refl_is_msg fd) then None
      else match msg_fget fs f with
           | sub :: _ => Some (t, false, msg_macc_of sub, fun m' => msg_fset fs f [refl_val_of m'])
           | [] =>
             if ro && w then None
             else if w then Some (t, false, ([], []), fun m' => refl_store md fd fs [refl_val_of m'])
             else Some (t, true, ([], []), fun _ => fs)
           end
    | PL f i =>
      if ro && w then None else
      if negb (refl_is_list fd) then None else
      if negb (refl_kind_is_msg (f_kind fd)) then None else
      match nth_error (msg_fget fs f) (N.to_nat i) with
      | Some sub =>
        Some (t, false, msg_macc_of sub,
              fun m' => msg_fset fs f (refl_replace_nth (msg_fget fs f) (N.to_nat i) (refl_val_of m')))
      | None => None
      end
    | PM f k =>
      if ro && w then None else
      if negb (refl_is_map fd) then None else
      if negb (refl_kind_is_msg (f_kind fd)) then None else
      match refl_map_get (msg_fget fs f) k with
      | Some sub =>
        Some (t, false, msg_macc_of sub,
              fun m' => msg_fset fs f (refl_map_replace (msg_fget fs f) k (refl_val_of m')))
      | None => None
      end
    end
  end.

Lemma refl_focus_cons : forall S D w st rest tid ro op fs u,
  refl_focus S D w (st :: rest) tid ro op (fs, u) =
  match refl_child S w tid ro st fs with
  | None => ((fs, u), OPanic)
  | Some (t, ro', sub, put) =>
    let '(sub', out) := refl_focus S D w rest t ro' op sub in ((put sub', u), out)
  end.
Proof.
  intros. cbn [refl_focus]. unfold refl_child.
  destruct (msg_find_field (nth tid S []) _) as [fd|]; [|reflexivity].
  destruct st as [f|f i|f k].
  - destruct (negb (refl_is_msg fd)); [reflexivity|].
    destruct (msg_fget fs f); [|reflexivity].
    destruct (ro && w); [reflexivity|]. destruct w; reflexivity.
  - destruct (ro && w); [reflexivity|]. destruct (negb (refl_is_list fd)); [reflexivity|].
    destruct (negb (refl_kind_is_msg (f_kind fd))); [reflexivity|].
    destruct (nth_error (msg_fget fs f) (N.to_nat i)); reflexivity.
  - destruct (ro && w); [reflexivity|]. destruct (negb (refl_is_map fd)); [reflexivity|].
    destruct (negb (refl_kind_is_msg (f_kind fd))); [reflexivity|].
    destruct (refl_map_get (msg_fget fs f) k); reflexivity.
Qed.

Lemma child_wf : forall S w tid ro st fs t ro' sub put,
  WFm S (nth tid S []) fs -> refl_child S w tid ro st fs = Some (t, ro', sub, put) ->
  WFm S (nth t S []) (fst sub) /\
  forall m' : msg_macc, WFm S (nth t S []) (fst m') -> WFm S (nth tid S []) (put m').
Proof.
  intros S w tid ro st fs t ro' sub put H E. unfold refl_child in E. set (md := nth tid S []) in *.
  destruct (msg_find_field md _) as [fd|] eqn:Hf; [|discriminate].
  pose proof (wf_fget S md fs _ fd H Hf) as Hold.
  destruct st as [f|f i|f k].
  - destruct (refl_is_msg fd) eqn:Km; [|discriminate]. cbn [negb] in E.
    destruct (is_msg_not_list fd Km) as [_ [_ K]].
    destruct (msg_fget fs f) as [|v l] eqn:Eg.
    + destruct (ro && w); [discriminate|].
      destruct w; inversion E; subst t ro' sub put; (split; [apply wfm_nil|]); [|auto].
      intros m' Hm'. pose proof (find_field_num _ _ _ Hf) as Hn. subst f.
      apply (wfm_store S md fd fs [refl_val_of m']); auto. apply wfv_one, val_wfarg, Hm'.
    + inversion E; subst t ro' sub put. split.
      * apply wf_val_macc. apply (wf_vals_elem S fd (v :: l)); auto. left; auto.
      * intros m' Hm'. apply (wfm_fset_plain S md fd); auto; try discriminate.
        -- rewrite Eg. discriminate.
        -- apply wfv_one, val_wfarg, Hm'.
  - destruct (ro && w); [discriminate|]. destruct (refl_is_list fd); [|discriminate].
    destruct (refl_kind_is_msg (f_kind fd)) eqn:K; [|discriminate]. cbn [negb] in E.
    destruct (nth_error (msg_fget fs f) (N.to_nat i)) as [v|] eqn:En; [|discriminate].
    inversion E; subst t ro' sub put.
    pose proof (nth_error_In _ _ En) as Hin.
    assert (Hne : msg_fget fs f <> []) by (intros Z; rewrite Z in Hin; destruct Hin).
    split.
    + apply wf_val_macc. apply (wf_vals_elem S fd (msg_fget fs f)); auto.
    + intros m' Hm'. apply (wfm_fset_plain S md fd); auto.
      * apply replace_nth_nonnil; auto.
      * apply wfv_replace; auto. apply val_wfarg, Hm'.
  - destruct (ro && w); [discriminate|]. destruct (refl_is_map fd); [|discriminate].
    destruct (refl_kind_is_msg (f_kind fd)) eqn:K; [|discriminate]. cbn [negb] in E.
    destruct (refl_map_get (msg_fget fs f) k) as [v|] eqn:En; [|discriminate].
    inversion E; subst t ro' sub put.
    destruct (map_get_in _ _ _ En) as [k0 Hin].
    assert (Hne : msg_fget fs f <> []) by (intros Z; rewrite Z in Hin; destruct Hin).
    split.
    + pose proof (wf_vals_elem S fd _ _ K Hold Hin) as Hsub. cbn [refl_wf_val] in Hsub.
      apply macc_wf. destruct v; auto.
    + intros m' Hm'. apply (wfm_fset_plain S md fd); auto.
      * apply map_replace_nonnil; auto.
      * apply wfv_map_replace; auto. apply val_wfarg, Hm'.
Qed.

Lemma focus_wf : forall S D w path tid ro op fs u m' out,
  WFm S (nth tid S []) fs ->
  refl_focus S D w path tid ro op (fs, u) = (m', out) ->
  WFm S (nth tid S []) (fst m').
Proof.
  intros S D w. induction path as [|st rest IH]; intros tid ro op fs u m' out H E.
  - cbn [refl_focus] in E. eapply step_wf; eauto.
  - rewrite refl_focus_cons in E.
    destruct (refl_child S w tid ro st fs) as [[[[t ro'] [sf su]] put]|] eqn:Ec;
      [|inversion E; subst; auto].
    destruct (child_wf _ _ _ _ _ _ _ _ _ _ H Ec) as [Hsub Hput].
    destruct (refl_focus S D w rest t ro' op (sf, su)) as [sub' o'] eqn:Es.
    inversion E; subst m' out. apply Hput. eapply IH; eauto.
Qed.

Theorem apply_wf : forall S D w path op m,
  refl_wf S O m = true -> refl_wf S O (fst (refl_apply S D w path op m)) = true.
Proof.
  intros S D w path op m H. unfold refl_apply.
  destruct m as [s|fs u|k v]; try discriminate.
  cbn [msg_macc_of]. destruct (refl_focus S D w path O false op (fs, u)) as [m' out] eqn:E.
  cbn [fst]. destruct m' as [fs' u']. unfold refl_val_of. cbn [fst snd].
  apply wf_unfold. apply wf_unfold in H. apply focus_wf in E; auto.
Qed.

Theorem run_wf : forall S D steps m,
  refl_wf S O m = true ->
  refl_wf S O (fst (refl_run S D m steps)) = true /\
  Forall (fun om => refl_wf S O (snd om) = true) (snd (refl_run S D m steps)).
Proof.
  intros S D. induction steps as [|st r IH]; intros m H; cbn [refl_run].
  - cbn. auto.
  - pose proof (apply_wf S D (rs_w st) (rs_path st) (rs_op st) m H) as H1.
    destruct (refl_apply S D (rs_w st) (rs_path st) (rs_op st) m) as [m1 out]. cbn [fst] in H1.
    destruct (IH m1 H1) as [H2 H3].
    destruct (refl_run S D m1 r) as [m2 outs]. cbn [fst snd] in *. split; auto.
Qed.

(* Navigation does not depend on the operation: either it fails (panic) for every operation, or
   every operation is computed by [refl_step] on one well-formed message level. *)
Lemma focus_read : forall S D w path tid ro fs u,
  WFm S (nth tid S []) fs ->
  (forall op, snd (refl_focus S D w path tid ro op (fs, u)) = OPanic) \/
  exists tid' ro' fs' u', WFm S (nth tid' S []) fs' /\
    forall op, snd (refl_focus S D w path tid ro op (fs, u)) = snd (refl_step S D tid' ro' op (fs', u')).
Proof.
  intros S D w. induction path as [|st rest IH]; intros tid ro fs u H.
  - right. exists tid, ro, fs, u. split; auto.
  - destruct (refl_child S w tid ro st fs) as [[[[t ro'] [sf su]] put]|] eqn:Ec.
    + (* the result is that of the child, whatever is rebuilt around it *)
      assert (Hsnd : forall op, snd (refl_focus S D w (st :: rest) tid ro op (fs, u)) =
                                snd (refl_focus S D w rest t ro' op (sf, su))).
      { intros op. rewrite refl_focus_cons, Ec. destruct (refl_focus S D w rest t ro' op (sf, su)). reflexivity. }
      destruct (child_wf _ _ _ _ _ _ _ _ _ _ H Ec) as [Hsub _].
      destruct (IH t ro' sf su Hsub) as [A|[t' [r' [f' [u' [A B]]]]]].
      * left. intros op. rewrite Hsnd. apply A.
      * right. exists t', r', f', u'. split; auto. intros op. rewrite Hsnd. apply B.
    + left. intros op. rewrite refl_focus_cons, Ec. reflexivity.
Qed.

Lemma apply_snd : forall S D w path op fs u,
  snd (refl_apply S D w path op (VMsg fs u)) = snd (refl_focus S D w path O false op (fs, u)).
Proof.
  intros. unfold refl_apply. cbn [msg_macc_of].
  destruct (refl_focus S D w path O false op (fs, u)). reflexivity.
Qed.

Lemma step_range : forall S D tid ro fs u, snd (refl_step S D tid ro RRange (fs, u)) = OState fs u.
Proof. intros. reflexivity. Qed.

Lemma step_has : forall S D tid ro fs u k,
  snd (refl_step S D tid ro (RHas k) (fs, u)) =
  match msg_find_field (nth tid S []) k with Some _ => OBool (refl_has fs k) | None => OPanic end.
Proof. intros. unfold refl_step. cbn. destruct (msg_find_field _ k); reflexivity. Qed.

Lemma wfm_declared : forall S md fs k, WFm S md fs -> In k (map fst fs) -> exists fd, msg_find_field md k = Some fd.
Proof.
  intros S md fs k [[_ Ho] _] Hin. apply in_map_iff in Hin. destruct Hin as [p [E Hp]].
  destruct (Ho p Hp) as [fd [Hf _]]. subst k. eauto.
Qed.

(* Range visits exactly the populated fields, each once -- at every path, in every reachable state *)
Theorem range_visits_populated_once : forall S D w path m fs u,
  refl_wf S O m = true ->
  snd (refl_apply S D w path RRange m) = OState fs u ->
  NoDup (map fst fs) /\
  forall k, In k (map fst fs) <-> snd (refl_apply S D w path (RHas k) m) = OBool true.
Proof.
  intros S D w path m fs u H E. destruct m as [s|fs0 u0|k v]; try discriminate.
  apply wf_unfold in H. rewrite apply_snd in E.
  destruct (focus_read S D w path O false fs0 u0 H) as [A|[t' [r' [f' [u' [A B]]]]]].
  - rewrite A in E. discriminate.
  - rewrite B, step_range in E. inversion E; subst f' u'. destruct A as [[Hs Ho] Hc]. split.
    + eapply ks_nodup; eauto.
    + intros k. rewrite apply_snd, B, step_has. split.
      * intros Hin. destruct (wfm_declared S _ fs k (conj (conj Hs Ho) Hc) Hin) as [fd Hf]. rewrite Hf.
        f_equal. eapply ks_has_iff; eauto.
      * destruct (msg_find_field _ k); [|discriminate]. intros Hb. inversion Hb.
        eapply ks_has_iff; eauto.
Qed.

(* oneofs: at most one populated member, and WhichOneof names it *)
Theorem oneof_exclusive : forall S md fs k1 k2 fd1 fd2 i,
  WFm S md fs ->
  msg_find_field md k1 = Some fd1 -> msg_find_field md k2 = Some fd2 ->
  f_oneof fd1 = Some i -> f_oneof fd2 = Some i ->
  refl_has fs k1 = true -> refl_has fs k2 = true -> k1 = k2.
Proof.
  intros S md fs k1 k2 fd1 fd2 i [[Hs Ho] _] H1 H2 O1 O2 P1 P2.
  pose proof (fget_in fs k1 (fget_of_has fs k1 P1)) as I1.
  pose proof (fget_in fs k2 (fget_of_has fs k2 P2)) as I2.
  destruct (Ho _ I1) as [fd [Hf Hq]]. cbn [fst] in *. rewrite H1 in Hf. inversion Hf; subst fd.
  symmetry. apply (Hq i O1 _ I2). cbn [fst]. unfold refl_in_oneof. rewrite H2, O2. apply N.eqb_refl.
Qed.

Lemma find_some_in : forall md k fd, msg_find_field md k = Some fd -> In fd md.
Proof.
  induction md as [|fd0 r IH]; intros k fd H; cbn [msg_find_field] in H; [discriminate|].
  destruct (f_num fd0 =? k); [inversion H; left; auto | right; eauto].
Qed.

Lemma find_in : forall md fd, NoDup (map f_num md) -> In fd md -> msg_find_field md (f_num fd) = Some fd.
Proof.
  induction md as [|fd0 r IH]; intros fd Hnd Hin; [destruct Hin|].
  cbn [msg_find_field]. cbn in Hnd. inversion Hnd; subst. destruct Hin as [->|Hin].
  - rewrite N.eqb_refl. auto.
  - destruct (N.eqb_spec (f_num fd0) (f_num fd)) as [E|E]; auto.
    exfalso. apply H1. rewrite E. apply in_map. auto.
Qed.

Lemma which_first : forall md o fs,
  (exists fd, In fd md /\ f_oneof fd = Some o /\ refl_has fs (f_num fd) = true) ->
  exists fd', In fd' md /\ f_oneof fd' = Some o /\ refl_has fs (f_num fd') = true /\
              refl_which md o fs = f_num fd'.
Proof.
  induction md as [|fd0 r IH]; intros o fs [fd [Hin [Ho Hh]]]; [destruct Hin|].
  cbn [refl_which].
  destruct (match f_oneof fd0 with Some j => j =? o | None => false end && refl_has fs (f_num fd0)) eqn:C.
  - apply andb_true_iff in C. destruct C as [C1 C2]. exists fd0. repeat split; auto; [left; auto|].
    destruct (f_oneof fd0); [|discriminate]. apply N.eqb_eq in C1. subst; auto.
  - destruct Hin as [->|Hin].
    + rewrite Ho, N.eqb_refl, Hh in C. discriminate.
    + destruct (IH o fs) as [fd' [A [B [C' E]]]]; [exists fd; auto|].
      exists fd'. repeat split; auto. right; auto.
Qed.

Theorem which_correct : forall S md fs k fd o,
  NoDup (map f_num md) -> WFm S md fs ->
  msg_find_field md k = Some fd -> f_oneof fd = Some o -> refl_has fs k = true ->
  refl_which md o fs = k.
Proof.
  intros S md fs k fd o Hnd H Hf Ho Hh.
  pose proof (find_field_num _ _ _ Hf) as Hn. pose proof (find_some_in _ _ _ Hf) as Hin.
  destruct (which_first md o fs) as [fd' [A [B [C E]]]].
  { exists fd. subst k. auto. }
  rewrite E. eapply oneof_exclusive; eauto. apply find_in; auto.
Qed.

(* Get of an unpopulated field: the default, or an empty read-only (invalid) composite *)
Theorem get_unpopulated_is_default : forall D tid fd fs,
  refl_has fs (f_num fd) = false ->
  refl_get D tid fd fs =
    if refl_is_map fd || refl_is_list fd then OVal false []
    else match f_kind fd with
         | KS sk => OVal true [VS (refl_default D tid (f_num fd) sk)]
         | _ => OVal false [msg_empty]
         end.
Proof.
  intros D tid fd fs H. unfold refl_get. rewrite (fget_of_has_false _ _ H). reflexivity.
Qed.

(* writes through the read-only empty list / map panic and leave the message as it is *)
Theorem readonly_empty_list : forall S D tid ro fs u f o,
  refl_has fs f = false ->
  match o with LSet _ _ | LAppend _ | LTruncate _ | LAppendMutable => True | _ => False end ->
  refl_step S D tid ro (RList f true o) (fs, u) = ((fs, u), OPanic).
Proof.
  intros S D tid ro fs u f o Hh Ho. unfold refl_step.
  destruct (refl_op_wf _ _ _); cbn [negb]; auto.
  destruct (msg_find_field (nth tid S []) f) as [fd|] eqn:Hf; auto.
  pose proof (find_field_num _ _ _ Hf) as Hn. subst f.
  destruct (negb (refl_is_list fd)); auto.
  rewrite andb_false_r. rewrite Hh. cbn [negb andb].
  unfold refl_list_op, refl_list_edit. rewrite (fget_of_has_false _ _ Hh).
  destruct o; try contradiction; cbn; auto.
  destruct i; reflexivity.
Qed.

Theorem readonly_empty_map : forall S D tid ro fs u f o,
  refl_has fs f = false ->
  match o with MSet _ _ | MMutable _ => True | _ => False end ->
  refl_step S D tid ro (RMap f true o) (fs, u) = ((fs, u), OPanic).
Proof.
  intros S D tid ro fs u f o Hh Ho. unfold refl_step.
  destruct (refl_op_wf _ _ _); cbn [negb]; auto.
  destruct (msg_find_field (nth tid S []) f) as [fd|] eqn:Hf; auto.
  pose proof (find_field_num _ _ _ Hf) as Hn. subst f.
  destruct (negb (refl_is_map fd)); auto.
  rewrite andb_false_r. rewrite Hh. cbn [negb andb].
  unfold refl_map_op, refl_map_edit. destruct o; try contradiction; cbn; auto.
Qed.

(* the read-only empty message: every write panics, nothing changes *)
Theorem readonly_empty_message_step : forall S D tid op fs u,
  match op with RSet _ _ | RClear _ | RMutable _ | RSetUnknown _ => True | _ => False end ->
  refl_step S D tid true op (fs, u) = ((fs, u), OPanic).
Proof.
  intros S D tid op fs u Ho. unfold refl_step.
  destruct (refl_op_wf _ _ _); cbn [negb]; auto.
  destruct op; try contradiction; cbn; auto; destruct (msg_find_field _ _); auto.
Qed.

(* reading through an unpopulated message field (navigation with Get) never changes the parent *)
Theorem readonly_empty_message : forall S D rest tid ro op fs u f,
  refl_has fs f = false ->
  fst (refl_focus S D false (PF f :: rest) tid ro op (fs, u)) = (fs, u).
Proof.
  intros S D rest tid ro op fs u f Hh. cbn [refl_focus].
  destruct (msg_find_field (nth tid S []) f) as [fd|]; auto.
  destruct (negb (refl_is_msg fd)); auto.
  rewrite (fget_of_has_false _ _ Hh), andb_false_r.
  destruct (refl_focus S D false rest _ true op ([], [])). reflexivity.
Qed.

Theorem truncate_out_of_bounds : forall D tid fd lro vs n,
  N.of_nat (length vs) < n -> refl_list_edit D tid fd lro (LTruncate n) vs = (None, OPanic).
Proof.
  intros D tid fd lro vs n H. unfold refl_list_edit. destruct lro; auto.
  destruct (N.leb_spec n (N.of_nat (length vs))); auto. lia.
Qed.
