(* len (enc_varint v) = size_varint v: the tie between protowire.SizeVarint and AppendVarint that the size-cache proofs need. *)
From Coq Require Import NArith Lia.
From PB Require Import Wire.WireModel Wire.VarintP Msg.SizeCacheModel.
Open Scope N_scope.

Lemma size_range v k : 0 < k -> 2^(k-1) <= v < 2^k -> N.size v = k.
Proof.
  intros Hk [Hlo Hhi].
  assert (v <> 0) by (pose proof (N.pow_nonzero 2 (k-1)); lia).
  rewrite N.size_log2 by assumption.
  assert (N.log2 v = k - 1); [|lia].
  apply N.log2_unique; [lia|]. replace (N.succ (k-1)) with k by lia. lia.
Qed.

Lemma size_varint_len v : v < 2^64 -> len (enc_varint v) = size_varint v.
Proof. apply enc_varint_length. Qed.
