(* MsgDecP — the equations through which proofs use the decoder of Msg/MsgDec.v:
     msg_route, msg_step_route   which of its seven behaviours [msg_step] takes on an occurrence
                                 (num, typ), and what it does in each
     msg_entry_put, msg_dec_entry_unfold, msg_dec_entry_tagged   the same for the loop over a map entry
     msg_dm_unfold, msg_dm_tagged   one turn of the tag loop, on any input and on input that starts
                                 with [enc_tag num typ]
     msg_run, msg_decode_into_run   the loop with the fuel every caller passes, and [msg_decode_into]
                                 in terms of it (Msg/MsgRunP.v shows that the fuel does not matter)
   with [msg_rejects_route], what more input after a field changes ([msg_tagraw_ext], [msg_unknown_ext]),
   and the elementary facts about [msg_find_field]. *)
From Coq Require Import List Arith NArith ZArith Lia Bool.
From PB Require Import Base.PBytes Wire.WireModel Wire.WireGrammar Wire.PrimP Wire.ScanP.
From PB Require Import Msg.MsgSchema Msg.MsgValue Msg.MsgUtf8 Msg.MsgDec Msg.MsgValid.
Import ListNotations.
Open Scope N_scope.

Lemma msg_max_num_eq : msg_max_num = 536870911. Proof. reflexivity. Qed.

Lemma msg_num_ok num : 1 <= num -> num <= msg_max_num -> num_ok num.
Proof. rewrite msg_max_num_eq. unfold num_ok. lia. Qed.

Lemma msg_find_field_num md n fd : msg_find_field md n = Some fd -> f_num fd = n.
Proof.
  induction md as [|f r IH]; cbn [msg_find_field]; [discriminate|].
  destruct (f_num f =? n) eqn:E; [intros H; inversion H; subst; lia|exact IH].
Qed.

Lemma msg_find_field_in md n fd : msg_find_field md n = Some fd -> In fd md.
Proof.
  induction md as [|f r IH]; cbn [msg_find_field]; [discriminate|].
  destruct (f_num f =? n); [intros H; inversion H; subst; left; reflexivity|intros H; right; auto].
Qed.

Lemma msg_nth_error_nth (S : schema) tid md : nth_error S tid = Some md -> nth tid S [] = md.
Proof. intros H. apply nth_error_nth with (d := []) in H. exact H. Qed.

(* What [msg_step] does with an occurrence (num, typ) depends on the field descriptor and the wire
   type only; the five cardinalities that are not maps differ in [card_repeated] alone. *)
Inductive msg_route_t :=
| RUnknown                                              (* no such field, or a wire type it does not take *)
| RScalar (fd : fdesc) (sk : skind)                     (* one value of the kind's own wire type *)
| RPacked (fd : fdesc) (sk : skind)
| RMsg (fd : fdesc) (tid : nat)
| RGrp (fd : fdesc) (tid : nat)
| RMap (fd : fdesc) (kk : skind) (kutf8 : bool) (vdef : Z)   (* a map entry (typ = 2) *)
| RMapOther.                                            (* a map field with another wire type *)

Definition msg_route_plain (fd : fdesc) (typ : N) : msg_route_t :=
  match f_kind fd with
  | KS sk => if typ =? sk_wt sk then RScalar fd sk
             else if (typ =? 2) && msg_packable sk && card_repeated (f_card fd) then RPacked fd sk
             else RUnknown
  | KMsg tid => if typ =? 2 then RMsg fd tid else RUnknown
  | KGrp tid => if typ =? 3 then RGrp fd tid else RUnknown
  end.

Definition msg_route (md : mdesc) (num typ : N) : msg_route_t :=
  match msg_find_field md num with
  | None => RUnknown
  | Some fd =>
    match f_card fd with
    | CMap kk kutf8 vdef => if typ =? 2 then RMap fd kk kutf8 vdef else RMapOther
    | _ => msg_route_plain fd typ
    end
  end.

(* the decoder of message-typed map values that [msg_step] hands to [msg_dec_entry] *)
Definition msg_entry_dm (dm2 : msg_dec_t) (vk : kind) (p : list byte) (v : value) : dres value :=
  match vk with
  | KMsg tid => match msg_whole dm2 tid p (msg_macc_of v) with
                | DOk m => DOk (VMsg (fst m) (snd m)) | DErr e => DErr e end
  | _ => DErr DSchema
  end.

Lemma msg_step_route slow md dsub dsub2 tagraw num typ r acc :
  msg_step slow md dsub dsub2 tagraw num typ r acc =
  match msg_route md num typ with
  | RUnknown => msg_unknown tagraw num typ r acc
  | RScalar fd sk =>
    match parse_val 0 num typ r with
    | Err _ => DErr DParse
    | Ok (w, r') =>
      match msg_dec_scalar sk (msg_field_utf8 slow fd) w with
      | None => msg_unknown tagraw num typ r acc
      | Some (DErr e) => DErr e
      | Some (DOk s) =>
        DOk ((if card_repeated (f_card fd) then msg_append_field fd [VS s] (fst acc)
              else msg_set_field md fd (VS s) (fst acc), snd acc), r')
      end
    end
  | RPacked fd sk =>
    match dec_bytes r with
    | Err _ => DErr DParse
    | Ok (payload, r') =>
      match msg_dec_packed (x00 :: payload) sk payload [] with
      | DErr e => DErr e
      | DOk vs => DOk ((msg_append_field fd vs (fst acc), snd acc), r')
      end
    end
  | RMsg fd tid =>
    match dec_bytes r with
    | Err _ => DErr DParse
    | Ok (payload, r') =>
      match msg_whole dsub tid payload (msg_old_sub fd (fst acc)) with
      | DErr e => DErr e
      | DOk m => DOk ((msg_store_sub md fd m (fst acc), snd acc), r')
      end
    end
  | RGrp fd tid =>
    if slow then
      match consume_group num r with
      | Err _ => DErr DParse
      | Ok (None, _) => DErr DFuel
      | Ok (Some content, n) =>
        match msg_whole dsub tid content (msg_old_sub fd (fst acc)) with
        | DErr e => DErr e
        | DOk m => DOk ((msg_store_sub md fd m (fst acc), snd acc), skipn (N.to_nat n) r)
        end
      end
    else
      match dsub tid num (x00 :: r) r (msg_old_sub fd (fst acc)) with
      | DErr e => DErr e
      | DOk (m, r') => DOk ((msg_store_sub md fd m (fst acc), snd acc), r')
      end
  | RMap fd kk kutf8 vdef =>
    match dsub2 with
    | None => DErr DDepth
    | Some dm2 =>
      match dec_bytes r with
      | Err _ => DErr DParse
      | Ok (payload, r') =>
        match msg_dec_entry (x00 :: payload) kk kutf8 (f_kind fd) (f_utf8 fd) (msg_entry_dm dm2 (f_kind fd))
                            payload (sk_zero kk) (msg_entry_default (f_kind fd) vdef) with
        | DErr e => DErr e
        | DOk (key, v) =>
          DOk ((msg_fset (fst acc) num (msg_map_put (msg_fget (fst acc) num) key v), snd acc), r')
        end
      end
    end
  | RMapOther => match dsub2 with None => DErr DDepth | Some _ => msg_unknown tagraw num typ r acc end
  end.
Proof.
  unfold msg_step, msg_route, msg_route_plain.
  destruct (msg_find_field md num) as [fd|]; [|reflexivity].
  destruct (f_card fd) as [| | | | |kk kutf8 vdef] eqn:Ec.
  6: { (* a map field *) destruct (typ =? 2); destruct dsub2; reflexivity. }
  all: destruct (f_kind fd) as [sk|tid|tid];
    [ destruct (typ =? sk_wt sk); [cbv beta iota; rewrite Ec; reflexivity|];
      destruct ((typ =? 2) && msg_packable sk && _); reflexivity
    | destruct (typ =? 2); reflexivity
    | destruct (typ =? 3); reflexivity ].
Qed.

Lemma msg_route_field md num typ :
  let field_is fd k := msg_find_field md num = Some fd /\ f_kind fd = k in
  match msg_route md num typ with
  | RUnknown | RMapOther => True
  | RScalar fd sk => field_is fd (KS sk) /\ typ = sk_wt sk
  | RPacked fd sk => field_is fd (KS sk) /\ typ = 2 /\ msg_packable sk = true /\ card_repeated (f_card fd) = true
  | RMsg fd tid => field_is fd (KMsg tid) /\ typ = 2
  | RGrp fd tid => field_is fd (KGrp tid) /\ typ = 3
  | RMap fd kk kutf8 vdef => msg_find_field md num = Some fd /\ f_card fd = CMap kk kutf8 vdef /\ typ = 2
  end.
Proof.
  unfold msg_route, msg_route_plain. cbv zeta.
  destruct (msg_find_field md num) as [fd|]; [|exact I].
  destruct (f_card fd) as [| | | | |kk kutf8 vdef] eqn:Ec.
  6: { (* a map field *) destruct (N.eqb_spec typ 2); [cbv beta iota; auto|exact I]. }
  all: destruct (f_kind fd) as [sk|tid|tid] eqn:Ek;
    [ destruct (N.eqb_spec typ (sk_wt sk)); [cbv beta iota; auto|];
      destruct ((typ =? 2) && msg_packable sk && _) eqn:E2; [|exact I];
      apply andb_prop in E2; destruct E2 as [E2 E3]; apply andb_prop in E2; destruct E2 as [E2 E4];
      apply N.eqb_eq in E2; cbv beta iota; rewrite Ec; auto
    | destruct (N.eqb_spec typ 2); [cbv beta iota; auto|exact I]
    | destruct (N.eqb_spec typ 3); [cbv beta iota; auto|exact I] ].
Qed.

Lemma msg_route_not_map md num typ fd :
  msg_find_field md num = Some fd -> (forall kk ku vd, f_card fd <> CMap kk ku vd) ->
  msg_route md num typ = msg_route_plain fd typ.
Proof.
  intros Hf Hnm. unfold msg_route. rewrite Hf.
  destruct (f_card fd) eqn:Ec; try reflexivity. exfalso. eapply Hnm. reflexivity.
Qed.

Lemma msg_route_plain_scalar fd sk : f_kind fd = KS sk -> msg_route_plain fd (sk_wt sk) = RScalar fd sk.
Proof. intros Hk. unfold msg_route_plain. rewrite Hk, N.eqb_refl. reflexivity. Qed.

Lemma msg_route_plain_packed fd sk :
  f_kind fd = KS sk -> msg_packable sk = true -> card_repeated (f_card fd) = true ->
  msg_route_plain fd 2 = RPacked fd sk.
Proof.
  intros Hk Hp Hr. unfold msg_route_plain. rewrite Hk, Hp, Hr.
  unfold msg_packable in Hp. apply negb_true_iff in Hp. rewrite N.eqb_sym, Hp. reflexivity.
Qed.

Lemma msg_route_plain_msg fd tid : f_kind fd = KMsg tid -> msg_route_plain fd 2 = RMsg fd tid.
Proof. intros Hk. unfold msg_route_plain. rewrite Hk. reflexivity. Qed.

Lemma msg_route_plain_grp fd tid : f_kind fd = KGrp tid -> msg_route_plain fd 3 = RGrp fd tid.
Proof. intros Hk. unfold msg_route_plain. rewrite Hk. reflexivity. Qed.

Lemma msg_route_map md num fd kk kutf8 vdef :
  msg_find_field md num = Some fd -> f_card fd = CMap kk kutf8 vdef -> msg_route md num 2 = RMap fd kk kutf8 vdef.
Proof. intros Hf Hc. unfold msg_route. rewrite Hf, Hc. reflexivity. Qed.

Lemma msg_rejects_route md has2 num typ :
  msg_rejects md has2 num typ =
  match msg_route md num typ with RUnknown => true | RMapOther => has2 | _ => false end.
Proof.
  unfold msg_rejects, msg_route, msg_route_plain.
  destruct (msg_find_field md num) as [fd|]; [|reflexivity].
  destruct (f_card fd) as [| | | | |kk kutf8 vdef].
  6: { (* a map field *) destruct (typ =? 2); [apply andb_false_r|apply andb_true_r]. }
  all: destruct (f_kind fd) as [sk|tid|tid];
    [ destruct (typ =? sk_wt sk); [reflexivity|]; destruct ((typ =? 2) && msg_packable sk && _); reflexivity
    | destruct (typ =? 2); reflexivity
    | destruct (typ =? 3); reflexivity ].
Qed.

(* the bytes a parser consumed, cut out of the input by lengths, are the same when more input follows *)
Lemma msg_firstn_consumed_ext (a r y : list byte) :
  (length r <= length a)%nat ->
  firstn (length (a ++ y) - length (r ++ y)) (a ++ y) = firstn (length a - length r) a.
Proof.
  intros H. rewrite !app_length, firstn_app.
  replace (length a + length y - (length r + length y))%nat with (length a - length r)%nat by lia.
  replace (length a - length r - length a)%nat with 0%nat by lia. apply app_nil_r.
Qed.

Lemma msg_tagraw_ext (slow : bool) bs y num typ r :
  dec_tag bs = Ok (num, typ, r) ->
  (if slow then firstn (length (bs ++ y) - length (r ++ y)) (bs ++ y) else enc_tag num typ) =
  (if slow then firstn (length bs - length r) bs else enc_tag num typ).
Proof.
  intros H. destruct slow; [|reflexivity]. apply msg_firstn_consumed_ext.
  apply dec_tag_len in H. lia.
Qed.

Lemma msg_unknown_ext tagraw num typ r acc acc' r' y :
  msg_unknown tagraw num typ r acc = DOk (acc', r') ->
  msg_unknown tagraw num typ (r ++ y) acc = DOk (acc', r' ++ y).
Proof.
  unfold msg_unknown. destruct (parse_val default_dep num typ r) as [[w rr]|e] eqn:E; [|discriminate].
  rewrite (parse_val_ext_ok _ _ _ _ y _ _ E). intros H. inversion H; subst.
  rewrite (msg_firstn_consumed_ext r r' y (parse_val_len _ _ _ _ _ _ E)). reflexivity.
Qed.

Lemma msg_sk_wt_lt8 sk : sk_wt sk < 8.
Proof. destruct sk; reflexivity. Qed.

Section Entry.
  Variables (kk : skind) (kutf8 : bool) (vk : kind) (vutf8 : bool).
  Variable dmf : list byte -> value -> dres value.

  (* what one field (num, w) of an entry does to the key and the value read so far *)
  Definition msg_entry_put (num : N) (w : wval) (key : scalar) (val : value) : dres (scalar * value) :=
    if num =? 1 then
      match msg_dec_scalar kk kutf8 w with
      | Some (DOk s) => DOk (s, val)
      | Some (DErr e) => DErr e
      | None => DOk (key, val)
      end
    else if num =? 2 then
      match vk with
      | KS sk =>
        match msg_dec_scalar sk vutf8 w with
        | Some (DOk s) => DOk (key, VS s)
        | Some (DErr e) => DErr e
        | None => DOk (key, val)
        end
      | KMsg _ =>
        match w with
        | WLen payload => match dmf payload val with DOk v' => DOk (key, v') | DErr e => DErr e end
        | _ => DOk (key, val)
        end
      | KGrp _ => DOk (key, val)
      end
    else DOk (key, val).

  Lemma msg_dec_entry_unfold x g bs key val :
    msg_dec_entry (x :: g) kk kutf8 vk vutf8 dmf bs key val =
    match bs with
    | [] => DOk (key, val)
    | _ =>
      match dec_tag bs with
      | Err _ => DErr DParse
      | Ok (num, typ, r) =>
        if msg_max_num <? num then DErr DParse else
        match parse_val default_dep num typ r with
        | Err _ => DErr DParse
        | Ok (w, r') =>
          match msg_entry_put num w key val with
          | DOk (key', val') => msg_dec_entry g kk kutf8 vk vutf8 dmf r' key' val'
          | DErr e => DErr e
          end
        end
      end
    end.
  Proof.
    cbn [msg_dec_entry]. unfold msg_entry_put. destruct bs as [|b0 t0]; [reflexivity|].
    destruct (dec_tag (b0 :: t0)) as [[[num typ] r]|]; [|reflexivity].
    destruct (msg_max_num <? num); [reflexivity|].
    destruct (parse_val default_dep num typ r) as [[w r']|]; [|reflexivity].
    destruct (num =? 1); [destruct (msg_dec_scalar kk kutf8 w) as [[|]|]; reflexivity|].
    destruct (num =? 2); [|reflexivity].
    destruct vk as [sk| |]; [destruct (msg_dec_scalar sk vutf8 w) as [[|]|]; reflexivity| |reflexivity].
    destruct w; try reflexivity. destruct (dmf b val); reflexivity.
  Qed.

  Lemma msg_dec_entry_tagged x g num typ r key val :
    1 <= num -> num <= msg_max_num -> typ < 8 ->
    msg_dec_entry (x :: g) kk kutf8 vk vutf8 dmf (enc_tag num typ ++ r) key val =
    match parse_val default_dep num typ r with
    | Err _ => DErr DParse
    | Ok (w, r') =>
      match msg_entry_put num w key val with
      | DOk (key', val') => msg_dec_entry g kk kutf8 vk vutf8 dmf r' key' val'
      | DErr e => DErr e
      end
    end.
  Proof.
    intros Hlo Hhi Ht. rewrite msg_dec_entry_unfold.
    pose proof (msg_num_ok num Hlo Hhi) as Hn.
    pose proof (enc_tag_nonempty num typ) as Hne.
    destruct (enc_tag num typ ++ r) as [|b0 t0] eqn:E.
    { apply (f_equal (@length byte)) in E. rewrite app_length in E. cbn [length] in E. lia. }
    rewrite <- E, (dec_tag_enc num typ r Hn Ht).
    replace (msg_max_num <? num) with false by (symmetry; apply N.ltb_ge; exact Hhi).
    reflexivity.
  Qed.
End Entry.

Section Loop.
  Variable slow : bool.
  Variable S : schema.
  Notation dm := (msg_decode_msg slow S).

  (* The decoder two levels down, which reads the values of map entries: what [msg_decode_msg]
     passes to [msg_step] as [dsub2].  MsgRoundP.msg_dsub2 is the same function; statements of
     Props/C09 name that one. *)
  Definition msg_sub2 (d : nat) : option msg_dec_t :=
    match d with O => None | Datatypes.S d1 => Some (dm d1) end.

  (* the tag loop as every caller runs it: the fuel is one longer than the input *)
  Definition msg_run (d tid : nat) (grp : N) (bs : list byte) (acc : msg_macc) : dres (msg_macc * list byte) :=
    dm d tid grp (x00 :: bs) bs acc.

  Lemma msg_decode_into_run limit tid bs old :
    msg_decode_into slow S limit tid bs old =
    match msg_run limit tid 0 bs (msg_macc_of old) with
    | DOk (m, _) => DOk (VMsg (fst m) (snd m))
    | DErr e => DErr e
    end.
  Proof. reflexivity. Qed.

  Lemma msg_decode_into_ok limit tid bs old m r :
    msg_run limit tid 0 bs (msg_macc_of old) = DOk (m, r) ->
    msg_decode_into slow S limit tid bs old = DOk (VMsg (fst m) (snd m)).
  Proof. intros E. rewrite msg_decode_into_run, E. reflexivity. Qed.

  Lemma msg_decode_into_inv limit tid bs old v :
    msg_decode_into slow S limit tid bs old = DOk v ->
    exists m r, msg_run limit tid 0 bs (msg_macc_of old) = DOk (m, r) /\ v = VMsg (fst m) (snd m).
  Proof.
    rewrite msg_decode_into_run. destruct (msg_run limit tid 0 bs (msg_macc_of old)) as [[m r]|e]; [|discriminate].
    intros H. inversion H. exists m, r. split; reflexivity.
  Qed.

  Lemma msg_decode_into_err limit tid bs old e :
    msg_decode_into slow S limit tid bs old = DErr e -> msg_run limit tid 0 bs (msg_macc_of old) = DErr e.
  Proof.
    rewrite msg_decode_into_run. destruct (msg_run limit tid 0 bs (msg_macc_of old)) as [[m r]|e']; [discriminate|].
    intros H. inversion H. reflexivity.
  Qed.

  Lemma msg_decode_into_whole limit tid bs old :
    msg_decode_into slow S limit tid bs old =
    match msg_whole (dm limit) tid bs (msg_macc_of old) with
    | DOk m => DOk (VMsg (fst m) (snd m))
    | DErr e => DErr e
    end.
  Proof.
    unfold msg_decode_into, msg_whole.
    destruct (dm limit tid 0 (x00 :: bs) bs (msg_macc_of old)) as [[m r]|e]; reflexivity.
  Qed.

  Lemma msg_dm_O tid grp g bs acc : dm O tid grp g bs acc = DErr DDepth.
  Proof. reflexivity. Qed.

  Lemma msg_dm_none d tid grp g bs acc :
    nth_error S tid = None -> dm (Datatypes.S d) tid grp g bs acc = DErr DSchema.
  Proof. intros H. cbn [msg_decode_msg]. rewrite H. reflexivity. Qed.

  Lemma msg_dm_nil d tid grp bs acc md :
    nth_error S tid = Some md -> dm (Datatypes.S d) tid grp [] bs acc = DErr DFuel.
  Proof. intros H. cbn [msg_decode_msg]. rewrite H. reflexivity. Qed.

  Lemma msg_dm_unfold d tid grp md x g bs acc :
    nth_error S tid = Some md ->
    dm (Datatypes.S d) tid grp (x :: g) bs acc =
    match bs with
    | [] => if grp =? 0 then DOk (acc, []) else DErr DParse
    | _ =>
      match dec_tag bs with
      | Err _ => DErr DParse
      | Ok (num, typ, r) =>
        if msg_max_num <? num then DErr DParse
        else if (typ =? 4) && negb slow then (if num =? grp then DOk (acc, r) else DErr DParse)
        else
          let tagraw := if slow then firstn (length bs - length r) bs else enc_tag num typ in
          match msg_step slow md (dm d) (msg_sub2 d) tagraw num typ r acc with
          | DErr e => DErr e
          | DOk (acc', r') => dm (Datatypes.S d) tid grp g r' acc'
          end
      end
    end.
  Proof. intros H. cbn [msg_decode_msg]. rewrite H. reflexivity. Qed.

  (* input that starts with a minimal tag: both paths keep that tag as the raw tag *)
  Lemma msg_dm_tagged d tid grp md x g num typ r acc :
    nth_error S tid = Some md -> 1 <= num -> num <= msg_max_num -> typ < 8 ->
    dm (Datatypes.S d) tid grp (x :: g) (enc_tag num typ ++ r) acc =
    if (typ =? 4) && negb slow then (if num =? grp then DOk (acc, r) else DErr DParse)
    else match msg_step slow md (dm d) (msg_sub2 d) (enc_tag num typ) num typ r acc with
         | DErr e => DErr e
         | DOk (acc', r') => dm (Datatypes.S d) tid grp g r' acc'
         end.
  Proof.
    intros H Hlo Hhi Ht. rewrite (msg_dm_unfold _ _ _ _ _ _ _ _ H).
    pose proof (msg_num_ok num Hlo Hhi) as Hn.
    pose proof (enc_tag_nonempty num typ) as Hne.
    destruct (enc_tag num typ ++ r) as [|b0 t0] eqn:E.
    { apply (f_equal (@length byte)) in E. rewrite app_length in E. cbn [length] in E. lia. }
    rewrite <- E, (dec_tag_enc num typ r Hn Ht).
    replace (msg_max_num <? num) with false by (symmetry; apply N.ltb_ge; exact Hhi).
    rewrite app_length, Nat.add_sub, firstn_app, Nat.sub_diag, firstn_all, app_nil_r.
    destruct slow; reflexivity.
  Qed.
End Loop.

Lemma msg_parse_val_len dep num bs : parse_val dep num 2 bs =
  match dec_bytes bs with Ok (b, r) => Ok (WLen b, r) | Err e => Err e end.
Proof. destruct dep; reflexivity. Qed.
