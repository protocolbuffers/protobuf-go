(* MsgValueP — induction over the nested inductive [value]: [msg_value_ind] hands the hypothesis
   for every stored value, [msg_value_uv_ind] for every stored value with map entries opened, which
   is what a statement about messages needs of the values of a map field. *)
From Coq Require Import List NArith.
From PB Require Import Msg.MsgValue.
Import ListNotations.

Section ValueInd.
  Variable P : value -> Prop.
  Hypothesis HS : forall s, P (VS s).
  Hypothesis HM : forall fs unk, Forall (fun p => Forall P (snd p)) fs -> P (VMsg fs unk).
  Hypothesis HE : forall k v, P v -> P (VEntry k v).
  Fixpoint msg_value_ind (v : value) : P v :=
    match v with
    | VS s => HS s
    | VMsg fs unk =>
      HM fs unk
         ((fix go (l : list (N * list value)) : Forall (fun p => Forall P (snd p)) l :=
             match l with
             | [] => Forall_nil _
             | p :: r =>
               Forall_cons p
                 ((fix go2 (vs : list value) : Forall P vs :=
                     match vs with
                     | [] => Forall_nil _
                     | v :: r2 => Forall_cons v (msg_value_ind v) (go2 r2)
                     end) (snd p))
                 (go r)
             end) fs)
    | VEntry k v => HE k v (msg_value_ind v)
    end.
End ValueInd.

Definition msg_uv (x : value) : value := match x with VEntry _ x' => x' | _ => x end.

Lemma msg_value_uv_ind (P : value -> Prop) :
  (forall s, P (VS s)) ->
  (forall fs u, (forall p x, In p fs -> In x (snd p) -> P (msg_uv x)) -> P (VMsg fs u)) ->
  (forall k v, P (VEntry k v)) ->
  forall v, P v.
Proof.
  intros Hs Hm He.
  assert (H : forall v, P v /\ match v with VEntry _ v' => P v' | _ => True end).
  { induction v as [s|fs unk IH|k v IH] using msg_value_ind.
    - split; [apply Hs|exact I].
    - split; [|exact I]. apply Hm. intros p x Hp Hx.
      rewrite Forall_forall in IH. specialize (IH p Hp). rewrite Forall_forall in IH.
      destruct (IH x Hx) as [H1 H2]. destruct x; assumption.
    - split; [apply He|exact (proj1 IH)]. }
  intros v. exact (proj1 (H v)).
Qed.
