(* MsgSizeP — proof of C04: the size function of the message codec model equals the length of
   the encoder's output, for every schema table and every value whose varints fit uint64. *)
From Coq Require Import List Arith NArith ZArith Lia Bool.
From Coq Require Import ZifyBool ZifyNat ZifyN.
From PB Require Import Base.PBytes Wire.WireModel Wire.VarintP Wire.PrimP.
From PB Require Import Msg.MsgSchema Msg.MsgValue Msg.MsgEnc Msg.MsgValid Msg.MsgWireP.
From PB Require Export Msg.MsgValueP.
Import ListNotations.
Open Scope N_scope.

Lemma msg_sum_app a b : msg_sum (a ++ b) = msg_sum a + msg_sum b.
Proof. induction a as [|x a IH]; cbn [msg_sum app fold_right] in *; [reflexivity|]. unfold msg_sum in *. lia. Qed.

Lemma msg_len_flat_map {A} (f : A -> list byte) (g : A -> N) l :
  Forall (fun x => g x = N.of_nat (length (f x))) l ->
  msg_sum (map g l) = N.of_nat (length (flat_map f l)).
Proof.
  induction 1 as [|x l Hx _ IH]; [reflexivity|].
  cbn [map flat_map]. rewrite app_length. unfold msg_sum in *. cbn [fold_right]. lia.
Qed.

Definition msg_chunks_len {A} (len : A -> N) (l : list (N * A)) : N := msg_sum (map (fun c => len (snd c)) l).

Lemma msg_chunk_insert_len {A} (len : A -> N) c (l : list (N * A)) :
  msg_chunks_len len (msg_chunk_insert c l) = len (snd c) + msg_chunks_len len l.
Proof.
  induction l as [|d r IH]; [reflexivity|]. cbn [msg_chunk_insert].
  destruct (fst d <=? fst c).
  - unfold msg_chunks_len, msg_sum in *. cbn [map fold_right] in *. lia.
  - reflexivity.
Qed.

Lemma msg_chunk_sort_len {A} (len : A -> N) (l : list (N * A)) :
  msg_chunks_len len (msg_chunk_sort l) = msg_chunks_len len l.
Proof.
  induction l as [|c r IH]; [reflexivity|]. cbn [msg_chunk_sort].
  rewrite msg_chunk_insert_len, IH. reflexivity.
Qed.

Lemma msg_concat_len (l : list (N * list byte)) :
  N.of_nat (length (concat (map snd l))) = msg_chunks_len (fun b => N.of_nat (length b)) l.
Proof.
  induction l as [|c r IH]; [reflexivity|]. cbn [map concat]. rewrite app_length.
  unfold msg_chunks_len, msg_sum in *. cbn [map fold_right]. lia.
Qed.

Lemma msg_two64_eq : msg_two64 = 2^64. Proof. reflexivity. Qed.

Lemma msg_size_scalar_eq sk s :
  msg_wval_ok (sk_enc sk s) = true -> msg_size_scalar sk s = N.of_nat (length (msg_enc_scalar sk s)).
Proof.
  unfold msg_size_scalar, msg_enc_scalar.
  destruct (sk_enc sk s) as [x|b|b|b|fs] eqn:E; cbn [msg_wval_ok render_val]; intros H.
  - rewrite enc_varint_length; [reflexivity|]. rewrite <- msg_two64_eq. lia.
  - destruct sk, s; cbn [sk_enc] in E; try discriminate; inversion E; subst;
      unfold enc_fixed32; rewrite enc_le_length; reflexivity.
  - destruct sk, s; cbn [sk_enc] in E; try discriminate; inversion E; subst;
      unfold enc_fixed64; rewrite enc_le_length; reflexivity.
  - rewrite app_length. unfold size_bytes.
    rewrite <- enc_varint_length by (rewrite <- msg_two64_eq; lia). lia.
  - destruct sk, s; cbn [sk_enc] in E; discriminate.
Qed.

Lemma msg_enc_bytes_len b :
  N.of_nat (length b) < 2^64 -> N.of_nat (length (enc_bytes b)) = size_bytes (N.of_nat (length b)).
Proof.
  intros H. unfold enc_bytes, size_bytes. rewrite app_length.
  rewrite <- enc_varint_length by exact H. lia.
Qed.

Section Field.
  Variable sb : nat -> value -> N.
  Variable eb : nat -> value -> list byte.
  Variable ok : nat -> value -> bool.

  Definition msg_sub_eq (v : value) : Prop :=
    forall tid, ok tid v = true -> sb tid v = N.of_nat (length (eb tid v)).
  Definition msg_sub_eq_deep (v : value) : Prop :=
    msg_sub_eq v /\ match v with VEntry _ v' => msg_sub_eq v' | _ => True end.

  Lemma msg_size_elem_eq num k v :
    num < 2^61 -> msg_sub_eq v -> msg_szok_elem sb ok k v = true ->
    msg_size_elem sb num k v = N.of_nat (length (msg_enc_elem eb num k v)).
  Proof.
    intros Hnum Hsub Hok. unfold msg_size_elem, msg_enc_elem, msg_szok_elem in *.
    destruct k as [sk|tid|tid], v as [s|fs unk|key v']; try reflexivity.
    - rewrite app_length, Nnat.Nat2N.inj_add, msgw_enc_tag_length by exact Hnum.
      rewrite (msg_size_scalar_eq sk s Hok). reflexivity.
    - apply andb_true_iff in Hok. destruct Hok as [Hok Hlt].
      rewrite app_length, Nnat.Nat2N.inj_add, msgw_enc_tag_length by exact Hnum.
      rewrite (Hsub tid Hok) in *.
      rewrite msg_enc_bytes_len by (rewrite <- msg_two64_eq; lia). reflexivity.
    - rewrite !app_length, !Nnat.Nat2N.inj_add, !msgw_enc_tag_length by exact Hnum.
      rewrite (Hsub tid Hok). lia.
  Qed.

  Lemma msg_size_key_eq kk key :
    msg_wval_ok (sk_enc kk key) = true -> msg_size_key kk key = N.of_nat (length (msg_enc_key kk key)).
  Proof.
    intros H. unfold msg_size_key, msg_enc_key.
    rewrite app_length, Nnat.Nat2N.inj_add, msgw_enc_tag_length by (cbn; lia).
    rewrite (msg_size_scalar_eq kk key H). reflexivity.
  Qed.

  Lemma msg_size_entry_eq num kk vk e :
    num < 2^61 -> msg_sub_eq_deep e -> msg_szok_entry sb ok kk vk e = true ->
    msg_size_entry sb num kk vk e = N.of_nat (length (msg_enc_entry eb num kk vk e)).
  Proof.
    intros Hnum [_ Hdeep] Hok. unfold msg_size_entry, msg_enc_entry, msg_szok_entry in *.
    destruct e as [s|fs unk|key v]; try reflexivity.
    apply andb_true_iff in Hok. destruct Hok as [Hok Hlt].
    apply andb_true_iff in Hok. destruct Hok as [Hkey Hval].
    rewrite app_length, Nnat.Nat2N.inj_add, msgw_enc_tag_length by exact Hnum.
    assert (Hbody : msg_size_key kk key + msg_size_elem sb 2 vk v =
                    N.of_nat (length (msg_enc_key kk key ++ msg_enc_elem eb 2 vk v))).
    { rewrite app_length, Nnat.Nat2N.inj_add.
      rewrite (msg_size_key_eq kk key Hkey).
      rewrite (msg_size_elem_eq 2 vk v); [reflexivity|cbn; lia|exact Hdeep|exact Hval]. }
    rewrite Hbody in *.
    rewrite msg_enc_bytes_len by (rewrite <- msg_two64_eq; lia). reflexivity.
  Qed.

  Lemma msg_forallb_Forall {A} (f : A -> bool) l : forallb f l = true -> Forall (fun x => f x = true) l.
  Proof. intros H. apply Forall_forall. now apply forallb_forall. Qed.

  Lemma msg_elems_eq num k vs :
    num < 2^61 -> Forall msg_sub_eq_deep vs -> forallb (msg_szok_elem sb ok k) vs = true ->
    msg_sum (map (msg_size_elem sb num k) vs) =
    N.of_nat (length (flat_map (fun e => msg_enc_elem eb num k e) vs)).
  Proof.
    intros Hnum Hsub Hok. apply msg_len_flat_map.
    apply msg_forallb_Forall in Hok. rewrite Forall_forall in *.
    intros v Hv. apply msg_size_elem_eq; [exact Hnum|apply Hsub, Hv|apply Hok, Hv].
  Qed.

  Lemma msg_packed_eq sk vs :
    forallb (msg_szok_elem sb ok (KS sk)) vs = true ->
    msg_size_packed_payload sk vs = N.of_nat (length (msg_enc_packed_payload sk vs)).
  Proof.
    intros Hok. unfold msg_size_packed_payload, msg_enc_packed_payload.
    apply msg_len_flat_map. apply msg_forallb_Forall in Hok. rewrite Forall_forall in *.
    intros v Hv. specialize (Hok v Hv). destruct v as [s| |]; try reflexivity.
    cbn [msg_szok_elem] in Hok. apply msg_size_scalar_eq. exact Hok.
  Qed.

  Lemma msg_size_field_eq fd vs :
    Forall msg_sub_eq_deep vs -> msg_szok_field sb ok fd vs = true ->
    msg_size_field sb fd vs = N.of_nat (length (msg_enc_field eb fd vs)).
  Proof.
    intros Hsub Hok. unfold msg_szok_field in Hok. apply andb_true_iff in Hok.
    destruct Hok as [Hnum Hok].
    assert (Hn : f_num fd < 2^61) by (change (2^61) with 2305843009213693952; lia).
    unfold msg_size_field, msg_enc_field.
    destruct (f_card fd) as [| | | | |kk kutf8 vdef].
    1-4: apply msg_elems_eq; assumption.
    - destruct (f_kind fd) as [sk|tid|tid] eqn:Hk.
      + destruct vs as [|v0 vs']; [reflexivity|].
        destruct (msg_packable sk).
        * apply andb_true_iff in Hok. destruct Hok as [Hall Hlt].
          rewrite app_length, Nnat.Nat2N.inj_add, msgw_enc_tag_length by exact Hn.
          rewrite (msg_packed_eq sk (v0 :: vs') Hall) in *.
          rewrite msg_enc_bytes_len by (rewrite <- msg_two64_eq; lia). reflexivity.
        * apply msg_elems_eq; assumption.
      + apply msg_elems_eq; assumption.
      + apply msg_elems_eq; assumption.
    - apply msg_len_flat_map. apply msg_forallb_Forall in Hok. rewrite Forall_forall in *.
      intros e He. apply msg_size_entry_eq; [exact Hn|apply Hsub, He|apply Hok, He].
  Qed.

  Lemma msg_size_chunk_eq md p :
    Forall msg_sub_eq_deep (snd p) -> msg_szok_chunk sb ok md p = true ->
    msg_size_chunk sb md p = N.of_nat (length (snd (msg_enc_chunk eb md p))).
  Proof.
    intros Hsub Hok. unfold msg_size_chunk, msg_enc_chunk, msg_szok_chunk in *.
    destruct (msg_find_field md (fst p)) as [fd|]; [|reflexivity].
    cbn [snd]. apply msg_size_field_eq; assumption.
  Qed.
End Field.

Definition msg_size_stmt (S : schema) (v : value) : Prop :=
  forall tid, msg_sizes_ok S tid v = true ->
    msg_size_body S tid v = N.of_nat (length (msg_enc_body S tid v)).

Lemma msg_size_eq_deep S v :
  msg_sub_eq_deep (msg_size_body S) (msg_enc_body S) (msg_sizes_ok S) v.
Proof.
  induction v as [s|fs unk IH|k v IH] using msg_value_ind.
  - split; [|exact I]. intros tid _. reflexivity.
  - split; [|exact I]. intros tid Hok.
    cbn [msg_size_body msg_enc_body msg_sizes_ok] in *.
    rewrite app_length, Nnat.Nat2N.inj_add. f_equal.
    rewrite msg_concat_len, msg_chunk_sort_len.
    unfold msg_chunks_len. rewrite map_map. f_equal. apply map_ext_in. intros p Hp.
    rewrite forallb_forall in Hok. rewrite Forall_forall in IH.
    apply msg_size_chunk_eq with (ok := msg_sizes_ok S); [apply IH, Hp|apply Hok, Hp].
  - split; [intros tid _; reflexivity|]. destruct IH as [IH _]. exact IH.
Qed.

Theorem msg_size_eq_length S tid v :
  msg_sizes_ok S tid v = true ->
  msg_size_body S tid v = N.of_nat (length (msg_encode S tid v)).
Proof. intros H. apply (proj1 (msg_size_eq_deep S v)). exact H. Qed.

Theorem msg_marshal_append_prefix prefix S tid v :
  msg_sizes_ok S tid v = true ->
  firstn (length prefix) (msg_marshal_append prefix S tid v) = prefix /\
  skipn (length prefix) (msg_marshal_append prefix S tid v) = msg_encode S tid v /\
  N.of_nat (length (msg_marshal_append prefix S tid v)) = N.of_nat (length prefix) + msg_size_body S tid v.
Proof.
  intros H. unfold msg_marshal_append. repeat split.
  - rewrite firstn_app, Nat.sub_diag, firstn_all. cbn [firstn]. now rewrite app_nil_r.
  - rewrite skipn_app, Nat.sub_diag, skipn_all. reflexivity.
  - rewrite app_length, Nnat.Nat2N.inj_add, (msg_size_eq_length S tid v H). reflexivity.
Qed.

Lemma msg_overwrite_mid (pre old src post : list byte) :
  length old = length src -> msg_overwrite (pre ++ old ++ post) (length pre) src = pre ++ src ++ post.
Proof.
  intros H. unfold msg_overwrite.
  rewrite firstn_app, Nat.sub_diag, firstn_all. cbn [firstn]. rewrite app_nil_r. f_equal. f_equal.
  rewrite skipn_app. rewrite skipn_all2 by lia.
  replace (length pre + length src - length pre)%nat with (length old) by lia.
  cbn [app]. rewrite skipn_app, Nat.sub_diag, skipn_all. reflexivity.
Qed.

Theorem msg_finish_spec_ok (pre body : list byte) :
  N.of_nat (length body) < 2^64 ->
  msg_finish_spec (fst (msg_append_spec pre) ++ body) (snd (msg_append_spec pre)) =
  pre ++ enc_varint (N.of_nat (length body)) ++ body.
Proof.
  intros Hlen. cbn [msg_append_spec fst snd]. unfold msg_finish_spec.
  rewrite !app_length. cbn [length].
  replace (length pre + 1 + length body - length pre - 1)%nat with (length body) by lia.
  pose proof (enc_varint_length _ Hlen) as Hsz.
  set (enc := enc_varint (N.of_nat (length body))) in *.
  assert (Hmsiz : N.to_nat (size_varint (N.of_nat (length body))) = length enc) by lia.
  rewrite Hmsiz.
  assert (Hpos : (1 <= length enc)%nat).
  { unfold enc, enc_varint. cbn [enc_varint_fuel]. destruct (_ <? 128); cbn [length]; lia. }
  destruct (Nat.eqb (length enc) 1) eqn:E1.
  - apply Nat.eqb_eq in E1. rewrite <- app_assoc.
    apply (msg_overwrite_mid pre [x00] enc body). cbn [length]. lia.
  - apply Nat.eqb_neq in E1.
    (* the grown buffer: pre ++ [0] ++ body ++ zeros *)
    set (z := repeat x00 (length enc - 1)).
    assert (Hz : length z = (length enc - 1)%nat) by (unfold z; apply repeat_length).
    assert (Hsrc : firstn (length body) (skipn (length pre + 1) (((pre ++ [x00]) ++ body) ++ z)) = body).
    { rewrite <- !app_assoc. rewrite (app_assoc pre [x00]).
      replace (length pre + 1)%nat with (length (pre ++ [x00])) by (rewrite app_length; cbn; lia).
      rewrite skipn_app, Nat.sub_diag, skipn_all. cbn [app skipn].
      rewrite firstn_app, Nat.sub_diag, firstn_all. cbn [firstn]. apply app_nil_r. }
    rewrite Hsrc.
    (* split the grown buffer at pos + msiz: (pre ++ [0] ++ firstn (msiz-1) (body ++ z)) ++ rest *)
    set (ext := ((pre ++ [x00]) ++ body) ++ z).
    assert (Hext : length ext = (length pre + 1 + length body + (length enc - 1))%nat).
    { unfold ext. rewrite !app_length. cbn [length]. lia. }
    assert (Hmove : msg_overwrite ext (length pre + length enc) body =
                    firstn (length pre + length enc) ext ++ body).
    { unfold msg_overwrite. f_equal. rewrite skipn_all2 by lia. apply app_nil_r. }
    rewrite Hmove.
    assert (Hfirst : firstn (length pre + length enc) ext = pre ++ firstn (length enc) ([x00] ++ body ++ z)).
    { unfold ext. rewrite <- !app_assoc. rewrite firstn_app.
      rewrite firstn_all2 by lia. f_equal. f_equal. lia. }
    rewrite Hfirst. rewrite <- app_assoc.
    apply (msg_overwrite_mid pre (firstn (length enc) ([x00] ++ body ++ z)) enc body).
    rewrite firstn_length. rewrite !app_length. cbn [length]. lia.
Qed.
