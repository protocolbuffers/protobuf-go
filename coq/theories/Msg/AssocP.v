(* Association lists over N with strictly increasing keys, for any type of entries: the populated
   fields of an abstract message (msg_fget / msg_fset / msg_fdel of Msg/MsgValue.v) and the cells
   of a concrete one (cs_get / cs_put of Msg/ReflectCellModel.v) are instances, by conversion. *)
From Coq Require Import List NArith Lia.
Import ListNotations.
Open Scope N_scope.

(* [lo] bounds the keys from below; None: no bound *)
Definition above (lo : option N) (k : N) : Prop :=
  match lo with Some l => l < k | None => True end.

Lemma above_trans lo k k' : above lo k -> k < k' -> above lo k'.
Proof. destruct lo; cbn; [lia|auto]. Qed.

Section Assoc.
  Variable A : Type.
  Notation alist := (list (N * A)).

  Fixpoint asorted (lo : option N) (l : alist) : Prop :=
    match l with
    | [] => True
    | (k, _) :: r => above lo k /\ asorted (Some k) r
    end.

  Section Get.
    Variable d : A.       (* what an absent key reads as *)
    Fixpoint aget (l : alist) (n : N) : A :=
      match l with
      | [] => d
      | (k, a) :: r => if n =? k then a else aget r n
      end.
  End Get.
  Fixpoint aput (l : alist) (n : N) (a : A) : alist :=
    match l with
    | [] => [(n, a)]
    | (k, old) :: r =>
      if n <? k then (n, a) :: l
      else if n =? k then (k, a) :: r
      else (k, old) :: aput r n a
    end.
  Fixpoint adel (l : alist) (n : N) : alist :=
    match l with
    | [] => []
    | (k, old) :: r => if n =? k then r else (k, old) :: adel r n
    end.

  Lemma asorted_weaken : forall l lo lo',
    (forall k, above lo k -> above lo' k) -> asorted lo l -> asorted lo' l.
  Proof. destruct l as [|[k a] r]; cbn; intuition. Qed.

  Lemma asorted_tail : forall lo k l, above lo k -> asorted (Some k) l -> asorted lo l.
  Proof. intros lo k l H. apply asorted_weaken. intros k'. apply above_trans, H. Qed.

  Lemma asorted_in : forall l lo k a, asorted lo l -> In (k, a) l -> above lo k.
  Proof.
    induction l as [|[k0 a0] r IH]; intros lo k a Hs Hin; [destruct Hin|]. destruct Hs as [H1 H2].
    destruct Hin as [E|Hin]; [inversion E; subst; exact H1|].
    apply (above_trans lo k0); [exact H1|]. apply (IH _ _ _ H2 Hin).
  Qed.

  Lemma asorted_nodup : forall l lo, asorted lo l -> NoDup (map fst l).
  Proof.
    induction l as [|[k0 a0] r IH]; intros lo Hs; cbn; [constructor|]. destruct Hs as [H1 H2]. constructor; eauto.
    intros Hin. apply in_map_iff in Hin. destruct Hin as [[k x] [E Hin]]. cbn in E. subst.
    pose proof (asorted_in _ _ _ _ H2 Hin) as Hlt. cbn in Hlt. lia.
  Qed.

  Lemma aput_sorted : forall l lo n a, asorted lo l -> above lo n -> asorted lo (aput l n a).
  Proof.
    induction l as [|[k0 a0] r IH]; intros lo n a Hs Hlo; cbn [aput]; [cbn; auto|].
    destruct Hs as [H1 H2].
    destruct (N.ltb_spec n k0); [cbn; auto|].
    destruct (N.eqb_spec n k0); [cbn; auto|].
    cbn. split; auto. apply IH; auto. cbn. lia.
  Qed.

  Lemma adel_sorted : forall l lo n, asorted lo l -> asorted lo (adel l n).
  Proof.
    induction l as [|[k0 a0] r IH]; intros lo n Hs; cbn [adel]; auto. destruct Hs as [H1 H2].
    destruct (n =? k0); [exact (asorted_tail _ _ _ H1 H2) | cbn; auto].
  Qed.

  Lemma afilter_sorted : forall (P : N * A -> bool) l lo, asorted lo l -> asorted lo (filter P l).
  Proof.
    induction l as [|[k0 a0] r IH]; intros lo Hs; cbn [filter]; auto. destruct Hs as [H1 H2].
    destruct (P (k0, a0)); [cbn; auto | exact (asorted_tail _ _ _ H1 (IH _ H2))].
  Qed.

  Lemma in_aput : forall l lo n a k x, asorted lo l ->
    (In (k, x) (aput l n a) <-> (k = n /\ x = a) \/ (k <> n /\ In (k, x) l)).
  Proof.
    induction l as [|[k0 a0] r IH]; intros lo n a k x Hs; cbn [aput].
    - cbn. split; [intros [E|[]]; inversion E; auto | intros [[-> ->]|[_ []]]; auto].
    - destruct Hs as [H1 H2].
      assert (Hr : forall y, In (k, y) r -> k0 < k) by (intros y Hy; apply (asorted_in _ _ _ _ H2 Hy)).
      destruct (N.ltb_spec n k0); [|destruct (N.eqb_spec n k0)]; cbn [In].
      + split.
        * intros [E|[E|Hin]]; [inversion E; auto | inversion E; subst; right; split; [lia|auto] |].
          right. split; auto. specialize (Hr _ Hin). lia.
        * intros [[-> ->]|[Hne [E|Hin]]]; auto.
      + subst. split.
        * intros [E|Hin]; [inversion E; auto|]. right. specialize (Hr _ Hin). split; [lia|auto].
        * intros [[-> ->]|[Hne [E|Hin]]]; auto. inversion E; congruence.
      + rewrite (IH (Some k0) n a k x H2). split.
        * intros [E|[B|[B C]]]; auto. inversion E; subst. right. split; auto.
        * intros [B|[B [E|C]]]; auto.
  Qed.

  Lemma in_adel : forall l lo n k x, asorted lo l ->
    (In (k, x) (adel l n) <-> k <> n /\ In (k, x) l).
  Proof.
    induction l as [|[k0 a0] r IH]; intros lo n k x Hs; cbn [adel]; [cbn; tauto|].
    destruct Hs as [H1 H2]. destruct (N.eqb_spec n k0); cbn [In].
    - subst. split.
      + intros Hin. pose proof (asorted_in _ _ _ _ H2 Hin) as Hlt. cbn in Hlt. split; [lia|auto].
      + intros [Hne [E|Hin]]; auto. inversion E; congruence.
    - rewrite (IH (Some k0) n k x H2). split.
      + intros [E|[B C]]; auto. inversion E; subst. auto.
      + intros [B [E|C]]; auto.
  Qed.

  Lemma aget_in : forall d l lo k a, asorted lo l -> In (k, a) l -> aget d l k = a.
  Proof.
    induction l as [|[k0 a0] r IH]; intros lo k a Hs Hin; [destruct Hin|]. destruct Hs as [H1 H2]. cbn [aget].
    destruct Hin as [E|Hin]; [inversion E; subst; now rewrite N.eqb_refl|].
    pose proof (asorted_in _ _ _ _ H2 Hin) as Hlt. cbn in Hlt.
    destruct (N.eqb_spec k k0); [lia|]. eapply IH; eauto.
  Qed.

  Lemma aget_aput : forall d l n a m, aget d (aput l n a) m = if m =? n then a else aget d l m.
  Proof.
    induction l as [|[k0 a0] r IH]; intros n a m; cbn [aput aget]; [reflexivity|].
    destruct (N.ltb_spec n k0); [reflexivity|].
    destruct (N.eqb_spec n k0).
    - subst. cbn [aget]. destruct (N.eqb_spec m k0); reflexivity.
    - cbn [aget]. rewrite IH. destruct (N.eqb_spec m k0); auto.
      subst. destruct (N.eqb_spec k0 n); [congruence|reflexivity].
  Qed.

  Lemma aget_cases : forall d l n,
    (exists a, In (n, a) l /\ aget d l n = a) \/ (aget d l n = d /\ forall a, ~ In (n, a) l).
  Proof.
    induction l as [|[k0 a0] r IH]; intros n; cbn [aget]; [right; split; auto|].
    destruct (N.eqb_spec n k0).
    - subst. left. exists a0. split; auto. left; auto.
    - destruct (IH n) as [[a [B C]]|[B C]].
      + left. exists a. split; auto. right; auto.
      + right. split; auto. intros a [E|Hin]; [inversion E; congruence|]. eapply C; eauto.
  Qed.

  (* below every key *)
  Lemma aput_below : forall l n a lo, asorted (Some lo) l -> n <= lo -> aput l n a = (n, a) :: l.
  Proof.
    destruct l as [|[k x] r]; intros n a lo Hs Hle; cbn [aput]; auto.
    destruct Hs as [H1 _]. cbn in H1. destruct (N.ltb_spec n k); [auto|lia].
  Qed.

  Lemma adel_below : forall l n lo, asorted (Some lo) l -> n <= lo -> adel l n = l.
  Proof.
    induction l as [|[k x] r IH]; intros n lo Hs Hle; cbn [adel]; auto. destruct Hs as [H1 H2]. cbn in H1.
    destruct (N.eqb_spec n k); [lia|]. f_equal. eapply IH; eauto. lia.
  Qed.

  Lemma aget_below : forall d l n lo, asorted (Some lo) l -> n <= lo -> aget d l n = d.
  Proof.
    induction l as [|[k x] r IH]; intros n lo Hs Hle; cbn [aget]; auto. destruct Hs as [H1 H2]. cbn in H1.
    destruct (N.eqb_spec n k); [lia|]. eapply IH; eauto. lia.
  Qed.
End Assoc.

Arguments asorted {A}. Arguments aget {A}. Arguments aput {A}. Arguments adel {A}.
