(* ValidateMsgP — the validator [vr_msg] (Msg/ValidateMsgModel.v) and the table-driven decoder
   [msg_decode_msg false] (Msg/MsgDec.v) walk every input in lockstep: same tags, same
   consumption, and
     validator Valid, no quirk   ->  decoder succeeds
     validator Valid, quirk      ->  decoder fails with the recursion-depth error (FWB4)
     validator Invalid           ->  decoder fails (for schemas without the FL1 field shape)
   The validator never runs out of fuel. *)
From Coq Require Import List Arith NArith ZArith Lia Bool.
From Coq Require Import ZifyBool ZifyNat ZifyN.
From PB Require Import Base.PBytes Wire.WireModel Wire.VarintP Wire.ScanP.
From PB Require Import Msg.MsgSchema Msg.MsgValue Msg.MsgUtf8 Msg.MsgDec Msg.MsgDecP Msg.ValidateMsgModel.
Import ListNotations.
Open Scope N_scope.

Lemma vp_bytes_rest r p r' : dec_bytes r = Ok (p, r') -> (length r' <= length r)%nat.
Proof. intros H. apply dec_bytes_len in H. lia. Qed.

Lemma vp_skip_len num typ r r' : vr_skip num typ r = Some r' -> (length r' <= length r)%nat.
Proof.
  unfold vr_skip. destruct (parse_val default_dep num typ r) as [[v r0]|e] eqn:E; [|discriminate].
  intros H; inversion H; subst. eapply parse_val_len; eauto.
Qed.

Definition vp_dsub2 : schema -> nat -> option msg_dec_t := msg_sub2 false.
Definition vp_vsub2 (S : schema) (d : nat) : option vr_t :=
  match d with O => None | Datatypes.S d1 => Some (vr_msg S d1) end.

Lemma vp_dm_unfold S d tid grp md x g bs acc :
  nth_error S tid = Some md ->
  msg_decode_msg false S (Datatypes.S d) tid grp (x :: g) bs acc =
  match bs with
  | [] => if grp =? 0 then DOk (acc, []) else DErr DParse
  | _ =>
    match dec_tag bs with
    | Err _ => DErr DParse
    | Ok (num, typ, r) =>
      if msg_max_num <? num then DErr DParse
      else if typ =? 4 then (if num =? grp then DOk (acc, r) else DErr DParse)
      else
        match msg_step false md (msg_decode_msg false S d) (vp_dsub2 S d) (enc_tag num typ) num typ r acc with
        | DErr e => DErr e
        | DOk (acc', r') => msg_decode_msg false S (Datatypes.S d) tid grp g r' acc'
        end
    end
  end.
Proof.
  intros H. cbn [msg_decode_msg]. rewrite H. destruct bs; [reflexivity|].
  destruct (dec_tag (b :: bs)) as [[[num typ] r]|e]; [|reflexivity]. cbn [negb]. rewrite andb_true_r. reflexivity.
Qed.

Lemma vp_dm_none S d tid grp g bs acc :
  nth_error S tid = None -> msg_decode_msg false S (Datatypes.S d) tid grp g bs acc = DErr DSchema.
Proof. intros H. cbn [msg_decode_msg]. rewrite H. reflexivity. Qed.

Lemma vp_vr_unfold S d tid grp g bs :
  vr_msg S (Datatypes.S d) tid grp g bs =
  match nth_error S tid with
  | None => VBad
  | Some md => vr_loop (vr_reqof S) md (vr_msg S d) (vp_vsub2 S d) grp g bs [] true false
  end.
Proof. reflexivity. Qed.

(* P: the hypothesis under which "Invalid -> the decoder fails" holds (no FL1 field shape) *)
Definition vp_agree (P : Prop) (v : vres) (A : Type) (d : dres A) (rest : A -> list byte) (bs : list byte) : Prop :=
  match v with
  | VFuel => False
  | VBad => P -> exists e, d = DErr e
  | VOk i q r => (length r <= length bs)%nat /\
                 (if q then d = DErr DDepth else exists m, d = DOk m /\ rest m = r)
  end.

Definition vp_rest2 (m : msg_macc * list byte) : list byte := snd m.

(* agreement on the verdict alone: what [vp_agree] says without the rest and its length *)
Definition vp_verdict (P : Prop) (v : vres) (A : Type) (d : dres A) : Prop :=
  match v with
  | VFuel => False
  | VBad => P -> exists e, d = DErr e
  | VOk _ q _ => if q then d = DErr DDepth else exists m, d = DOk m
  end.

Lemma vp_agree_verdict P v A d rest bs : vp_agree P v A d rest bs -> vp_verdict P v A d.
Proof.
  destruct v as [i q r| |]; cbn [vp_agree vp_verdict]; auto.
  intros [_ H]. destruct q; [exact H|]. destruct H as (m & H & _). eauto.
Qed.

Lemma vp_verdict_bad P A e : vp_verdict P VBad A (DErr e).
Proof. intros _. eauto. Qed.
Lemma vp_agree_bad P A e rest bs : vp_agree P VBad A (DErr e) rest bs.
Proof. intros _. eauto. Qed.

(* the decoder goes on with a step [kd] that cannot fail *)
Lemma vp_verdict_map P A B v (d : dres A) (kd : A -> dres B) :
  vp_verdict P v A d -> (forall m, exists b, kd m = DOk b) ->
  vp_verdict P v B (match d with DOk m => kd m | DErr e => DErr e end).
Proof.
  intros H Hk. destruct v as [i q r| |]; cbn [vp_verdict] in *.
  - destruct q; [rewrite H; reflexivity|]. destruct H as (m & ->). apply Hk.
  - intros HP. destruct (H HP) as (e & ->). eauto.
  - exact H.
Qed.

(* ... and both sides return with a rest [r'] known from outside *)
Lemma vp_agree_ret P A B v (d : dres A) (kd : A -> dres B) rest r' bs :
  vp_verdict P v A d -> (length r' <= length bs)%nat ->
  (forall m, exists b, kd m = DOk b /\ rest b = r') ->
  vp_agree P (match v with VOk i q _ => VOk i q r' | VBad => VBad | VFuel => VFuel end) B
             (match d with DOk m => kd m | DErr e => DErr e end) rest bs.
Proof.
  intros H Hl Hk. destruct v as [i q r| |]; cbn [vp_verdict vp_agree] in *.
  - split; [exact Hl|]. destruct q; [rewrite H; reflexivity|]. destruct H as (m & ->). apply Hk.
  - intros HP. destruct (H HP) as (e & ->). eauto.
  - exact H.
Qed.

(* The loops carry the quirk flag [q0] along.  Once it is up the decoder has failed with the depth
   error, and all that matters of the rest of the validator's run is that the flag stays up, that it
   does not run out of fuel, and that Invalid still means failure.  For [q0 = false] these are
   [vp_verdict] and [vp_agree]. *)
Definition vp_verdict_from (q0 : bool) (P : Prop) (v : vres) (A : Type) (d : dres A) : Prop :=
  match v with
  | VFuel => False
  | VBad => P -> exists e, d = DErr e
  | VOk _ q _ => if q0 then q = true else if q then d = DErr DDepth else exists m, d = DOk m
  end.

Definition vp_agree_from (q0 : bool) (P : Prop) (v : vres) (A : Type) (d : dres A)
           (rest : A -> list byte) (bs : list byte) : Prop :=
  match v with
  | VFuel => False
  | VBad => P -> exists e, d = DErr e
  | VOk _ q r => (length r <= length bs)%nat /\
                 (if q0 then q = true else if q then d = DErr DDepth else exists m, d = DOk m /\ rest m = r)
  end.

Lemma vp_agree_from_bad q0 P A e rest bs : vp_agree_from q0 P VBad A (DErr e) rest bs.
Proof. intros _. eauto. Qed.

Lemma vp_verdict_up P A B v (d : dres A) q0 :
  vp_verdict_from true P v A d -> vp_verdict_from q0 P v B (DErr DDepth).
Proof. destruct v; cbn [vp_verdict_from]; eauto. intros ->. destruct q0; reflexivity. Qed.

Lemma vp_agree_up P A B v (d : dres A) rest rest' bs bs' q0 :
  (length bs <= length bs')%nat ->
  vp_agree_from true P v A d rest bs -> vp_agree_from q0 P v B (DErr DDepth) rest' bs'.
Proof.
  intros Hl. destruct v; cbn [vp_agree_from]; eauto. intros [H ->]. split; [lia|]. destruct q0; reflexivity.
Qed.

Lemma vp_agree_from_mono q0 P v A d rest bs bs' :
  (length bs <= length bs')%nat -> vp_agree_from q0 P v A d rest bs -> vp_agree_from q0 P v A d rest bs'.
Proof. intros Hl. destruct v; cbn [vp_agree_from]; auto. intros [H1 H2]. split; [lia|exact H2]. Qed.

(* both loops end by returning the flag they were given *)
Lemma vp_agree_from_end q0 P i r A (m : A) rest bs :
  (length r <= length bs)%nat -> rest m = r -> vp_agree_from q0 P (VOk i q0 r) A (DOk m) rest bs.
Proof. intros Hl Hr. split; [exact Hl|]. destruct q0; eauto. Qed.

Lemma vp_sk_dec_some sk dep num bs w r :
  parse_val dep num (sk_wt sk) bs = Ok (w, r) -> exists s, sk_dec sk w = Some s.
Proof.
  rewrite parse_val_eq. destruct sk; cbn [sk_wt]; cbv iota;
    try (destruct (dec_varint bs) as [[v r0]|e]; [|discriminate]; intros H; inversion H; subst; cbn; eauto);
    try (destruct (take _ bs) as [[b r0]|]; [|discriminate]; intros H; inversion H; subst; cbn; eauto);
    try (destruct (dec_bytes bs) as [[b r0]|e]; [|discriminate]; intros H; inversion H; subst; cbn; eauto).
Qed.

Lemma vp_packed_varint sk : sk_wt sk = 0 ->
  forall g bs acc, (length bs < length g)%nat ->
  if vr_varints g bs then exists vs, msg_dec_packed g sk bs acc = DOk vs
  else msg_dec_packed g sk bs acc = DErr DParse.
Proof.
  intros Hwt. induction g as [|x g IH]; intros bs acc Hl; [cbn in Hl; lia|].
  cbn [vr_varints msg_dec_packed]. destruct bs as [|b t]; [eauto|].
  rewrite Hwt. rewrite parse_val_eq. cbv iota.
  destruct (dec_varint (b :: t)) as [[v r]|e] eqn:E; [|reflexivity].
  pose proof (dec_varint_len _ _ _ E) as Hr.
  assert (Hs : exists s, sk_dec sk (WVarint v) = Some s).
  { apply (vp_sk_dec_some sk 0%nat 1 (b :: t) (WVarint v) r). rewrite Hwt, parse_val_eq. cbv iota. rewrite E. reflexivity. }
  destruct Hs as (s & ->). apply IH. cbn [length] in Hl, Hr. lia.
Qed.

Lemma vp_packed_fixed sk k : (k = 4 \/ k = 8)%nat ->
  (forall dep num bs, parse_val dep num (sk_wt sk) bs =
     match take k bs with Some (b, r) => Ok ((if Nat.eqb k 4 then WFixed32 b else WFixed64 b), r) | None => Err Truncated end) ->
  forall n g bs acc, (length bs <= n)%nat -> (length bs < length g)%nat ->
  if N.of_nat (length bs) mod N.of_nat k =? 0 then exists vs, msg_dec_packed g sk bs acc = DOk vs
  else msg_dec_packed g sk bs acc = DErr DParse.
Proof.
  intros Hk Hpv. induction n as [|n IH]; intros g bs acc Hn Hl.
  - destruct bs; [|cbn in Hn; lia]. destruct g; [cbn in Hl; lia|]. cbn. destruct Hk; subst; cbn; eauto.
  - destruct g as [|x g]; [cbn in Hl; lia|]. cbn [msg_dec_packed].
    destruct bs as [|b t] eqn:Ebs.
    { replace (N.of_nat (length (@nil byte)) mod N.of_nat k =? 0) with true by (cbn [length]; destruct Hk; subst; reflexivity). eauto. }
    rewrite <- Ebs in *. rewrite Hpv. destruct (take k bs) as [[a r]|] eqn:Et.
    + apply take_some in Et. destruct Et as [Eb Ha].
      assert (Hs : exists s, sk_dec sk (if Nat.eqb k 4 then WFixed32 a else WFixed64 a) = Some s).
      { apply (vp_sk_dec_some sk 0%nat 1 bs _ r). rewrite Hpv.
        replace (take k bs) with (Some (a, r)); [reflexivity|].
        rewrite Eb, <- Ha. symmetry. apply take_app. }
      destruct Hs as (s & ->).
      assert (Hlen : length bs = (k + length r)%nat) by (rewrite Eb, app_length; lia).
      replace (N.of_nat (length bs) mod N.of_nat k =? 0) with (N.of_nat (length r) mod N.of_nat k =? 0).
      * apply IH; cbn [length] in Hl; lia.
      * rewrite Hlen. destruct Hk; subst k; lia.
    + apply take_none in Et.
      replace (N.of_nat (length bs) mod N.of_nat k =? 0) with false; [reflexivity|].
      assert (0 < length bs)%nat by (rewrite Ebs; cbn; lia).
      symmetry. apply N.eqb_neq. destruct Hk; subst k; lia.
Qed.

Lemma vp_packed sk payload : msg_packable sk = true ->
  if vr_packed_ok sk payload then exists vs, msg_dec_packed (x00 :: payload) sk payload [] = DOk vs
  else msg_dec_packed (x00 :: payload) sk payload [] = DErr DParse.
Proof.
  intros Hp. unfold vr_packed_ok.
  assert (Hw : sk_wt sk = 0 \/ sk_wt sk = 5 \/ sk_wt sk = 1) by (destruct sk; cbn in Hp |- *; auto; discriminate).
  destruct Hw as [Hw|[Hw|Hw]]; rewrite Hw.
  - apply vp_packed_varint; [exact Hw|cbn [length]; lia].
  - apply (vp_packed_fixed _ 4%nat (or_introl eq_refl)) with (n := length payload);
      [intros dep num bs; rewrite Hw, parse_val_eq; reflexivity|lia|cbn [length]; lia].
  - apply (vp_packed_fixed _ 8%nat (or_intror eq_refl)) with (n := length payload);
      [intros dep num bs; rewrite Hw, parse_val_eq; reflexivity|lia|cbn [length]; lia].
Qed.

Lemma vp_dec_scalar_cases sk u w :
  msg_dec_scalar sk u w =
  match sk_dec sk w with
  | None => None
  | Some s =>
    if vr_is_string sk && u && match w with WLen b => negb (msg_utf8_valid b) | _ => false end
    then Some (DErr DUtf8) else Some (DOk s)
  end.
Proof.
  unfold msg_dec_scalar. destruct sk, w; cbn; reflexivity.
Qed.

Lemma vp_group_loop_shape pv num : forall g bs acc w r,
  group_loop pv num g bs acc = Ok (w, r) -> exists fs, w = WGroup fs.
Proof.
  induction g as [|x g IH]; intros bs acc w r; cbn [group_loop]; [discriminate|].
  destruct (dec_tag bs) as [[[n2 t2] r0]|e]; [|discriminate].
  destruct (t2 =? 4).
  - destruct (n2 =? num); [|discriminate]. intros H; inversion H; eauto.
  - destruct (pv n2 t2 r0) as [[v r1]|e]; [|discriminate]. apply IH.
Qed.

Lemma vp_parse_val_wlen dep num typ bs b r : parse_val dep num typ bs = Ok (WLen b, r) -> typ = 2.
Proof.
  rewrite parse_val_eq. destruct_typ typ; cbv iota; intros H; try discriminate H; try reflexivity.
  all: try (destruct (dec_varint bs) as [[? ?]|?]; discriminate H).
  all: try (destruct (take _ bs) as [[? ?]|]; discriminate H).
  all: try (destruct dep; [discriminate H|]; apply vp_group_loop_shape in H; destruct H as (fs & H); discriminate H).
Qed.

(* no UTF-8 error unless the value is a LEN payload *)
Lemma vp_dec_scalar_nolen sk u w :
  (forall b, w <> WLen b) ->
  msg_dec_scalar sk u w = match sk_dec sk w with None => None | Some s => Some (DOk s) end.
Proof.
  intros H. rewrite vp_dec_scalar_cases. destruct (sk_dec sk w); [|reflexivity].
  destruct w; try (rewrite andb_false_r; reflexivity). exfalso. eapply H. reflexivity.
Qed.

Section EntryAgree.
  Variable P : Prop.
  Variable reqof : nat -> bool.
  Variables (kk : skind) (kutf8 : bool) (vk : kind) (vutf8 : bool).
  Variable vm : vr_t.
  Variable dm : list byte -> value -> dres value.
  Hypothesis Hvm : forall tid p v, vk = KMsg tid -> vp_verdict P (vm tid 0 (x00 :: p) p) _ (dm p v).

  Lemma vp_entry_agree : forall g bs seenval i q0 key val, (length bs < length g)%nat ->
    vp_verdict_from q0 P (vr_entry reqof g kk kutf8 vk vutf8 vm bs seenval i q0) _
                    (msg_dec_entry g kk kutf8 vk vutf8 dm bs key val).
  Proof.
    induction g as [|x g IH]; intros bs seenval i q0 key val Hl; [cbn in Hl; lia|].
    cbn [vr_entry msg_dec_entry]. destruct bs as [|b0 t0] eqn:Ebs; [destruct q0; cbn; eauto|].
    rewrite <- Ebs in *. clear Ebs b0 t0.
    destruct (dec_tag bs) as [[[num typ] r]|e] eqn:Et; [|apply vp_verdict_bad].
    pose proof (dec_tag_len _ _ _ _ Et) as Hr.
    destruct (msg_max_num <? num); [apply vp_verdict_bad|].
    (* a recursive call on a shorter rest *)
    assert (Hrec : forall r' sv i1 q1 key' val', (length r' <= length r)%nat ->
      vp_verdict_from q1 P (vr_entry reqof g kk kutf8 vk vutf8 vm r' sv i1 q1) _
                      (msg_dec_entry g kk kutf8 vk vutf8 dm r' key' val')).
    { intros r' sv i1 q1 key' val' Hle. apply IH. cbn [length] in Hl. lia. }
    clear IH.
    destruct ((num =? 1) && (typ =? 2) && vr_is_string kk && kutf8) eqn:C1.
    - (* the key, a string with enforced UTF-8 *)
      apply andb_prop in C1. destruct C1 as [C1 Hku]. apply andb_prop in C1. destruct C1 as [C1 Hks].
      apply andb_prop in C1. destruct C1 as [Hn1 Ht2].
      apply N.eqb_eq in Hn1. apply N.eqb_eq in Ht2. subst num typ. destruct kk; try discriminate. subst kutf8.
      rewrite msg_parse_val_len.
      destruct (dec_bytes r) as [[p r']|e] eqn:Eb; [|apply vp_verdict_bad].
      pose proof (vp_bytes_rest _ _ _ Eb) as Hb.
      cbn [N.eqb Pos.eqb]. rewrite vp_dec_scalar_cases. cbn [sk_dec vr_is_string andb].
      destruct (msg_utf8_valid p); cbn [negb]; [|apply vp_verdict_bad].
      apply Hrec, Hb.
    - destruct ((num =? 2) && (typ =? 2)) eqn:C2.
      + apply andb_prop in C2. destruct C2 as [Hn2 Ht2].
        apply N.eqb_eq in Hn2. apply N.eqb_eq in Ht2. subst num typ.
        cbn [N.eqb Pos.eqb]. rewrite msg_parse_val_len.
        destruct vk as [sk|tid|tid] eqn:Evk.
        * (* scalar value *)
          destruct (dec_bytes r) as [[p r']|e] eqn:Eb; [|apply vp_verdict_bad].
          pose proof (vp_bytes_rest _ _ _ Eb) as Hb.
          rewrite vp_dec_scalar_cases.
          destruct (sk_dec sk (WLen p)) as [s|] eqn:Es.
          -- destruct (vr_is_string sk && vutf8 && negb (msg_utf8_valid p)); [apply vp_verdict_bad|]. apply Hrec, Hb.
          -- replace (vr_is_string sk) with false by (destruct sk; cbn in Es; try discriminate; reflexivity).
             cbn [andb]. apply Hrec, Hb.
        * (* message value *)
          destruct (dec_bytes r) as [[p r']|e] eqn:Eb; [|apply vp_verdict_bad].
          pose proof (vp_bytes_rest _ _ _ Eb) as Hb.
          pose proof (Hvm tid p val eq_refl) as Hm.
          destruct (vm tid 0 (x00 :: p) p) as [i1 q1 r1| |]; cbn [vp_verdict] in Hm.
          -- destruct q1.
             ++ rewrite Hm, orb_true_r. exact (vp_verdict_up _ _ _ _ _ _ (Hrec r' true (i && i1) true key val Hb)).
             ++ destruct Hm as (m & ->). rewrite orb_false_r. apply Hrec, Hb.
          -- intros HP. destruct (Hm HP) as (e & ->). eauto.
          -- exact Hm.
        * (* group-typed values do not exist; both sides skip *)
          unfold vr_skip. rewrite msg_parse_val_len.
          destruct (dec_bytes r) as [[p r']|e] eqn:Eb; [|apply vp_verdict_bad].
          pose proof (vp_bytes_rest _ _ _ Eb) as Hb. apply Hrec, Hb.
      + (* anything else: skipped by both *)
        unfold vr_skip.
        destruct (parse_val default_dep num typ r) as [[w r']|e] eqn:Ep; [|apply vp_verdict_bad].
        pose proof (parse_val_len _ _ _ _ _ _ Ep) as Hp.
        assert (Hnl : typ <> 2 -> forall b, w <> WLen b).
        { intros Hne b ->. apply vp_parse_val_wlen in Ep. congruence. }
        destruct (num =? 1) eqn:Hn1.
        * (* key with another wire type, or a key kind without UTF-8 enforcement *)
          rewrite vp_dec_scalar_cases.
          destruct (sk_dec kk w) as [s|] eqn:Es; [|apply Hrec, Hp].
          replace (vr_is_string kk && kutf8 && match w with WLen b => negb (msg_utf8_valid b) | _ => false end) with false.
          { apply Hrec, Hp. }
          symmetry. destruct (typ =? 2) eqn:Ht2.
          -- rewrite ?Hn1, ?Ht2 in C1. cbn [andb] in C1. rewrite C1. reflexivity.
          -- apply N.eqb_neq in Ht2. specialize (Hnl Ht2). destruct w; try (rewrite andb_false_r; reflexivity).
             exfalso. eapply Hnl. reflexivity.
        * destruct (num =? 2) eqn:Hn2; [|apply Hrec, Hp].
          cbn [andb] in C2. apply N.eqb_neq in C2. specialize (Hnl C2).
          destruct vk as [sk|tid|tid].
          -- rewrite vp_dec_scalar_nolen by exact Hnl. destruct (sk_dec sk w); apply Hrec, Hp.
          -- destruct w; try (apply Hrec, Hp). exfalso. eapply Hnl. reflexivity.
          -- apply Hrec, Hp.
  Qed.
End EntryAgree.

Definition vp_is_string_kind (k : kind) : bool := match k with KS SkString => true | _ => false end.
(* the FL1 field shape: a repeated string extension with enforced UTF-8 *)
Definition vp_fl1_bad (fd : fdesc) : bool :=
  f_ext fd && card_repeated (f_card fd) && f_utf8 fd && vp_is_string_kind (f_kind fd).
Definition vp_md_fl1_free (md : mdesc) : Prop := forall fd, In fd md -> vp_fl1_bad fd = false.
Definition vp_fl1_free (S : schema) : Prop := forall md, In md S -> vp_md_fl1_free md.

Lemma vp_find_field_in md n fd : msg_find_field md n = Some fd -> In fd md.
Proof. apply msg_find_field_in. Qed.

Definition vp_sub_agree (P : Prop) (vm : vr_t) (dm : msg_dec_t) : Prop :=
  forall tid grp g bs acc, (length bs < length g)%nat ->
    vp_agree P (vm tid grp g bs) _ (dm tid grp g bs acc) vp_rest2 bs.

Lemma vp_unknown_agree P tagraw num typ r acc :
  vp_agree P (vr_plain num typ r) _ (msg_unknown tagraw num typ r acc) vp_rest2 r.
Proof.
  unfold vr_plain, vr_skip, msg_unknown.
  destruct (parse_val default_dep num typ r) as [[w r']|e] eqn:E; cbn [vp_agree]; [|eauto].
  split; [eapply parse_val_len; eauto|]. eexists. split; reflexivity.
Qed.

(* a whole message given as a payload *)
Lemma vp_whole_verdict P vm dm tid p old :
  vp_sub_agree P vm dm -> vp_verdict P (vm tid 0 (x00 :: p) p) _ (msg_whole dm tid p old).
Proof.
  intros H. unfold msg_whole. apply vp_verdict_map; [|intros [m r]; eauto].
  eapply vp_agree_verdict, H. cbn [length]. lia.
Qed.

Section StepAgree.
  Variable P : Prop.
  Variable reqof : nat -> bool.
  Variable md : mdesc.
  Variable vsub : vr_t.
  Variable dsub : msg_dec_t.
  Variable vsub2 : option vr_t.
  Variable dsub2 : option msg_dec_t.
  Hypothesis Hsub : vp_sub_agree P vsub dsub.
  Hypothesis Hsub2 : match vsub2, dsub2 with
                     | None, None => True
                     | Some vm2, Some dm2 => vp_sub_agree P vm2 dm2
                     | _, _ => False
                     end.
  Hypothesis Hfl : P -> vp_md_fl1_free md.

  (* a sub-message given as a LEN payload *)
  Lemma vp_whole_agree tid r old (F : msg_macc -> msg_macc) :
    vp_agree P
      (match dec_bytes r with
       | Err _ => VBad
       | Ok (payload, r') =>
         match vsub tid 0 (x00 :: payload) payload with
         | VOk i q _ => VOk i q r'
         | e => e
         end
       end) _
      (match dec_bytes r with
       | Err _ => DErr DParse
       | Ok (payload, r') =>
         match msg_whole dsub tid payload old with
         | DErr e => DErr e
         | DOk m => DOk (F m, r')
         end
       end) vp_rest2 r.
  Proof.
    destruct (dec_bytes r) as [[payload r']|e] eqn:Eb; [|apply vp_agree_bad].
    pose proof (dec_bytes_len _ _ _ Eb) as Hb.
    apply vp_agree_ret; [|lia|intros m; eexists; split; reflexivity].
    apply vp_whole_verdict. exact Hsub.
  Qed.

  (* a group: the sub-message runs on the rest of the input and both sides go on after its end tag *)
  Lemma vp_group_agree tid num r old (F : msg_macc -> msg_macc) :
    vp_agree P (vsub tid num (x00 :: r) r) _
      (match dsub tid num (x00 :: r) r old with
       | DErr e => DErr e
       | DOk (m, r') => DOk (F m, r')
       end) vp_rest2 r.
  Proof.
    pose proof (Hsub tid num (x00 :: r) r old ltac:(cbn [length]; lia)) as H.
    destruct (vsub tid num (x00 :: r) r) as [i q r1| |]; cbn [vp_agree] in *.
    - destruct H as [Hl H]. split; [exact Hl|]. destruct q; [rewrite H; reflexivity|].
      destruct H as ([m r2] & -> & Hr). eexists. split; [reflexivity|exact Hr].
    - intros HP. destruct (H HP) as (e & ->). eauto.
    - exact H.
  Qed.

  Lemma vp_parse_val_dep d1 d2 num typ r : typ <> 3 -> parse_val d1 num typ r = parse_val d2 num typ r.
  Proof. intros H. rewrite !parse_val_eq. destruct_typ typ; try reflexivity. congruence. Qed.

  Lemma vp_scalar_agree fd sk c tagraw num typ r acc :
    In fd md -> f_kind fd = KS sk -> f_card fd = c ->
    vp_agree P
      (if typ =? 2 then
         match dec_bytes r with
         | Err _ => VBad
         | Ok (payload, r') =>
           if vr_is_string sk && f_utf8 fd then (if msg_utf8_valid payload then VOk true false r' else VBad)
           else if msg_packable sk && card_repeated c then (if vr_packed_ok sk payload then VOk true false r' else VBad)
           else VOk true false r'
         end
       else vr_plain num typ r) _
      (if typ =? sk_wt sk then
         match parse_val 0 num typ r with
         | Err _ => DErr DParse
         | Ok (w, r') =>
           match msg_dec_scalar sk (msg_field_utf8 false fd) w with
           | None => msg_unknown tagraw num typ r acc
           | Some (DErr e) => DErr e
           | Some (DOk s) =>
             DOk ((if card_repeated c then msg_append_field fd [VS s] (fst acc)
                   else msg_set_field md fd (VS s) (fst acc), snd acc), r')
           end
         end
       else if (typ =? 2) && msg_packable sk && card_repeated c then
         match dec_bytes r with
         | Err _ => DErr DParse
         | Ok (payload, r') =>
           match msg_dec_packed (x00 :: payload) sk payload [] with
           | DErr e => DErr e
           | DOk vs => DOk ((msg_append_field fd vs (fst acc), snd acc), r')
           end
         end
       else msg_unknown tagraw num typ r acc) vp_rest2 r.
  Proof.
    intros Hin Ek Ec. destruct (typ =? 2) eqn:Ht.
    - apply N.eqb_eq in Ht. subst typ.
      destruct (dec_bytes r) as [[payload r']|e] eqn:Eb.
      + pose proof (dec_bytes_len _ _ _ Eb) as Hb.
        destruct (2 =? sk_wt sk) eqn:Hw.
        * (* string / bytes *)
          rewrite msg_parse_val_len, ?Eb. rewrite vp_dec_scalar_cases.
          assert (Hs : sk = SkString \/ sk = SkBytes) by (destruct sk; cbn in Hw; try discriminate; auto).
          replace (msg_packable sk && card_repeated c) with false
            by (destruct Hs; subst sk; reflexivity).
          destruct Hs; subst sk; cbn [sk_dec vr_is_string andb].
          -- destruct (f_utf8 fd) eqn:Hu.
             ++ destruct (msg_utf8_valid payload) eqn:Hv; cbn [negb vp_agree].
                ** rewrite andb_false_r. split; [lia|]. eexists. split; reflexivity.
                ** intros HP. specialize (Hfl HP fd Hin). unfold vp_fl1_bad in Hfl.
                   rewrite Hu, Ek in Hfl. cbn [vp_is_string_kind] in Hfl. rewrite !andb_true_r in Hfl.
                   unfold msg_field_utf8. rewrite Hu. cbn [andb orb]. rewrite Hfl. cbn [negb andb]. eauto.
             ++ unfold msg_field_utf8. rewrite Hu. cbn [andb vp_agree]. split; [lia|]. eexists. split; reflexivity.
          -- cbn [vp_agree]. split; [lia|]. eexists. split; reflexivity.
        * (* a LEN occurrence of a varint / fixed kind *)
          replace (vr_is_string sk) with false by (destruct sk; cbn in Hw; try discriminate; reflexivity).
          assert (Hp : msg_packable sk = true) by (destruct sk; cbn in Hw; try discriminate; reflexivity).
          rewrite Hp. cbn [andb N.eqb Pos.eqb]. destruct (card_repeated c).
          -- rewrite ?Eb. pose proof (vp_packed sk payload Hp) as Hpk.
             destruct (vr_packed_ok sk payload); cbn [vp_agree].
             ++ destruct Hpk as (vs & ->). split; [lia|]. eexists. split; reflexivity.
             ++ rewrite Hpk. eauto.
          -- unfold msg_unknown. rewrite msg_parse_val_len, ?Eb. cbn [vp_agree]. split; [lia|]. eexists. split; reflexivity.
      + cbn [vp_agree]. intros _. destruct (2 =? sk_wt sk).
        * rewrite msg_parse_val_len, ?Eb. eauto.
        * cbn [N.eqb Pos.eqb andb]. destruct (msg_packable sk && card_repeated c).
          -- rewrite ?Eb. eauto.
          -- unfold msg_unknown. rewrite msg_parse_val_len, ?Eb. eauto.
    - destruct (typ =? sk_wt sk) eqn:Hw; [|cbn [andb]; apply vp_unknown_agree].
      apply N.eqb_eq in Hw. apply N.eqb_neq in Ht.
      assert (H3 : typ <> 3) by (rewrite Hw; destruct sk; cbn; discriminate).
      unfold vr_plain, vr_skip. rewrite (vp_parse_val_dep 0 default_dep) by exact H3.
      destruct (parse_val default_dep num typ r) as [[w r']|e] eqn:Ep; cbn [vp_agree]; [|eauto].
      pose proof (parse_val_len _ _ _ _ _ _ Ep) as Hl.
      rewrite vp_dec_scalar_nolen.
      + rewrite Hw in Ep. destruct (vp_sk_dec_some _ _ _ _ _ _ Ep) as (s & ->).
        split; [exact Hl|]. eexists. split; reflexivity.
      + intros b ->. apply vp_parse_val_wlen in Ep. congruence.
  Qed.

  Lemma vp_step_agree tagraw num typ r acc :
    vp_agree P (vr_step reqof md vsub vsub2 num typ r) _
             (msg_step false md dsub dsub2 tagraw num typ r acc) vp_rest2 r.
  Proof.
    unfold vr_step, msg_step.
    destruct (msg_find_field md num) as [fd|] eqn:Ef; [|apply vp_unknown_agree].
    pose proof (vp_find_field_in _ _ _ Ef) as Hin.
    destruct (f_card fd) as [| | | | |kk kutf8 vdef] eqn:Ec.
    6: {
      (* map field *)
      destruct (typ =? 2) eqn:Ht.
      - destruct vsub2 as [vm2|], dsub2 as [dm2|]; try contradiction; cbn [vp_agree]; [|eauto].
        destruct (dec_bytes r) as [[payload r']|e] eqn:Eb; cbn [vp_agree]; [|eauto].
        pose proof (dec_bytes_len _ _ _ Eb) as Hb.
        set (dm := fun (p : list byte) (v : value) =>
                     match f_kind fd with
                     | KMsg tid => match msg_whole dm2 tid p (msg_macc_of v) with
                                   | DOk m => DOk (VMsg (fst m) (snd m)) | DErr e => DErr e end
                     | _ => DErr DSchema
                     end).
        assert (Hvm : forall tid p v, f_kind fd = KMsg tid -> vp_verdict P (vm2 tid 0 (x00 :: p) p) _ (dm p v)).
        { intros tid p v Ek. unfold dm. rewrite Ek.
          apply vp_verdict_map; [apply vp_whole_verdict; exact Hsub2|eauto]. }
        fold dm. apply vp_agree_ret; [|lia|intros [key v]; eexists; split; reflexivity].
        apply (vp_entry_agree P reqof kk kutf8 (f_kind fd) (f_utf8 fd) vm2 dm Hvm _ _ _ _ false). cbn [length]. lia.
      - destruct vsub2 as [vm2|], dsub2 as [dm2|]; try contradiction.
        + apply vp_unknown_agree.
        + unfold vr_skip. destruct (parse_val default_dep num typ r) as [[w r']|e] eqn:E; cbn [vp_agree]; [|eauto].
          split; [eapply parse_val_len; eauto|reflexivity].
    }
    all: destruct (f_kind fd) as [sk|tid|tid] eqn:Ek;
      [eapply vp_scalar_agree; eauto
      |destruct (typ =? 2); [apply vp_whole_agree|apply vp_unknown_agree]
      |destruct (typ =? 3); [apply vp_group_agree|apply vp_unknown_agree]].
  Qed.
End StepAgree.

Section LoopAgree.
  Variable P : Prop.
  Variable S : schema.
  Hypothesis HflS : P -> vp_fl1_free S.

  Lemma vp_sub2_agree d :
    vp_sub_agree P (vr_msg S d) (msg_decode_msg false S d) ->
    (forall d1, d = Datatypes.S d1 -> vp_sub_agree P (vr_msg S d1) (msg_decode_msg false S d1)) ->
    match vp_vsub2 S d, vp_dsub2 S d with
    | None, None => True
    | Some vm2, Some dm2 => vp_sub_agree P vm2 dm2
    | _, _ => False
    end.
  Proof. intros _ H. destruct d as [|d1]; cbn; [exact I|]. apply H. reflexivity. Qed.

  Lemma vp_loop_agree d tid grp md :
    nth_error S tid = Some md ->
    vp_sub_agree P (vr_msg S d) (msg_decode_msg false S d) ->
    (forall d1, d = Datatypes.S d1 -> vp_sub_agree P (vr_msg S d1) (msg_decode_msg false S d1)) ->
    forall g bs seen i q0 acc, (length bs < length g)%nat ->
    vp_agree_from q0 P (vr_loop (vr_reqof S) md (vr_msg S d) (vp_vsub2 S d) grp g bs seen i q0) _
                  (msg_decode_msg false S (Datatypes.S d) tid grp g bs acc) vp_rest2 bs.
  Proof.
    intros Hmd Hsub Hsub2. induction g as [|x g IH]; intros bs seen i q0 acc Hl; [cbn in Hl; lia|].
    rewrite (vp_dm_unfold _ _ _ _ _ _ _ _ _ Hmd). cbn [vr_loop].
    destruct bs as [|b0 t0] eqn:Ebs.
    { destruct (grp =? 0); [|apply vp_agree_from_bad]. now apply vp_agree_from_end. }
    rewrite <- Ebs in *. clear Ebs b0 t0.
    destruct (dec_tag bs) as [[[num typ] r]|e] eqn:Et; [|apply vp_agree_from_bad].
    pose proof (dec_tag_len _ _ _ _ Et) as Hr.
    destruct (msg_max_num <? num); [apply vp_agree_from_bad|].
    destruct (typ =? 4).
    { destruct (num =? grp); [|apply vp_agree_from_bad]. apply vp_agree_from_end; [lia|reflexivity]. }
    assert (Hmdfl : P -> vp_md_fl1_free md).
    { intros HP. apply (HflS HP). eapply nth_error_In; eauto. }
    pose proof (vp_step_agree P (vr_reqof S) md (vr_msg S d) (msg_decode_msg false S d) (vp_vsub2 S d) (vp_dsub2 S d)
                  Hsub (vp_sub2_agree d Hsub Hsub2) Hmdfl (enc_tag num typ) num typ r acc) as Hs.
    destruct (vr_step (vr_reqof S) md (vr_msg S d) (vp_vsub2 S d) num typ r) as [i1 q1 r'| |]; cbn [vp_agree] in Hs.
    - destruct Hs as [Hl' Hs]. cbn [length] in Hl. destruct q1.
      + rewrite Hs, orb_true_r. eapply vp_agree_up with (bs := r'); [lia|]. apply (IH r' _ _ true acc). lia.
      + destruct Hs as ([acc' r2] & -> & <-). rewrite orb_false_r.
        apply vp_agree_from_mono with (bs := r2); [cbn [vp_rest2 snd] in Hl'; lia|]. apply IH.
        cbn [vp_rest2 snd] in Hl'. lia.
    - intros HP. destruct (Hs HP) as (e & ->). eauto.
    - exact Hs.
  Qed.

  Theorem vp_msg_agree : forall d, vp_sub_agree P (vr_msg S d) (msg_decode_msg false S d).
  Proof.
    induction d as [d IHd] using (well_founded_induction lt_wf).
    intros tid grp g bs acc Hl. destruct d as [|d]; [apply vp_agree_bad|].
    rewrite vp_vr_unfold. destruct (nth_error S tid) as [md|] eqn:Hmd.
    - apply (vp_loop_agree d tid grp md Hmd (IHd d ltac:(lia)) (fun d1 E => IHd d1 ltac:(lia)) g bs [] true false). exact Hl.
    - rewrite vp_dm_none by exact Hmd. apply vp_agree_bad.
  Qed.
End LoopAgree.

(* well-formed for the schema, within the recursion limit, valid UTF-8 where enforced: what the
   validator accepts without the FWB4 quirk *)
Definition vp_wellformed (S : schema) (limit tid : nat) (bs : list byte) : bool :=
  match vm_validate S limit tid bs with
  | (3, _, false) => true
  | _ => false
  end.

Lemma vp_validate_cases (P : Prop) S (H : P -> vp_fl1_free S) limit tid bs :
  match vr_msg S limit tid 0 (x00 :: bs) bs with
  | VFuel => False
  | VBad => P -> exists e, msg_decode false S limit tid bs = DErr e
  | VOk i q r => if q then msg_decode false S limit tid bs = DErr DDepth
                 else exists v, msg_decode false S limit tid bs = DOk v
  end.
Proof.
  apply (vp_verdict_map P _ _ _ (msg_decode_msg false S limit tid 0 (x00 :: bs) bs (msg_macc_of msg_empty)));
    [|intros [m r]; eauto].
  eapply vp_agree_verdict, (vp_msg_agree P S H). cbn [length]. lia.
Qed.

Theorem vp_validate_total S limit tid bs : fst (fst (vm_validate S limit tid bs)) <> 0.
Proof.
  pose proof (vp_validate_cases False S (fun f => match f with end) limit tid bs) as H.
  unfold vm_validate. destruct (vr_msg S limit tid 0 (x00 :: bs) bs); cbn [fst]; [discriminate|discriminate|contradiction].
Qed.

Theorem vp_valid_sound S limit tid bs i :
  vm_validate S limit tid bs = (3, i, false) -> exists v, msg_decode false S limit tid bs = DOk v.
Proof.
  pose proof (vp_validate_cases False S (fun f => match f with end) limit tid bs) as H.
  unfold vm_validate. destruct (vr_msg S limit tid 0 (x00 :: bs) bs) as [i0 q r| |]; try discriminate.
  intros E. inversion E; subst. exact H.
Qed.

Theorem vp_valid_quirk S limit tid bs i :
  vm_validate S limit tid bs = (3, i, true) -> msg_decode false S limit tid bs = DErr DDepth.
Proof.
  pose proof (vp_validate_cases False S (fun f => match f with end) limit tid bs) as H.
  unfold vm_validate. destruct (vr_msg S limit tid 0 (x00 :: bs) bs) as [i0 q r| |]; try discriminate.
  intros E. inversion E; subst. exact H.
Qed.

Theorem vp_invalid_sound S limit tid bs :
  vp_fl1_free S -> fst (fst (vm_validate S limit tid bs)) = 2 ->
  exists e, msg_decode false S limit tid bs = DErr e.
Proof.
  intros Hfl. pose proof (vp_validate_cases True S (fun _ => Hfl) limit tid bs) as H.
  unfold vm_validate. destruct (vr_msg S limit tid 0 (x00 :: bs) bs) as [i0 q r| |]; cbn [fst]; try discriminate.
  intros _. apply H. exact I.
Qed.

Theorem vp_fails_iff S limit tid bs :
  vp_fl1_free S ->
  ((exists e, msg_decode false S limit tid bs = DErr e) <-> vp_wellformed S limit tid bs = false).
Proof.
  intros Hfl. pose proof (vp_validate_cases True S (fun _ => Hfl) limit tid bs) as H.
  unfold vp_wellformed, vm_validate.
  destruct (vr_msg S limit tid 0 (x00 :: bs) bs) as [i0 q r| |].
  - destruct q.
    + split; [reflexivity|]. intros _. rewrite H. eauto.
    + destruct H as (v & ->). split; [intros (e & E); discriminate|discriminate].
  - split; [reflexivity|]. intros _. apply H. exact I.
  - contradiction.
Qed.

(* decidable version of the FL1-freeness hypothesis *)
Definition vp_fl1_freeb (S : schema) : bool := forallb (fun md => forallb (fun fd => negb (vp_fl1_bad fd)) md) S.
Lemma vp_fl1_freeb_spec S : vp_fl1_freeb S = true -> vp_fl1_free S.
Proof.
  unfold vp_fl1_freeb. intros H md Hmd fd Hfd. rewrite forallb_forall in H. specialize (H md Hmd).
  rewrite forallb_forall in H. specialize (H fd Hfd). destruct (vp_fl1_bad fd); [discriminate|reflexivity].
Qed.
