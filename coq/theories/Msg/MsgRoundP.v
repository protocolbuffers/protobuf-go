(* MsgRoundP — the decoder on the output of the encoder, and C03: decode (encode v) = v for
   canonical values of the message codec model.

     msg_step_scalar .. msg_step_group_slow   one step on each shape of encoded element
     msg_entry_*_step, msg_dec_entry_ok       the entry loop on an encoded key and value
     msg_field_cases                          the four ways a field is written (single, expanded, packed, map)
     msg_run_field, msg_run_scalar, msg_run_sub, msg_run_elem .. msg_run_chunks, msg_run_unknown
                                              the tag loop over an encoded element, field, message body
                                              and unknown section, as equations on [msg_run]
     msg_dec_at_all, msg_roundtrip            the round trip, by induction on the depth

   MergeP (any accumulator) and UnkP (fields the receiver does not know) build on the same lemmas;
   MsgDecP and MsgRunP are re-exported because every statement here is about their notions. *)
From Coq Require Import List Arith NArith ZArith Lia Bool Permutation.
From Coq Require Import ZifyBool ZifyNat ZifyN.
From PB Require Import Base.PBytes Wire.WireModel Wire.WireGrammar Wire.VarintP Wire.PrimP Wire.ScanP.
From PB Require Import Msg.MsgSchema Msg.MsgValue Msg.MsgUtf8 Msg.MsgEnc Msg.MsgDec Msg.MsgValid.
From PB Require Export Msg.MsgDecP Msg.MsgRunP.
From PB Require Import Msg.MsgWireP Msg.MsgScalarP Msg.MsgAssocP Msg.MsgStoreP Msg.MsgSizeP Msg.MergeModel Msg.DetP.
Import ListNotations.
Open Scope N_scope.

Section Loop.
  Variable slow : bool.
  Variable S : schema.
  Notation dm := (msg_decode_msg slow S).

  (* the same function as MsgDecP.msg_sub2 (which files that do not import this one use);
     statements of Props/C09 name this one *)
  Definition msg_dsub2 (d : nat) : option msg_dec_t :=
    match d with O => None | Datatypes.S d1 => Some (dm d1) end.

  Lemma msg_dm_end_grp d tid md grp g rest acc :
    slow = false ->
    nth_error S tid = Some md -> 1 <= grp -> grp <= msg_max_num -> (0 < length g)%nat ->
    dm (Datatypes.S d) tid grp g (enc_tag grp 4 ++ rest) acc = DOk (acc, rest).
  Proof.
    intros Hslow H Hlo Hhi Hg. destruct g as [|x g]; [cbn in Hg; lia|].
    rewrite (msg_dm_tagged slow S d tid grp md x g grp 4 rest acc H Hlo Hhi eq_refl).
    rewrite Hslow, !N.eqb_refl. reflexivity.
  Qed.
End Loop.

Lemma msg_dec_scalar_ok sk utf8 s :
  sk_ok sk s = true -> msg_str_valid sk utf8 s = true ->
  msg_dec_scalar sk utf8 (sk_enc sk s) = Some (DOk s).
Proof.
  intros Hok Hstr. unfold msg_dec_scalar. rewrite (msg_sk_dec_enc sk s Hok).
  destruct sk, s; try reflexivity. cbn [msg_str_valid] in Hstr.
  destruct utf8; [|reflexivity]. cbn [orb negb andb] in *. rewrite Hstr. reflexivity.
Qed.

Definition msg_scalar_good (sk : skind) (v : value) : Prop :=
  match v with VS s => sk_ok sk s = true /\ msg_wval_ok (sk_enc sk s) = true | _ => False end.

Lemma msg_dec_packed_ok sk : forall vs acc g,
  msg_packable sk = true -> Forall (msg_scalar_good sk) vs ->
  (length (msg_enc_packed_payload sk vs) < length g)%nat ->
  msg_dec_packed g sk (msg_enc_packed_payload sk vs) acc = DOk (rev acc ++ vs).
Proof.
  induction vs as [|v vs IH]; intros acc g Hp Hall Hg.
  - destruct g; [cbn in Hg; lia|]. cbn. now rewrite app_nil_r.
  - inversion Hall as [|? ? Hv Hvs]; subst. destruct v as [s| |]; try contradiction.
    destruct Hv as [Hok Hw].
    destruct g as [|x g]; [cbn in Hg; lia|].
    unfold msg_enc_packed_payload in *. cbn [flat_map] in *.
    set (rest := flat_map (fun v => match v with VS s0 => msg_enc_scalar sk s0 | _ => [] end) vs) in *.
    pose proof (msg_enc_scalar_nonempty sk s) as Hne.
    assert (Hrest : (length rest < length g)%nat).
    { rewrite app_length in Hg. destruct (msg_enc_scalar sk s); [contradiction|]. cbn [length] in Hg. lia. }
    cbn [msg_dec_packed].
    destruct (msg_enc_scalar sk s ++ rest) as [|b0 r0] eqn:E0.
    { apply app_eq_nil in E0. destruct E0 as [E0 _]. contradiction. }
    rewrite <- E0, (msg_parse_scalar sk s 0 1 _ Hok Hw), (msg_sk_dec_enc sk s Hok).
    rewrite (IH _ _ Hp Hvs Hrest). cbn [rev]. rewrite <- app_assoc. reflexivity.
Qed.

Section StepLemmas.
  Variable slow : bool.
  Variable md : mdesc.
  Variable dsub : msg_dec_t.
  Variable dsub2 : option msg_dec_t.

  Definition msg_not_map (fd : fdesc) : Prop := forall kk ku vd, f_card fd <> CMap kk ku vd.

  Lemma msg_repeated_not_map fd : card_repeated (f_card fd) = true -> msg_not_map fd.
  Proof. intros Hrep kk ku vd Hc. rewrite Hc in Hrep. discriminate. Qed.

  Lemma msg_step_scalar fd sk s tagraw tail acc :
    msg_find_field md (f_num fd) = Some fd -> f_kind fd = KS sk -> msg_not_map fd ->
    sk_ok sk s = true -> msg_wval_ok (sk_enc sk s) = true ->
    msg_str_valid sk (msg_field_utf8 slow fd) s = true ->
    msg_step slow md dsub dsub2 tagraw (f_num fd) (sk_wt sk) (msg_enc_scalar sk s ++ tail) acc =
    DOk ((if card_repeated (f_card fd) then msg_append_field fd [VS s] (fst acc)
          else msg_set_field md fd (VS s) (fst acc), snd acc), tail).
  Proof.
    intros Hf Hk Hnm Hok Hw Hstr.
    rewrite msg_step_route, (msg_route_not_map md _ _ fd Hf Hnm), (msg_route_plain_scalar fd sk Hk).
    rewrite (msg_parse_scalar sk s 0 _ _ Hok Hw), (msg_dec_scalar_ok sk _ s Hok Hstr). reflexivity.
  Qed.

  Lemma msg_step_packed fd sk vs tagraw tail acc :
    msg_find_field md (f_num fd) = Some fd -> f_kind fd = KS sk -> card_repeated (f_card fd) = true ->
    msg_packable sk = true -> Forall (msg_scalar_good sk) vs ->
    N.of_nat (length (msg_enc_packed_payload sk vs)) < 2^64 ->
    msg_step slow md dsub dsub2 tagraw (f_num fd) 2 (enc_bytes (msg_enc_packed_payload sk vs) ++ tail) acc =
    DOk ((msg_append_field fd vs (fst acc), snd acc), tail).
  Proof.
    intros Hf Hk Hrep Hp Hall Hlen.
    rewrite msg_step_route, (msg_route_not_map md _ _ fd Hf (msg_repeated_not_map fd Hrep)),
            (msg_route_plain_packed fd sk Hk Hp Hrep).
    rewrite (msgw_dec_bytes_enc _ _ Hlen), msg_dec_packed_ok by (try assumption; cbn [length]; lia).
    reflexivity.
  Qed.

  Lemma msg_step_message fd tid body tail tagraw acc m :
    msg_find_field md (f_num fd) = Some fd -> f_kind fd = KMsg tid -> msg_not_map fd ->
    N.of_nat (length body) < 2^64 ->
    msg_whole dsub tid body (msg_old_sub fd (fst acc)) = DOk m ->
    msg_step slow md dsub dsub2 tagraw (f_num fd) 2 (enc_bytes body ++ tail) acc =
    DOk ((msg_store_sub md fd m (fst acc), snd acc), tail).
  Proof.
    intros Hf Hk Hnm Hlen Hsub.
    rewrite msg_step_route, (msg_route_not_map md _ _ fd Hf Hnm), (msg_route_plain_msg fd tid Hk).
    rewrite (msgw_dec_bytes_enc _ _ Hlen), Hsub. reflexivity.
  Qed.

  Lemma msg_step_group fd tid bytes tail tagraw acc m :
    slow = false ->
    msg_find_field md (f_num fd) = Some fd -> f_kind fd = KGrp tid -> msg_not_map fd ->
    dsub tid (f_num fd) (x00 :: bytes ++ tail) (bytes ++ tail) (msg_old_sub fd (fst acc)) = DOk (m, tail) ->
    msg_step slow md dsub dsub2 tagraw (f_num fd) 3 (bytes ++ tail) acc =
    DOk ((msg_store_sub md fd m (fst acc), snd acc), tail).
  Proof.
    intros Hs Hf Hk Hnm Hsub.
    rewrite msg_step_route, (msg_route_not_map md _ _ fd Hf Hnm), (msg_route_plain_grp fd tid Hk).
    rewrite Hs, Hsub. reflexivity.
  Qed.

  Lemma msg_step_group_slow fd tid body tail tagraw acc m w :
    slow = true ->
    msg_find_field md (f_num fd) = Some fd -> f_kind fd = KGrp tid -> msg_not_map fd ->
    1 <= f_num fd -> f_num fd <= msg_max_num ->
    parse_val default_dep (f_num fd) 3 (body ++ enc_tag (f_num fd) 4) = Ok (w, []) ->
    msg_whole dsub tid body (msg_old_sub fd (fst acc)) = DOk m ->
    msg_step slow md dsub dsub2 tagraw (f_num fd) 3 (body ++ enc_tag (f_num fd) 4 ++ tail) acc =
    DOk ((msg_store_sub md fd m (fst acc), snd acc), tail).
  Proof.
    intros Hs Hf Hk Hnm Hlo Hhi Hscan Hsub.
    rewrite msg_step_route, (msg_route_not_map md _ _ fd Hf Hnm), (msg_route_plain_grp fd tid Hk), Hs.
    rewrite msg_max_num_eq in Hhi.
    destruct (msgw_consume_group_enc (f_num fd) body tail w Hlo Hhi Hscan) as [Hcg Hskip].
    rewrite Hcg, Hsub, Nnat.Nat2N.id, Hskip. reflexivity.
  Qed.
End StepLemmas.

Section Entry.
  Variables (kk : skind) (kutf8 : bool) (vk : kind) (vutf8 : bool).
  Variable dmf : list byte -> value -> dres value.

  Lemma msg_entry_key_step x g key tail k0 v0 :
    sk_ok kk key = true -> msg_wval_ok (sk_enc kk key) = true -> msg_str_valid kk kutf8 key = true ->
    msg_dec_entry (x :: g) kk kutf8 vk vutf8 dmf (msg_enc_key kk key ++ tail) k0 v0 =
    msg_dec_entry g kk kutf8 vk vutf8 dmf tail key v0.
  Proof.
    intros Hok Hw Hstr. unfold msg_enc_key. rewrite <- app_assoc.
    rewrite msg_dec_entry_tagged by (try apply msg_sk_wt_lt8; rewrite ?msg_max_num_eq; lia).
    rewrite (msg_parse_scalar kk key _ _ _ Hok Hw). unfold msg_entry_put. cbn [N.eqb Pos.eqb].
    rewrite (msg_dec_scalar_ok kk kutf8 key Hok Hstr). reflexivity.
  Qed.

  Lemma msg_entry_val_scalar_step x g sk s tail k0 v0 :
    vk = KS sk ->
    sk_ok sk s = true -> msg_wval_ok (sk_enc sk s) = true -> msg_str_valid sk vutf8 s = true ->
    msg_dec_entry (x :: g) kk kutf8 vk vutf8 dmf (enc_tag 2 (sk_wt sk) ++ msg_enc_scalar sk s ++ tail) k0 v0 =
    msg_dec_entry g kk kutf8 vk vutf8 dmf tail k0 (VS s).
  Proof.
    intros Hvk Hok Hw Hstr.
    rewrite msg_dec_entry_tagged by (try apply msg_sk_wt_lt8; rewrite ?msg_max_num_eq; lia).
    rewrite (msg_parse_scalar sk s _ _ _ Hok Hw). unfold msg_entry_put. cbn [N.eqb Pos.eqb].
    rewrite Hvk, (msg_dec_scalar_ok sk vutf8 s Hok Hstr). reflexivity.
  Qed.

  Lemma msg_entry_val_msg_step x g tid body tail k0 v0 v :
    vk = KMsg tid -> N.of_nat (length body) < 2^64 -> dmf body v0 = DOk v ->
    msg_dec_entry (x :: g) kk kutf8 vk vutf8 dmf (enc_tag 2 2 ++ enc_bytes body ++ tail) k0 v0 =
    msg_dec_entry g kk kutf8 vk vutf8 dmf tail k0 v.
  Proof.
    intros Hvk Hlen Hdm.
    rewrite msg_dec_entry_tagged by (rewrite ?msg_max_num_eq; lia).
    rewrite msg_parse_val_len, (msgw_dec_bytes_enc _ _ Hlen). unfold msg_entry_put. cbn [N.eqb Pos.eqb].
    rewrite Hvk, Hdm. reflexivity.
  Qed.

  Lemma msg_entry_end x g k0 v0 : msg_dec_entry (x :: g) kk kutf8 vk vutf8 dmf [] k0 v0 = DOk (k0, v0).
  Proof. reflexivity. Qed.
End Entry.

Lemma msg_dec_entry_ok kk kutf8 vk vutf8 dmf key v encv k0 v0 g :
  sk_ok kk key = true -> msg_wval_ok (sk_enc kk key) = true -> msg_str_valid kk kutf8 key = true ->
  ((exists sk s, vk = KS sk /\ v = VS s /\ sk_ok sk s = true /\ msg_wval_ok (sk_enc sk s) = true /\
                 msg_str_valid sk vutf8 s = true /\ encv = enc_tag 2 (sk_wt sk) ++ msg_enc_scalar sk s) \/
   (exists tid body, vk = KMsg tid /\ N.of_nat (length body) < 2^64 /\ dmf body v0 = DOk v /\
                     encv = enc_tag 2 2 ++ enc_bytes body)) ->
  (length (msg_enc_key kk key ++ encv) < length g)%nat ->
  msg_dec_entry g kk kutf8 vk vutf8 dmf (msg_enc_key kk key ++ encv) k0 v0 = DOk (key, v).
Proof.
  intros Hok Hw Hstr Hval Hg.
  assert (Hk1 : (1 <= length (msg_enc_key kk key))%nat).
  { unfold msg_enc_key. rewrite app_length. pose proof (enc_tag_nonempty 1 (sk_wt kk)). lia. }
  assert (Hv1 : (1 <= length encv)%nat).
  { destruct Hval as [(sk & s & _ & _ & _ & _ & _ & ->)|(t & body & _ & _ & _ & ->)]; rewrite app_length;
      [pose proof (enc_tag_nonempty 2 (sk_wt sk))|pose proof (enc_tag_nonempty 2 2)]; lia. }
  rewrite app_length in Hg. clear - Hk1 Hv1 Hg Hok Hw Hstr Hval.
  destruct g as [|x1 [|x2 [|x3 g]]]; cbn [length] in Hg; try lia.
  rewrite (msg_entry_key_step kk kutf8 vk vutf8 dmf x1 _ key encv k0 v0 Hok Hw Hstr).
  destruct Hval as [(sk & s & Hvk & -> & Hsok & Hsw & Hsstr & ->)|(t & body & Hvk & Hlen & Hdm & ->)].
  - rewrite <- (app_nil_r (msg_enc_scalar sk s)).
    rewrite (msg_entry_val_scalar_step kk kutf8 vk vutf8 dmf x2 _ sk s [] key v0 Hvk Hsok Hsw Hsstr).
    reflexivity.
  - rewrite <- (app_nil_r (enc_bytes body)).
    rewrite (msg_entry_val_msg_step kk kutf8 vk vutf8 dmf x2 _ t body [] key v0 v Hvk Hlen Hdm).
    reflexivity.
Qed.

Lemma msg_clear_oneof_noop md oi num fs :
  (forall fd', In fd' md -> f_oneof fd' = Some oi -> f_num fd' <> num -> ~ In (f_num fd') (msg_keys fs)) ->
  msg_clear_oneof md oi num fs = fs.
Proof.
  induction md as [|f r IH]; intros H; cbn [msg_clear_oneof]; [reflexivity|].
  assert (Hr : forall fd', In fd' r -> f_oneof fd' = Some oi -> f_num fd' <> num -> ~ In (f_num fd') (msg_keys fs))
    by (intros fd' Hin; apply H; right; exact Hin).
  destruct (f_oneof f) as [j|] eqn:Ej; [|apply IH; exact Hr].
  destruct ((j =? oi) && negb (f_num f =? num)) eqn:E; [|apply IH; exact Hr].
  apply andb_true_iff in E. destruct E as [E1 E2].
  rewrite msg_fdel_notin; [apply IH; exact Hr|].
  apply H; [left; reflexivity| rewrite Ej; f_equal; lia | lia].
Qed.

(* the oneof condition of [msg_typed], as a statement about keys *)
Definition msg_oneof_free (md : mdesc) (fd : fdesc) (keys : list N) : Prop :=
  forall oi, f_oneof fd = Some oi ->
  forall fd', In fd' md -> f_oneof fd' = Some oi -> f_num fd' <> f_num fd -> ~ In (f_num fd') keys.

Lemma msg_oneofs_ok_free md fs p fd :
  msg_oneofs_ok md fs = true -> In p fs -> msg_find_field md (fst p) = Some fd ->
  msg_oneof_free md fd (msg_keys fs).
Proof.
  intros Hok Hin Hf oi Hoi fd' Hin' Hoi' Hne Hk.
  unfold msg_oneofs_ok in Hok. rewrite forallb_forall in Hok. specialize (Hok p Hin).
  unfold msg_oneof_of in Hok. rewrite Hf, Hoi in Hok.
  rewrite forallb_forall in Hok. specialize (Hok fd' Hin'). rewrite Hoi' in Hok.
  rewrite (msg_find_field_num _ _ _ Hf) in Hne.
  apply orb_true_iff in Hok. destruct Hok as [Hok|Hok].
  - apply orb_true_iff in Hok. destruct Hok as [Hok|Hok]; [rewrite N.eqb_refl in Hok; discriminate|lia].
  - apply negb_true_iff in Hok.
    assert (existsb (N.eqb (f_num fd')) (map fst fs) = true); [|congruence].
    apply existsb_exists. exists (f_num fd'). split; [exact Hk|apply N.eqb_refl].
Qed.

Lemma msg_set_field_fresh md fd v fs :
  (match f_card fd, v with CImp, VS s => msg_scalar_is_zero s = false | _, _ => True end) ->
  msg_oneof_free md fd (f_num fd :: msg_keys fs) ->
  msg_set_field md fd v fs = msg_fset fs (f_num fd) [v].
Proof.
  intros Hz Hfree. unfold msg_set_field.
  assert (Hdrop : (match f_card fd, v with CImp, VS s => msg_scalar_is_zero s | _, _ => false end) = false).
  { destruct (f_card fd); try reflexivity. destruct v; try reflexivity. exact Hz. }
  rewrite Hdrop. destruct (f_oneof fd) as [oi|] eqn:Eo; [|reflexivity].
  apply msg_clear_oneof_noop. intros fd' Hin Hoi Hne Hk.
  apply (Hfree oi Eo fd' Hin Hoi Hne).
  apply msg_keys_fset in Hk. destruct Hk as [->|Hk]; [left; reflexivity|right; exact Hk].
Qed.

Lemma msg_typed_unfold slow S dep tid fs unk :
  msg_typed slow S dep tid (VMsg fs unk) = true ->
  exists d md, dep = Datatypes.S d /\ nth_error S tid = Some md /\
    msg_keys_sorted 0 fs = true /\
    forallb (fun p => msg_typed_chunk slow (msg_enc_body S) (msg_typed slow S d)
                        (fun t x => match d with O => false | Datatypes.S d1 => msg_typed slow S d1 t x end)
                        (match d with O => false | _ => true end) md p) fs = true /\
    msg_oneofs_ok md fs = true /\
    msg_unknown_ok slow md (match d with O => false | _ => true end) (x00 :: unk) unk = true.
Proof.
  cbn [msg_typed]. destruct dep as [|d]; [discriminate|].
  destruct (nth_error S tid) as [md|] eqn:E; [|discriminate].
  intros H. repeat (apply andb_true_iff in H; destruct H as [H ?]).
  exists d, md. repeat split; assumption.
Qed.

Lemma msg_sizes_ok_unfold S tid fs unk :
  msg_sizes_ok S tid (VMsg fs unk) = true ->
  forallb (fun p => msg_szok_chunk (msg_size_body S) (msg_sizes_ok S) (nth tid S []) p) fs = true.
Proof. cbn [msg_sizes_ok]. trivial. Qed.

Lemma msg_chunk_insert_perm {A} (c : N * A) l : Permutation (msg_chunk_insert c l) (c :: l).
Proof.
  induction l as [|x l IH]; [reflexivity|]. cbn [msg_chunk_insert].
  destruct (fst x <=? fst c); [|reflexivity].
  rewrite IH. apply perm_swap.
Qed.

Lemma msg_chunk_sort_perm {A} (l : list (N * A)) : Permutation (msg_chunk_sort l) l.
Proof.
  induction l as [|c l IH]; [reflexivity|]. cbn [msg_chunk_sort].
  rewrite msg_chunk_insert_perm. now rewrite IH.
Qed.

Lemma msg_chunk_insert_map {A B} (f : A -> B) (c : N * A) l :
  msg_chunk_insert (fst c, f (snd c)) (map (fun x => (fst x, f (snd x))) l) =
  map (fun x => (fst x, f (snd x))) (msg_chunk_insert c l).
Proof.
  induction l as [|x l IH]; [reflexivity|]. cbn [msg_chunk_insert map fst].
  destruct (fst x <=? fst c); [|reflexivity]. cbn [map]. now rewrite IH.
Qed.

Lemma msg_chunk_sort_map {A B} (f : A -> B) (l : list (N * A)) :
  msg_chunk_sort (map (fun x => (fst x, f (snd x))) l) = map (fun x => (fst x, f (snd x))) (msg_chunk_sort l).
Proof.
  induction l as [|c l IH]; [reflexivity|]. cbn [msg_chunk_sort map].
  rewrite IH. apply msg_chunk_insert_map.
Qed.

Lemma msg_enc_body_order S tid fs unk :
  msg_enc_body S tid (VMsg fs unk) =
  flat_map (fun p => snd (msg_enc_chunk (msg_enc_body S) (nth tid S []) p)) (msg_field_order (nth tid S []) fs) ++ unk.
Proof.
  set (md := nth tid S []). set (h := fun p => snd (msg_enc_chunk (msg_enc_body S) md p)).
  unfold msg_field_order. fold md. set (K := map (fun p => (msg_field_key md p, p)) fs).
  cbn [msg_enc_body]. fold md. f_equal.
  assert (E : map (fun p => msg_enc_chunk (msg_enc_body S) md p) fs = map (fun x => (fst x, h (snd x))) K).
  { unfold K. rewrite map_map. apply map_ext. intros p. cbn [fst snd]. unfold h, msg_field_key, msg_enc_chunk.
    destruct (msg_find_field md (fst p)); reflexivity. }
  rewrite E, msg_chunk_sort_map. rewrite map_map. cbn [snd].
  rewrite flat_map_concat_map, map_map. reflexivity.
Qed.
Lemma msg_field_order_perm md fs : Permutation (msg_field_order md fs) fs.
Proof.
  unfold msg_field_order. rewrite (Permutation_map snd (msg_chunk_sort_perm _)). rewrite map_map. cbn [snd].
  rewrite map_id. reflexivity.
Qed.

Lemma msg_enc_body_perm S tid fs unk :
  exists P, Permutation P fs /\
    msg_enc_body S tid (VMsg fs unk) =
    flat_map (fun p => snd (msg_enc_chunk (msg_enc_body S) (nth tid S []) p)) P ++ unk.
Proof. exists (msg_field_order (nth tid S []) fs). split; [apply msg_field_order_perm|apply msg_enc_body_order]. Qed.

Lemma msg_bytes_eqb_eq a b : msg_bytes_eqb a b = true -> a = b.
Proof. unfold msg_bytes_eqb. destruct (msg_bytes_cmp a b) eqn:E; try discriminate. intros _. now apply det_bytes_cmp_eq. Qed.

(* [msg_typed_field], [msg_szok_field] and [msg_enc_field] branch on cardinality, kind and
   packability in step; together they leave four cases. *)
Section FieldModes.
  Variable slow : bool.
  Variable S : schema.
  Variable d : nat.
  Notation eb := (msg_enc_body S).
  Notation tv2 := (fun t x => match d with O => false | Datatypes.S d1 => msg_typed slow S d1 t x end).
  Notation has2 := (match d with O => false | _ => true end).

  Inductive msg_field_mode (fd : fdesc) (vs : list value) : Prop :=
  | FmSingle v :
      vs = [v] -> msg_not_map fd -> card_repeated (f_card fd) = false ->
      msg_typed_elem slow eb (msg_typed slow S d) fd v = true ->
      (match f_card fd, v with CImp, VS s => msg_scalar_is_zero s = false | _, _ => True end) ->
      msg_szok_elem (msg_size_body S) (msg_sizes_ok S) (f_kind fd) v = true ->
      msg_enc_field eb fd vs = msg_enc_elem eb (f_num fd) (f_kind fd) v ->
      msg_field_mode fd vs
  | FmExpanded :
      vs <> [] -> msg_not_map fd -> card_repeated (f_card fd) = true ->
      forallb (msg_typed_elem slow eb (msg_typed slow S d) fd) vs = true ->
      forallb (msg_szok_elem (msg_size_body S) (msg_sizes_ok S) (f_kind fd)) vs = true ->
      msg_enc_field eb fd vs = flat_map (fun e => msg_enc_elem eb (f_num fd) (f_kind fd) e) vs ->
      msg_field_mode fd vs
  | FmPacked sk :
      vs <> [] -> f_kind fd = KS sk -> card_repeated (f_card fd) = true -> msg_packable sk = true ->
      Forall (msg_scalar_good sk) vs ->
      N.of_nat (length (msg_enc_packed_payload sk vs)) < 2^64 ->
      msg_enc_field eb fd vs = enc_tag (f_num fd) 2 ++ enc_bytes (msg_enc_packed_payload sk vs) ->
      msg_field_mode fd vs
  | FmMap kk kutf8 vdef d1 :
      vs <> [] -> f_card fd = CMap kk kutf8 vdef -> d = Datatypes.S d1 ->
      forallb (msg_typed_entry (msg_typed slow S d1) fd kk kutf8) vs = true ->
      forallb (msg_szok_entry (msg_size_body S) (msg_sizes_ok S) kk (f_kind fd)) vs = true ->
      msg_entries_sorted vs = true ->
      msg_enc_field eb fd vs = flat_map (fun e => msg_enc_entry eb (f_num fd) kk (f_kind fd) e) vs ->
      msg_field_mode fd vs.

  Lemma msg_field_cases fd vs :
    msg_typed_field slow eb (msg_typed slow S d) tv2 has2 fd vs = true ->
    msg_szok_field (msg_size_body S) (msg_sizes_ok S) fd vs = true ->
    1 <= f_num fd /\ f_num fd <= msg_max_num /\ msg_field_mode fd vs.
  Proof.
    intros Hty Hsz. unfold msg_typed_field in Hty. unfold msg_szok_field in Hsz.
    apply andb_true_iff in Hty. destruct Hty as [Hnum Hty].
    apply andb_true_iff in Hnum. destruct Hnum as [Hlo Hhi].
    apply andb_true_iff in Hsz. destruct Hsz as [_ Hsz].
    split; [lia|]. split; [lia|].
    assert (Hsingle : forall v, vs = [v] -> msg_not_map fd -> card_repeated (f_card fd) = false ->
              msg_typed_elem slow eb (msg_typed slow S d) fd v = true ->
              (match f_card fd, v with CImp, VS s => msg_scalar_is_zero s = false | _, _ => True end) ->
              forallb (msg_szok_elem (msg_size_body S) (msg_sizes_ok S) (f_kind fd)) vs = true ->
              msg_enc_field eb fd vs = flat_map (fun e => msg_enc_elem eb (f_num fd) (f_kind fd) e) vs ->
              msg_field_mode fd vs).
    { intros v -> Hnm Hrep Htyv Hz Hszv Henc. cbn [forallb flat_map] in *. rewrite app_nil_r in Henc.
      apply andb_true_iff in Hszv. exact (FmSingle fd [v] v eq_refl Hnm Hrep Htyv Hz (proj1 Hszv) Henc). }
    pose proof (FmExpanded fd vs) as Hexp. pose proof (FmPacked fd vs) as Hpk. pose proof (FmMap fd vs) as Hmp.
    unfold msg_enc_field in *.
    destruct (f_card fd) as [| | | | |kk kutf8 vdef] eqn:Hc.
    1-5: assert (Hnm : msg_not_map fd) by (intros ? ? ? E; congruence).
    - destruct vs as [|v [|]]; try discriminate. apply (Hsingle v); auto.
    - destruct vs as [|v [|]]; try discriminate.
      apply andb_true_iff in Hty. destruct Hty as [Hty Hnz]. apply (Hsingle v); auto.
      destruct v as [s| |]; try exact I. destruct (f_kind fd); try discriminate.
      apply negb_true_iff in Hnz. exact Hnz.
    - destruct vs as [|v [|]]; try discriminate. apply (Hsingle v); auto.
    - apply Hexp; auto; destruct vs; try discriminate; assumption.
    - assert (Hne : vs <> []) by (destruct vs; discriminate).
      assert (Htyv : forallb (msg_typed_elem slow eb (msg_typed slow S d) fd) vs = true)
        by (destruct vs; [discriminate|exact Hty]).
      destruct (f_kind fd) as [sk|t|t] eqn:Hk;
        [destruct vs as [|v0 vs']; [congruence|]; destruct (msg_packable sk) eqn:Hp|..];
        try (apply Hexp; auto; fail).
      apply andb_true_iff in Hsz. destruct Hsz as [Hszv Hplen].
      pose proof (msg_packed_eq (msg_size_body S) (msg_sizes_ok S) sk (v0 :: vs') Hszv) as Hpe.
      apply (Hpk sk); auto.
      + rewrite forallb_forall in Htyv, Hszv. apply Forall_forall. intros v Hv.
        specialize (Htyv v Hv). specialize (Hszv v Hv).
        unfold msg_typed_elem in Htyv. rewrite Hk in Htyv.
        destruct v as [s| |]; try discriminate. cbn [msg_szok_elem] in Hszv.
        apply andb_true_iff in Htyv. destruct Htyv as [Hok _]. split; assumption.
      + rewrite <- Hpe, <- msg_two64_eq. clear - Hplen. lia.
    - apply andb_true_iff in Hty. destruct Hty as [Hty Hsorted].
      apply andb_true_iff in Hty. destruct Hty as [Hhas2 Hty].
      destruct d as [|d1]; [discriminate|].
      apply (Hmp kk kutf8 vdef d1); auto; destruct vs; try discriminate; assumption.
  Qed.
End FieldModes.

Section Main.
  Variable slow : bool.
  Variable S : schema.
  Notation dm := (msg_decode_msg slow S).
  Notation run := (msg_run slow S).
  Notation eb := (msg_enc_body S).

  (* what follows the body: nothing (top level, length-delimited), or the end-group tag *)
  Definition msg_term_ok (grp : N) (term rest : list byte) : Prop :=
    (grp = 0 /\ term = [] /\ rest = []) \/
    (slow = false /\ 1 <= grp /\ grp <= msg_max_num /\ term = enc_tag grp 4 ++ rest).

  (* the round trip with [dep] levels of nesting left; proved by induction on [dep], as the
     decoder recurses: values of fields are decoded one level down, values of map entries two *)
  Definition msg_dec_at (dep : nat) : Prop :=
    forall v tid, msg_typed slow S dep tid v = true -> msg_sizes_ok S tid v = true ->
    forall grp term rest, msg_term_ok grp term rest ->
      run dep tid grp (eb tid v ++ term) ([], []) = DOk (msg_macc_of v, rest).

  Lemma msg_old_sub_fresh fd accf :
    card_repeated (f_card fd) = true \/ msg_fget accf (f_num fd) = [] ->
    msg_old_sub fd accf = ([], []).
  Proof.
    unfold msg_old_sub. intros [H|H]; [rewrite H; reflexivity|].
    destruct (card_repeated (f_card fd)); [reflexivity|]. rewrite H. reflexivity.
  Qed.

  Lemma msg_body_len tid v :
    msg_sizes_ok S tid v = true -> msg_size_body S tid v <? msg_two64 = true ->
    N.of_nat (length (eb tid v)) < 2^64.
  Proof.
    intros Hok Hlt. pose proof (msg_size_eq_length S tid v Hok) as E. unfold msg_encode in E.
    rewrite <- E. rewrite <- msg_two64_eq. lia.
  Qed.

  (* The two ways the encoding of a sub-message of type [t] is read at depth [dep], into [old]
     giving [m]: length-delimited or scanned first, then decoded on its own; or, on the
     table-driven path, as a group by the tag loop up to its end tag. *)
  Definition msg_sub_decodes (dep t : nat) (v : value) (old m : msg_macc) : Prop :=
    msg_whole (dm dep) t (eb t v) old = DOk m /\
    (slow = false -> forall num tail, 1 <= num -> num <= msg_max_num ->
       run dep t num (eb t v ++ enc_tag num 4 ++ tail) old = DOk (m, tail)).

  Lemma msg_dec_at_sub dep t v :
    msg_dec_at dep -> msg_typed slow S dep t v = true -> msg_sizes_ok S t v = true ->
    msg_sub_decodes dep t v ([], []) (msg_macc_of v).
  Proof.
    intros Hst Hty Hsz. split.
    - unfold msg_whole.
      pose proof (Hst v t Hty Hsz 0 [] [] (or_introl (conj eq_refl (conj eq_refl eq_refl)))) as H.
      rewrite app_nil_r in H. unfold msg_run in H. rewrite H. reflexivity.
    - intros Hs num tail Hlo Hhi. apply (Hst v t Hty Hsz num (enc_tag num 4 ++ tail) tail). right. auto.
  Qed.

  (* a message- or group-typed element is a typed message of the field's type, of bounded size *)
  Lemma msg_typed_elem_sub dep fd t v :
    f_kind fd = KMsg t \/ f_kind fd = KGrp t ->
    msg_typed_elem slow eb (msg_typed slow S dep) fd v = true -> msg_typed slow S dep t v = true.
  Proof.
    unfold msg_typed_elem. intros [Hk|Hk] H; rewrite Hk in H; destruct v; try discriminate; [exact H|].
    apply andb_true_iff in H. exact (proj1 H).
  Qed.

  Lemma msg_szok_elem_sub k t v :
    k = KMsg t \/ k = KGrp t ->
    msg_szok_elem (msg_size_body S) (msg_sizes_ok S) k v = true -> msg_sizes_ok S t v = true.
  Proof.
    unfold msg_szok_elem. intros [->| ->] H; destruct v; try reflexivity; [|exact H].
    apply andb_true_iff in H. exact (proj1 H).
  Qed.

  Section InMessage.
    Variables (d : nat) (tid : nat) (md : mdesc) (grp : N).
    Hypothesis Hmd : nth_error S tid = Some md.

    Lemma msg_run_field num typ val tail acc acc' :
      1 <= num -> num <= msg_max_num -> typ < 8 -> typ <> 4 ->
      msg_step slow md (dm d) (msg_dsub2 slow S d) (enc_tag num typ) num typ (val ++ tail) acc = DOk (acc', tail) ->
      run (Datatypes.S d) tid grp (enc_tag num typ ++ val ++ tail) acc = run (Datatypes.S d) tid grp tail acc'.
    Proof.
      intros Hlo Hhi Ht Ht4 Hstep.
      rewrite (msg_run_tagged slow S d tid grp md num typ _ acc Hmd Hlo Hhi Ht).
      apply N.eqb_neq in Ht4. rewrite Ht4. cbn [andb].
      change (msg_sub2 slow S d) with (msg_dsub2 slow S d). rewrite Hstep. reflexivity.
    Qed.

    Lemma msg_run_scalar fd sk s accf u tail :
      msg_find_field md (f_num fd) = Some fd -> f_kind fd = KS sk -> msg_not_map fd ->
      1 <= f_num fd -> f_num fd <= msg_max_num ->
      sk_ok sk s = true -> msg_wval_ok (sk_enc sk s) = true -> msg_str_valid sk (msg_field_utf8 slow fd) s = true ->
      run (Datatypes.S d) tid grp (msg_enc_elem eb (f_num fd) (f_kind fd) (VS s) ++ tail) (accf, u) =
      run (Datatypes.S d) tid grp tail
          ((if card_repeated (f_card fd) then msg_append_field fd [VS s] accf else msg_set_field md fd (VS s) accf), u).
    Proof.
      intros Hf Hk Hnm Hlo Hhi Hok Hw Hstr. rewrite Hk. cbn [msg_enc_elem]. rewrite <- app_assoc.
      apply msg_run_field; try assumption; [apply msg_sk_wt_lt8|destruct sk; discriminate|].
      apply (msg_step_scalar slow md _ _ fd sk s _ tail (accf, u)); assumption.
    Qed.

    (* a message or group element, decoded into whatever the field holds *)
    Lemma msg_run_sub fd t v m accf u tail :
      msg_find_field md (f_num fd) = Some fd -> msg_not_map fd ->
      1 <= f_num fd -> f_num fd <= msg_max_num ->
      f_kind fd = KMsg t \/ f_kind fd = KGrp t ->
      msg_typed_elem slow (msg_enc_body S) (msg_typed slow S d) fd v = true ->
      msg_szok_elem (msg_size_body S) (msg_sizes_ok S) (f_kind fd) v = true ->
      msg_sub_decodes d t v (msg_old_sub fd accf) m ->
      run (Datatypes.S d) tid grp (msg_enc_elem eb (f_num fd) (f_kind fd) v ++ tail) (accf, u) =
      run (Datatypes.S d) tid grp tail (msg_store_sub md fd m accf, u).
    Proof.
      intros Hf Hnm Hlo Hhi Hk Hty Hsz [Hw Hg].
      unfold msg_typed_elem in Hty. unfold msg_enc_elem, msg_szok_elem in *.
      destruct Hk as [Hk|Hk]; rewrite Hk in *; destruct v as [s|fs' u'|k0 v0]; try discriminate.
      - apply andb_true_iff in Hsz. destruct Hsz as [Hsok Hslt].
        pose proof (msg_body_len t _ Hsok Hslt) as Hlen. rewrite <- app_assoc.
        apply msg_run_field; try assumption; [reflexivity|discriminate|].
        apply (msg_step_message slow md _ _ fd t (eb t (VMsg fs' u')) tail _ (accf, u) m); assumption.
      - apply andb_true_iff in Hty. destruct Hty as [Hty Hmode].
        replace ((enc_tag (f_num fd) 3 ++ eb t (VMsg fs' u') ++ enc_tag (f_num fd) 4) ++ tail)
          with (enc_tag (f_num fd) 3 ++ (eb t (VMsg fs' u') ++ enc_tag (f_num fd) 4) ++ tail)
          by (rewrite <- !app_assoc; reflexivity).
        apply msg_run_field; try assumption; [reflexivity|discriminate|].
        assert (Hcase : slow = true \/ slow = false) by (destruct slow; auto).
        destruct Hcase as [Hslow|Hslow].
        + (* reflection path: ConsumeGroup, then the content as a message *)
          rewrite Hslow in Hmode. cbn [negb orb] in Hmode. unfold msg_group_scans in Hmode.
          destruct (parse_val default_dep (f_num fd) 3 (eb t (VMsg fs' u') ++ enc_tag (f_num fd) 4))
            as [[w [|? ?]]|e] eqn:Hscan; try discriminate.
          rewrite <- app_assoc.
          apply (msg_step_group_slow slow md _ _ fd t (eb t (VMsg fs' u')) tail _ (accf, u) m w); assumption.
        + apply (msg_step_group slow md _ _ fd t (eb t (VMsg fs' u') ++ enc_tag (f_num fd) 4) tail _ (accf, u) m);
            try assumption.
          cbn [fst]. rewrite <- app_assoc. exact (Hg Hslow (f_num fd) tail Hlo Hhi).
    Qed.

    Notation has2 := (match d with O => false | _ => true end).
    Lemma msg_rejects_step tagraw num typ r acc :
      msg_rejects md has2 num typ = true ->
      msg_step slow md (dm d) (msg_dsub2 slow S d) tagraw num typ r acc = msg_unknown tagraw num typ r acc.
    Proof.
      rewrite msg_rejects_route, msg_step_route.
      destruct (msg_route md num typ); try discriminate; [reflexivity|].
      destruct d; [discriminate|reflexivity].
    Qed.

    Lemma msg_run_unknown : forall gf u accf pre tail,
      msg_unknown_ok slow md has2 gf u = true ->
      run (Datatypes.S d) tid grp (u ++ tail) (accf, pre) = run (Datatypes.S d) tid grp tail (accf, pre ++ u).
    Proof.
      induction gf as [|x0 gf IH]; intros u accf pre tail Hok; [discriminate|].
      destruct u as [|b0 u0]; [rewrite app_nil_r; reflexivity|].
      cbn [msg_unknown_ok] in Hok.
      destruct (dec_tag (b0 :: u0)) as [[[num typ] r]|e] eqn:Hdt; [|discriminate].
      destruct (parse_val default_dep num typ r) as [[w r']|e] eqn:Hpv; [|discriminate].
      rewrite !andb_true_iff in Hok. destruct Hok as ((((((Hnum & Ht4) & Hrej) & Heq1) & Heq2) & Hlt) & Hrec).
      apply msg_bytes_eqb_eq in Heq2.
      rewrite (msg_run_unfold slow S d tid grp md ((b0 :: u0) ++ tail) (accf, pre) Hmd).
      cbn [app]. change (b0 :: u0 ++ tail) with ((b0 :: u0) ++ tail).
      rewrite (dec_tag_ext_ok _ tail _ _ _ Hdt).
      replace (msg_max_num <? num) with false by lia.
      apply negb_true_iff in Ht4. rewrite Ht4. cbn [andb]. cbv zeta.
      rewrite (msg_tagraw_ext slow _ tail _ _ _ Hdt).
      change (msg_sub2 slow S d) with (msg_dsub2 slow S d).
      rewrite (msg_rejects_step _ num typ (r ++ tail) (accf, pre) Hrej).
      (* the step keeps the raw tag and the value, that is, the field as it stood *)
      erewrite msg_unknown_ext by (unfold msg_unknown; rewrite Hpv; reflexivity).
      cbn [fst snd]. rewrite (IH r' accf _ tail Hrec). f_equal. f_equal.
      rewrite <- !app_assoc. f_equal. rewrite Heq2.
      destruct slow; apply msg_bytes_eqb_eq in Heq1; exact Heq1.
    Qed.

    Lemma msg_unknown_loop : forall gf u g accf pre tail,
      msg_unknown_ok slow md has2 gf u = true -> (length (u ++ tail) < length g)%nat ->
      exists g2, (length tail < length g2)%nat /\
        dm (Datatypes.S d) tid grp g (u ++ tail) (accf, pre) = dm (Datatypes.S d) tid grp g2 tail (accf, pre ++ u).
    Proof.
      intros gf u g accf pre tail Hok. apply msg_run_threaded. exact (msg_run_unknown gf u accf pre tail Hok).
    Qed.

    Hypothesis IHd : msg_dec_at d.
    Hypothesis IHd1 : forall d1, d = Datatypes.S d1 -> msg_dec_at d1.

    Lemma msg_run_elem fd v accf u tail :
      msg_find_field md (f_num fd) = Some fd -> msg_not_map fd ->
      1 <= f_num fd -> f_num fd <= msg_max_num ->
      msg_typed_elem slow (msg_enc_body S) (msg_typed slow S d) fd v = true ->
      msg_szok_elem (msg_size_body S) (msg_sizes_ok S) (f_kind fd) v = true ->
      (card_repeated (f_card fd) = true \/ msg_fget accf (f_num fd) = []) ->
      run (Datatypes.S d) tid grp (msg_enc_elem eb (f_num fd) (f_kind fd) v ++ tail) (accf, u) =
      run (Datatypes.S d) tid grp tail
          ((if card_repeated (f_card fd) then msg_append_field fd [v] accf else msg_set_field md fd v accf), u).
    Proof.
      intros Hf Hnm Hlo Hhi Hty Hsz Hold.
      assert (Hsub : forall t, f_kind fd = KMsg t \/ f_kind fd = KGrp t ->
                run (Datatypes.S d) tid grp (msg_enc_elem eb (f_num fd) (f_kind fd) v ++ tail) (accf, u) =
                run (Datatypes.S d) tid grp tail (msg_store_sub md fd (msg_macc_of v) accf, u)).
      { intros t Hk. apply (msg_run_sub fd t); try assumption.
        rewrite (msg_old_sub_fresh fd accf Hold).
        exact (msg_dec_at_sub d t v IHd (msg_typed_elem_sub d fd t v Hk Hty) (msg_szok_elem_sub _ t v Hk Hsz)). }
      unfold msg_store_sub in Hsub.
      destruct (f_kind fd) as [sk|t|t] eqn:Hk.
      - unfold msg_typed_elem in Hty. rewrite Hk in Hty. destruct v as [s| |]; try discriminate.
        apply andb_true_iff in Hty. destruct Hty as [Hok Hstr]. rewrite <- Hk.
        apply (msg_run_scalar fd sk); assumption.
      - rewrite (Hsub t (or_introl eq_refl)).
        pose proof (msg_typed_elem_sub d fd t v (or_introl Hk) Hty). destruct v; try discriminate. reflexivity.
      - rewrite (Hsub t (or_intror eq_refl)).
        pose proof (msg_typed_elem_sub d fd t v (or_intror Hk) Hty). destruct v; try discriminate. reflexivity.
    Qed.

    Definition msg_acc_with (accf : fields) (num : N) (pre : list value) : fields :=
      match pre with [] => accf | _ => msg_fset accf num pre end.

    Lemma msg_acc_with_append accf num pre vs :
      ~ In num (msg_keys accf) -> vs <> [] ->
      msg_fset (msg_acc_with accf num pre) num (msg_fget (msg_acc_with accf num pre) num ++ vs)
      = msg_acc_with accf num (pre ++ vs).
    Proof.
      intros Hnot Hne. unfold msg_acc_with. destruct pre as [|p0 pre].
      - rewrite (msg_fget_notin _ _ Hnot). cbn [app]. destruct vs; [congruence|reflexivity].
      - rewrite msg_fget_fset_same, msg_fset_fset_same. reflexivity.
    Qed.

    Lemma msg_run_elems fd accf u :
      msg_find_field md (f_num fd) = Some fd -> msg_not_map fd ->
      1 <= f_num fd -> f_num fd <= msg_max_num ->
      card_repeated (f_card fd) = true -> ~ In (f_num fd) (msg_keys accf) ->
      forall vs pre tail,
        forallb (msg_typed_elem slow (msg_enc_body S) (msg_typed slow S d) fd) vs = true ->
        forallb (msg_szok_elem (msg_size_body S) (msg_sizes_ok S) (f_kind fd)) vs = true ->
        run (Datatypes.S d) tid grp (flat_map (fun e => msg_enc_elem eb (f_num fd) (f_kind fd) e) vs ++ tail)
            (msg_acc_with accf (f_num fd) pre, u) =
        run (Datatypes.S d) tid grp tail (msg_acc_with accf (f_num fd) (pre ++ vs), u).
    Proof.
      intros Hf Hnm Hlo Hhi Hrep Hnot. induction vs as [|v vs IH]; intros pre tail Hty Hsz.
      - rewrite app_nil_r. reflexivity.
      - cbn [forallb] in Hty, Hsz. apply andb_true_iff in Hty, Hsz. destruct Hty as [Hty Htys], Hsz as [Hsz Hszs].
        cbn [flat_map]. rewrite <- app_assoc.
        rewrite (msg_run_elem fd v _ u _ Hf Hnm Hlo Hhi Hty Hsz (or_introl Hrep)), Hrep.
        unfold msg_append_field.
        rewrite (msg_acc_with_append accf (f_num fd) pre [v] Hnot) by discriminate.
        rewrite (IH (pre ++ [v]) tail Htys Hszs), <- app_assoc. reflexivity.
    Qed.

    Lemma msg_run_entry fd kk kutf8 vdef d1 key v accf u tail :
      d = Datatypes.S d1 ->
      msg_find_field md (f_num fd) = Some fd -> f_card fd = CMap kk kutf8 vdef ->
      1 <= f_num fd -> f_num fd <= msg_max_num ->
      msg_typed_entry (msg_typed slow S d1) fd kk kutf8 (VEntry key v) = true ->
      msg_szok_entry (msg_size_body S) (msg_sizes_ok S) kk (f_kind fd) (VEntry key v) = true ->
      run (Datatypes.S d) tid grp (msg_enc_entry eb (f_num fd) kk (f_kind fd) (VEntry key v) ++ tail) (accf, u) =
      run (Datatypes.S d) tid grp tail
          (msg_fset accf (f_num fd) (msg_map_put (msg_fget accf (f_num fd)) key v), u).
    Proof.
      intros Hd Hf Hc Hlo Hhi Hty Hsz.
      cbn [msg_enc_entry]. rewrite <- app_assoc.
      cbn [msg_typed_entry] in Hty. cbn [msg_szok_entry] in Hsz.
      apply andb_true_iff in Hty. destruct Hty as [Hkey Hval].
      apply andb_true_iff in Hkey. destruct Hkey as [Hkok Hkstr].
      apply andb_true_iff in Hsz. destruct Hsz as [Hsz Hblen].
      apply andb_true_iff in Hsz. destruct Hsz as [Hkw Hvsz].
      assert (Hbody : N.of_nat (length (msg_enc_key kk key ++ msg_enc_elem eb 2 (f_kind fd) v)) < 2^64).
      { rewrite app_length, Nnat.Nat2N.inj_add.
        rewrite <- (msg_size_key_eq kk key Hkw).
        rewrite <- (msg_size_elem_eq (msg_size_body S) eb (msg_sizes_ok S) 2 (f_kind fd) v);
          [rewrite <- msg_two64_eq; clear - Hblen; lia|reflexivity|apply (proj1 (msg_size_eq_deep S v))|exact Hvsz]. }
      apply msg_run_field; try assumption; [reflexivity|discriminate|].
      rewrite msg_step_route, (msg_route_map md _ fd kk kutf8 vdef Hf Hc), Hd. cbn [msg_dsub2].
      rewrite (msgw_dec_bytes_enc _ _ Hbody).
      rewrite msg_dec_entry_ok with (key := key) (v := v); [reflexivity|assumption|assumption|assumption| |apply Nat.lt_succ_diag_r].
      destruct (f_kind fd) as [sk|t|t] eqn:Hk; destruct v as [s|fs' u'|k0 v0]; try discriminate.
      - left. exists sk, s. apply andb_true_iff in Hval. destruct Hval as [Hsok Hsstr].
        cbn [msg_szok_elem] in Hvsz. repeat split; try assumption; reflexivity.
      - right. exists t, (eb t (VMsg fs' u')).
        cbn [msg_szok_elem] in Hvsz. apply andb_true_iff in Hvsz. destruct Hvsz as [Hsok Hslt].
        repeat split; [apply (msg_body_len t _ Hsok Hslt)|].
        unfold msg_entry_dm. cbn [msg_entry_default msg_empty msg_macc_of].
        rewrite (proj1 (msg_dec_at_sub d1 t _ (IHd1 d1 Hd) Hval Hsok)). reflexivity.
    Qed.

    Lemma msg_fget_acc_with accf num pre :
      ~ In num (msg_keys accf) -> msg_fget (msg_acc_with accf num pre) num = pre.
    Proof.
      intros H. unfold msg_acc_with. destruct pre; [apply msg_fget_notin; exact H|apply msg_fget_fset_same].
    Qed.

    Lemma msg_fset_acc_with accf num pre x :
      x <> [] -> msg_fset (msg_acc_with accf num pre) num x = msg_acc_with accf num x.
    Proof.
      intros H. unfold msg_acc_with. destruct pre; destruct x; try congruence; try reflexivity.
      apply msg_fset_fset_same.
    Qed.

    Definition msg_before (pre es : list value) : Prop :=
      Forall (fun e' => match e' with VEntry k' _ => msg_keys_after k' es = true | _ => False end) pre.

    Lemma msg_run_entries fd kk kutf8 vdef d1 accf u :
      d = Datatypes.S d1 ->
      msg_find_field md (f_num fd) = Some fd -> f_card fd = CMap kk kutf8 vdef ->
      1 <= f_num fd -> f_num fd <= msg_max_num -> ~ In (f_num fd) (msg_keys accf) ->
      forall es pre tail,
        forallb (msg_typed_entry (msg_typed slow S d1) fd kk kutf8) es = true ->
        forallb (msg_szok_entry (msg_size_body S) (msg_sizes_ok S) kk (f_kind fd)) es = true ->
        msg_entries_sorted es = true -> msg_before pre es ->
        run (Datatypes.S d) tid grp (flat_map (fun e => msg_enc_entry eb (f_num fd) kk (f_kind fd) e) es ++ tail)
            (msg_acc_with accf (f_num fd) pre, u) =
        run (Datatypes.S d) tid grp tail (msg_acc_with accf (f_num fd) (pre ++ es), u).
    Proof.
      intros Hd Hf Hc Hlo Hhi Hnot. induction es as [|e es IH]; intros pre tail Hty Hsz Hsorted Hpre.
      - rewrite app_nil_r. reflexivity.
      - cbn [forallb] in Hty, Hsz. apply andb_true_iff in Hty, Hsz. destruct Hty as [Hty Htys], Hsz as [Hsz Hszs].
        destruct e as [s|fs' u'|key v]; try (cbn [msg_typed_entry] in Hty; discriminate).
        cbn [msg_entries_sorted] in Hsorted. apply andb_true_iff in Hsorted. destruct Hsorted as [Hafter Hsorted].
        cbn [flat_map]. rewrite <- app_assoc.
        rewrite (msg_run_entry fd kk kutf8 vdef d1 key v _ u _ Hd Hf Hc Hlo Hhi Hty Hsz).
        rewrite (msg_fget_acc_with accf (f_num fd) pre Hnot).
        (* the new key is greater than all keys read so far *)
        rewrite msg_map_put_last.
        2:{ unfold msg_before in Hpre. eapply Forall_impl; [|exact Hpre].
            intros e' He'. destruct e' as [|?|k' v']; try contradiction.
            cbn [msg_keys_after forallb] in He'. apply andb_true_iff in He'. destruct He' as [He' _].
            destruct (msg_scmp key k'); try discriminate. reflexivity. }
        rewrite msg_fset_acc_with by (destruct pre; discriminate).
        rewrite (IH (pre ++ [VEntry key v]) tail Htys Hszs Hsorted), <- app_assoc; [reflexivity|].
        unfold msg_before in *. apply Forall_app. split.
        + eapply Forall_impl; [|exact Hpre]. intros e' He'. destruct e' as [|?|k' v']; try contradiction.
          cbn [msg_keys_after forallb] in He'. apply andb_true_iff in He'. destruct He' as [_ He']. exact He'.
        + constructor; [exact Hafter|constructor].
    Qed.

    Notation tv2 := (fun t x => match d with O => false | Datatypes.S d1 => msg_typed slow S d1 t x end).

    Lemma msg_run_field_vals fd vs accf u tail :
      msg_find_field md (f_num fd) = Some fd ->
      msg_typed_field slow (msg_enc_body S) (msg_typed slow S d) tv2 has2 fd vs = true ->
      msg_szok_field (msg_size_body S) (msg_sizes_ok S) fd vs = true ->
      ~ In (f_num fd) (msg_keys accf) ->
      msg_oneof_free md fd (f_num fd :: msg_keys accf) ->
      run (Datatypes.S d) tid grp (msg_enc_field eb fd vs ++ tail) (accf, u) =
      run (Datatypes.S d) tid grp tail (msg_fset accf (f_num fd) vs, u).
    Proof.
      intros Hf Hty Hsz Hnot Hfree.
      destruct (msg_field_cases slow S d fd vs Hty Hsz) as (Hlo & Hhi & Hmode).
      destruct Hmode as [v -> Hnm Hrep Htyv Hz Hszv ->|Hne Hnm Hrep Htyv Hszv ->
                        |sk Hne Hk Hrep Hp Hgood Hlen ->|kk kutf8 vdef d1 Hne Hc Hd Htye Hsze Hsorted ->].
      - rewrite (msg_run_elem fd v accf u tail Hf Hnm Hlo Hhi Htyv Hszv (or_intror (msg_fget_notin _ _ Hnot))), Hrep.
        rewrite (msg_set_field_fresh md fd v accf Hz Hfree). reflexivity.
      - pose proof (msg_run_elems fd accf u Hf Hnm Hlo Hhi Hrep Hnot vs [] tail Htyv Hszv) as E.
        cbn [msg_acc_with app] in E. rewrite E. destruct vs; [congruence|reflexivity].
      - rewrite <- app_assoc.
        rewrite (msg_run_field (f_num fd) 2 (enc_bytes (msg_enc_packed_payload sk vs)) tail (accf, u)
                   (msg_append_field fd vs accf, u) Hlo Hhi eq_refl ltac:(discriminate)).
        + unfold msg_append_field. rewrite (msg_fget_notin _ _ Hnot). destruct vs; [congruence|reflexivity].
        + apply (msg_step_packed slow md _ _ fd sk vs _ tail (accf, u)); assumption.
      - pose proof (msg_run_entries fd kk kutf8 vdef d1 accf u Hd Hf Hc Hlo Hhi Hnot vs [] tail
                      Htye Hsze Hsorted (Forall_nil _)) as E.
        cbn [msg_acc_with app] in E. rewrite E. destruct vs; [congruence|reflexivity].
    Qed.

    Lemma msg_nodup_step k (P : fields) accf vs :
      NoDup (k :: msg_keys P ++ msg_keys accf) -> NoDup (msg_keys P ++ msg_keys (msg_fset accf k vs)).
    Proof.
      intros Hnd. inversion Hnd as [|? ? Hnotin Hnd']; subst.
      assert (Hk : ~ In k (msg_keys accf)) by (intros Hin; apply Hnotin, in_or_app; right; exact Hin).
      eapply Permutation_NoDup; [|exact Hnd].
      etransitivity; [apply Permutation_middle|].
      apply Permutation_app_head. unfold msg_keys.
      rewrite (Permutation_map fst (msg_fset_perm accf k vs Hk)). reflexivity.
    Qed.

    Lemma msg_run_chunks fs :
      msg_oneofs_ok md fs = true ->
      forall P accf u tail,
        forallb (msg_typed_chunk slow (msg_enc_body S) (msg_typed slow S d) tv2 has2 md) P = true ->
        forallb (msg_szok_chunk (msg_size_body S) (msg_sizes_ok S) md) P = true ->
        (forall p, In p P -> In p fs) ->
        NoDup (msg_keys P ++ msg_keys accf) ->
        (forall k, In k (msg_keys accf) -> In k (msg_keys fs)) ->
        run (Datatypes.S d) tid grp (flat_map (fun p => snd (msg_enc_chunk eb md p)) P ++ tail) (accf, u) =
        run (Datatypes.S d) tid grp tail (msg_ins_all P accf, u).
    Proof.
      intros Hone. induction P as [|p P IH]; intros accf u tail Hty Hsz Hin Hnd Hsub; [reflexivity|].
      cbn [forallb] in Hty, Hsz. apply andb_true_iff in Hty, Hsz. destruct Hty as [Hty Htys], Hsz as [Hsz Hszs].
      cbn [flat_map]. rewrite <- app_assoc.
      unfold msg_typed_chunk in Hty. unfold msg_szok_chunk in Hsz. unfold msg_enc_chunk at 1.
      destruct (msg_find_field md (fst p)) as [fd|] eqn:Hf; [|discriminate].
      pose proof (msg_find_field_num _ _ _ Hf) as Hnum.
      cbn [snd].
      cbn [msg_keys map app] in Hnd. fold (msg_keys P) in Hnd.
      assert (Hnot : ~ In (f_num fd) (msg_keys accf)).
      { rewrite Hnum. inversion Hnd as [|? ? Hn _]; subst. intros Hk. apply Hn, in_or_app. right. exact Hk. }
      assert (Hfree : msg_oneof_free md fd (f_num fd :: msg_keys accf)).
      { pose proof (msg_oneofs_ok_free md fs p fd Hone (Hin p (or_introl eq_refl)) Hf) as Hfr.
        intros oi Hoi fd' Hin' Hoi' Hne Hk. apply (Hfr oi Hoi fd' Hin' Hoi' Hne).
        destruct Hk as [Hk|Hk]; [congruence|apply Hsub; exact Hk]. }
      rewrite <- Hnum in Hf.
      rewrite (msg_run_field_vals fd (snd p) accf u _ Hf Hty Hsz Hnot Hfree).
      rewrite (IH (msg_fset accf (f_num fd) (snd p)) u tail Htys Hszs).
      - rewrite Hnum. reflexivity.
      - intros q Hq. apply Hin. right. exact Hq.
      - rewrite Hnum. apply msg_nodup_step. exact Hnd.
      - intros k Hk. apply msg_keys_fset in Hk. destruct Hk as [->|Hk]; [|apply Hsub; exact Hk].
        rewrite Hnum. apply (in_map fst fs p). apply Hin. left. reflexivity.
    Qed.
  End InMessage.

  Lemma msg_dec_at_all : forall dep, msg_dec_at dep.
  Proof.
    induction dep as [dep IH] using lt_wf_ind. intros v tid Hty Hsz grp term rest Hterm.
    destruct v as [s|fs unk|k v']; try discriminate.
    destruct (msg_typed_unfold slow S dep tid fs unk Hty) as (d & md & -> & Hmd & Hsorted & Hchunks & Hone & Hunk).
    pose proof (msg_sizes_ok_unfold S tid fs unk Hsz) as Hszc.
    rewrite (msg_nth_error_nth S tid md Hmd) in Hszc.
    destruct (msg_enc_body_perm S tid fs unk) as (P & Hperm & Ebody).
    rewrite Ebody. rewrite (msg_nth_error_nth S tid md Hmd). rewrite <- app_assoc.
    apply msg_keys_sorted_spec in Hsorted.
    assert (HinP : forall p, In p P -> In p fs) by (intros p Hp; eapply Permutation_in; [exact Hperm|exact Hp]).
    rewrite forallb_forall in Hchunks, Hszc.
    assert (Hnd : NoDup (msg_keys P ++ msg_keys [])).
    { cbn [msg_keys map]. rewrite app_nil_r. eapply Permutation_NoDup.
      - apply Permutation_sym. apply (Permutation_map fst). exact Hperm.
      - eapply msg_sorted_nodup. exact Hsorted. }
    etransitivity.
    { apply (msg_run_chunks d tid md grp Hmd (IH d (Nat.lt_succ_diag_r d)) (fun d1 E => IH d1 ltac:(lia))
               fs Hone P [] [] (unk ++ term)); try assumption.
      - apply forallb_forall. intros p Hp. apply Hchunks, HinP, Hp.
      - apply forallb_forall. intros p Hp. apply Hszc, HinP, Hp.
      - intros k []. }
    (* inserting the fields in any order gives back the sorted list *)
    assert (Hins : msg_ins_all P [] = fs).
    { destruct (msg_ins_all_props P [] 0) as [Hs Hp]; [exact Hnd|exact I| |].
      - intros k Hk. apply (msg_sorted_keys_gt 0 fs Hsorted).
        eapply Permutation_in; [apply (Permutation_map fst); exact Hperm|exact Hk].
      - rewrite app_nil_r in Hp.
        eapply msg_sorted_perm_eq; [exact Hs|exact Hsorted|]. rewrite Hp. exact Hperm. }
    rewrite Hins. etransitivity; [exact (msg_run_unknown d tid md grp Hmd (x00 :: unk) unk fs [] term Hunk)|].
    cbn [msg_macc_of app].
    destruct Hterm as [(-> & -> & ->)|(Hsl & Hlo & Hhi & ->)].
    - apply (msg_run_nil slow S d tid md (fs, unk) Hmd).
    - unfold msg_run. apply (msg_dm_end_grp slow S d tid md grp _ rest (fs, unk) Hsl Hmd Hlo Hhi). apply Nat.lt_0_succ.
  Qed.
End Main.

Theorem msg_roundtrip slow S limit tid v :
  msg_valid slow S limit tid v = true ->
  msg_decode slow S limit tid (msg_encode S tid v) = DOk v.
Proof.
  unfold msg_valid. intros H. apply andb_true_iff in H. destruct H as [Hsz Hty].
  pose proof (msg_dec_at_all slow S limit v tid Hty Hsz 0 [] []
                (or_introl (conj eq_refl (conj eq_refl eq_refl)))) as H.
  rewrite app_nil_r in H. unfold msg_decode, msg_encode. rewrite (msg_decode_into_ok slow S limit tid _ msg_empty _ _ H).
  destruct v; try discriminate. reflexivity.
Qed.

(* encoding is injective on canonical values (used by the determinism properties) *)
Corollary msg_encode_injective slow S limit tid v1 v2 :
  msg_valid slow S limit tid v1 = true -> msg_valid slow S limit tid v2 = true ->
  msg_encode S tid v1 = msg_encode S tid v2 -> v1 = v2.
Proof.
  intros H1 H2 E. pose proof (msg_roundtrip slow S limit tid v1 H1) as R1.
  pose proof (msg_roundtrip slow S limit tid v2 H2) as R2. rewrite E in R1. rewrite R1 in R2.
  now inversion R2.
Qed.
