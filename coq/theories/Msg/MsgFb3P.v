(* MsgFb3P — finding FB3 as a theorem: a message that the table-driven path round-trips and the
   reflection path rejects (an unknown group nested 10001 deep inside a known group).

   [fb3_unknown n] is a group of field 1000 nested n deep without its outermost end tag:
   start tag, [fb3_unknown (n-1)], end tag.  The wire scanner with d levels left reads it when
   n <= d and fails with RecursionDepth when n > d, whatever follows ([fb3_scan_ok],
   [fb3_scan_deep]).  The table-driven path scans the unknown bytes of the inner message afresh
   (10001 levels), protowire.ConsumeGroup over the enclosing known group has one level less. *)
From Coq Require Import List Arith NArith Lia Bool.
From PB Require Import Base.PBytes Wire.WireModel Wire.WireGrammar Wire.PrimP Wire.ScanP.
From PB Require Import Msg.MsgSchema Msg.MsgValue Msg.MsgEnc Msg.MsgDec Msg.MsgValid Msg.MsgExample.
From PB Require Import Msg.DetP Msg.MsgRoundP.
Import ListNotations.
Open Scope N_scope.

Lemma fb3_num_ok : num_ok 1000.
Proof. split; discriminate. Qed.

Lemma fb3_concat_repeat_end {A} (x : list A) n : concat (repeat x (S n)) = concat (repeat x n) ++ x.
Proof. induction n as [|n IH]; [cbn; now rewrite app_nil_r|]. cbn [repeat concat] in *. rewrite IH at 1. apply app_assoc. Qed.

Lemma fb3_unknown_S n : fb3_unknown (S n) = enc_tag 1000 3 ++ fb3_unknown n ++ enc_tag 1000 4.
Proof.
  unfold fb3_unknown. rewrite (fb3_concat_repeat_end [xc4; x3e]). cbn [repeat concat].
  change (enc_tag 1000 3) with [xc3; x3e]. change (enc_tag 1000 4) with [xc4; x3e].
  rewrite <- !app_assoc. reflexivity.
Qed.

(* the wire value that [fb3_unknown n] followed by an end tag renders *)
Fixpoint fb3_group (n : nat) : wval :=
  match n with O => WGroup [] | S k => WGroup [(1000, fb3_group k)] end.

Lemma fb3_group_render n num : render_val num (fb3_group n) = fb3_unknown n ++ enc_tag num 4.
Proof.
  revert num. induction n as [|n IH]; intros num; [reflexivity|].
  cbn [fb3_group]. rewrite render_group_eq. cbn [render_fields flat_map]. unfold render_field. cbn [fst snd].
  rewrite IH, fb3_unknown_S, app_nil_r, <- !app_assoc.
  replace (wtype_of (fb3_group n)) with 3 by (destruct n; reflexivity). reflexivity.
Qed.

Lemma fb3_group_wf n : wf_val (fb3_group n) /\ (wdepth (fb3_group n) <= S n)%nat.
Proof.
  induction n as [|n [IHw IHd]]; cbn [fb3_group].
  - split; [apply wf_val_group; constructor|apply wdepth_group; constructor].
  - split.
    + apply wf_val_group. constructor; [|constructor]. split; [exact fb3_num_ok|exact IHw].
    + apply wdepth_group. constructor; [exact IHd|constructor].
Qed.

Lemma fb3_scan_ok n d num tail :
  num_ok num -> (n <= d)%nat ->
  parse_val (S d) num 3 (fb3_unknown n ++ enc_tag num 4 ++ tail) = Ok (fb3_group n, tail).
Proof.
  intros Hnum Hn. destruct (fb3_group_wf n) as [Hw Hd].
  pose proof (parse_render (fb3_group n) num tail (S d) Hw Hnum ltac:(lia)) as H.
  rewrite fb3_group_render, <- app_assoc in H.
  replace (wtype_of (fb3_group n)) with 3 in H by (destruct n; reflexivity). exact H.
Qed.

Lemma fb3_scan_deep : forall d n num tail,
  (d <= n)%nat -> parse_val d num 3 (fb3_unknown n ++ tail) = Err RecursionDepth.
Proof.
  induction d as [|d IH]; intros n num tail Hn; rewrite parse_val_eq; [reflexivity|].
  destruct n as [|n]; [lia|]. cbv iota. rewrite fb3_unknown_S, <- !app_assoc.
  cbn [group_loop]. rewrite (dec_tag_enc 1000 3 _ fb3_num_ok eq_refl).
  cbn [N.eqb Pos.eqb]. rewrite IH by lia. reflexivity.
Qed.

(* the table-driven path accepts nesting up to the budget of the scanner *)
Lemma fb3_unknown_ok n :
  (n <= N.to_nat 10000)%nat ->
  msg_unknown_ok false [] false (x00 :: fb3_unknown (S n)) (fb3_unknown (S n)) = true.
Proof.
  intros Hn. rewrite fb3_unknown_S. set (r := fb3_unknown n ++ enc_tag 1000 4).
  pose proof (enc_tag_nonempty 1000 3) as Htag.
  destruct (enc_tag 1000 3 ++ r) as [|b0 u0] eqn:Eu.
  { apply (f_equal (@length byte)) in Eu. rewrite app_length in Eu. cbn [length] in Eu. lia. }
  cbn [msg_unknown_ok]. rewrite <- Eu, (dec_tag_enc 1000 3 r fb3_num_ok eq_refl).
  pose proof (fb3_scan_ok n (N.to_nat 10000) 1000 [] fb3_num_ok Hn) as Hscan.
  rewrite app_nil_r, <- default_dep_S in Hscan. fold r in Hscan. rewrite Hscan.
  unfold msg_bytes_eqb. rewrite !det_bytes_cmp_refl.
  cbn [length]. rewrite Nat.sub_0_r, firstn_all, app_nil_r, det_bytes_cmp_refl.
  replace (Nat.ltb (length r) (length (enc_tag 1000 3 ++ r))) with true
    by (symmetry; apply Nat.ltb_lt; rewrite app_length; lia).
  reflexivity.
Qed.

Lemma fb3_valid n :
  (n <= N.to_nat 10000)%nat -> msg_valid false fb3_schema 2 0 (fb3_msg (S n)) = true.
Proof.
  intros Hn. unfold msg_valid. apply andb_true_iff. split; [reflexivity|].
  cbn -[fb3_unknown msg_unknown_ok]. rewrite (fb3_unknown_ok n Hn). reflexivity.
Qed.

(* protowire.ConsumeGroup over the known group has one level less *)
Lemma fb3_slow_rejects n :
  (N.to_nat 10001 <= n)%nat ->
  msg_decode true fb3_schema 2 0 (msg_encode fb3_schema 0 (fb3_msg n)) = DErr DParse.
Proof.
  intros Hn. unfold msg_decode. rewrite msg_decode_into_run.
  replace (msg_encode fb3_schema 0 (fb3_msg n)) with (enc_tag 1 3 ++ (fb3_unknown n ++ enc_tag 1 4))
    by (cbn -[fb3_unknown enc_tag]; rewrite !app_nil_r; reflexivity).
  rewrite (msg_run_tagged true fb3_schema 1 0 0 [mkF 1 (KGrp 1) COpt None false false false] 1 3);
    [|reflexivity|discriminate|discriminate|reflexivity].
  cbn [N.eqb Pos.eqb negb andb]. rewrite msg_step_route.
  change (msg_route [mkF 1 (KGrp 1) COpt None false false false] 1 3)
    with (RGrp (mkF 1 (KGrp 1) COpt None false false false) 1).
  unfold consume_group. rewrite (fb3_scan_deep default_dep n 1 (enc_tag 1 4)); [reflexivity|].
  rewrite default_dep_S. change 10001 with (N.succ 10000) in Hn. rewrite Nnat.N2Nat.inj_succ in Hn. exact Hn.
Qed.

Theorem msg_fb3_witness :
  exists (S : schema) (v : value),
    msg_valid false S 2 0 v = true /\
    msg_decode false S 2 0 (msg_encode S 0 v) = DOk v /\
    msg_decode true S 2 0 (msg_encode S 0 v) = DErr DParse.
Proof.
  exists MsgExample.fb3_schema, (MsgExample.fb3_msg (N.to_nat 10001)).
  assert (E : N.to_nat 10001 = Datatypes.S (N.to_nat 10000))
    by (change 10001 with (N.succ 10000); apply Nnat.N2Nat.inj_succ).
  assert (Hv : msg_valid false MsgExample.fb3_schema 2 0 (MsgExample.fb3_msg (N.to_nat 10001)) = true)
    by (rewrite E; apply fb3_valid, le_n).
  split; [exact Hv|]. split; [apply msg_roundtrip; exact Hv|]. apply fb3_slow_rejects, le_n.
Qed.
