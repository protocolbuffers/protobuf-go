(* DecDepthMonoP — the eager decoder is monotone in the recursion limit: a decode that succeeds
   with limit d succeeds with every limit d' >= d, with the same value (both paths).
   This is one half of "forcing a lazy field gives the eagerly decoded value" (C17): Unmarshal
   validated the field with the depth that was left, forcing decodes it with
   DefaultRecursionLimit (lazyUnmarshalOptions.depth). *)
From Coq Require Import List Arith NArith ZArith Lia Bool.
From PB Require Import Base.PBytes Wire.WireModel.
From PB Require Import Msg.MsgSchema Msg.MsgValue Msg.MsgUtf8 Msg.MsgDec Msg.MsgDecP.
Import ListNotations.
Open Scope N_scope.

Definition ddm_le (a b : msg_dec_t) : Prop :=
  forall tid grp g bs acc x, a tid grp g bs acc = DOk x -> b tid grp g bs acc = DOk x.
Definition ddm_le2 (a b : option msg_dec_t) : Prop :=
  match a, b with
  | None, _ => True
  | Some a', Some b' => ddm_le a' b'
  | Some _, None => False
  end.

Lemma ddm_entry_mono kk kutf8 vk vutf8 (dm dm' : list byte -> value -> dres value) :
  (forall p v x, dm p v = DOk x -> dm' p v = DOk x) ->
  forall g bs key val x,
    msg_dec_entry g kk kutf8 vk vutf8 dm bs key val = DOk x ->
    msg_dec_entry g kk kutf8 vk vutf8 dm' bs key val = DOk x.
Proof.
  intros Hdm. induction g as [|c g IH]; intros bs key val x; cbn [msg_dec_entry]; [discriminate|].
  destruct bs as [|b0 t0] eqn:Ebs; [exact (fun H => H)|]. rewrite <- Ebs. clear Ebs.
  destruct (dec_tag bs) as [[[num typ] r]|e]; [|discriminate].
  destruct (msg_max_num <? num); [discriminate|].
  destruct (parse_val default_dep num typ r) as [[w r']|e]; [|discriminate].
  destruct (num =? 1).
  { destruct (msg_dec_scalar kk kutf8 w) as [[s|e]|]; try discriminate; apply IH. }
  destruct (num =? 2); [|apply IH].
  destruct vk as [sk|tid|tid].
  - destruct (msg_dec_scalar sk vutf8 w) as [[s|e]|]; try discriminate; apply IH.
  - destruct w; try apply IH.
    destruct (dm b val) as [v'|e] eqn:E; [|discriminate]. rewrite (Hdm _ _ _ E). apply IH.
  - apply IH.
Qed.

Lemma ddm_whole_mono (dm dm' : msg_dec_t) tid payload old m :
  ddm_le dm dm' -> msg_whole dm tid payload old = DOk m -> msg_whole dm' tid payload old = DOk m.
Proof.
  intros H. unfold msg_whole.
  destruct (dm tid 0 (x00 :: payload) payload old) as [[m0 r0]|e] eqn:E; [|discriminate].
  rewrite (H _ _ _ _ _ _ E). exact (fun H => H).
Qed.

Lemma ddm_entry_dm_mono (dm2 dm2' : msg_dec_t) vk p v x :
  ddm_le dm2 dm2' -> msg_entry_dm dm2 vk p v = DOk x -> msg_entry_dm dm2' vk p v = DOk x.
Proof.
  intros H. unfold msg_entry_dm. destruct vk as [sk|tid|tid]; try discriminate.
  destruct (msg_whole dm2 tid p (msg_macc_of v)) as [m|e] eqn:Ew; [|discriminate].
  rewrite (ddm_whole_mono _ _ _ _ _ _ H Ew). exact (fun H => H).
Qed.

(* only the routes that call a decoder of a lower depth need an argument *)
Lemma ddm_step_mono slow md dsub dsub' dsub2 dsub2' tagraw num typ r acc x :
  ddm_le dsub dsub' -> ddm_le2 dsub2 dsub2' ->
  msg_step slow md dsub dsub2 tagraw num typ r acc = DOk x ->
  msg_step slow md dsub' dsub2' tagraw num typ r acc = DOk x.
Proof.
  intros H1 H2. rewrite !msg_step_route.
  destruct (msg_route md num typ) as [|fd sk|fd sk|fd tid|fd tid|fd kk kutf8 vdef|]; try exact (fun H => H).
  - destruct (dec_bytes r) as [[payload r']|e]; [|discriminate].
    destruct (msg_whole dsub tid payload (msg_old_sub fd (fst acc))) as [m|e] eqn:E; [|discriminate].
    rewrite (ddm_whole_mono _ _ _ _ _ _ H1 E). exact (fun H => H).
  - destruct slow.
    + destruct (consume_group num r) as [[[content|] n]|e]; try discriminate.
      destruct (msg_whole dsub tid content (msg_old_sub fd (fst acc))) as [m|e] eqn:E; [|discriminate].
      rewrite (ddm_whole_mono _ _ _ _ _ _ H1 E). exact (fun H => H).
    + destruct (dsub tid num (x00 :: r) r (msg_old_sub fd (fst acc))) as [[m r']|e] eqn:E; [|discriminate].
      rewrite (H1 _ _ _ _ _ _ E). exact (fun H => H).
  - destruct dsub2 as [dm2|]; [|discriminate]. destruct dsub2' as [dm2'|]; [|contradiction]. cbn [ddm_le2] in H2.
    destruct (dec_bytes r) as [[payload r']|e]; [|discriminate].
    destruct (msg_dec_entry (x00 :: payload) kk kutf8 (f_kind fd) (f_utf8 fd) (msg_entry_dm dm2 (f_kind fd))
                payload (sk_zero kk) (msg_entry_default (f_kind fd) vdef)) as [[key v0]|e] eqn:E; [|discriminate].
    rewrite (ddm_entry_mono _ _ _ _ _ (msg_entry_dm dm2' (f_kind fd))
               (fun p v y => ddm_entry_dm_mono dm2 dm2' (f_kind fd) p v y H2) _ _ _ _ _ E).
    exact (fun H => H).
  - destruct dsub2; [|discriminate]. destruct dsub2'; [exact (fun H => H)|contradiction].
Qed.

Lemma ddm_succ slow S : forall d, ddm_le (msg_decode_msg slow S d) (msg_decode_msg slow S (Datatypes.S d)).
Proof.
  induction d as [d IHd] using lt_wf_ind. destruct d as [|d0]; intros tid grp g bs acc x.
  { cbn [msg_decode_msg]. discriminate. }
  destruct (nth_error S tid) as [md|] eqn:Hmd.
  2: { cbn [msg_decode_msg]. rewrite Hmd. discriminate. }
  revert bs acc. induction g as [|c g IH]; intros bs acc.
  { cbn [msg_decode_msg]. rewrite Hmd. discriminate. }
  rewrite (msg_dm_unfold slow S d0 tid grp md c g bs acc Hmd).
  rewrite (msg_dm_unfold slow S (Datatypes.S d0) tid grp md c g bs acc Hmd).
  destruct bs as [|b0 t0] eqn:Ebs; [exact (fun H => H)|]. rewrite <- Ebs. clear Ebs.
  destruct (dec_tag bs) as [[[num typ] r]|e]; [|discriminate].
  destruct (msg_max_num <? num); [discriminate|].
  destruct ((typ =? 4) && negb slow); [exact (fun H => H)|]. cbv zeta.
  destruct (msg_step slow md (msg_decode_msg slow S d0) (msg_sub2 slow S d0) _ num typ r acc) as [[acc' r']|e] eqn:Es;
    [|discriminate].
  erewrite ddm_step_mono; [| | |exact Es].
  - apply IH.
  - apply IHd. lia.
  - destruct d0 as [|d1]; cbn [msg_sub2 ddm_le2]; [exact I|]. apply IHd. lia.
Qed.

Lemma ddm_mono slow S d d' : (d <= d')%nat -> ddm_le (msg_decode_msg slow S d) (msg_decode_msg slow S d').
Proof.
  induction 1 as [|d' _ IH]; [intros tid grp g bs acc x H; exact H|].
  intros tid grp g bs acc x H. apply ddm_succ. apply IH. exact H.
Qed.

(* proto.Unmarshal / Merge: raising RecursionLimit never changes a successful decode *)
Theorem ddm_decode_into_mono slow S limit limit' tid bs old v :
  (limit <= limit')%nat ->
  msg_decode_into slow S limit tid bs old = DOk v -> msg_decode_into slow S limit' tid bs old = DOk v.
Proof.
  intros Hle H. destruct (msg_decode_into_inv _ _ _ _ _ _ _ H) as (m & r & E & ->).
  apply (msg_decode_into_ok slow S limit' tid bs old m r). exact (ddm_mono slow S limit limit' Hle _ _ _ _ _ _ E).
Qed.

Theorem ddm_decode_mono slow S limit limit' tid bs v :
  (limit <= limit')%nat ->
  msg_decode slow S limit tid bs = DOk v -> msg_decode slow S limit' tid bs = DOk v.
Proof. apply ddm_decode_into_mono. Qed.
