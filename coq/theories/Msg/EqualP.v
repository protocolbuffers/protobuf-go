(* EqualP — proofs for C30, part 1: scalars, unknown fields, association-list facts. *)
From Coq Require Import List Arith NArith ZArith Lia Bool Permutation.
From Coq Require Import ZifyBool ZifyNat ZifyN.
From PB Require Import Base.PBytes Base.ListP Wire.WireModel.
From PB Require Import Msg.MsgSchema Msg.MsgValue Msg.MsgStoreP Msg.DetModel Msg.DetP Msg.EqualModel.
Import ListNotations.
Open Scope N_scope.

Lemma eqm_bytes_eqb_refl a : eqm_bytes_eqb a a = true.
Proof. unfold eqm_bytes_eqb. now rewrite det_bytes_cmp_refl. Qed.

Lemma eqm_bytes_eqb_eq a b : eqm_bytes_eqb a b = true <-> a = b.
Proof.
  unfold eqm_bytes_eqb. split.
  - destruct (msg_bytes_cmp a b) eqn:E; try discriminate. intros _. now apply det_bytes_cmp_eq.
  - intros ->. now rewrite det_bytes_cmp_refl.
Qed.

Lemma eqm_key_eq x y : eqm_key x y = true <-> x = y.
Proof.
  destruct x as [a|a|a|a], y as [b|b|b|b]; cbn [eqm_key]; try (split; [discriminate|intros H; discriminate H]).
  - rewrite Z.eqb_eq. split; [now intros ->|now intros [= ->]].
  - rewrite N.eqb_eq. split; [now intros ->|now intros [= ->]].
  - rewrite Bool.eqb_true_iff. split; [now intros ->|now intros [= ->]].
  - rewrite eqm_bytes_eqb_eq. split; [now intros ->|now intros [= ->]].
Qed.

Lemma eqm_key_refl x : eqm_key x x = true.
Proof. now apply eqm_key_eq. Qed.

(* equalFloat identifies exactly the values of one class: all NaNs, both zeros, each other bit pattern *)
Definition eqm_fclass (nan zero : N -> bool) (x : N) : N :=
  if nan x then 0 else if zero x then 1 else x + 2.

Lemma eqm_float_class nan zero x y :
  eqm_float nan zero x y = (eqm_fclass nan zero x =? eqm_fclass nan zero y).
Proof.
  unfold eqm_float, eqm_fclass.
  destruct (nan x) eqn:Nx, (nan y) eqn:Ny; cbn [orb andb]; try reflexivity.
  - destruct (zero y); symmetry; apply N.eqb_neq; lia.
  - destruct (zero x); symmetry; apply N.eqb_neq; lia.
  - destruct (x =? y) eqn:E.
    + apply N.eqb_eq in E. subst y. rewrite orb_true_r. symmetry. apply N.eqb_refl.
    + rewrite orb_false_r. destruct (zero x), (zero y); cbn [andb]; symmetry;
        try (apply N.eqb_neq; apply N.eqb_neq in E; lia). reflexivity.
Qed.

Definition eqm_sclass (k : kind) (x : scalar) : scalar :=
  match x with
  | SN a => match k with
            | KS SkFloat => SN (eqm_fclass eqm_nan32 eqm_zero32 a)
            | KS SkDouble => SN (eqm_fclass eqm_nan64 eqm_zero64 a)
            | _ => x
            end
  | _ => x
  end.

(* eqm_scalar is equality of classes: an equivalence relation *)
Lemma eqm_scalar_class k x y : eqm_scalar k x y = eqm_key (eqm_sclass k x) (eqm_sclass k y).
Proof.
  destruct x as [a|a|a|a], y as [b|b|b|b]; cbn [eqm_scalar eqm_sclass eqm_key]; try reflexivity;
  destruct k as [[]| |]; cbn [eqm_key]; try reflexivity; apply eqm_float_class.
Qed.

Lemma eqm_scalar_refl k x : eqm_scalar k x x = true.
Proof. rewrite eqm_scalar_class. apply eqm_key_refl. Qed.
Lemma eqm_scalar_sym k x y : eqm_scalar k x y = true -> eqm_scalar k y x = true.
Proof. rewrite !eqm_scalar_class, !eqm_key_eq. congruence. Qed.
Lemma eqm_scalar_trans k x y z : eqm_scalar k x y = true -> eqm_scalar k y z = true -> eqm_scalar k x z = true.
Proof. rewrite !eqm_scalar_class, !eqm_key_eq. congruence. Qed.

Lemma eqm_group_notin cs k : ~ In k (map fst cs) -> eqm_group cs k = [].
Proof.
  unfold eqm_group. induction cs as [|c r IH]; cbn [map filter]; intros H; [reflexivity|].
  destruct (fst c =? k) eqn:E.
  - apply N.eqb_eq in E. exfalso. apply H. now left.
  - apply IH. intros Hin. apply H. now right.
Qed.

Lemma eqm_groups_eq_spec cx cy :
  eqm_groups_eq cx cy = true <-> (forall k, eqm_group cx k = eqm_group cy k).
Proof.
  unfold eqm_groups_eq. rewrite forallb_forall. split.
  - intros H k. destruct (in_dec N.eq_dec k (map fst cx ++ map fst cy)) as [Hin|Hn].
    + now apply eqm_bytes_eqb_eq, H.
    + rewrite !eqm_group_notin; [reflexivity| |]; intros Hin; apply Hn, in_or_app; tauto.
  - intros H k _. rewrite H. apply eqm_bytes_eqb_refl.
Qed.

Definition eqm_unknown_rel (x y : list byte) : Prop :=
  length x = length y /\
  (x = y \/ forall k, eqm_group (eqm_split (x00 :: x) x) k = eqm_group (eqm_split (x00 :: y) y) k).

Lemma eqm_unknown_spec x y : eqm_unknown x y = true <-> eqm_unknown_rel x y.
Proof.
  unfold eqm_unknown, eqm_unknown_rel.
  rewrite andb_true_iff, orb_true_iff, Nat.eqb_eq, eqm_bytes_eqb_eq, eqm_groups_eq_spec. tauto.
Qed.

Lemma eqm_unknown_refl x : eqm_unknown x x = true.
Proof. apply eqm_unknown_spec. split; [reflexivity|now left]. Qed.

Lemma eqm_unknown_sym x y : eqm_unknown x y = true -> eqm_unknown y x = true.
Proof.
  rewrite !eqm_unknown_spec. intros [L [E|G]]; (split; [now symmetry|]).
  - left. now symmetry.
  - right. intros k. now symmetry.
Qed.

Lemma eqm_unknown_trans x y z : eqm_unknown x y = true -> eqm_unknown y z = true -> eqm_unknown x z = true.
Proof.
  rewrite !eqm_unknown_spec. intros [L1 H1] [L2 H2]. split; [congruence|].
  destruct H1 as [->|G1]; [exact H2|]. destruct H2 as [<-|G2]; [now right|].
  right. intros k. now rewrite G1, G2.
Qed.

(* unknown fields are compared per field number: chunks of different numbers commute *)
Lemma eqm_group_app cs cs' k : eqm_group (cs ++ cs') k = eqm_group cs k ++ eqm_group cs' k.
Proof. unfold eqm_group. now rewrite filter_app, map_app, concat_app. Qed.

Lemma eqm_groups_interleave (c1 c2 : N * list byte) pre post :
  fst c1 <> fst c2 ->
  forall k, eqm_group (pre ++ c1 :: c2 :: post) k = eqm_group (pre ++ c2 :: c1 :: post) k.
Proof.
  intros Hne k. rewrite !eqm_group_app. f_equal. unfold eqm_group. cbn [filter].
  destruct (fst c1 =? k) eqn:E1, (fst c2 =? k) eqn:E2; try reflexivity.
  apply N.eqb_eq in E1, E2. congruence.
Qed.

Lemma eqm_fget_nodup (fs : fields) n v : NoDup (map fst fs) -> In (n, v) fs -> msg_fget fs n = v.
Proof.
  induction fs as [|[k0 v0] r IH]; cbn [msg_fget map]; intros Hn Hin; [contradiction|].
  inversion Hn as [|? ? Hk Hr]; subst. destruct Hin as [E|Hin].
  - inversion E; subst. now rewrite N.eqb_refl.
  - destruct (n =? k0) eqn:E; [|now apply IH].
    apply N.eqb_eq in E. subst. exfalso. apply Hk. change k0 with (fst (k0, v)). now apply in_map.
Qed.

Lemma eqm_nodup_n_spec l : eqm_nodup_n l = true <-> NoDup l.
Proof. apply list_nodupb_spec; reflexivity. Qed.

Definition eqm_pop (p : N * list value) : bool := negb (eqm_nil (snd p)).
Definition eqm_popnums (fs : fields) : list N := map fst (filter eqm_pop fs).

Lemma eqm_populated_len fs : eqm_populated fs = length (eqm_popnums fs).
Proof. unfold eqm_populated, eqm_popnums. now rewrite map_length. Qed.

Lemma eqm_popnums_in fs n : In n (eqm_popnums fs) <-> exists v, v <> [] /\ In (n, v) fs.
Proof.
  unfold eqm_popnums. rewrite in_map_iff. split.
  - intros [[n' v] [E H]]. cbn [fst] in E. subst n'. apply filter_In in H. destruct H as [H1 H2].
    exists v. split; [|exact H1]. unfold eqm_pop in H2. cbn [snd] in H2. destruct v; [discriminate|congruence].
  - intros [v [Hv Hin]]. exists (n, v). split; [reflexivity|]. apply filter_In. split; [exact Hin|].
    unfold eqm_pop. cbn [snd]. destruct v; [congruence|reflexivity].
Qed.

Lemma eqm_popnums_nodup fs : NoDup (map fst fs) -> NoDup (eqm_popnums fs).
Proof. exact (list_nodup_map_filter fst eqm_pop fs). Qed.

Lemma eqm_popnums_fget fs n : NoDup (map fst fs) -> (In n (eqm_popnums fs) <-> msg_fget fs n <> []).
Proof.
  intros Hn. rewrite eqm_popnums_in. split.
  - intros [v [Hv Hin]]. now rewrite (eqm_fget_nodup _ _ _ Hn Hin).
  - intros H. exists (msg_fget fs n). split; [exact H|now apply msg_fget_in].
Qed.

(* if every populated number of a is populated in b and the counts agree, the converse holds too *)
Lemma eqm_pop_pigeonhole fa fb :
  NoDup (map fst fa) ->
  incl (eqm_popnums fa) (eqm_popnums fb) -> eqm_populated fa = eqm_populated fb ->
  incl (eqm_popnums fb) (eqm_popnums fa).
Proof.
  intros Hn Hi Hl. rewrite !eqm_populated_len in Hl.
  apply NoDup_length_incl; [now apply eqm_popnums_nodup|lia|exact Hi].
Qed.

Definition eqm_keys (es : list value) : list scalar :=
  flat_map (fun e => match e with VEntry k _ => [k] | _ => [] end) es.

Lemma eqm_efind_in es k v : eqm_efind es k = Some v -> In (VEntry k v) es.
Proof.
  induction es as [|e r IH]; cbn [eqm_efind]; [discriminate|].
  destruct e as [s|fs u|k0 x]; try (intros H; right; now apply IH).
  destruct (eqm_key k0 k) eqn:E.
  - apply eqm_key_eq in E. subst. intros [= ->]. now left.
  - intros H. right. now apply IH.
Qed.

Lemma eqm_efind_none es k : eqm_efind es k = None -> ~ In k (eqm_keys es).
Proof.
  induction es as [|e r IH]; cbn [eqm_efind eqm_keys flat_map]; [intros _ []|].
  destruct e as [s|fs u|k0 x]; cbn [app]; try exact IH.
  destruct (eqm_key k0 k) eqn:E; [discriminate|]. intros H [->|Hin]; [|now apply IH].
  rewrite eqm_key_refl in E. discriminate.
Qed.

Lemma eqm_nodup_keys_spec es :
  eqm_nodup_keys es = true -> NoDup (eqm_keys es) /\ length (eqm_keys es) = length es /\
                              (forall e, In e es -> exists k x, e = VEntry k x).
Proof.
  induction es as [|e r IH]; cbn [eqm_nodup_keys eqm_keys flat_map]; [intros _; repeat split; [constructor|intros e []]|].
  destruct e as [s|fs u|k0 x]; try discriminate.
  rewrite andb_true_iff, negb_true_iff. intros [H1 H2]. destruct (IH H2) as [N1 [L1 A1]].
  cbn [app length]. repeat split.
  - constructor; [|exact N1]. intros Hin. unfold eqm_keys in Hin. apply in_flat_map in Hin.
    destruct Hin as [e [He Hk]]. destruct e as [s|fs u|k1 x1]; try contradiction. destruct Hk as [->|[]].
    assert (existsb (fun e => match e with VEntry k' _ => eqm_key k' k0 | _ => false end) r = true) as F.
    { apply existsb_exists. exists (VEntry k0 x1). split; [exact He|apply eqm_key_refl]. }
    congruence.
  - fold (eqm_keys r). now rewrite L1.
  - intros e [<-|He]; [now exists k0, x|now apply A1].
Qed.

Lemma eqm_efind_nodup es k v : eqm_nodup_keys es = true -> In (VEntry k v) es -> eqm_efind es k = Some v.
Proof.
  induction es as [|e r IH]; cbn [eqm_efind eqm_nodup_keys]; intros Hn Hin; [contradiction|].
  destruct e as [s|fs u|k0 x]; try discriminate.
  apply andb_true_iff in Hn. destruct Hn as [H1 H2]. apply negb_true_iff in H1.
  destruct Hin as [E|Hin].
  - inversion E; subst. now rewrite eqm_key_refl.
  - destruct (eqm_key k0 k) eqn:E; [|now apply IH].
    apply eqm_key_eq in E. subst.
    assert (existsb (fun e => match e with VEntry k' _ => eqm_key k' k | _ => false end) r = true) as F.
    { apply existsb_exists. exists (VEntry k v). split; [exact Hin|apply eqm_key_refl]. }
    congruence.
Qed.

Lemma eqm_keys_in es k : In k (eqm_keys es) <-> exists x, In (VEntry k x) es.
Proof.
  unfold eqm_keys. rewrite in_flat_map. split.
  - intros [e [He Hk]]. destruct e as [s|fs u|k1 x1]; try contradiction. destruct Hk as [->|[]]. now exists x1.
  - intros [x Hx]. exists (VEntry k x). split; [exact Hx|now left].
Qed.
