(* MsgAssocP — association lists of fields ([fields] of Msg/MsgValue.v: msg_fget / msg_fset / msg_fdel).
   Two groups of facts:
     - for ANY list: msg_fget_fset_same, msg_fset_fset_same, msg_fget_notin, msg_fdel_notin,
       msg_keys_fset, msg_fset_perm (their companions about OTHER keys and about the decoder's
       storing operations msg_set_field / msg_clear_oneof / msg_map_put are in MsgStoreP, which
       imports this file);
     - for strictly sorted lists ([msg_sorted]): msg_fset_sorted, msg_sorted_nodup,
       msg_sorted_perm_eq, and msg_ins_all_props: inserting the bindings of a sorted list in any
       order rebuilds it (the encoder emits fields in order.LegacyFieldOrder, the canonical value
       is sorted by number).
   AssocP develops key-sorted lists for any type of entries with its own predicate [asorted]; the
   reflection proofs (ReflectP, ReflectCellP) use that, the codec proofs use [msg_sorted] and the
   lemmas of this file and of MsgStoreP. *)
From Coq Require Import List Arith NArith ZArith Lia Bool Permutation.
From Coq Require Import ZifyBool ZifyNat ZifyN.
From PB Require Import Base.PBytes Msg.MsgSchema Msg.MsgValue Msg.MsgValid.
Import ListNotations.
Open Scope N_scope.

Definition msg_keys (fs : fields) : list N := map fst fs.

Fixpoint msg_sorted (lo : N) (fs : fields) : Prop :=
  match fs with
  | [] => True
  | p :: r => lo < fst p /\ msg_sorted (fst p) r
  end.

Lemma msg_keys_sorted_spec lo fs : msg_keys_sorted lo fs = true <-> msg_sorted lo fs.
Proof.
  revert lo. induction fs as [|[k vs] r IH]; intros lo; cbn [msg_keys_sorted msg_sorted fst]; [tauto|].
  rewrite andb_true_iff, IH. split; intros [H1 H2]; split; try assumption; lia.
Qed.

Lemma msg_sorted_weaken lo lo' fs : lo' <= lo -> msg_sorted lo fs -> msg_sorted lo' fs.
Proof. destruct fs as [|p r]; cbn [msg_sorted]; [trivial|]. intros H [H1 H2]. split; [lia|exact H2]. Qed.

Lemma msg_sorted_keys_gt lo fs : msg_sorted lo fs -> forall k, In k (msg_keys fs) -> lo < k.
Proof.
  revert lo. induction fs as [|p r IH]; intros lo Hs k Hin; [contradiction|].
  destruct Hs as [H1 H2]. destruct Hin as [<-|Hin]; [exact H1|].
  specialize (IH _ H2 k Hin). lia.
Qed.

Lemma msg_sorted_nodup lo fs : msg_sorted lo fs -> NoDup (msg_keys fs).
Proof.
  revert lo. induction fs as [|p r IH]; intros lo Hs; [constructor|].
  destruct Hs as [H1 H2]. cbn [msg_keys map]. constructor; [|eapply IH; exact H2].
  intros Hin. pose proof (msg_sorted_keys_gt _ _ H2 _ Hin). lia.
Qed.

Lemma msg_fget_fset_same fs k vs : msg_fget (msg_fset fs k vs) k = vs.
Proof.
  induction fs as [|[k0 v0] r IH]; cbn [msg_fset msg_fget].
  - now rewrite N.eqb_refl.
  - destruct (k <? k0) eqn:E1; [cbn [msg_fget]; now rewrite N.eqb_refl|].
    destruct (k =? k0) eqn:E2; cbn [msg_fget]; rewrite E2; [reflexivity|exact IH].
Qed.

Lemma msg_fset_fset_same fs k a b : msg_fset (msg_fset fs k a) k b = msg_fset fs k b.
Proof.
  induction fs as [|[k0 v0] r IH]; cbn [msg_fset].
  - replace (k <? k) with false by lia. now rewrite N.eqb_refl.
  - destruct (k <? k0) eqn:E1.
    + cbn [msg_fset]. replace (k <? k) with false by lia. now rewrite N.eqb_refl.
    + destruct (k =? k0) eqn:E2; cbn [msg_fset]; rewrite E1, E2; [reflexivity|now rewrite IH].
Qed.

Lemma msg_fget_notin fs k : ~ In k (msg_keys fs) -> msg_fget fs k = [].
Proof.
  induction fs as [|[k0 v0] r IH]; intros H; [reflexivity|]. cbn [msg_fget].
  cbn [msg_keys map fst In] in H. destruct (k =? k0) eqn:E; [exfalso; apply H; left; lia|].
  apply IH. intros Hin. apply H. right. exact Hin.
Qed.

Lemma msg_fdel_notin fs k : ~ In k (msg_keys fs) -> msg_fdel fs k = fs.
Proof.
  induction fs as [|[k0 v0] r IH]; intros H; [reflexivity|]. cbn [msg_fdel].
  cbn [msg_keys map fst In] in H. destruct (k =? k0) eqn:E; [exfalso; apply H; left; lia|].
  f_equal. apply IH. intros Hin. apply H. right. exact Hin.
Qed.

Lemma msg_keys_fset fs k vs x : In x (msg_keys (msg_fset fs k vs)) <-> x = k \/ In x (msg_keys fs).
Proof.
  induction fs as [|[k0 v0] r IH]; cbn [msg_fset msg_keys map fst In].
  - intuition.
  - destruct (k <? k0) eqn:E1; [cbn [map fst In]; intuition|].
    destruct (k =? k0) eqn:E2; cbn [map fst In].
    + assert (k = k0) by lia. subst. intuition.
    + fold (msg_keys (msg_fset r k vs)). fold (msg_keys r). rewrite IH. intuition.
Qed.

Lemma msg_fset_sorted lo fs k vs : msg_sorted lo fs -> lo < k -> msg_sorted lo (msg_fset fs k vs).
Proof.
  revert lo. induction fs as [|[k0 v0] r IH]; intros lo Hs Hk; cbn [msg_fset].
  - cbn. auto.
  - destruct Hs as [H1 H2]. cbn [fst] in *.
    destruct (k <? k0) eqn:E1; [cbn [msg_sorted fst]; repeat split; try lia; exact H2|].
    destruct (k =? k0) eqn:E2; cbn [msg_sorted fst].
    + split; [exact H1|exact H2].
    + split; [exact H1|]. apply IH; [exact H2|lia].
Qed.

Lemma msg_fset_perm fs k vs : ~ In k (msg_keys fs) -> Permutation (msg_fset fs k vs) ((k, vs) :: fs).
Proof.
  induction fs as [|[k0 v0] r IH]; intros H; cbn [msg_fset]; [reflexivity|].
  cbn [msg_keys map fst In] in H.
  destruct (k <? k0); [reflexivity|].
  destruct (k =? k0) eqn:E2; [exfalso; apply H; left; lia|].
  rewrite IH by (intros Hin; apply H; right; exact Hin). apply perm_swap.
Qed.

Lemma msg_sorted_perm_eq : forall a b lo lo',
  msg_sorted lo a -> msg_sorted lo' b -> Permutation a b -> a = b.
Proof.
  induction a as [|[k vs] a IH]; intros b lo lo' Ha Hb Hp.
  - apply Permutation_nil in Hp. now subst.
  - destruct b as [|[k' vs'] b]; [apply Permutation_sym, Permutation_nil in Hp; discriminate|].
    destruct Ha as [Ha1 Ha2], Hb as [Hb1 Hb2]. cbn [fst] in *.
    assert (Hin1 : In (k, vs) ((k', vs') :: b)) by (eapply Permutation_in; [exact Hp|left; reflexivity]).
    assert (Hin2 : In (k', vs') ((k, vs) :: a)) by (eapply Permutation_in; [apply Permutation_sym; exact Hp|left; reflexivity]).
    assert (Hk : k = k').
    { destruct Hin1 as [E|Hin1]; [now inversion E|].
      destruct Hin2 as [E|Hin2]; [now inversion E|].
      pose proof (msg_sorted_keys_gt _ _ Hb2 k (in_map fst _ _ Hin1)).
      pose proof (msg_sorted_keys_gt _ _ Ha2 k' (in_map fst _ _ Hin2)). cbn [fst] in *. lia. }
    subst k'.
    assert (Hv : vs = vs').
    { destruct Hin1 as [E|Hin1]; [now inversion E|].
      pose proof (msg_sorted_keys_gt _ _ Hb2 k (in_map fst _ _ Hin1)). cbn [fst] in *. lia. }
    subst vs'. f_equal. apply (IH b k k Ha2 Hb2). eapply Permutation_cons_inv. exact Hp.
Qed.

Definition msg_ins_all (l : fields) (acc : fields) : fields :=
  fold_left (fun a p => msg_fset a (fst p) (snd p)) l acc.

Lemma msg_ins_all_app l1 l2 acc : msg_ins_all (l1 ++ l2) acc = msg_ins_all l2 (msg_ins_all l1 acc).
Proof. unfold msg_ins_all. apply fold_left_app. Qed.

Lemma msg_ins_all_props : forall l acc lo,
  NoDup (msg_keys l ++ msg_keys acc) -> msg_sorted lo acc -> (forall k, In k (msg_keys l) -> lo < k) ->
  msg_sorted lo (msg_ins_all l acc) /\ Permutation (msg_ins_all l acc) (l ++ acc).
Proof.
  induction l as [|[k vs] l IH]; intros acc lo Hnd Hs Hlo.
  - cbn. split; [exact Hs|reflexivity].
  - cbn [msg_ins_all fold_left fst snd]. fold (msg_ins_all l (msg_fset acc k vs)).
    cbn [msg_keys map fst app] in Hnd. inversion Hnd as [|? ? Hnotin Hnd']; subst.
    assert (Hk : ~ In k (msg_keys acc)) by (intros Hin; apply Hnotin, in_or_app; right; exact Hin).
    destruct (IH (msg_fset acc k vs) lo) as [H1 H2].
    + eapply Permutation_NoDup; [|exact Hnd].
      etransitivity; [apply Permutation_middle|].
      apply Permutation_app_head. unfold msg_keys.
      rewrite (Permutation_map fst (msg_fset_perm acc k vs Hk)). reflexivity.
    + apply msg_fset_sorted; [exact Hs|]. apply Hlo. left. reflexivity.
    + intros x Hx. apply Hlo. right. exact Hx.
    + split; [exact H1|].
      rewrite H2. rewrite (msg_fset_perm acc k vs Hk). cbn [app].
      apply Permutation_sym, Permutation_middle.
Qed.
