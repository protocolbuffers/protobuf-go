(* MergeP — proofs about Msg/MergeModel.v (C07).

   msg_mrg_at_all             decoding the encoding of a valid message b into ANY accumulator a, followed
                              by arbitrary further input, turns the accumulator into Merge(a, b) and
                              continues with that input (induction over the depth; the unknown section
                              is handled by msg_run_unknown, every field by msg_mrg_field)
   msg_decode_into_merge      UnmarshalOptions{Merge:true}(Marshal b) into a = Merge(a, b)
   msg_merge_empty_l / _r     Clone; Merge with the empty message
   msg_merge_eq_decode_concat Merge(a, b) = Unmarshal(Marshal a || Marshal b)
   msg_decode_app_encoded     decode (Marshal a || y) continues with y from a
   msg_concat_eq_merge_refuted_FA6
   msg_decode_app             decode (x || y) = decode y into (decode x) for EVERY decodable pair (parsers on
                              extended input, msg_step_ext, msg_app_all)
   msg_concat_eq_merge        Unmarshal(x || Marshal b) = Merge(Unmarshal x, b), x any decodable bytes *)
From Coq Require Import List Arith NArith ZArith Lia Bool Permutation.
From Coq Require Import ZifyBool ZifyNat ZifyN.
From PB Require Import Base.PBytes Base.PBytesP Wire.WireModel Wire.VarintP Wire.ScanP.
From PB Require Import Msg.MsgSchema Msg.MsgValue Msg.MsgUtf8 Msg.MsgEnc Msg.MsgDec Msg.MsgValid.
From PB Require Import Msg.MsgWireP Msg.MsgScalarP Msg.MsgAssocP Msg.MsgSizeP Msg.MsgRoundP Msg.MergeModel.
Import ListNotations.
Open Scope N_scope.

Lemma msg_merge_empty_r S d tid fs u : msg_merge S (Datatypes.S d) tid (VMsg fs u) msg_empty = Some (VMsg fs u).
Proof. cbn. rewrite app_nil_r. reflexivity. Qed.

Lemma msg_parse_val_ext dep num typ bs v r y :
  parse_val dep num typ bs = Ok (v, r) -> exists v', parse_val dep num typ (bs ++ y) = Ok (v', r ++ y).
Proof. intros H. exists v. exact (parse_val_ext_ok dep num typ bs y v r H). Qed.
Lemma msg_firstn_len {A} (a b : list A) : firstn (length a) (a ++ b) = a.
Proof. exact (firstn_app_len a b). Qed.

Lemma msg_append_field_app fd v vs fs :
  msg_append_field fd vs (msg_append_field fd [v] fs) = msg_append_field fd (v :: vs) fs.
Proof.
  unfold msg_append_field. destruct vs as [|w vs]; [reflexivity|].
  rewrite msg_fget_fset_same, msg_fset_fset_same. rewrite <- app_assoc. reflexivity.
Qed.
Lemma msg_merge_fields_none mrg md P :
  fold_left (fun acc p => match acc with Some fs => msg_merge_one mrg md fs p | None => None end) P None = None.
Proof. induction P as [|p P IH]; [reflexivity|exact IH]. Qed.
Lemma msg_merge_fields_cons mrg md accf p P :
  msg_merge_fields mrg md accf (p :: P) =
  match msg_merge_one mrg md accf p with Some fs => msg_merge_fields mrg md fs P | None => None end.
Proof.
  unfold msg_merge_fields. cbn [fold_left]. destruct (msg_merge_one mrg md accf p); [reflexivity|apply msg_merge_fields_none].
Qed.

Section MergeDec.
  Variable slow : bool.
  Variable S : schema.
  Notation dm := (msg_decode_msg slow S).
  Notation run := (msg_run slow S).
  Notation eb := (msg_enc_body S).

  (* decoding the encoding of v (with [dep] levels of nesting left) into any accumulator, followed
     by [tail]: the accumulator becomes the merge, and the loop continues with [tail] *)
  Definition msg_mrg_at (dep : nat) : Prop :=
    forall v tid, msg_typed slow S dep tid v = true -> msg_sizes_ok S tid v = true ->
    forall (acc0 : msg_macc) grp tail,
      exists (m : msg_macc),
        msg_merge_d S dep tid (VMsg (fst acc0) (snd acc0)) v = Some (VMsg (fst m) (snd m)) /\
        run dep tid grp (eb tid v ++ tail) acc0 = run dep tid grp tail m.

  Lemma msg_old_sub_value fd accf :
    card_repeated (f_card fd) = false ->
    msg_old_sub fd accf = msg_macc_of (msg_old_value accf (f_num fd)).
  Proof.
    intros Hr. unfold msg_old_sub, msg_old_value. rewrite Hr.
    destruct (msg_fget accf (f_num fd)) as [|[s|fs u|k v] r]; reflexivity.
  Qed.
  Lemma msg_old_value_vmsg accf num : exists fs u, msg_old_value accf num = VMsg fs u.
  Proof.
    unfold msg_old_value. destruct (msg_fget accf num) as [|[s|fs u|k v] r]; try (exists [], []; reflexivity).
    exists fs, u. reflexivity.
  Qed.

  Lemma msg_mrg_at_sub dep t v old :
    msg_mrg_at dep -> msg_typed slow S dep t v = true -> msg_sizes_ok S t v = true ->
    exists m : msg_macc,
      msg_merge_d S dep t (VMsg (fst old) (snd old)) v = Some (VMsg (fst m) (snd m)) /\
      msg_sub_decodes slow S dep t v old m.
  Proof.
    intros Hst Hty Hsz. destruct (Hst v t Hty Hsz old 0 []) as (m & Hm & E).
    exists m. split; [exact Hm|].
    destruct v as [s|fs u|k v']; try discriminate.
    destruct (msg_typed_unfold slow S dep t fs u Hty) as (d' & md' & -> & Hmd' & _).
    split.
    - unfold msg_whole. rewrite app_nil_r in E. unfold msg_run in E at 1. rewrite E.
      rewrite (msg_run_nil slow S d' t md' m Hmd'). reflexivity.
    - intros Hs num tail Hlo Hhi.
      destruct (Hst _ t Hty Hsz old num (enc_tag num 4 ++ tail)) as (m' & Hm' & E').
      assert (m' = m) as -> by (rewrite Hm in Hm'; destruct m, m'; cbn [fst snd] in Hm'; congruence).
      rewrite E'. unfold msg_run. apply (msg_dm_end_grp slow S d' t md' num _ tail m Hs Hmd' Hlo Hhi). cbn [length]. lia.
  Qed.

  Section InMsg.
    Variables (d : nat) (tid : nat) (md : mdesc) (grp : N).
    Hypothesis Hmd : nth_error S tid = Some md.
    Notation has2 := (match d with O => false | _ => true end).
    Notation tv2 := (fun t x => match d with O => false | Datatypes.S d1 => msg_typed slow S d1 t x end).

    (* MsgRoundP.msg_unknown_loop under the name that Props/C09 cites *)
    Lemma msg_unknown_loop_k : forall gf u g accf pre tail,
      msg_unknown_ok slow md has2 gf u = true -> (length (u ++ tail) < length g)%nat ->
      exists g2, (length tail < length g2)%nat /\
        dm (Datatypes.S d) tid grp g (u ++ tail) (accf, pre) = dm (Datatypes.S d) tid grp g2 tail (accf, pre ++ u).
    Proof. exact (msg_unknown_loop slow S d tid md grp Hmd). Qed.

    (* every element of a repeated field is decoded into a fresh message *)
    Lemma msg_mrg_elems fd u :
      msg_find_field md (f_num fd) = Some fd -> msg_not_map fd ->
      1 <= f_num fd -> f_num fd <= msg_max_num -> card_repeated (f_card fd) = true ->
      forall vs accf tail,
        forallb (msg_typed_elem slow (msg_enc_body S) (msg_typed slow S d) fd) vs = true ->
        forallb (msg_szok_elem (msg_size_body S) (msg_sizes_ok S) (f_kind fd)) vs = true ->
        run (Datatypes.S d) tid grp (flat_map (fun e => msg_enc_elem eb (f_num fd) (f_kind fd) e) vs ++ tail) (accf, u) =
        run (Datatypes.S d) tid grp tail (msg_append_field fd vs accf, u).
    Proof.
      intros Hf Hnm Hlo Hhi Hrep. induction vs as [|v vs IH]; intros accf tail Hty Hsz; [reflexivity|].
      cbn [forallb] in Hty, Hsz. apply andb_true_iff in Hty, Hsz. destruct Hty as [Hty Htys], Hsz as [Hsz Hszs].
      cbn [flat_map]. rewrite <- app_assoc.
      rewrite (msg_run_elem slow S d tid md grp Hmd (msg_dec_at_all slow S d)
                 fd v accf u _ Hf Hnm Hlo Hhi Hty Hsz (or_introl Hrep)), Hrep.
      rewrite (IH _ tail Htys Hszs), msg_append_field_app. reflexivity.
    Qed.

    (* map entries are upserts *)
    Lemma msg_mrg_entries fd kk kutf8 vdef d1 u :
      d = Datatypes.S d1 ->
      msg_find_field md (f_num fd) = Some fd -> f_card fd = CMap kk kutf8 vdef ->
      1 <= f_num fd -> f_num fd <= msg_max_num ->
      forall es accf tail,
        forallb (msg_typed_entry (msg_typed slow S d1) fd kk kutf8) es = true ->
        forallb (msg_szok_entry (msg_size_body S) (msg_sizes_ok S) kk (f_kind fd)) es = true ->
        run (Datatypes.S d) tid grp (flat_map (fun e => msg_enc_entry eb (f_num fd) kk (f_kind fd) e) es ++ tail) (accf, u) =
        run (Datatypes.S d) tid grp tail
            (match es with [] => accf | _ => msg_fset accf (f_num fd) (msg_merge_entries (msg_fget accf (f_num fd)) es) end, u).
    Proof.
      intros Hd Hf Hc Hlo Hhi. induction es as [|e es IH]; intros accf tail Hty Hsz; [reflexivity|].
      cbn [forallb] in Hty, Hsz. apply andb_true_iff in Hty, Hsz. destruct Hty as [Hty Htys], Hsz as [Hsz Hszs].
      destruct e as [s|fs' u'|key v]; try (cbn [msg_typed_entry] in Hty; discriminate).
      cbn [flat_map]. rewrite <- app_assoc.
      rewrite (msg_run_entry slow S d tid md grp Hmd (fun d1 _ => msg_dec_at_all slow S d1)
                 fd kk kutf8 vdef d1 key v accf u _ Hd Hf Hc Hlo Hhi Hty Hsz).
      rewrite (IH _ tail Htys Hszs). f_equal. f_equal.
      destruct es as [|e2 es2]; [reflexivity|].
      rewrite msg_fget_fset_same, msg_fset_fset_same. reflexivity.
    Qed.

    Hypothesis IHd : msg_mrg_at d.

    (* a singular message or group is merged into the value already there *)
    Lemma msg_mrg_sub fd t v accf u tail :
      msg_find_field md (f_num fd) = Some fd -> msg_not_map fd -> card_repeated (f_card fd) = false ->
      1 <= f_num fd -> f_num fd <= msg_max_num ->
      f_kind fd = KMsg t \/ f_kind fd = KGrp t ->
      msg_typed_elem slow (msg_enc_body S) (msg_typed slow S d) fd v = true ->
      msg_szok_elem (msg_size_body S) (msg_sizes_ok S) (f_kind fd) v = true ->
      exists m,
        msg_merge_d S d t (msg_old_value accf (f_num fd)) v = Some m /\
        run (Datatypes.S d) tid grp (msg_enc_elem eb (f_num fd) (f_kind fd) v ++ tail) (accf, u) =
        run (Datatypes.S d) tid grp tail (msg_set_field md fd m accf, u).
    Proof.
      intros Hf Hnm Hrep Hlo Hhi Hk Hty Hsz.
      destruct (msg_mrg_at_sub d t v (msg_macc_of (msg_old_value accf (f_num fd))) IHd
                  (msg_typed_elem_sub slow S d fd t v Hk Hty) (msg_szok_elem_sub S _ t v Hk Hsz)) as (m & Hm & Hdec).
      exists (VMsg (fst m) (snd m)). split.
      - destruct (msg_old_value_vmsg accf (f_num fd)) as (ofs & ou & Hold). rewrite Hold in *. exact Hm.
      - rewrite (msg_run_sub slow S d tid md grp Hmd fd t v m accf u tail Hf Hnm Hlo Hhi Hk Hty Hsz).
        + unfold msg_store_sub. rewrite Hrep. reflexivity.
        + rewrite (msg_old_sub_value fd accf Hrep). exact Hdec.
    Qed.

    (* one field with all its values: msg_merge_one *)
    Lemma msg_mrg_single fd v accf u tail :
      msg_find_field md (f_num fd) = Some fd -> msg_not_map fd -> card_repeated (f_card fd) = false ->
      1 <= f_num fd -> f_num fd <= msg_max_num ->
      msg_typed_elem slow (msg_enc_body S) (msg_typed slow S d) fd v = true ->
      (match f_card fd, v with CImp, VS s => msg_scalar_is_zero s = false | _, _ => True end) ->
      msg_szok_elem (msg_size_body S) (msg_sizes_ok S) (f_kind fd) v = true ->
      exists accf',
        match f_kind fd, v with
        | KMsg t, VMsg _ _ | KGrp t, VMsg _ _ =>
          match msg_merge_d S d t (msg_old_value accf (f_num fd)) v with
          | Some m => Some (msg_set_field md fd m accf)
          | None => None
          end
        | _, VS s => Some (match f_card fd with
                           | CImp => if msg_scalar_is_zero s then accf else msg_set_field md fd v accf
                           | _ => msg_set_field md fd v accf
                           end)
        | _, _ => Some accf
        end = Some accf' /\
        run (Datatypes.S d) tid grp (msg_enc_elem eb (f_num fd) (f_kind fd) v ++ tail) (accf, u) =
        run (Datatypes.S d) tid grp tail (accf', u).
    Proof.
      intros Hf Hnm Hrep Hlo Hhi Hty Hz Hsz.
      pose proof (fun t Hk => msg_mrg_sub fd t v accf u tail Hf Hnm Hrep Hlo Hhi Hk Hty Hsz) as Hsub.
      unfold msg_typed_elem in Hty.
      destruct (f_kind fd) as [sk|t|t] eqn:Hk; destruct v as [s|fs' u'|k0 v0]; try discriminate.
      - apply andb_true_iff in Hty. destruct Hty as [Hok Hstr]. cbn [msg_szok_elem] in Hsz.
        exists (msg_set_field md fd (VS s) accf). split.
        + destruct (f_card fd); try reflexivity. rewrite Hz. reflexivity.
        + rewrite <- Hk, (msg_run_scalar slow S d tid md grp Hmd fd sk s accf u tail Hf Hk Hnm Hlo Hhi Hok Hsz Hstr), Hrep.
          reflexivity.
      - destruct (Hsub t (or_introl eq_refl)) as (m & Hm & E). rewrite Hm. exists (msg_set_field md fd m accf).
        split; [reflexivity|exact E].
      - destruct (Hsub t (or_intror eq_refl)) as (m & Hm & E). rewrite Hm. exists (msg_set_field md fd m accf).
        split; [reflexivity|exact E].
    Qed.

    Lemma msg_mrg_field fd vs accf u tail :
      msg_find_field md (f_num fd) = Some fd ->
      msg_typed_field slow (msg_enc_body S) (msg_typed slow S d) tv2 has2 fd vs = true ->
      msg_szok_field (msg_size_body S) (msg_sizes_ok S) fd vs = true ->
      exists accf',
        msg_merge_one (msg_merge_d S d) md accf (f_num fd, vs) = Some accf' /\
        run (Datatypes.S d) tid grp (msg_enc_field eb fd vs ++ tail) (accf, u) =
        run (Datatypes.S d) tid grp tail (accf', u).
    Proof.
      intros Hf Hty Hsz.
      destruct (msg_field_cases slow S d fd vs Hty Hsz) as (Hlo & Hhi & Hmode).
      unfold msg_merge_one. cbn [fst snd]. rewrite Hf.
      destruct Hmode as [v -> Hnm Hrep Htyv Hz Hszv ->|Hne Hnm Hrep Htyv Hszv ->
                        |sk Hne Hk Hrep Hp Hgood Hlen ->|kk kutf8 vdef d1 Hne Hc Hd Htye Hsze Hsorted ->].
      - destruct (msg_mrg_single fd v accf u tail Hf Hnm Hrep Hlo Hhi Htyv Hz Hszv) as (accf' & Hm & E).
        exists accf'. split; [|exact E].
        destruct (f_card fd) eqn:Hc; try discriminate Hrep; try exact Hm. exfalso. exact (Hnm _ _ _ Hc).
      - exists (msg_append_field fd vs accf). split.
        + destruct (f_card fd); try discriminate Hrep; reflexivity.
        + exact (msg_mrg_elems fd u Hf Hnm Hlo Hhi Hrep vs accf tail Htyv Hszv).
      - exists (msg_append_field fd vs accf). split.
        + destruct (f_card fd); try discriminate Hrep; reflexivity.
        + rewrite <- app_assoc.
          apply (msg_run_field slow S d tid md grp Hmd); try assumption; [reflexivity|discriminate|].
          apply (msg_step_packed slow md _ _ fd sk vs _ tail (accf, u)); assumption.
      - rewrite Hc. eexists. split; [reflexivity|].
        exact (msg_mrg_entries fd kk kutf8 vdef d1 u Hd Hf Hc Hlo Hhi vs accf tail Htye Hsze).
    Qed.

    Lemma msg_mrg_chunks : forall P accf u tail,
      forallb (msg_typed_chunk slow (msg_enc_body S) (msg_typed slow S d) tv2 has2 md) P = true ->
      forallb (msg_szok_chunk (msg_size_body S) (msg_sizes_ok S) md) P = true ->
      exists accf',
        msg_merge_fields (msg_merge_d S d) md accf P = Some accf' /\
        run (Datatypes.S d) tid grp (flat_map (fun p => snd (msg_enc_chunk eb md p)) P ++ tail) (accf, u) =
        run (Datatypes.S d) tid grp tail (accf', u).
    Proof.
      induction P as [|p P IH]; intros accf u tail Hty Hsz.
      - exists accf. split; reflexivity.
      - cbn [forallb] in Hty, Hsz. apply andb_true_iff in Hty, Hsz. destruct Hty as [Hty Htys], Hsz as [Hsz Hszs].
        cbn [flat_map]. rewrite <- app_assoc.
        unfold msg_typed_chunk in Hty. unfold msg_szok_chunk in Hsz.
        destruct (msg_find_field md (fst p)) as [fd|] eqn:Hf; [|discriminate].
        assert (Hc : snd (msg_enc_chunk eb md p) = msg_enc_field eb fd (snd p))
          by (unfold msg_enc_chunk; rewrite Hf; reflexivity).
        rewrite Hc.
        pose proof (msg_find_field_num _ _ _ Hf) as Hnum.
        rewrite <- Hnum in Hf.
        destruct (msg_mrg_field fd (snd p) accf u (flat_map (fun p => snd (msg_enc_chunk eb md p)) P ++ tail) Hf Hty Hsz)
          as (accf1 & Hm1 & E1).
        destruct (IH accf1 u tail Htys Hszs) as (accf' & Hm2 & E2).
        exists accf'. split; [|rewrite E1; exact E2].
        rewrite msg_merge_fields_cons.
        replace p with (f_num fd, snd p) by (destruct p; cbn [fst snd] in *; congruence).
        rewrite Hm1. exact Hm2.
    Qed.
  End InMsg.

  Lemma msg_mrg_at_all : forall dep, msg_mrg_at dep.
  Proof.
    induction dep as [dep IH] using lt_wf_ind. intros v tid Hty Hsz acc0 grp tail.
    destruct v as [s|fs unk|k v']; try discriminate.
    destruct (msg_typed_unfold slow S dep tid fs unk Hty) as (d & md & -> & Hmd & Hsorted & Hchunks & Hone & Hunk).
    pose proof (msg_sizes_ok_unfold S tid fs unk Hsz) as Hszc.
    rewrite (msg_nth_error_nth S tid md Hmd) in Hszc.
    rewrite msg_enc_body_order. rewrite (msg_nth_error_nth S tid md Hmd). rewrite <- app_assoc.
    set (P := msg_field_order md fs).
    assert (HinP : forall p, In p P -> In p fs)
      by (intros p Hp; eapply Permutation_in; [apply msg_field_order_perm|exact Hp]).
    rewrite forallb_forall in Hchunks, Hszc.
    destruct acc0 as [afs au].
    destruct (msg_mrg_chunks d tid md grp Hmd (IH d (Nat.lt_succ_diag_r d)) P afs au (unk ++ tail))
      as (accf' & Hm & E1).
    { apply forallb_forall. intros p Hp. apply Hchunks, HinP, Hp. }
    { apply forallb_forall. intros p Hp. apply Hszc, HinP, Hp. }
    exists (accf', au ++ unk). split.
    - cbn [msg_merge_d fst snd]. rewrite (msg_nth_error_nth S tid md Hmd). fold P. rewrite Hm. reflexivity.
    - etransitivity; [exact E1|].
      exact (msg_run_unknown slow S d tid md grp Hmd (x00 :: unk) unk accf' au tail Hunk).
  Qed.
End MergeDec.

(* UnmarshalOptions{Merge: true}: decoding Marshal(b) into any message a gives Merge(a, b) *)
Theorem msg_decode_into_merge slow S limit tid b afs au :
  msg_valid slow S limit tid b = true ->
  exists m, msg_merge S limit tid (VMsg afs au) b = Some m /\
            msg_decode_into slow S limit tid (msg_encode S tid b) (VMsg afs au) = DOk m.
Proof.
  unfold msg_valid. intros H. apply andb_true_iff in H. destruct H as [Hsz Hty].
  destruct (msg_mrg_at_sub slow S limit tid b (afs, au) (msg_mrg_at_all slow S limit) Hty Hsz) as (m & Hm & E & _).
  exists (VMsg (fst m) (snd m)). split; [exact Hm|].
  rewrite msg_decode_into_whole. unfold msg_encode. cbn [msg_macc_of]. rewrite E. reflexivity.
Qed.

(* Clone: merging into the empty message gives the message itself *)
Theorem msg_merge_empty_l slow S limit tid m :
  msg_valid slow S limit tid m = true -> msg_clone S limit tid m = Some m.
Proof.
  intros Hv. destruct (msg_decode_into_merge slow S limit tid m [] [] Hv) as (m' & Hm & Hd).
  pose proof (msg_roundtrip slow S limit tid m Hv) as Hr. unfold msg_decode in Hr.
  unfold msg_empty in Hr. rewrite Hd in Hr. inversion Hr; subst m'. exact Hm.
Qed.

(* decoding the encoding of a valid message followed by more input: the rest is decoded into it *)
Lemma msg_run_encoded slow S limit tid a y :
  msg_valid slow S limit tid a = true ->
  msg_run slow S limit tid 0 (msg_encode S tid a ++ y) (msg_macc_of msg_empty) = msg_run slow S limit tid 0 y (msg_macc_of a).
Proof.
  intros Ha. pose proof (msg_merge_empty_l slow S limit tid a Ha) as Hcl. unfold msg_clone in Hcl.
  unfold msg_valid in Ha. apply andb_true_iff in Ha. destruct Ha as [Hsza Htya].
  destruct (msg_mrg_at_all slow S limit a tid Htya Hsza ([], []) 0 y) as (m1 & Hm1 & E1).
  unfold msg_encode. etransitivity; [exact E1|].
  cbn [fst snd] in Hm1. unfold msg_empty in Hcl. rewrite Hcl in Hm1. inversion Hm1; subst a. destruct m1; reflexivity.
Qed.

Theorem msg_decode_app_encoded slow S limit tid a y :
  msg_valid slow S limit tid a = true ->
  exists g, (length y < length g)%nat /\
    msg_decode_msg slow S limit tid 0 (x00 :: msg_encode S tid a ++ y) (msg_encode S tid a ++ y) ([], []) =
    msg_decode_msg slow S limit tid 0 g y (msg_macc_of a).
Proof.
  intros Ha. exists (x00 :: y). split; [cbn [length]; lia|]. exact (msg_run_encoded slow S limit tid a y Ha).
Qed.

(* Merge(a, b) is what decoding Marshal(a) || Marshal(b) gives *)
Theorem msg_merge_eq_decode_concat slow S limit tid a b :
  msg_valid slow S limit tid a = true -> msg_valid slow S limit tid b = true ->
  exists m, msg_merge S limit tid a b = Some m /\
            msg_decode slow S limit tid (msg_encode S tid a ++ msg_encode S tid b) = DOk m.
Proof.
  intros Ha Hb.
  assert (Hshape : exists afs au, a = VMsg afs au).
  { unfold msg_valid in Ha. apply andb_true_iff in Ha. destruct Ha as [_ Hty].
    destruct a as [s|afs au|k v]; try discriminate. eexists; eexists; reflexivity. }
  destruct Hshape as (afs & au & ->).
  destruct (msg_decode_into_merge slow S limit tid b afs au Hb) as (m & Hm & Hd).
  exists m. split; [exact Hm|].
  unfold msg_decode. rewrite msg_decode_into_run in Hd |- *.
  rewrite (msg_run_encoded slow S limit tid (VMsg afs au) (msg_encode S tid b) Ha). exact Hd.
Qed.

(* the clause "Unmarshal(x || y) = Merge(Unmarshal x, Unmarshal y)" is false for non-canonical y:
   an explicit zero of an implicit-presence field clears the field on the wire (finding FA6) *)
Definition ex_fa6 : schema := [[mkF 1 (KS SkInt32) CImp None false false false]].
Lemma msg_concat_eq_merge_refuted_FA6 :
  exists S x y vx vy vxy m,
    msg_decode false S 100 0 x = DOk vx /\ msg_decode false S 100 0 y = DOk vy /\
    msg_decode false S 100 0 (x ++ y) = DOk vxy /\ msg_merge S 100 0 vx vy = Some m /\ m <> vxy.
Proof.
  exists ex_fa6, [n2b 8; n2b 3], [n2b 8; n2b 0]. do 4 eexists.
  split; [vm_compute; reflexivity|]. split; [vm_compute; reflexivity|].
  split; [vm_compute; reflexivity|]. split; [vm_compute; reflexivity|]. discriminate.
Qed.

Lemma msg_consume_group_ext num r content n y :
  consume_group num r = Ok (Some content, n) ->
  consume_group num (r ++ y) = Ok (Some content, n) /\ skipn (N.to_nat n) (r ++ y) = skipn (N.to_nat n) r ++ y.
Proof.
  unfold consume_group. destruct (parse_val default_dep num 3 r) as [[w r']|e] eqn:E; [|discriminate].
  rewrite (parse_val_ext_ok _ _ _ _ y _ _ E). pose proof (parse_val_len _ _ _ _ _ _ E) as Hl.
  rewrite (msg_firstn_consumed_ext r r' y Hl).
  replace (length (r ++ y) - length (r' ++ y))%nat with (length r - length r')%nat by (rewrite !app_length; lia).
  cbv zeta. destruct (Nat.ltb _ _); [discriminate|]. intros H. inversion H; subst. split; [reflexivity|].
  rewrite Nnat.Nat2N.id, skipn_app. replace (length r - length r' - length r)%nat with 0%nat by lia. reflexivity.
Qed.

Section DecApp.
  Variable slow : bool.
  Variable S : schema.
  Notation dm := (msg_decode_msg slow S).

  Section Step.
    Variables (d : nat) (md : mdesc).

    (* every route reads its value with a parser that ignores what follows; a directly decoded
       group is the caller's business *)
    Lemma msg_step_ext dsub2 tagraw num typ r acc acc' r' y :
      (forall t old m rr, dm d t num (x00 :: r) r old = DOk (m, rr) ->
                          dm d t num (x00 :: r ++ y) (r ++ y) old = DOk (m, rr ++ y)) ->
      msg_step slow md (dm d) dsub2 tagraw num typ r acc = DOk (acc', r') ->
      msg_step slow md (dm d) dsub2 tagraw num typ (r ++ y) acc = DOk (acc', r' ++ y).
    Proof.
      intros Hgrp. rewrite !msg_step_route.
      destruct (msg_route md num typ) as [|fd sk|fd sk|fd t|fd t|fd kk ku vd|].
      - apply msg_unknown_ext.
      - destruct (parse_val 0 num typ r) as [[w rr]|e] eqn:E; [|discriminate].
        rewrite (parse_val_ext_ok _ _ _ _ y _ _ E).
        destruct (msg_dec_scalar sk (msg_field_utf8 slow fd) w) as [[s|e]|];
          [intros H; inversion H; subst; reflexivity|discriminate|apply msg_unknown_ext].
      - destruct (dec_bytes r) as [[payload rr]|e] eqn:E; [|discriminate].
        rewrite (dec_bytes_ext_ok _ y _ _ E).
        destruct (msg_dec_packed (x00 :: payload) sk payload []) as [vs|e]; [|discriminate].
        intros H. inversion H; subst. reflexivity.
      - destruct (dec_bytes r) as [[payload rr]|e] eqn:E; [|discriminate].
        rewrite (dec_bytes_ext_ok _ y _ _ E).
        destruct (msg_whole (dm d) t payload (msg_old_sub fd (fst acc))) as [m|e]; [|discriminate].
        intros H. inversion H; subst. reflexivity.
      - destruct slow.
        + destruct (consume_group num r) as [[[content|] n]|e] eqn:E; try discriminate.
          destruct (msg_consume_group_ext _ _ _ _ y E) as [E' Hsk]. rewrite E'.
          destruct (msg_whole _ t content (msg_old_sub fd (fst acc))) as [m|e]; [|discriminate].
          intros H. inversion H; subst. rewrite Hsk. reflexivity.
        + destruct (msg_decode_msg _ S d t num (x00 :: r) r (msg_old_sub fd (fst acc))) as [[m rr]|e] eqn:E; [|discriminate].
          rewrite (Hgrp _ _ _ _ E). intros H. inversion H; subst. reflexivity.
      - destruct dsub2 as [dm2|]; [|discriminate].
        destruct (dec_bytes r) as [[payload rr]|e] eqn:E; [|discriminate].
        rewrite (dec_bytes_ext_ok _ y _ _ E).
        destruct (msg_dec_entry (x00 :: payload) kk ku (f_kind fd) (f_utf8 fd) (msg_entry_dm dm2 (f_kind fd))
                    payload (sk_zero kk) (msg_entry_default (f_kind fd) vd)) as [[key v]|e]; [|discriminate].
        intros H. inversion H; subst. reflexivity.
      - destruct dsub2; [apply msg_unknown_ext|discriminate].
    Qed.
  End Step.
End DecApp.

Section DecApp2.
  Variable slow : bool.
  Variable S : schema.
  Notation dm := (msg_decode_msg slow S).
  Notation run := (msg_run slow S).

  (* a run that succeeds on [bs] does the same work on [bs ++ y]: at top level it goes on with
     [y], inside a group it stops at the same end-group tag *)
  Definition msg_app_stmt (d : nat) : Prop :=
    forall tid grp bs acc acc' rest y,
      run d tid grp bs acc = DOk (acc', rest) ->
      (grp = 0 /\ rest = [] /\ run d tid grp (bs ++ y) acc = run d tid grp y acc') \/
      (grp <> 0 /\ run d tid grp (bs ++ y) acc = DOk (acc', rest ++ y)).

  (* what the field step needs from one level down: a directly decoded group ends at the same
     place when more input follows *)
  Lemma msg_app_group d : msg_app_stmt d ->
    forall num r y t old m rr, 1 <= num ->
      dm d t num (x00 :: r) r old = DOk (m, rr) ->
      dm d t num (x00 :: r ++ y) (r ++ y) old = DOk (m, rr ++ y).
  Proof.
    intros IHd num r y t old m rr Hnum H.
    destruct (IHd t num r old m rr y H) as [(Hz & _)|[_ E]]; [lia|exact E].
  Qed.

  Lemma msg_app_loop d tid md grp :
    nth_error S tid = Some md -> msg_app_stmt d ->
    forall bs acc acc' rest y,
      run (Datatypes.S d) tid grp bs acc = DOk (acc', rest) ->
      (grp = 0 /\ rest = [] /\ run (Datatypes.S d) tid grp (bs ++ y) acc = run (Datatypes.S d) tid grp y acc') \/
      (grp <> 0 /\ run (Datatypes.S d) tid grp (bs ++ y) acc = DOk (acc', rest ++ y)).
  Proof.
    intros Hmd IHd bs. remember (length bs) as n eqn:Hn. revert bs Hn.
    induction n as [n IH] using lt_wf_ind. intros bs Hn acc acc' rest y H.
    rewrite (msg_run_unfold slow S d tid grp md bs acc Hmd) in H.
    destruct bs as [|b0 bs0].
    - destruct (N.eqb_spec grp 0) as [Hg0|]; [|discriminate]. inversion H; subst acc' rest.
      left. repeat split. exact Hg0.
    - destruct (dec_tag (b0 :: bs0)) as [[[num typ] r]|e] eqn:Hdt; [|discriminate].
      pose proof (dec_tag_num_pos _ _ _ _ Hdt) as Hnum. pose proof (dec_tag_len _ _ _ _ Hdt) as Hlr.
      rewrite (msg_run_unfold slow S d tid grp md ((b0 :: bs0) ++ y) acc Hmd).
      cbn [app]. change (b0 :: bs0 ++ y) with ((b0 :: bs0) ++ y). rewrite (dec_tag_ext_ok _ y _ _ _ Hdt).
      destruct (msg_max_num <? num); [discriminate|].
      destruct ((typ =? 4) && negb slow).
      + destruct (N.eqb_spec num grp) as [Hng|]; [|discriminate]. inversion H; subst acc' rest.
        right. split; [lia|reflexivity].
      + cbv zeta in H |- *.
        rewrite (msg_tagraw_ext slow _ y _ _ _ Hdt).
        destruct (msg_step slow md (dm d) (msg_sub2 slow S d) _ num typ r acc) as [[acc1 r1]|e] eqn:E1; [|discriminate].
        rewrite (msg_step_ext slow S d md _ _ num typ r acc acc1 r1 y
                   (fun t old m rr => msg_app_group d IHd num r y t old m rr Hnum) E1).
        pose proof (msg_step_rest_len slow S d md _ num typ r acc acc1 r1 (nth_error_In _ _ Hmd) E1) as Hlr1.
        apply (IH (length r1)) with (bs := r1); [subst n; lia|reflexivity|exact H].
  Qed.

  Theorem msg_app_all : forall d, msg_app_stmt d.
  Proof.
    induction d as [|d IHd]; intros tid grp bs acc acc' rest y H; [discriminate|].
    destruct (nth_error S tid) as [md|] eqn:Hmd.
    - exact (msg_app_loop d tid md grp Hmd IHd bs acc acc' rest y H).
    - unfold msg_run in H. rewrite (msg_dm_none slow S d tid grp _ _ _ Hmd) in H. discriminate.
  Qed.
End DecApp2.

(* decode (x || y) into old = decode y into (decode x into old), for every decodable pair *)
Theorem msg_decode_into_app slow S limit tid x y old vx v :
  msg_decode_into slow S limit tid x old = DOk vx ->
  msg_decode_into slow S limit tid y vx = DOk v ->
  msg_decode_into slow S limit tid (x ++ y) old = DOk v.
Proof.
  intros H1 H2. destruct (msg_decode_into_inv _ _ _ _ _ _ _ H1) as (m1 & r1 & E1 & ->).
  destruct (msg_app_all slow S limit tid 0 x _ m1 r1 y E1) as [(_ & _ & E)|[Hne _]]; [|congruence].
  rewrite msg_decode_into_run in H2 |- *. rewrite E. destruct m1 as [f1 u1]. exact H2.
Qed.

Theorem msg_decode_app slow S limit tid x y vx v :
  msg_decode slow S limit tid x = DOk vx ->
  msg_decode_into slow S limit tid y vx = DOk v ->
  msg_decode slow S limit tid (x ++ y) = DOk v.
Proof. apply msg_decode_into_app. Qed.

(* Unmarshal(x || Marshal(b)) = Merge(Unmarshal(x), b): x any decodable byte string, b a canonical value *)
Theorem msg_concat_eq_merge slow S limit tid x vx b :
  msg_decode slow S limit tid x = DOk vx ->
  msg_valid slow S limit tid b = true ->
  exists m, msg_merge S limit tid vx b = Some m /\
            msg_decode slow S limit tid (x ++ msg_encode S tid b) = DOk m.
Proof.
  intros Hx Hb.
  assert (Hshape : exists afs au, vx = VMsg afs au).
  { destruct (msg_decode_into_inv _ _ _ _ _ _ _ Hx) as (m1 & r1 & _ & ->). eexists; eexists; reflexivity. }
  destruct Hshape as (afs & au & ->).
  destruct (msg_decode_into_merge slow S limit tid b afs au Hb) as (m & Hm & Hd).
  exists m. split; [exact Hm|]. exact (msg_decode_app slow S limit tid x _ _ m Hx Hd).
Qed.
