(* FastSlowDecP — C08: the two modes of the decoder model (Msg/MsgDec.v: [slow = true] proto.
   unmarshalMessageSlow, [slow = false] internal/impl unmarshalPointerEager) give the same verdict
   on every input and, when they accept, results that are equal up to the normalisation of
   unknown-field tags -- for schemas without group-typed fields and without fields on which the
   two paths validate UTF-8 differently (finding FL1: repeated string extensions).

   The proof is a simulation along the decoder's recursion (depth, then fuel): the accumulators of
   the two runs are related by [fsd_acc_rel] (same known fields with related values; the unknown
   section of the reflection run is a sequence of fields with raw tags, that of the table-driven
   run the same fields with minimal tags). *)
From Coq Require Import List Arith NArith ZArith Lia Bool Permutation.
From Coq Require Import ZifyBool ZifyNat ZifyN.
From PB Require Import Base.PBytes Wire.WireModel Wire.WireGrammar Wire.VarintP Wire.ScanP.
From PB Require Import Msg.MsgSchema Msg.MsgValue Msg.MsgUtf8 Msg.MsgEnc Msg.MsgDec Msg.MsgValid Msg.MsgWireP Msg.MsgSizeP Msg.MsgDecP Msg.MsgRoundP.
From PB Require Import Msg.DetModel Msg.FastSlowModel Msg.FastSlowP.
Import ListNotations.
Open Scope N_scope.

Inductive fsd_unk_rel : list byte -> list byte -> Prop :=
| fsd_ur_nil : fsd_unk_rel [] []
| fsd_ur_app u u' raw num typ val :
    fsd_unk_rel u u' -> is_tag raw num typ -> wf_value default_dep num typ val ->
    fsd_unk_rel (u ++ raw ++ val) (u' ++ enc_tag num typ ++ val).

Inductive fsd_val_rel : value -> value -> Prop :=
| fsd_vr_s s : fsd_val_rel (VS s) (VS s)
| fsd_vr_e k x y : fsd_val_rel x y -> fsd_val_rel (VEntry k x) (VEntry k y)
| fsd_vr_m fa ua fb ub :
    fsd_unk_rel ua ub ->
    Forall2 (fun p q : N * list value => fst p = fst q /\ Forall2 fsd_val_rel (snd p) (snd q)) fa fb ->
    fsd_val_rel (VMsg fa ua) (VMsg fb ub).

Definition fsd_vals_rel := Forall2 fsd_val_rel.
Definition fsd_bind_rel (p q : N * list value) : Prop := fst p = fst q /\ fsd_vals_rel (snd p) (snd q).
Definition fsd_fields_rel := Forall2 fsd_bind_rel.
Definition fsd_acc_rel (a b : msg_macc) : Prop := fsd_fields_rel (fst a) (fst b) /\ fsd_unk_rel (snd a) (snd b).

(* the error classes agree, except that the reflection path may report the recursion limit where the
   table-driven path reports a parse error: an end-group tag carrying the number of a map field,
   met when no depth is left for a map entry (the reflection path notices the end-group tag only
   in ConsumeFieldValue, after the depth check of the map field) *)
Definition fsd_err_rel (e_slow e_fast : derr) : Prop :=
  e_slow = e_fast \/ (e_slow = DDepth /\ e_fast = DParse).

Definition fsd_res_rel {A} (R : A -> A -> Prop) (x y : dres A) : Prop :=
  match x, y with
  | DOk a, DOk b => R a b
  | DErr e, DErr e' => fsd_err_rel e e'
  | _, _ => False
  end.

(* both runs give the same error (the left disjunct of fsd_err_rel), or the goal is an equation *)
Ltac fsd_eq := first [reflexivity | left; reflexivity].

Definition fsd_out_rel (a b : msg_macc * list byte) : Prop := fsd_acc_rel (fst a) (fst b) /\ snd a = snd b.
(* outside a group (grp = 0; the schemas considered have no group-typed fields) *)
Definition fsd_dec_rel (ds df : msg_dec_t) : Prop :=
  forall tid g bs a_s a_f, fsd_acc_rel a_s a_f -> fsd_res_rel fsd_out_rel (ds tid 0 g bs a_s) (df tid 0 g bs a_f).

Lemma fsd_acc_empty : fsd_acc_rel ([], []) ([], []).
Proof. split; constructor. Qed.

Lemma fsd_val_empty : fsd_val_rel msg_empty msg_empty.
Proof. constructor; constructor. Qed.

Lemma fsd_vals_scalars vs : Forall (fun v => exists s, v = VS s) vs -> fsd_vals_rel vs vs.
Proof. induction 1 as [|v r [s ->] _ IH]; constructor; [constructor|exact IH]. Qed.

Lemma fsd_fget fa fb n : fsd_fields_rel fa fb -> fsd_vals_rel (msg_fget fa n) (msg_fget fb n).
Proof.
  induction 1 as [|[k v] [k' v'] ra rb [E V] _ IH]; cbn [msg_fget]; [constructor|].
  cbn [fst snd] in E, V. subst k'. destruct (n =? k); assumption.
Qed.

Lemma fsd_fset fa fb n va vb :
  fsd_fields_rel fa fb -> fsd_vals_rel va vb -> fsd_fields_rel (msg_fset fa n va) (msg_fset fb n vb).
Proof.
  intros H V. induction H as [|[k v] [k' v'] ra rb [E W] H IH]; cbn [msg_fset].
  - constructor; [split; [reflexivity|exact V]|constructor].
  - cbn [fst snd] in E, W. subst k'. destruct (n <? k).
    + constructor; [split; [reflexivity|exact V]|]. constructor; [split; [reflexivity|exact W]|exact H].
    + destruct (n =? k).
      * constructor; [split; [reflexivity|exact V]|exact H].
      * constructor; [split; [reflexivity|exact W]|exact IH].
Qed.

Lemma fsd_fdel fa fb n : fsd_fields_rel fa fb -> fsd_fields_rel (msg_fdel fa n) (msg_fdel fb n).
Proof.
  induction 1 as [|[k v] [k' v'] ra rb [E W] H IH]; cbn [msg_fdel]; [constructor|].
  cbn [fst snd] in E, W. subst k'. destruct (n =? k); [exact H|]. constructor; [split; [reflexivity|exact W]|exact IH].
Qed.

Lemma fsd_clear_oneof md oi num : forall fa fb,
  fsd_fields_rel fa fb -> fsd_fields_rel (msg_clear_oneof md oi num fa) (msg_clear_oneof md oi num fb).
Proof.
  induction md as [|fd r IH]; intros fa fb H; cbn [msg_clear_oneof]; [exact H|].
  apply IH. destruct (f_oneof fd) as [j|]; [|exact H].
  destruct ((j =? oi) && negb (f_num fd =? num)); [now apply fsd_fdel|exact H].
Qed.

Lemma fsd_set_field md fd v v' fa fb :
  fsd_val_rel v v' -> fsd_fields_rel fa fb ->
  fsd_fields_rel (msg_set_field md fd v fa) (msg_set_field md fd v' fb).
Proof.
  intros V H. unfold msg_set_field.
  assert (match f_card fd, v with CImp, VS s => msg_scalar_is_zero s | _, _ => false end =
          match f_card fd, v' with CImp, VS s => msg_scalar_is_zero s | _, _ => false end) as E.
  { destruct (f_card fd); try reflexivity. inversion V; subst; reflexivity. }
  rewrite <- E. clear E.
  set (drop := match f_card fd, v with CImp, VS s => msg_scalar_is_zero s | _, _ => false end).
  assert (fsd_fields_rel (if drop then msg_fdel fa (f_num fd) else msg_fset fa (f_num fd) [v])
                         (if drop then msg_fdel fb (f_num fd) else msg_fset fb (f_num fd) [v'])) as H1.
  { destruct drop; [now apply fsd_fdel|]. apply fsd_fset; [exact H|]. constructor; [exact V|constructor]. }
  destruct (f_oneof fd); [now apply fsd_clear_oneof|exact H1].
Qed.

Lemma fsd_append_field fd vs vs' fa fb :
  fsd_vals_rel vs vs' -> fsd_fields_rel fa fb ->
  fsd_fields_rel (msg_append_field fd vs fa) (msg_append_field fd vs' fb).
Proof.
  intros V H. unfold msg_append_field. inversion V as [|x y r r' Vx Vr]; subst; [exact H|].
  apply fsd_fset; [exact H|]. apply Forall2_app; [now apply fsd_fget|exact V].
Qed.

Lemma fsd_macc_of v v' : fsd_val_rel v v' -> fsd_acc_rel (msg_macc_of v) (msg_macc_of v').
Proof. intros V. inversion V; subst; cbn [msg_macc_of]; try apply fsd_acc_empty. split; assumption. Qed.

Lemma fsd_old_sub fd fa fb : fsd_fields_rel fa fb -> fsd_acc_rel (msg_old_sub fd fa) (msg_old_sub fd fb).
Proof.
  intros H. unfold msg_old_sub. destruct (card_repeated (f_card fd)); [apply fsd_acc_empty|].
  pose proof (fsd_fget _ _ (f_num fd) H) as V. inversion V as [|x y r r' Vx Vr]; subst; [apply fsd_acc_empty|].
  now apply fsd_macc_of.
Qed.

Lemma fsd_store_sub md fd m m' fa fb :
  fsd_acc_rel m m' -> fsd_fields_rel fa fb ->
  fsd_fields_rel (msg_store_sub md fd m fa) (msg_store_sub md fd m' fb).
Proof.
  intros [M1 M2] H. unfold msg_store_sub.
  assert (fsd_val_rel (VMsg (fst m) (snd m)) (VMsg (fst m') (snd m'))) as V by (constructor; assumption).
  destruct (card_repeated (f_card fd)).
  - apply fsd_append_field; [|exact H]. constructor; [exact V|constructor].
  - now apply fsd_set_field.
Qed.

Lemma fsd_map_put es es' key v v' :
  fsd_vals_rel es es' -> fsd_val_rel v v' -> fsd_vals_rel (msg_map_put es key v) (msg_map_put es' key v').
Proof.
  intros H V. induction H as [|e e' r r' E H IH]; cbn [msg_map_put].
  - constructor; [now constructor|constructor].
  - inversion E; subst.
    + constructor; [exact E|exact IH].
    + destruct (msg_scmp key k).
      * constructor; [now constructor|exact H].
      * constructor; [now constructor|]. constructor; [exact E|exact H].
      * constructor; [exact E|exact IH].
    + constructor; [exact E|exact IH].
Qed.

Lemma fsd_entry_default vk vdef : fsd_val_rel (msg_entry_default vk vdef) (msg_entry_default vk vdef).
Proof.
  unfold msg_entry_default. destruct vk as [sk| |]; try apply fsd_val_empty. destruct sk; constructor.
Qed.

Definition fsd_entry_rel (a b : scalar * value) : Prop := fst a = fst b /\ fsd_val_rel (snd a) (snd b).

Lemma fsd_dec_entry kk kutf8 vk vutf8 (dm_s dm_f : list byte -> value -> dres value) :
  (forall p v v', fsd_val_rel v v' -> fsd_res_rel fsd_val_rel (dm_s p v) (dm_f p v')) ->
  forall g bs key val val', fsd_val_rel val val' ->
    fsd_res_rel fsd_entry_rel (msg_dec_entry g kk kutf8 vk vutf8 dm_s bs key val)
                              (msg_dec_entry g kk kutf8 vk vutf8 dm_f bs key val').
Proof.
  intros Hdm. induction g as [|x g IH]; intros bs key val val' V; cbn [msg_dec_entry]; [fsd_eq|].
  destruct bs as [|b0 bs0]; [split; [fsd_eq|exact V]|].
  destruct (dec_tag (b0 :: bs0)) as [[[num typ] r]|e]; [|fsd_eq].
  destruct (msg_max_num <? num); [fsd_eq|].
  destruct (parse_val default_dep num typ r) as [[w r']|e]; [|fsd_eq].
  destruct (num =? 1).
  - destruct (msg_dec_scalar kk kutf8 w) as [[s|e]|]; [now apply IH|fsd_eq|now apply IH].
  - destruct (num =? 2); [|now apply IH].
    destruct vk as [sk|t|t].
    + destruct (msg_dec_scalar sk vutf8 w) as [[s|e]|]; [apply IH; constructor|fsd_eq|now apply IH].
    + destruct w; try (now apply IH).
      pose proof (Hdm b val val' V) as Hr. unfold fsd_res_rel in Hr.
      destruct (dm_s b val) as [a|e], (dm_f b val') as [a'|e']; try contradiction; [now apply IH|exact Hr].
    + now apply IH.
Qed.

Lemma fsd_unknown bs num typ r a_s a_f :
  dec_tag bs = Ok (num, typ, r) -> fsd_acc_rel a_s a_f ->
  fsd_res_rel fsd_out_rel (msg_unknown (firstn (length bs - length r) bs) num typ r a_s)
                          (msg_unknown (enc_tag num typ) num typ r a_f).
Proof.
  intros Hd [F U]. unfold msg_unknown.
  destruct (parse_val default_dep num typ r) as [[w r']|e] eqn:Ep; [|fsd_eq].
  cbn [fsd_res_rel]. split; [|fsd_eq]. cbn [fst snd]. split; [exact F|].
  apply dec_tag_sound in Hd. destruct Hd as (p & -> & Ht).
  apply parse_val_sound in Ep. destruct Ep as (val & -> & Hv).
  rewrite !app_length, !Nat.add_sub, !firstn_app, !Nat.sub_diag, !firstn_all, !firstn_O, !app_nil_r.
  now constructor.
Qed.

Lemma fsd_whole (ds df : msg_dec_t) tid payload old old' :
  fsd_dec_rel ds df -> fsd_acc_rel old old' ->
  fsd_res_rel fsd_acc_rel (msg_whole ds tid payload old) (msg_whole df tid payload old').
Proof.
  intros Hd Ho. unfold msg_whole. pose proof (Hd tid (x00 :: payload) payload old old' Ho) as H.
  unfold fsd_res_rel in *. destruct (ds tid 0 (x00 :: payload) payload old) as [[m r]|e],
    (df tid 0 (x00 :: payload) payload old') as [[m' r']|e']; try contradiction; [|exact H].
  destruct H as [H _]. exact H.
Qed.

Lemma fsd_store_scalar md fd (c : card) s fa fb :
  fsd_fields_rel fa fb ->
  fsd_fields_rel (if card_repeated c then msg_append_field fd [VS s] fa else msg_set_field md fd (VS s) fa)
                 (if card_repeated c then msg_append_field fd [VS s] fb else msg_set_field md fd (VS s) fb).
Proof.
  intros F. destruct (card_repeated c).
  - apply fsd_append_field; [|exact F]. constructor; [constructor|constructor].
  - apply fsd_set_field; [constructor|exact F].
Qed.

Lemma fsd_dec_packed_scalars sk : forall g bs acc vs,
  msg_dec_packed g sk bs acc = DOk vs -> Forall (fun v => exists s, v = VS s) acc ->
  Forall (fun v => exists s, v = VS s) vs.
Proof.
  induction g as [|x g IH]; intros bs acc vs H Hacc; cbn [msg_dec_packed] in H; [discriminate|].
  destruct bs as [|b0 bs0].
  - inversion H; subst. apply Forall_rev. exact Hacc.
  - destruct (parse_val 0 1 (sk_wt sk) (b0 :: bs0)) as [[w r]|e]; [|discriminate].
    destruct (sk_dec sk w) as [s|]; [|discriminate].
    eapply IH; [exact H|]. constructor; [now exists s|exact Hacc].
Qed.

Section StepRel.
  Variable md : mdesc.
  Hypothesis md_ok : forall num fd, msg_find_field md num = Some fd ->
    (forall t, f_kind fd <> KGrp t) /\ msg_field_utf8 true fd = msg_field_utf8 false fd.
  Variables ds df : msg_dec_t.
  Hypothesis Hd : fsd_dec_rel ds df.
  Variables ds2 df2 : option msg_dec_t.
  Hypothesis Hd2 : match ds2, df2 with
                   | Some a, Some b => fsd_dec_rel a b
                   | None, None => True
                   | _, _ => False
                   end.

  (* the two runs take the same route through the field (MsgDecP.msg_step_route) *)
  Lemma fsd_step bs num typ r a_s a_f :
    dec_tag bs = Ok (num, typ, r) -> fsd_acc_rel a_s a_f ->
    fsd_res_rel fsd_out_rel
      (msg_step true md ds ds2 (firstn (length bs - length r) bs) num typ r a_s)
      (msg_step false md df df2 (enc_tag num typ) num typ r a_f).
  Proof.
    intros Hdt Ha. pose proof (fsd_unknown _ _ _ _ _ _ Hdt Ha) as HU. destruct Ha as [F U].
    rewrite !msg_step_route. pose proof (msg_route_field md num typ) as Hr.
    destruct (msg_route md num typ) as [|fd sk|fd sk|fd t|fd t|fd kk kutf8 vdef|].
    - exact HU.
    - destruct Hr as [[Ef _] _]. destruct (md_ok _ _ Ef) as [_ Hutf]. rewrite Hutf.
      destruct (parse_val 0 num typ r) as [[w r']|e]; [|fsd_eq].
      destruct (msg_dec_scalar sk (msg_field_utf8 false fd) w) as [[s|e]|]; [|fsd_eq|exact HU].
      split; [|fsd_eq]. split; [|exact U]. cbn [fst snd]. now apply fsd_store_scalar.
    - destruct (dec_bytes r) as [[payload r']|e]; [|fsd_eq].
      destruct (msg_dec_packed (x00 :: payload) sk payload []) as [vs|e] eqn:Edp; [|fsd_eq].
      split; [|fsd_eq]. split; [|exact U]. cbn [fst snd].
      apply fsd_append_field; [|exact F]. apply fsd_vals_scalars.
      eapply fsd_dec_packed_scalars; [exact Edp|constructor].
    - destruct (dec_bytes r) as [[payload r']|e]; [|fsd_eq].
      pose proof (fsd_whole ds df t payload _ _ Hd (fsd_old_sub fd _ _ F)) as HW. unfold fsd_res_rel in *.
      destruct (msg_whole ds t payload (msg_old_sub fd (fst a_s))) as [m|e],
               (msg_whole df t payload (msg_old_sub fd (fst a_f))) as [m'|e']; try contradiction; [|exact HW].
      split; [|fsd_eq]. split; [|exact U]. cbn [fst snd]. now apply fsd_store_sub.
    - destruct Hr as [[Ef Ek] _]. exfalso. exact (proj1 (md_ok _ _ Ef) t Ek).
    - destruct ds2 as [d2s|], df2 as [d2f|]; try contradiction; [|fsd_eq].
      destruct (dec_bytes r) as [[payload r']|e]; [|fsd_eq].
      assert (forall p v v', fsd_val_rel v v' ->
                fsd_res_rel fsd_val_rel (msg_entry_dm d2s (f_kind fd) p v) (msg_entry_dm d2f (f_kind fd) p v')) as HP.
      { intros p v v' V. unfold msg_entry_dm. destruct (f_kind fd) as [sk|t|t]; try fsd_eq.
        pose proof (fsd_whole d2s d2f t p _ _ Hd2 (fsd_macc_of _ _ V)) as HW. unfold fsd_res_rel in *.
        destruct (msg_whole d2s t p (msg_macc_of v)) as [m|e], (msg_whole d2f t p (msg_macc_of v')) as [m'|e'];
          try contradiction; [|exact HW]. destruct HW. now constructor. }
      pose proof (fsd_dec_entry kk kutf8 (f_kind fd) (f_utf8 fd) _ _ HP (x00 :: payload) payload (sk_zero kk) _ _
                                (fsd_entry_default (f_kind fd) vdef)) as HE.
      unfold fsd_res_rel in *.
      destruct (msg_dec_entry (x00 :: payload) kk kutf8 (f_kind fd) (f_utf8 fd) (msg_entry_dm d2s (f_kind fd)) payload
                              (sk_zero kk) (msg_entry_default (f_kind fd) vdef)) as [[key v]|e],
               (msg_dec_entry (x00 :: payload) kk kutf8 (f_kind fd) (f_utf8 fd) (msg_entry_dm d2f (f_kind fd)) payload
                              (sk_zero kk) (msg_entry_default (f_kind fd) vdef)) as [[key' v']|e'];
        try contradiction; [|exact HE].
      destruct HE as [Ek Ev]. cbn [fst snd] in Ek, Ev. subst key'. split; [|fsd_eq]. cbn [fst snd].
      split; [|exact U]. apply fsd_fset; [exact F|]. apply fsd_map_put; [now apply fsd_fget|exact Ev].
    - destruct ds2, df2; try contradiction; [exact HU|fsd_eq].
  Qed.
End StepRel.

Definition fsd_md_ok (md : mdesc) : Prop :=
  forall num fd, msg_find_field md num = Some fd ->
    (forall t, f_kind fd <> KGrp t) /\ msg_field_utf8 true fd = msg_field_utf8 false fd.
Definition fsd_schema_ok (S : schema) : Prop := forall tid md, nth_error S tid = Some md -> fsd_md_ok md.

Lemma fsd_parse_end dep num bs : parse_val dep num 4 bs = Err EndGroup.
Proof. destruct dep; reflexivity. Qed.

(* an end-group tag on the reflection path: it reaches the field step and fails there, since no
   route takes wire type 4 *)
Lemma fsd_step_endtag md ds ds2 raw num r acc :
  msg_step true md ds ds2 raw num 4 r acc = DErr DParse \/ msg_step true md ds ds2 raw num 4 r acc = DErr DDepth.
Proof.
  rewrite msg_step_route. pose proof (msg_route_field md num 4) as Hr.
  assert (msg_unknown raw num 4 r acc = DErr DParse) as HU by (unfold msg_unknown; now rewrite fsd_parse_end).
  destruct (msg_route md num 4) as [|fd sk|fd sk|fd t|fd t|fd kk kutf8 vdef|].
  - now left.
  - destruct Hr as [_ E]. destruct sk; discriminate E.
  - destruct Hr as (_ & E & _). discriminate E.
  - destruct Hr as [_ E]. discriminate E.
  - destruct Hr as [_ E]. discriminate E.
  - destruct Hr as (_ & _ & E). discriminate E.
  - destruct ds2; [now left|now right].
Qed.

Theorem fsd_decode_msg_rel S dep : fsd_schema_ok S ->
  fsd_dec_rel (msg_decode_msg true S dep) (msg_decode_msg false S dep).
Proof.
  intros HS. induction dep as [d IHn] using (well_founded_induction lt_wf).
  - destruct d as [|d]; [intros tid g bs a_s a_f Ha; fsd_eq|].
    assert (fsd_dec_rel (msg_decode_msg true S d) (msg_decode_msg false S d)) as IH by (apply IHn; lia).
    assert (match msg_sub2 true S d, msg_sub2 false S d with
            | Some a, Some b => fsd_dec_rel a b
            | None, None => True
            | _, _ => False
            end) as IH2.
    { unfold msg_sub2. destruct d as [|d1]; [exact I|]. apply IHn. lia. }
    intros tid g. destruct (nth_error S tid) as [md|] eqn:En.
    + induction g as [|x g IHg]; intros bs a_s a_f Ha.
      * cbn [msg_decode_msg]. rewrite En. fsd_eq.
      * rewrite !(msg_dm_unfold _ _ _ _ _ _ _ _ _ _ En).
        destruct bs as [|b0 bs0]; [split; [exact Ha|reflexivity]|].
        destruct (dec_tag (b0 :: bs0)) as [[[num typ] r]|e] eqn:Ed; [|fsd_eq].
        destruct (msg_max_num <? num); [fsd_eq|].
        destruct (typ =? 4) eqn:E4; cbn [negb andb].
        { (* end-group tag outside a group: both fail *)
          apply N.eqb_eq in E4. subst typ.
          pose proof (dec_tag_sound _ _ _ _ Ed) as (p & _ & (_ & _ & _ & Hlo & _)).
          replace (num =? 0) with false by lia. cbv zeta iota.
          destruct (fsd_step_endtag md (msg_decode_msg true S d) (msg_sub2 true S d)
                      (firstn (length (b0 :: bs0) - length r) (b0 :: bs0)) num r a_s) as [E|E];
            rewrite E; [left; reflexivity|right; split; reflexivity]. }
        cbv zeta iota.
        pose proof (fsd_step md (HS _ _ En) _ _ IH _ _ IH2 _ _ _ _ _ _ Ed Ha) as HSt.
        unfold fsd_res_rel in HSt |- *.
        destruct (msg_step true md (msg_decode_msg true S d) (msg_sub2 true S d)
                           (firstn (length (b0 :: bs0) - length r) (b0 :: bs0)) num typ r a_s) as [[a1 r1]|e1],
                 (msg_step false md (msg_decode_msg false S d) (msg_sub2 false S d) (enc_tag num typ) num typ r a_f) as [[a2 r2]|e2];
          try contradiction; [|exact HSt].
        destruct HSt as [Ha' Er]. cbn [fst snd] in Ha', Er. subst r2. now apply IHg.
    + intros bs a_s a_f Ha. cbn [msg_decode_msg]. rewrite En. fsd_eq.
Qed.

Lemma fsd_unk_rel_chunks u u' :
  fsd_unk_rel u u' -> exists cs, Forall fsm_chunk_ok cs /\ u = fsm_flat_raw cs /\ u' = fsm_flat_min cs.
Proof.
  induction 1 as [|u u' raw num typ val H [cs [Hc [E1 E2]]] Ht Hv].
  - exists []. repeat split. constructor.
  - exists (cs ++ [mkChunk num typ raw val]). split; [|split].
    + apply Forall_app. split; [exact Hc|]. constructor; [split; assumption|constructor].
    + unfold fsm_flat_raw in *. rewrite map_app, concat_app. cbn [map concat fc_rawtag fc_val]. now rewrite app_nil_r, E1.
    + unfold fsm_flat_min in *. rewrite map_app, concat_app. cbn [map concat fc_num fc_typ fc_val]. now rewrite app_nil_r, E2.
Qed.

Lemma fsd_unk_rel_normalize u u' : fsd_unk_rel u u' -> fsm_normalize_unknown_tags u = u'.
Proof. intros H. destruct (fsd_unk_rel_chunks _ _ H) as [cs [Hc [-> ->]]]. now apply fsm_normalize_raw_to_min. Qed.

Lemma fsd_val_rel_normalize : forall v v', fsd_val_rel v v' -> fsm_normalize v = v'.
Proof.
  induction v as [s|fs unk IH|k x IH] using msg_value_ind; intros v' H.
  - inversion H; subst. reflexivity.
  - inversion H as [| |? ? fb ub HU HF]; subst. cbn [fsm_normalize]. rewrite (fsd_unk_rel_normalize _ _ HU). f_equal.
    clear H HU. revert fb HF.
    induction fs as [|p r IHr]; intros fb HF; inversion HF as [|? q ? fb' Hpq HF']; subst; cbn [map]; [reflexivity|].
    inversion IH as [|? ? IHp IHrest]; subst. f_equal; [|now apply IHr].
    destruct Hpq as [E V]. destruct p as [n vs], q as [n' vs']. cbn [fst snd] in *. subst n'. f_equal.
    clear -IHp V. revert vs' V.
    induction vs as [|a t IHt]; intros vs' V; inversion V as [|? b ? t' Hab Vt]; subst; cbn [map]; [reflexivity|].
    inversion IHp as [|? ? Ha Ht']; subst. f_equal; [now apply Ha|now apply IHt].
  - inversion H as [|? ? y Hxy|]; subst. cbn [fsm_normalize]. f_equal. now apply IH.
Qed.

(* C08: same verdict; equal decoded messages modulo the normalisation of unknown-field tags *)
Theorem fsd_decode_equal S limit tid bs : fsd_schema_ok S ->
  fsd_res_rel (fun v_slow v_fast => fsm_normalize v_slow = v_fast)
              (msg_decode true S limit tid bs) (msg_decode false S limit tid bs).
Proof.
  intros HS. unfold msg_decode, msg_decode_into.
  pose proof (fsd_decode_msg_rel S limit HS tid (x00 :: bs) bs _ _ (fsd_macc_of _ _ fsd_val_empty)) as H.
  unfold fsd_res_rel in *.
  destruct (msg_decode_msg true S limit tid 0 (x00 :: bs) bs (msg_macc_of msg_empty)) as [[m r]|e],
           (msg_decode_msg false S limit tid 0 (x00 :: bs) bs (msg_macc_of msg_empty)) as [[m' r']|e'];
    try contradiction; [|exact H].
  destruct H as [[F U] _]. apply fsd_val_rel_normalize. now constructor.
Qed.

(* a decidable sufficient condition for [fsd_schema_ok] *)
Definition fsd_fd_okb (fd : fdesc) : bool :=
  match f_kind fd with KGrp _ => false | _ => true end &&
  Bool.eqb (msg_field_utf8 true fd) (msg_field_utf8 false fd).
Definition fsd_schema_okb (S : schema) : bool := forallb (forallb fsd_fd_okb) S.

Lemma fsd_schema_okb_ok S : fsd_schema_okb S = true -> fsd_schema_ok S.
Proof.
  unfold fsd_schema_okb. rewrite forallb_forall. intros H tid md En num fd Ef.
  apply nth_error_In in En. specialize (H _ En). rewrite forallb_forall in H.
  specialize (H _ (msg_find_field_in _ _ _ Ef)). unfold fsd_fd_okb in H. apply andb_true_iff in H. destruct H as [H1 H2].
  split; [|now apply Bool.eqb_prop].
  intros t E. rewrite E in H1. discriminate.
Qed.
