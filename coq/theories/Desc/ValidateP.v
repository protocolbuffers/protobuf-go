(* Proofs about the descriptor-validation model (C35), part 1: structure.
   What an accepted file guarantees for every message and enum of the tree. *)
From Coq Require Import List NArith ZArith Bool.
From PB Require Import Desc.ValidateModel.
Import ListNotations.
Open Scope Z_scope.

Lemma bind_ok : forall A B (r : res A) (f : A -> res B) b,
  bind r f = Ok b -> exists a, r = Ok a /\ f a = Ok b.
Proof. intros A B [a|e] f b H; cbn in H; [eauto|discriminate]. Qed.

Lemma check_ok : forall b e, check b e = Ok tt -> b = false.
Proof. intros [] e H; [discriminate|reflexivity]. Qed.

Lemma bind_check_ok : forall A b e (k : res A) a,
  bind (check b e) (fun _ => k) = Ok a -> b = false /\ k = Ok a.
Proof. intros A [] e k a H; cbn in H; [discriminate|auto]. Qed.

Lemma for_each_ok : forall A (f : A -> res unit) l,
  for_each f l = Ok tt -> forall x, In x l -> f x = Ok tt.
Proof.
  intros A f l; induction l as [|y r IH]; intros H x Hin; [destruct Hin|].
  cbn in H. apply bind_ok in H. destruct H as [[] [Hy Hr]].
  destruct Hin as [<-|Hin]; [exact Hy|apply IH; assumption].
Qed.

Lemma for_each_intro : forall A (f : A -> res unit) l,
  (forall x, In x l -> f x = Ok tt) -> for_each f l = Ok tt.
Proof.
  intros A f l; induction l as [|y r IH]; intros H; [reflexivity|].
  cbn. rewrite (H y) by (left; reflexivity). cbn. apply IH. intros x Hx; apply H; right; exact Hx.
Qed.

(* what passing the checks of one declaration means, check by check *)
Lemma msg_local_ok : forall legacy allow syntax t full m,
  msg_local legacy allow syntax t full m = Ok tt <->
  has_dup (m_resnames m) = false /\
  field_ranges_ok (m_msgset m) (m_resranges m) = true /\
  field_ranges_ok (m_msgset m) (m_extranges m) = true /\
  ranges_no_overlap (m_resranges m) (m_extranges m) = true /\
  has_dup_field_number (m_fields m) = false /\
  m_msgset m && negb legacy = false /\
  m_msgset m && (is_proto3 syntax || match m_fields m with [] => false | _ => true end
                 || match m_extranges m with [] => true | _ => false end) = false /\
  is_proto3 syntax && match m_extranges m with [] => false | _ => true end = false /\
  (forall f, In f (m_fields m) -> validate_field legacy allow syntax t m full f = Ok tt) /\
  validate_oneofs syntax (m_fields m) (length (m_oneofs m)) 0 false = Ok tt.
Proof.
  intros. unfold msg_local. split.
  - intros H.
    apply bind_check_ok in H. destruct H as [Hresnames H].
    apply bind_check_ok in H. destruct H as [Hres H].
    apply bind_check_ok in H. destruct H as [Hext H].
    apply bind_check_ok in H. destruct H as [Hoverlap H].
    apply bind_check_ok in H. destruct H as [Hdupnum H].
    apply bind_check_ok in H. destruct H as [Hmsgset H].
    apply bind_check_ok in H. destruct H as [Hbadmsgset H].
    apply bind_check_ok in H. destruct H as [Hp3ext H].
    apply bind_ok in H. destruct H as [[] [Hfields Honeofs]].
    apply negb_false_iff in Hres, Hext, Hoverlap.
    exact (conj Hresnames (conj Hres (conj Hext (conj Hoverlap (conj Hdupnum (conj Hmsgset (conj Hbadmsgset
             (conj Hp3ext (conj (for_each_ok _ _ _ Hfields) Honeofs))))))))).
  - intros (H1 & H2 & H3 & H4 & H5 & H6 & H7 & H8 & Hfields & Honeofs).
    rewrite H1, H2, H3, H4, H5, H6, H7, H8, (for_each_intro _ _ _ Hfields). exact Honeofs.
Qed.

Lemma validate_enum_ok : forall syntax e,
  validate_enum syntax e = Ok tt <->
  has_dup (en_resnames e) = false /\
  enum_ranges_ok (en_resranges e) = true /\
  match en_values e with [] => true | _ => false end = false /\
  has_alias (en_values e) && negb (en_alias e) = false /\
  en_alias e && negb (has_alias (en_values e)) = false /\
  (enum_is_closed syntax = false ->
   match en_values e with v :: _ => negb (ev_number v =? 0) | [] => false end = false /\
   name_conflict_aux (enum_prefix (en_name e)) [] (en_values e) = false) /\
  (forall v, In v (en_values e) ->
   match ev_num v with None => true | Some _ => false end = false /\
   str_mem (ev_name v) (en_resnames e) = false /\
   enum_ranges_has (en_resranges e) (ev_number v) = false).
Proof.
  intros. unfold validate_enum. split.
  - intros H.
    apply bind_check_ok in H. destruct H as [Hresnames H].
    apply bind_check_ok in H. destruct H as [Hranges H].
    apply bind_check_ok in H. destruct H as [Hempty H].
    apply bind_check_ok in H. destruct H as [Hdupnum H].
    apply bind_check_ok in H. destruct H as [Hnoalias H].
    apply bind_ok in H. destruct H as [[] [Hopen Hvalues]].
    apply negb_false_iff in Hranges.
    refine (conj Hresnames (conj Hranges (conj Hempty (conj Hdupnum (conj Hnoalias (conj _ _)))))).
    + intros Hc. rewrite Hc in Hopen. apply bind_check_ok in Hopen. destruct Hopen as [Hfirst Hconflict].
      exact (conj Hfirst (check_ok _ _ Hconflict)).
    + intros v Hv. pose proof (for_each_ok _ _ _ Hvalues v Hv) as Hc. cbn beta in Hc.
      apply bind_check_ok in Hc. destruct Hc as [Hnonum Hc].
      apply bind_check_ok in Hc. destruct Hc as [Hresname Hc].
      exact (conj Hnonum (conj Hresname (check_ok _ _ Hc))).
  - intros (H1 & H2 & H3 & H4 & H5 & H6 & H7).
    rewrite H1, H2, H3, H4, H5. cbn [negb check bind].
    replace (if enum_is_closed syntax then Ok tt else _) with (@Ok unit tt).
    + apply for_each_intro. intros v Hv. destruct (H7 v Hv) as (Ha & Hb & Hc). rewrite Ha, Hb, Hc. reflexivity.
    + destruct (enum_is_closed syntax); [reflexivity|]. destruct (H6 eq_refl) as [Ha Hb]. rewrite Ha, Hb. reflexivity.
Qed.

(* the field checks that the declarative error classes speak of *)
Lemma validate_field_facts : forall legacy allow syntax t m full f,
  validate_field legacy allow syntax t m full f = Ok tt ->
  str_mem (f_name f) (m_resnames m) = false /\ num_valid (f_num f) = true /\ card_valid (f_label f) = true
  /\ field_ranges_has (m_resranges m) (f_num f) = false /\ field_ranges_has (m_extranges m) (f_num f) = false
  /\ f_extendee f = None
  /\ (f_p3opt f = true -> is_proto3 syntax = true /\ f_label f = 1)
  /\ (is_proto3 syntax = true -> f_label f <> 2).
Proof.
  intros legacy allow syntax t m full f H. unfold validate_field in H. cbv zeta in H.
  apply bind_check_ok in H. destruct H as [Hresname H].
  apply bind_check_ok in H. destruct H as [Hnum H].
  apply bind_check_ok in H. destruct H as [Hcard H].
  apply bind_check_ok in H. destruct H as [Hresnum H].
  apply bind_check_ok in H. destruct H as [Hinext H].
  apply bind_check_ok in H. destruct H as [Hextendee H].
  apply bind_ok in H. destruct H as [[] [Hp3o H]].
  (* packed, group and map checks: not needed *)
  apply bind_check_ok in H. destruct H as [_ H].
  apply bind_check_ok in H. destruct H as [_ H].
  apply bind_check_ok in H. destruct H as [_ H].
  apply bind_ok in H. destruct H as [[] [Hp3 _]].
  apply negb_false_iff in Hnum, Hcard.
  refine (conj Hresname (conj Hnum (conj Hcard (conj Hresnum (conj Hinext (conj _ (conj _ _))))))).
  - destruct (f_extendee f); [discriminate|reflexivity].
  - intros Hopt. rewrite Hopt in Hp3o.
    apply bind_check_ok in Hp3o. destruct Hp3o as [Hsyn Hp3o].
    apply bind_check_ok in Hp3o. destruct Hp3o as [Hlab _].
    apply negb_false_iff in Hsyn, Hlab. apply Z.eqb_eq in Hlab. exact (conj Hsyn Hlab).
  - intros Hsyn Hl. rewrite Hsyn in Hp3. apply bind_check_ok in Hp3. destruct Hp3 as [Hreq _].
    rewrite Hl in Hreq. discriminate.
Qed.

(* induction over the message tree *)
Section MsgInd.
  Variable P : msg -> Prop.
  Hypothesis HP : forall name fields oneofs enums nested exts xr rr rn me ms,
    Forall P nested -> P (Msg name fields oneofs enums nested exts xr rr rn me ms).
  Fixpoint msg_ind' (m : msg) : P m :=
    match m with
    | Msg name fields oneofs enums nested exts xr rr rn me ms =>
      HP name fields oneofs enums nested exts xr rr rn me ms
         ((fix go (l : list msg) : Forall P l :=
             match l with [] => Forall_nil P | x :: r => Forall_cons x (msg_ind' x) (go r) end) nested)
    end.
End MsgInd.

(* every message of the tree *)
Fixpoint msgs_of (m : msg) : list msg :=
  m :: (fix go (l : list msg) : list msg := match l with [] => [] | x :: r => msgs_of x ++ go r end) (m_nested m).
Definition file_msgs (f : file) : list msg := flat_map msgs_of (fl_msgs f).
Definition file_enums (f : file) : list enum := fl_enums f ++ flat_map m_enums (file_msgs f).

Lemma msgs_of_unfold : forall m, msgs_of m = m :: flat_map msgs_of (m_nested m).
Proof.
  intros [name fields oneofs enums nested exts xr rr rn me ms]. reflexivity.
Qed.

(* the nested-list loop of validate_msg is for_each *)
Lemma validate_nested_loop : forall legacy allow syntax t full nested,
  (fix go (l : list msg) : res unit :=
     match l with [] => Ok tt | x :: r => bind (validate_msg legacy allow syntax t full x) (fun _ => go r) end) nested
  = for_each (validate_msg legacy allow syntax t full) nested.
Proof. intros; induction nested as [|x r IH]; [reflexivity|]. cbn [for_each]. rewrite <- IH. reflexivity. Qed.

Lemma validate_msg_unfold : forall legacy allow syntax t scope m,
  validate_msg legacy allow syntax t scope m =
  let full := join scope (m_name m) in
  bind (msg_local legacy allow syntax t full m) (fun _ =>
  bind (for_each (validate_enum syntax) (m_enums m)) (fun _ =>
  bind (for_each (validate_msg legacy allow syntax t full) (m_nested m)) (fun _ =>
  for_each (validate_ext legacy allow syntax t full) (m_exts m)))).
Proof.
  intros legacy allow syntax t scope [name fields oneofs enums nested exts xr rr rn me ms].
  cbn [validate_msg m_name m_enums m_nested m_exts]. rewrite validate_nested_loop. reflexivity.
Qed.

Lemma validate_msgs_for_each : forall legacy allow syntax t scope ms,
  validate_msgs legacy allow syntax t scope ms = for_each (validate_msg legacy allow syntax t scope) ms.
Proof. intros; induction ms as [|m r IH]; [reflexivity|]. cbn. rewrite IH. reflexivity. Qed.

(* what acceptance gives for every message below m *)
Definition msg_ok (legacy allow : bool) (syntax : N) (t : table) (m : msg) : Prop :=
  (exists full, msg_local legacy allow syntax t full m = Ok tt) /\
  (forall e, In e (m_enums m) -> validate_enum syntax e = Ok tt).

Lemma validate_msg_all : forall legacy allow syntax t m scope,
  validate_msg legacy allow syntax t scope m = Ok tt ->
  forall m', In m' (msgs_of m) -> msg_ok legacy allow syntax t m'.
Proof.
  intros legacy allow syntax t m. induction m using msg_ind'.
  intros scope Hv m' Hin.
  rewrite validate_msg_unfold in Hv. cbv zeta in Hv.
  apply bind_ok in Hv. destruct Hv as [[] [Hloc Hv]].
  apply bind_ok in Hv. destruct Hv as [[] [Hen Hv]].
  apply bind_ok in Hv. destruct Hv as [[] [Hnest _]].
  rewrite msgs_of_unfold in Hin. destruct Hin as [<-|Hin].
  - split; [eexists; exact Hloc|]. intros e He. exact (for_each_ok _ _ _ Hen e He).
  - cbn [m_nested] in *. apply in_flat_map in Hin. destruct Hin as [x [Hx Hm']].
    rewrite Forall_forall in H. eapply (H x Hx); [|exact Hm'].
    exact (for_each_ok _ _ _ Hnest x Hx).
Qed.

Definition file_table (f : file) : table := match init_file f with Ok t => t | Err _ => [] end.

Theorem accept_structure : forall legacy allow f,
  validate legacy allow f = Accept ->
  (forall m, In m (file_msgs f) -> msg_ok legacy allow (fl_syntax f) (file_table f) m) /\
  (forall e, In e (file_enums f) -> validate_enum (fl_syntax f) e = Ok tt).
Proof.
  intros legacy allow f H. unfold validate in H.
  destruct (new_file legacy allow f) as [[]|e] eqn:Hn; [|discriminate]. clear H.
  unfold new_file in Hn.
  apply bind_check_ok in Hn. destruct Hn as [_ Hn].
  apply bind_ok in Hn. destruct Hn as [t [Ht Hn]].
  apply bind_ok in Hn. destruct Hn as [[] [_ Hn]].
  apply bind_ok in Hn. destruct Hn as [[] [_ Hn]].
  apply bind_ok in Hn. destruct Hn as [[] [Hen Hn]].
  apply bind_ok in Hn. destruct Hn as [[] [Hms _]].
  unfold file_table. rewrite Ht.
  rewrite validate_msgs_for_each in Hms.
  assert (Hall : forall m, In m (file_msgs f) -> msg_ok legacy allow (fl_syntax f) t m).
  { intros m Hm. unfold file_msgs in Hm. apply in_flat_map in Hm. destruct Hm as [x [Hx Hm]].
    eapply validate_msg_all; [|exact Hm]. exact (for_each_ok _ _ _ Hms x Hx). }
  split; [exact Hall|].
  intros e He. unfold file_enums in He. apply in_app_or in He. destruct He as [He|He].
  - exact (for_each_ok _ _ _ Hen e He).
  - apply in_flat_map in He. destruct He as [m [Hm He]]. exact (proj2 (Hall m Hm) e He).
Qed.
