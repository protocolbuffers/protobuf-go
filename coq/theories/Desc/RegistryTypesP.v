(* RegistryTypesP — protoregistry.Types: the concrete tables are exactly the list of
   successfully registered types; registration succeeds iff there is no extension-number
   and no name conflict (checked in that order); failed registrations are no-ops; lookups
   (incl. the wrong-type error), counters and ranges are exact.  No hypotheses on the
   histories. *)
From Coq Require Import List Arith NArith Bool Lia Permutation.
From PB Require Import Base.ListP Desc.RegistryModel Desc.SplitLastP Desc.RegistryBaseP Desc.RegistryTopP.
Import ListNotations.

Section AMap.
  Context {A K V : Type} (eqb : K -> K -> bool).
  Hypothesis eqb_eq : forall a b, eqb a b = true <-> a = b.
  Variables (kf : A -> K) (vf : A -> V).

  Lemma aget_map_some l k v :
    aget eqb (map (fun e => (kf e, vf e)) l) k = Some v -> exists e, In e l /\ kf e = k /\ vf e = v.
  Proof.
    induction l as [|a l IH]; cbn [map aget]; [discriminate|].
    destruct (eqb (kf a) k) eqn:E.
    - intros H. inversion H; subst. apply eqb_eq in E. exists a. repeat split; [now left | assumption].
    - intros H. destruct (IH H) as (e & Hi & H1 & H2). exists e. repeat split; [now right | assumption | assumption].
  Qed.

  Lemma aget_map_none l k :
    aget eqb (map (fun e => (kf e, vf e)) l) k = None -> forall e, In e l -> kf e <> k.
  Proof.
    induction l as [|a l IH]; cbn [map aget]; [intros _ e []|].
    destruct (eqb (kf a) k) eqn:E; [discriminate|].
    intros H e [->|Hi]; [|now apply IH].
    intros E'. apply eqb_eq in E'. congruence.
  Qed.

  Lemma aget_map_nodup l e :
    NoDup (map kf l) -> In e l -> aget eqb (map (fun e => (kf e, vf e)) l) (kf e) = Some (vf e).
  Proof.
    intros Hn Hi. apply (in_nodup_aget eqb eqb_eq).
    - now rewrite map_map.
    - apply in_map_iff. now exists e.
  Qed.

  Lemma aput_absent (m : list (K * V)) k v : aget eqb m k = None -> aput eqb m k v = m ++ [(k, v)].
  Proof.
    induction m as [|[k0 v0] m IH]; cbn [aget aput app]; [reflexivity|].
    destruct (eqb k0 k); [discriminate|]. intros H. now rewrite IH.
  Qed.
End AMap.

Lemma tkind_eqb_eq a b : tkind_eqb a b = true <-> a = b.
Proof. destruct a, b; cbn; split; congruence. Qed.

Lemma NoDup_snoc {A} (l : list A) x : NoDup l -> ~ In x l -> NoDup (l ++ [x]).
Proof.
  intros H Hn. apply (Permutation_NoDup (Permutation_cons_append l x)). now constructor.
Qed.

Definition tentry (e : tent) : name * (tkind * nat) := (te_name e, (te_kind e, te_id e)).

Record tinv (s : tstate) (rs : list tent) : Prop := {
  ti_types : ts_types s = map tentry rs;
  ti_names : NoDup (map te_name rs);
  ti_exts : forall m, ext_map s m = map (fun e => (te_num e, te_id e)) (ext_filter rs m);
  ti_nums : forall m, NoDup (map te_num (ext_filter rs m));
  ti_nenum : ts_nenum s = length (kind_filter rs TEnum);
  ti_nmsg : ts_nmsg s = length (kind_filter rs TMsg);
  ti_next : ts_next s = length (kind_filter rs TExt)
}.

Lemma tinv_init : tinv ts_init [].
Proof. constructor; cbn; try reflexivity; try constructor. Qed.

Lemma ext_filter_in rs m e :
  In e (ext_filter rs m) <-> In e rs /\ te_kind e = TExt /\ te_ext e = m.
Proof.
  unfold ext_filter, is_ext_of. rewrite filter_In, andb_true_iff, tkind_eqb_eq, name_eqb_eq. tauto.
Qed.

Lemma name_taken_iff s rs n : tinv s rs -> (tget s n <> None <-> name_taken rs n).
Proof.
  intros I. unfold tget. rewrite (ti_types _ _ I). unfold tentry. split.
  - intros H. destruct (aget name_eqb _ n) as [v|] eqn:E; [|contradiction].
    destruct (aget_map_some name_eqb name_eqb_eq te_name _ rs n v E) as (e & Hi & Hn & _). now exists e.
  - intros (e & Hi & Hn) E.
    exact (aget_map_none name_eqb name_eqb_eq te_name _ rs n E e Hi Hn).
Qed.

Lemma extnum_taken_iff s rs m num :
  tinv s rs -> (aget N.eqb (ext_map s m) num <> None <-> extnum_taken rs m num).
Proof.
  intros I. rewrite (ti_exts _ _ I). split.
  - intros H. destruct (aget N.eqb _ num) as [v|] eqn:E; [|contradiction].
    destruct (aget_map_some N.eqb N.eqb_eq te_num _ _ num v E) as (e & Hi & Hn & _).
    apply ext_filter_in in Hi. destruct Hi as (Hi & Hk & He). exists e. auto.
  - intros (e & Hi & Hk & He & Hn) E.
    assert (Hf : In e (ext_filter rs m)) by (apply ext_filter_in; now repeat split).
    exact (aget_map_none N.eqb N.eqb_eq te_num _ _ num E e Hf Hn).
Qed.

Lemma ext_map_put s exts' m l m' :
  ts_exts s = exts' -> True ->
  (match aget name_eqb (aput name_eqb exts' m l) m' with Some x => x | None => [] end) =
  if name_eqb m m' then l else ext_map s m'.
Proof.
  intros <- _. unfold ext_map. rewrite (aget_aput name_eqb name_eqb_eq). destruct (name_eqb m m'); reflexivity.
Qed.

Lemma kind_filter_snoc rs e c :
  length (kind_filter (rs ++ [e]) c) =
  if tkind_eqb (te_kind e) c then S (length (kind_filter rs c)) else length (kind_filter rs c).
Proof.
  unfold kind_filter. rewrite filter_snoc, app_length.
  destruct (tkind_eqb (te_kind e) c); cbn [length]; lia.
Qed.

Lemma tregister_none s rs k id n : tinv s rs -> (tregister s k id n = None <-> name_taken rs n).
Proof.
  intros I. rewrite <- (name_taken_iff s rs n I). unfold tregister.
  destruct (tget s n); split; congruence.
Qed.

Lemma tregister_some s rs k id n t e :
  tinv s rs -> tregister s k id n = Some t -> te_name e = n -> te_kind e = k -> te_id e = id ->
  t = map tentry (rs ++ [e]) /\ NoDup (map te_name (rs ++ [e])).
Proof.
  intros I Ht <- <- <-. assert (Hn : ~ name_taken rs (te_name e)).
  { intros H. apply (tregister_none s rs (te_kind e) (te_id e) _ I) in H. congruence. }
  unfold tregister in Ht. destruct (tget s (te_name e)) eqn:Eg; [discriminate|]. inversion Ht; subst t. split.
  - rewrite (aput_absent name_eqb) by exact Eg. rewrite (ti_types _ _ I), map_app. reflexivity.
  - rewrite map_app. apply NoDup_snoc; [exact (ti_names _ _ I)|].
    intros Hi. apply Hn. apply in_map_iff in Hi. destruct Hi as (e' & E & Hi). now exists e'.
Qed.

(* RegisterMessage and RegisterEnum are one function of the kind *)
Definition register_plain (k : tkind) (s : tstate) (id : nat) (n : name) : tstate * tres :=
  match tregister s k id n with
  | None => (s, TErrName)
  | Some t => (TState t (ts_exts s) (if tkind_eqb k TEnum then S (ts_nenum s) else ts_nenum s)
                      (if tkind_eqb k TMsg then S (ts_nmsg s) else ts_nmsg s) (ts_next s), TOk)
  end.

Lemma register_plain_cases k s rs id n :
  tinv s rs -> k <> TExt ->
  (name_taken rs n /\ register_plain k s id n = (s, TErrName)) \/
  (~ name_taken rs n /\ snd (register_plain k s id n) = TOk /\
   tinv (fst (register_plain k s id n)) (rs ++ [TEnt k id n [] 0%N])).
Proof.
  intros I Hk. unfold register_plain. destruct (tregister s k id n) as [t|] eqn:Et.
  - right. split; [rewrite <- (tregister_none s rs k id n I); congruence|]. split; [reflexivity|]. cbn [fst].
    destruct (tregister_some s rs k id n t (TEnt k id n [] 0%N) I Et) as [Ety Enm]; try reflexivity.
    assert (Hx : forall m, ext_filter (rs ++ [TEnt k id n [] 0%N]) m = ext_filter rs m).
    { intros m. unfold ext_filter. rewrite filter_snoc. unfold is_ext_of at 2. cbn [te_kind].
      destruct k; try contradiction; cbn [tkind_eqb andb]; now rewrite app_nil_r. }
    constructor; cbn [ts_types ts_exts ts_nenum ts_nmsg ts_next]; try assumption.
    + intros m. rewrite Hx. exact (ti_exts _ _ I m).
    + intros m. rewrite Hx. exact (ti_nums _ _ I m).
    + rewrite kind_filter_snoc, (ti_nenum _ _ I). reflexivity.
    + rewrite kind_filter_snoc, (ti_nmsg _ _ I). reflexivity.
    + rewrite kind_filter_snoc, (ti_next _ _ I). cbn [te_kind]. destruct k; try contradiction; reflexivity.
  - left. split; [now apply (tregister_none s rs k id n I) | reflexivity].
Qed.

Lemma register_message_cases s rs id n :
  tinv s rs ->
  (name_taken rs n /\ register_message s id n = (s, TErrName)) \/
  (~ name_taken rs n /\ snd (register_message s id n) = TOk /\
   tinv (fst (register_message s id n)) (rs ++ [TEnt TMsg id n [] 0%N])).
Proof. intros I. apply (register_plain_cases TMsg s rs id n I). discriminate. Qed.

Lemma register_enum_cases s rs id n :
  tinv s rs ->
  (name_taken rs n /\ register_enum s id n = (s, TErrName)) \/
  (~ name_taken rs n /\ snd (register_enum s id n) = TOk /\
   tinv (fst (register_enum s id n)) (rs ++ [TEnt TEnum id n [] 0%N])).
Proof. intros I. apply (register_plain_cases TEnum s rs id n I). discriminate. Qed.

Lemma register_extension_cases s rs id n m num :
  tinv s rs ->
  (extnum_taken rs m num /\ register_extension s id n m num = (s, TErrExtNum)) \/
  (~ extnum_taken rs m num /\ name_taken rs n /\ register_extension s id n m num = (s, TErrName)) \/
  (~ extnum_taken rs m num /\ ~ name_taken rs n /\ snd (register_extension s id n m num) = TOk /\
   tinv (fst (register_extension s id n m num)) (rs ++ [TEnt TExt id n m num])).
Proof.
  intros I. unfold register_extension.
  destruct (aget N.eqb (ext_map s m) num) as [x|] eqn:Ex.
  { left. split; [|reflexivity]. apply (extnum_taken_iff s rs m num I). congruence. }
  right. assert (Hx : ~ extnum_taken rs m num).
  { intros H. apply (extnum_taken_iff s rs m num I) in H. contradiction. }
  destruct (tregister s TExt id n) as [t|] eqn:Et.
  2:{ left. split; [assumption|]. split; [now apply (tregister_none s rs TExt id n I) | reflexivity]. }
  right. split; [assumption|]. split; [rewrite <- (tregister_none s rs TExt id n I); congruence|].
  split; [reflexivity|]. cbn [fst].
  destruct (tregister_some s rs TExt id n t (TEnt TExt id n m num) I Et) as [Ety Enm]; try reflexivity.
  assert (Hf : forall m', ext_filter (rs ++ [TEnt TExt id n m num]) m' =
                          ext_filter rs m' ++ (if name_eqb m m' then [TEnt TExt id n m num] else [])).
  { intros m'. unfold ext_filter. rewrite filter_snoc. unfold is_ext_of at 2. cbn [te_kind te_ext tkind_eqb andb]. reflexivity. }
  constructor; cbn [ts_types ts_exts ts_nenum ts_nmsg ts_next]; try assumption.
  - intros m'. unfold ext_map at 1. cbn [ts_exts]. rewrite (ext_map_put s _ m _ m' eq_refl Logic.I), Hf.
    destruct (name_eqb m m') eqn:Em.
    + apply name_eqb_eq in Em. subst m'. rewrite (aput_absent N.eqb) by exact Ex.
      rewrite (ti_exts _ _ I m), map_app. reflexivity.
    + rewrite app_nil_r. exact (ti_exts _ _ I m').
  - intros m'. rewrite Hf. destruct (name_eqb m m') eqn:Em.
    + apply name_eqb_eq in Em. subst m'. rewrite map_app. cbn [map te_num].
      apply NoDup_snoc; [exact (ti_nums _ _ I m)|].
      apply (aget_none_notin N.eqb N.eqb_eq) in Ex. rewrite (ti_exts _ _ I m), map_map in Ex. exact Ex.
    + rewrite app_nil_r. exact (ti_nums _ _ I m').
  - rewrite kind_filter_snoc. exact (ti_nenum _ _ I).
  - rewrite kind_filter_snoc. exact (ti_nmsg _ _ I).
  - rewrite kind_filter_snoc, (ti_next _ _ I). reflexivity.
Qed.

Lemma tregs_run_state ops : fst (tregs_run ops) = tstate_after ops.
Proof. exact (fold_left_fst (fun s op => fst (tstep s op)) _ ops (ts_init, [])). Qed.

Lemma trun_state ops : fst (trun ops) = tstate_after ops.
Proof. exact (fold_left_fst_let tstep (fun l o => l ++ [o]) ops (ts_init, [])). Qed.

Lemma tinv_step s rs op :
  tinv s rs -> tinv (fst (tregs_step (s, rs) op)) (snd (tregs_step (s, rs) op)).
Proof.
  intros I. unfold tregs_step. cbn [fst snd].
  destruct op; cbn [tstep tent_of fst snd]; try exact I.
  - destruct (register_message_cases s rs id n I) as [(_ & E)|(_ & E & If)].
    + rewrite E. cbn [fst snd]. exact I.
    + destruct (register_message s id n) as [s' r]. cbn [fst snd] in *. subst r. exact If.
  - destruct (register_enum_cases s rs id n I) as [(_ & E)|(_ & E & If)].
    + rewrite E. cbn [fst snd]. exact I.
    + destruct (register_enum s id n) as [s' r]. cbn [fst snd] in *. subst r. exact If.
  - destruct (register_extension_cases s rs id n extendee num I) as [(_ & E)|[(_ & _ & E)|(_ & _ & E & If)]].
    + rewrite E. cbn [fst snd]. exact I.
    + rewrite E. cbn [fst snd]. exact I.
    + destruct (register_extension s id n extendee num) as [s' r]. cbn [fst snd] in *. subst r. exact If.
Qed.

Lemma tinv_fold ops : forall st,
  tinv (fst st) (snd st) -> tinv (fst (fold_left tregs_step ops st)) (snd (fold_left tregs_step ops st)).
Proof.
  induction ops as [|op ops IH]; intros [s rs] I; cbn [fold_left]; [exact I|].
  apply IH. now apply tinv_step.
Qed.

Theorem tinv_run ops : tinv (tstate_after ops) (tregistered ops).
Proof.
  rewrite <- tregs_run_state. unfold tregistered, tregs_run. apply tinv_fold. exact tinv_init.
Qed.

Theorem types_register_ok_iff_no_conflict ops :
  let s := tstate_after ops in
  let rs := tregistered ops in
  (forall id n, (snd (register_message s id n) = TOk <-> ~ name_taken rs n) /\
                (snd (register_message s id n) = TErrName <-> name_taken rs n)) /\
  (forall id n, (snd (register_enum s id n) = TOk <-> ~ name_taken rs n) /\
                (snd (register_enum s id n) = TErrName <-> name_taken rs n)) /\
  (forall id n m num,
      let r := snd (register_extension s id n m num) in
      (r = TOk <-> ~ extnum_taken rs m num /\ ~ name_taken rs n) /\
      (r = TErrExtNum <-> extnum_taken rs m num) /\
      (r = TErrName <-> ~ extnum_taken rs m num /\ name_taken rs n)).
Proof.
  cbv zeta. pose proof (tinv_run ops) as I. split; [|split].
  (* in each case the outcome is known; every implication then holds because two different
     outcomes are equated (congruence) or from the case's conflict facts (tauto) *)
  - intros id n. destruct (register_message_cases _ _ id n I) as [(C & E)|(C & E & _)];
      rewrite E; cbn [snd]; repeat split; intros; first [congruence | tauto].
  - intros id n. destruct (register_enum_cases _ _ id n I) as [(C & E)|(C & E & _)];
      rewrite E; cbn [snd]; repeat split; intros; first [congruence | tauto].
  - intros id n m num.
    destruct (register_extension_cases _ _ id n m num I) as [(C & E)|[(C1 & C2 & E)|(C1 & C2 & E & _)]];
      rewrite E; cbn [snd]; repeat split; intros; first [congruence | tauto].
Qed.

Theorem types_failed_register_noop ops op :
  let s := tstate_after ops in
  (exists r, snd (tstep s op) = TORes r /\ r <> TOk) -> fst (tstep s op) = s.
Proof.
  cbv zeta. pose proof (tinv_run ops) as I. intros (r & Hr & Hne).
  destruct op; cbn [tstep fst snd] in *; try reflexivity.
  - destruct (register_message_cases _ _ id n I) as [(_ & E)|(_ & E & _)].
    + now rewrite E.
    + destruct (register_message _ id n) as [s' r']. cbn [fst snd] in *. inversion Hr; subst. contradiction.
  - destruct (register_enum_cases _ _ id n I) as [(_ & E)|(_ & E & _)].
    + now rewrite E.
    + destruct (register_enum _ id n) as [s' r']. cbn [fst snd] in *. inversion Hr; subst. contradiction.
  - destruct (register_extension_cases _ _ id n extendee num I) as [(_ & E)|[(_ & _ & E)|(_ & _ & E & _)]].
    + now rewrite E.
    + now rewrite E.
    + destruct (register_extension _ id n extendee num) as [s' r']. cbn [fst snd] in *. inversion Hr; subst. contradiction.
Qed.

Lemma tget_some_iff s rs n k id :
  tinv s rs ->
  (tget s n = Some (k, id) <-> exists e, In e rs /\ te_name e = n /\ te_kind e = k /\ te_id e = id).
Proof.
  intros I. unfold tget. rewrite (ti_types _ _ I). unfold tentry. split.
  - intros E. destruct (aget_map_some name_eqb name_eqb_eq te_name _ rs n _ E) as (e & Hi & Hn & Hv).
    inversion Hv. now exists e.
  - intros (e & Hi & <- & <- & <-).
    exact (aget_map_nodup name_eqb name_eqb_eq te_name (fun e => (te_kind e, te_id e)) rs e (ti_names _ _ I) Hi).
Qed.

Lemma extnum_some_iff s rs m num id :
  tinv s rs ->
  (aget N.eqb (ext_map s m) num = Some id <->
   exists e, In e rs /\ te_kind e = TExt /\ te_ext e = m /\ te_num e = num /\ te_id e = id).
Proof.
  intros I. rewrite (ti_exts _ _ I). split.
  - intros E. destruct (aget_map_some N.eqb N.eqb_eq te_num _ _ num id E) as (e & Hi & Hn & Hv).
    apply ext_filter_in in Hi. destruct Hi as (Hi & Hk & He). exists e. auto.
  - intros (e & Hi & Hk & He & <- & <-).
    assert (Hf : In e (ext_filter rs m)) by (apply ext_filter_in; now repeat split).
    exact (aget_map_nodup N.eqb N.eqb_eq te_num te_id _ e (ti_nums _ _ I m) Hf).
Qed.

Theorem types_find_sound_complete ops :
  let s := tstate_after ops in
  let rs := tregistered ops in
  (forall want n id, find_type s want n = TFound id <->
                     exists e, In e rs /\ te_name e = n /\ te_kind e = want /\ te_id e = id) /\
  (forall want n, find_type s want n = TWrongType <->
                  exists e, In e rs /\ te_name e = n /\ te_kind e <> want) /\
  (forall want n, find_type s want n = TNotFound <-> ~ name_taken rs n) /\
  (forall m num id, find_extension_by_number s m num = TFound id <->
                    exists e, In e rs /\ te_kind e = TExt /\ te_ext e = m /\ te_num e = num /\ te_id e = id) /\
  (forall m num, find_extension_by_number s m num = TNotFound <-> ~ extnum_taken rs m num) /\
  (forall m num, find_extension_by_number s m num <> TWrongType).
Proof.
  cbv zeta. pose proof (tinv_run ops) as I.
  set (s := tstate_after ops) in *. set (rs := tregistered ops) in *.
  split; [|split; [|split; [|split; [|split]]]].
  - intros want n id. rewrite <- (tget_some_iff s rs n want id I). unfold find_type.
    destruct (tget s n) as [[k id']|]; [|split; discriminate].
    destruct (tkind_eqb k want) eqn:Ek.
    + apply tkind_eqb_eq in Ek. subst k. split; intros H; inversion H; reflexivity.
    + split; [discriminate|]. intros H; inversion H; subst k.
      rewrite (proj2 (tkind_eqb_eq want want) eq_refl) in Ek. discriminate.
  - intros want n. unfold find_type. destruct (tget s n) as [[k id']|] eqn:E.
    + apply (tget_some_iff s rs n k id' I) in E. destruct E as (e & Hi & Hn & Hk & Hid).
      destruct (tkind_eqb k want) eqn:Ek.
      * apply tkind_eqb_eq in Ek. split; [discriminate|]. intros (e' & Hi' & Hn' & Hk').
        rewrite (list_nodup_map_inj te_name rs e' e (ti_names _ _ I) Hi' Hi) in Hk' by congruence. congruence.
      * split; [|reflexivity]. intros _. exists e. repeat split; try assumption.
        intros Hw. rewrite Hk in Hw. apply tkind_eqb_eq in Hw. congruence.
    + split; [discriminate|]. intros (e & Hi & Hn & _). exfalso.
      apply (name_taken_iff s rs n I); [now exists e | exact E].
  - intros want n. rewrite <- (name_taken_iff s rs n I). unfold find_type.
    destruct (tget s n) as [[k id']|].
    + split; [destruct (tkind_eqb k want); discriminate | intros H; exfalso; apply H; discriminate].
    + split; [intros _ H; now apply H | reflexivity].
  - intros m num id. rewrite <- (extnum_some_iff s rs m num id I). unfold find_extension_by_number.
    destruct (aget N.eqb (ext_map s m) num); split; congruence.
  - intros m num. rewrite <- (extnum_taken_iff s rs m num I). unfold find_extension_by_number.
    destruct (aget N.eqb (ext_map s m) num).
    + split; [discriminate | intros H; exfalso; apply H; discriminate].
    + split; [intros _ H; now apply H | reflexivity].
  - intros m num. unfold find_extension_by_number. destruct (aget N.eqb (ext_map s m) num); discriminate.
Qed.

Lemma filter_map_swap {A B} (g : A -> B) (p : B -> bool) (l : list A) :
  filter p (map g l) = map g (filter (fun x => p (g x)) l).
Proof. induction l as [|a l IH]; cbn; [reflexivity|]. destruct (p (g a)); cbn; now rewrite IH. Qed.

Theorem types_counts_exact ops :
  let s := tstate_after ops in
  let rs := tregistered ops in
  ts_nenum s = length (kind_filter rs TEnum) /\
  ts_nmsg s = length (kind_filter rs TMsg) /\
  ts_next s = length (kind_filter rs TExt) /\
  (forall k, range_types s k = map te_id (kind_filter rs k)) /\
  (forall m, length (ext_map s m) = length (ext_filter rs m)) /\
  (forall m, map snd (ext_map s m) = map te_id (ext_filter rs m)) /\
  abs_types s = map (fun e => (te_kind e, te_id e, te_name e)) rs.
Proof.
  cbv zeta. pose proof (tinv_run ops) as I. repeat split.
  - exact (ti_nenum _ _ I).
  - exact (ti_nmsg _ _ I).
  - exact (ti_next _ _ I).
  - intros k. unfold range_types, kind_filter. rewrite (ti_types _ _ I).
    rewrite (filter_map_swap tentry). rewrite map_map. reflexivity.
  - intros m. rewrite (ti_exts _ _ I). now rewrite map_length.
  - intros m. rewrite (ti_exts _ _ I). now rewrite map_map.
  - unfold abs_types. rewrite (ti_types _ _ I). now rewrite map_map.
Qed.

(* FindMessageByURL strips everything up to and including the last '/' *)
Lemma after_last_slash_eq s : after_last_slash s = option_map snd (split_last_at slashb s).
Proof.
  induction s as [|c t IH]; cbn [after_last_slash split_last_at]; [reflexivity|].
  rewrite IH. destruct (split_last_at slashb t) as [[a b]|]; [reflexivity|].
  unfold is_slash. now destruct (Byte.eqb c slashb).
Qed.

Lemma url_name_eq s : url_name s = after_last slashb s.
Proof.
  unfold url_name, after_last. rewrite after_last_slash_eq. now destruct (split_last_at slashb s) as [[a b]|].
Qed.

Theorem url_name_spec :
  (forall s, ~ In slashb s -> url_name s = s) /\
  (forall a b, ~ In slashb b -> url_name (a ++ slashb :: b) = b).
Proof.
  split.
  - intros s H. rewrite url_name_eq. exact (after_last_join slashb [] s H).
  - intros a b H. rewrite url_name_eq. unfold after_last. now rewrite split_last_at_app.
Qed.
