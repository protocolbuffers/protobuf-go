(* Proofs about the descriptor-validation model (C35), part 3: totality.
   One loop of the model reports running out of fuel as an outcome of its own (the scope walk of
   findDescriptor); that outcome is unreachable, so [validate] always returns Accept or a genuine
   error class.  (bsearch and overlap_sweep are fuel-indexed too but answer with a plain boolean
   at 0; that their fuel suffices is has_loop_bsearch and overlap_sweep_loop in ValidateRangesP.) *)
From Coq Require Import List NArith ZArith Bool Lia.
From PB Require Import Desc.ValidateModel Desc.ValidateP.
Import ListNotations.
Open Scope Z_scope.

Lemma has_dot_nonempty : forall r, has_dot r = true -> r <> [].
Proof. intros [|c r] H; [discriminate|discriminate]. Qed.

Lemma parent_of_shorter : forall s, s <> [] -> (length (parent_of s) < length s)%nat.
Proof.
  induction s as [|c r IH]; intros H; [congruence|].
  cbn [parent_of]. destruct (has_dot r) eqn:E; cbn [length]; [|lia].
  specialize (IH (has_dot_nonempty _ E)). lia.
Qed.

Lemma find_loop_fuel : forall fuel t scope ref,
  (length scope < fuel)%nat -> find_loop fuel t scope ref <> FOutOfFuel.
Proof.
  induction fuel as [|fuel IH]; intros t scope ref H; [lia|].
  cbn [find_loop]. destruct (lookup t (join scope ref)); [discriminate|].
  destruct scope as [|c r]; [discriminate|].
  apply IH. pose proof (parent_of_shorter (c :: r)) as Hp. specialize (Hp ltac:(discriminate)). lia.
Qed.

Lemma find_descriptor_fuel : forall t scope ref, find_descriptor t scope ref <> FOutOfFuel.
Proof.
  intros t scope ref. unfold find_descriptor.
  destruct (negb (partial_valid ref)); [discriminate|].
  destruct (is_full ref); apply find_loop_fuel; cbn; lia.
Qed.

Lemma find_enum_fuel : forall allow t scope ref, find_enum allow t scope ref <> TFuel.
Proof.
  intros allow t scope ref. unfold find_enum. pose proof (find_descriptor_fuel t scope ref) as H.
  destruct (find_descriptor t scope ref) as [full [e|m|]| | |]; try discriminate; try congruence.
  destruct allow; discriminate.
Qed.
Lemma find_msg_fuel : forall allow t scope ref, find_msg allow t scope ref <> TFuel.
Proof.
  intros allow t scope ref. unfold find_msg. pose proof (find_descriptor_fuel t scope ref) as H.
  destruct (find_descriptor t scope ref) as [full [e|m|]| | |]; try discriminate; try congruence.
  destruct allow; discriminate.
Qed.
Lemma find_target_fuel : forall allow t k scope ref, find_target allow t k scope ref <> TFuel.
Proof.
  intros allow t k scope ref. unfold find_target.
  destruct (k =? 14).
  { pose proof (find_enum_fuel allow t scope ref). destruct (find_enum allow t scope ref); try discriminate; congruence. }
  destruct ((k =? 11) || (k =? 10)).
  { pose proof (find_msg_fuel allow t scope ref). destruct (find_msg allow t scope ref); try discriminate; congruence. }
  destruct (k =? 0).
  { pose proof (find_descriptor_fuel t scope ref) as H.
    destruct (find_descriptor t scope ref) as [full [e|m|]| | |]; try discriminate; try congruence.
    destruct allow; discriminate. }
  destruct ref; [destruct (negb (kind_valid k)); discriminate|discriminate].
Qed.
Lemma resolve_field_fuel : forall allow t scope ie f, resolve_field allow t scope ie f <> TFuel.
Proof.
  intros allow t scope ie f. unfold resolve_field.
  pose proof (find_target_fuel allow t (f_type f) scope (f_tname f)) as H.
  destruct (find_target allow t (f_type f) scope (f_tname f)); try discriminate; try congruence.
  destruct ((rk a =? 10) && (mtarget_mapentry (rmsg a) || ie)); discriminate.
Qed.

(* "never out of fuel" through the error monad *)
Definition nf {A} (r : res A) : Prop := r <> Err E_outoffuel.

Lemma nf_ok : forall A (a : A), nf (Ok a).
Proof. intros; discriminate. Qed.
Lemma nf_err : forall A e, e <> E_outoffuel -> nf (@Err A e).
Proof. intros A e H Heq. injection Heq as ->. congruence. Qed.
Lemma nf_check : forall b e, e <> E_outoffuel -> nf (check b e).
Proof. intros [] e H; [apply nf_err; exact H|apply nf_ok]. Qed.
Lemma nf_bind : forall A B (r : res A) (f : A -> res B), nf r -> (forall a, nf (f a)) -> nf (bind r f).
Proof. intros A B [a|e] f Hr Hf; cbn; [apply Hf|]. intros Heq. apply Hr. injection Heq as ->. reflexivity. Qed.
Lemma nf_for_each : forall A (f : A -> res unit) l, (forall x, nf (f x)) -> nf (for_each f l).
Proof.
  intros A f l H. induction l as [|x r IH]; [apply nf_ok|]. cbn. apply nf_bind; [apply H|intros; exact IH].
Qed.
Lemma nf_lift : forall A (mk : sub -> verr) (r : tres A),
  r <> TFuel -> (forall s, mk s <> E_outoffuel) -> nf (lift mk r).
Proof. intros A mk [a|s|] Hr Hmk; cbn; [apply nf_ok|apply nf_err; apply Hmk|congruence]. Qed.

Ltac nfstep :=
  match goal with
  | |- nf (bind _ _) => apply nf_bind; [|intros]
  | |- nf (check _ _) => apply nf_check; discriminate
  | |- nf (Ok _) => apply nf_ok
  | |- nf (Err _) => apply nf_err; discriminate
  | |- nf (for_each _ _) => apply nf_for_each; intros
  | |- nf (lift _ _) => apply nf_lift; [|intros; discriminate]
  | |- nf (if ?b then _ else _) => destruct b
  | |- nf (match ?x with _ => _ end) => destruct x
  end.

(* [nfstep] opens one constructor of the error monad (bind, check, for_each, lift, if, match) and
   stops at an applied model function, so [repeat nfstep] ends: every step removes a constructor
   of the term.  The database [nf] holds, for those applied functions, the fuel lemmas above and
   the nf_ lemmas below, each added where it is proved so that the later ones can use it. *)
Create HintDb nf.
#[local] Hint Resolve find_msg_fuel find_target_fuel resolve_field_fuel : nf.

Lemma nf_mk_base : forall t scope name d, nf (mk_base t scope name d).
Proof. intros. unfold mk_base. repeat nfstep. Qed.
#[local] Hint Resolve nf_mk_base : nf.
Lemma nf_init_names : forall names t scope, nf (init_names t scope names).
Proof. induction names as [|n r IH]; intros; cbn [init_names]; repeat nfstep; auto with nf. Qed.
#[local] Hint Resolve nf_init_names : nf.
Lemma nf_init_enum : forall t scope e, nf (init_enum t scope e).
Proof. intros. unfold init_enum. repeat nfstep; auto with nf. Qed.
#[local] Hint Resolve nf_init_enum : nf.
Lemma nf_init_enums : forall es t scope, nf (init_enums t scope es).
Proof. induction es as [|e r IH]; intros; cbn [init_enums]; repeat nfstep; auto with nf. Qed.
#[local] Hint Resolve nf_init_enums : nf.
Lemma nf_init_msg : forall m t scope, nf (init_msg t scope m).
Proof.
  induction m using msg_ind'. intros t scope. cbn [init_msg].
  apply nf_bind; [apply nf_mk_base|intros p].
  apply nf_bind; [apply nf_init_names|intros t2].
  apply nf_bind; [apply nf_init_names|intros t3].
  apply nf_bind; [apply nf_init_enums|intros t4].
  apply nf_bind; [|intros; apply nf_init_names].
  generalize t4. induction H as [|x r Hx Hr IH]; intros t0; [apply nf_ok|].
  apply nf_bind; [apply Hx|intros; apply IH].
Qed.
#[local] Hint Resolve nf_init_msg : nf.
Lemma nf_init_msgs : forall ms t scope, nf (init_msgs t scope ms).
Proof. induction ms as [|m r IH]; intros; cbn [init_msgs]; repeat nfstep; auto with nf. Qed.
#[local] Hint Resolve nf_init_msgs : nf.
Lemma nf_init_file : forall f, nf (init_file f).
Proof. intros. unfold init_file. repeat nfstep; auto with nf. Qed.

Lemma nf_resolve_exts : forall allow t scope xs, nf (resolve_exts allow t scope xs).
Proof. intros. unfold resolve_exts, ext_extendee, resolve_ext. repeat nfstep; auto with nf. Qed.
#[local] Hint Resolve nf_resolve_exts : nf.
Lemma nf_resolve_msg : forall allow t m scope, nf (resolve_msg allow t scope m).
Proof.
  intros allow t m. induction m using msg_ind'. intros scope. cbn [resolve_msg].
  apply nf_bind; [repeat nfstep; auto with nf|intros _].
  apply nf_bind; [|intros; apply nf_resolve_exts].
  induction H as [|x r Hx Hr IH]; [apply nf_ok|]. apply nf_bind; [apply Hx|intros; apply IH].
Qed.
#[local] Hint Resolve nf_resolve_msg : nf.
Lemma nf_resolve_msgs : forall allow t ms scope, nf (resolve_msgs allow t scope ms).
Proof. induction ms as [|m r IH]; intros; cbn [resolve_msgs]; repeat nfstep; auto with nf. Qed.

Lemma nf_validate_enum : forall syntax e, nf (validate_enum syntax e).
Proof. intros. unfold validate_enum. repeat nfstep. Qed.
Lemma nf_validate_field : forall legacy allow syntax t m full f, nf (validate_field legacy allow syntax t m full f).
Proof. intros. unfold validate_field. cbv zeta. repeat nfstep. Qed.
Lemma nf_validate_oneofs : forall syntax fields n k seen, nf (validate_oneofs syntax fields n k seen).
Proof.
  intros syntax fields n; induction n as [|n IH]; intros k seen; cbn [validate_oneofs]; [apply nf_ok|].
  destruct (oneof_members fields k) as [|[i0 f0] ms]; [apply nf_err; discriminate|].
  destruct (negb _); [apply nf_err; discriminate|].
  destruct (_ && _ && _); [apply IH|].
  destruct seen; [apply nf_err; discriminate|].
  apply nf_bind; [apply nf_for_each; intros; apply nf_check; discriminate|intros; apply IH].
Qed.
Lemma nf_validate_ext : forall legacy allow syntax t scope x, nf (validate_ext legacy allow syntax t scope x).
Proof. intros. unfold validate_ext. cbv zeta. repeat nfstep. Qed.
Lemma nf_msg_local : forall legacy allow syntax t full m, nf (msg_local legacy allow syntax t full m).
Proof. intros. unfold msg_local. repeat nfstep; auto using nf_validate_field, nf_validate_oneofs. Qed.
Lemma nf_validate_msg : forall legacy allow syntax t m scope, nf (validate_msg legacy allow syntax t scope m).
Proof.
  intros legacy allow syntax t m. induction m using msg_ind'. intros scope.
  rewrite validate_msg_unfold. cbv zeta. cbn [m_name m_enums m_nested m_exts].
  apply nf_bind; [apply nf_msg_local|intros _].
  apply nf_bind; [apply nf_for_each; intros; apply nf_validate_enum|intros _].
  apply nf_bind; [|intros _; apply nf_for_each; intros; apply nf_validate_ext].
  induction H as [|x r Hx Hr IH]; [apply nf_ok|]. cbn [for_each]. apply nf_bind; [apply Hx|intros; apply IH].
Qed.

Lemma nf_new_file : forall legacy allow f, nf (new_file legacy allow f).
Proof.
  intros. unfold new_file. repeat nfstep; rewrite ?validate_msgs_for_each; repeat nfstep;
    auto using nf_init_file, nf_resolve_msgs, nf_validate_enum, nf_validate_msg, nf_validate_ext with nf.
Qed.

Theorem validate_total : forall legacy allow f, validate legacy allow f <> Reject E_outoffuel.
Proof.
  intros legacy allow f. unfold validate. pose proof (nf_new_file legacy allow f) as H.
  destruct (new_file legacy allow f) as [[]|e]; [discriminate|].
  intros Heq. injection Heq as ->. apply H. reflexivity.
Qed.
