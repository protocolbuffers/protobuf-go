(* Proofs about Desc/DescRangesModel.v (FieldRanges / EnumRanges of desc_list.go). *)
From Coq Require Import List ZArith Bool Arith Lia Sorting.Sorted Sorting.Permutation.
From Coq Require Import ZifyBool ZifyNat.
From PB Require Import Desc.DescRangesModel.
Import ListNotations.
Open Scope Z_scope.

(* vocabulary of the specifications *)
Definition contains (k : rkind) (r : range) (n : Z) : Prop := r_start r <= n <= r_end k r.
Definition rvalid (k : rkind) (r : range) : Prop := r_start r <= r_end k r.
Definition before (k : rkind) (a b : range) : Prop := r_end k a < r_start b.
Definition start_le (a b : range) : Prop := r_start a <= r_start b.
Definition disjoint (k : rkind) (a b : range) : Prop := intersects k a b = false.
Definition range_ok (k : rkind) (ms : bool) (r : range) : Prop :=
  number_checks k ms r = true /\ rvalid k r.

Lemma intersects_true_iff k a b :
  intersects k a b = true <-> exists n, contains k a n /\ contains k b n \/ (~ rvalid k a \/ ~ rvalid k b) /\ ~ (before k a b \/ before k b a).
Proof.
  unfold intersects, contains, rvalid, before. split.
  - intros H. exists (Z.max (r_start a) (r_start b)). lia.
  - intros [n H]. lia.
Qed.

Lemma intersects_valid_iff k a b : rvalid k a -> rvalid k b ->
  (intersects k a b = true <-> exists n, contains k a n /\ contains k b n).
Proof.
  unfold intersects, contains, rvalid. intros Ha Hb. split.
  - intros H. exists (Z.max (r_start a) (r_start b)). lia.
  - intros [n H]. lia.
Qed.

Lemma disjoint_sym k a b : disjoint k a b -> disjoint k b a.
Proof. unfold disjoint, intersects. lia. Qed.

Lemma disjoint_iff k a b : disjoint k a b <-> before k a b \/ before k b a.
Proof. unfold before, disjoint, intersects. lia. Qed.

Lemma rvalid_meets_self k a : rvalid k a -> ~ disjoint k a a.
Proof. unfold rvalid, disjoint, intersects. lia. Qed.

(* the half-open reading of a field range when r[1]-1 does not wrap *)
Lemma field_end_nowrap r : -2147483648 < snd r <= 2147483647 -> r_end FieldR r = snd r - 1.
Proof. unfold r_end, wrap32. intros H. lia. Qed.

Lemma field_contains_halfopen r n : -2147483648 < snd r <= 2147483647 ->
  (contains FieldR r n <-> fst r <= n < snd r).
Proof. intros H. unfold contains, r_start. rewrite field_end_nowrap by exact H. lia. Qed.

Lemma nth_error_split_firstn_skipn {A} (ls : list A) i r :
  nth_error ls i = Some r -> ls = firstn i ls ++ r :: skipn (S i) ls.
Proof.
  revert i. induction ls as [|a ls IH]; intros [|i] H; cbn in *; try discriminate.
  - now inversion H.
  - f_equal. now apply IH.
Qed.

Lemma StronglySorted_app_inv {A} (R : A -> A -> Prop) l1 x l2 :
  StronglySorted R (l1 ++ x :: l2) ->
  StronglySorted R l1 /\ StronglySorted R l2 /\ Forall (fun a => R a x) l1 /\ Forall (R x) l2.
Proof.
  induction l1 as [|a l1 IH]; cbn; intros H.
  - inversion H; subst. repeat split; auto. constructor.
  - inversion H; subst. destruct (IH H2) as (S1 & S2 & F1 & F2).
    repeat split; auto.
    + constructor; auto. rewrite Forall_app in H3. tauto.
    + constructor; auto. rewrite Forall_app in H3. destruct H3 as [_ H3]. now inversion H3.
Qed.

Lemma ForallOrdPairs_perm {A} (R : A -> A -> Prop) (Rsym : forall a b, R a b -> R b a) l l' :
  Permutation l l' -> ForallOrdPairs R l -> ForallOrdPairs R l'.
Proof.
  induction 1 as [|x l l' HP IH|x y l|l l' l'' HP1 IH1 HP2 IH2]; intros HF.
  - exact HF.
  - inversion HF as [|? ? Hx Hl]; subst. constructor.
    + eapply Permutation_Forall; eauto.
    + auto.
  - inversion HF as [|? ? Hy Hl]; subst. inversion Hl as [|? ? Hx Hl']; subst.
    inversion Hy as [|? ? Hyx Hyl]; subst.
    constructor; [constructor; auto|constructor; auto].
  - auto.
Qed.

Lemma StronglySorted_FOP {A} (R Q : A -> A -> Prop) l :
  (forall a b, R a b -> Q a b) -> StronglySorted R l -> ForallOrdPairs Q l.
Proof. intros HRQ. induction 1 as [|a l _ IH Ha]; constructor; auto. eapply Forall_impl; [apply HRQ|exact Ha]. Qed.

Lemma disjoint_pairs_NoDup k l : Forall (rvalid k) l -> ForallOrdPairs (disjoint k) l -> NoDup l.
Proof.
  intros V D. induction D as [|a l Ha _ IH]; [constructor|].
  inversion V as [|? ? Va Vl]; subst. constructor; [|exact (IH Vl)].
  intros Hin. rewrite Forall_forall in Ha. exact (rvalid_meets_self k a Va (Ha a Hin)).
Qed.

Lemma FOP_StronglySorted {A} (R : A -> A -> Prop) l : ForallOrdPairs R l -> StronglySorted R l.
Proof. induction 1; constructor; auto. Qed.

Lemma insert_range_perm r s : Permutation (r :: s) (insert_range r s).
Proof.
  induction s as [|x s IH]; cbn; [reflexivity|].
  destruct (fst r <=? fst x); [reflexivity|].
  rewrite perm_swap. now constructor.
Qed.

Lemma sort_ranges_perm l : Permutation (sort_ranges l) l.
Proof.
  induction l as [|r l IH]; cbn; [constructor|].
  rewrite <- insert_range_perm. now constructor.
Qed.

Lemma insert_range_sorted r s : StronglySorted start_le s -> StronglySorted start_le (insert_range r s).
Proof.
  induction 1 as [|x s Hs IH Hx]; cbn.
  - constructor; constructor.
  - destruct (fst r <=? fst x) eqn:E.
    + constructor; [constructor; auto|].
      constructor; [unfold start_le, r_start; lia|].
      eapply Forall_impl; [|exact Hx]. unfold start_le, r_start. intros; lia.
    + constructor; auto.
      eapply Permutation_Forall; [apply insert_range_perm|].
      constructor; auto. unfold start_le, r_start; lia.
Qed.

Lemma sort_ranges_sorted l : StronglySorted start_le (sort_ranges l).
Proof.
  induction l; cbn; [constructor|]. now apply insert_range_sorted.
Qed.

Lemma sort_ranges_length l : length (sort_ranges l) = length l.
Proof. apply Permutation_length, sort_ranges_perm. Qed.

Lemma div2_lt_length {A} (a : A) ls : (Nat.div2 (length (a :: ls)) < length (a :: ls))%nat.
Proof. apply Nat.lt_div2. cbn. lia. Qed.

Lemma has_loop_total k n : forall fuel ls, (length ls <= fuel)%nat -> has_loop fuel k ls n <> None.
Proof.
  induction fuel as [|f IH]; intros [|a ls] Hl; cbn [has_loop]; try discriminate.
  - cbn in Hl. lia.
  - pose proof (div2_lt_length a ls) as Hi.
    destruct (nth_error (a :: ls) (Nat.div2 (length (a :: ls)))) as [r|] eqn:E.
    2:{ apply nth_error_None in E. lia. }
    destruct (n <? r_start r).
    + apply IH. rewrite firstn_length. cbn [length] in *. lia.
    + destruct (r_end k r <? n); [|discriminate].
      apply IH. rewrite skipn_length. cbn [length] in *. lia.
Qed.

Lemma has_loop_sound k n : forall fuel ls, has_loop fuel k ls n = Some true ->
  exists r, In r ls /\ contains k r n.
Proof.
  induction fuel as [|f IH]; intros [|a ls] H; cbn [has_loop] in H; try discriminate.
  destruct (nth_error (a :: ls) (Nat.div2 (length (a :: ls)))) as [r|] eqn:E; [|discriminate].
  pose proof (nth_error_split_firstn_skipn _ _ _ E) as Hsplit.
  destruct (n <? r_start r) eqn:E1.
  - destruct (IH _ H) as (r' & Hin & Hc). exists r'. split; auto.
    rewrite Hsplit. apply in_or_app. now left.
  - destruct (r_end k r <? n) eqn:E2.
    + destruct (IH _ H) as (r' & Hin & Hc). exists r'. split; auto.
      rewrite Hsplit. apply in_or_app. right. now right.
    + exists r. split; [eapply nth_error_In; eauto|]. unfold contains. lia.
Qed.

Lemma has_loop_complete k n : forall fuel ls, (length ls <= fuel)%nat ->
  StronglySorted (before k) ls -> Forall (rvalid k) ls ->
  (exists r, In r ls /\ contains k r n) -> has_loop fuel k ls n = Some true.
Proof.
  induction fuel as [|f IH]; intros [|a ls] Hl Hs Hv (r0 & Hin & Hc); cbn [has_loop].
  - destruct Hin.
  - cbn in Hl; lia.
  - destruct Hin.
  - pose proof (div2_lt_length a ls) as Hi.
    destruct (nth_error (a :: ls) (Nat.div2 (length (a :: ls)))) as [r|] eqn:E.
    2:{ apply nth_error_None in E. lia. }
    pose proof (nth_error_split_firstn_skipn _ _ _ E) as Hsplit.
    set (i := Nat.div2 (length (a :: ls))) in *.
    rewrite Hsplit in Hs, Hv, Hin.
    destruct (StronglySorted_app_inv _ _ _ _ Hs) as (S1 & S2 & F1 & F2).
    rewrite Forall_app in Hv. destruct Hv as [V1 V2]. inversion V2 as [|? ? Vr V3]; subst.
    apply in_app_or in Hin.
    unfold contains, before, rvalid in *.
    destruct (n <? r_start r) eqn:E1.
    + apply IH; auto.
      * rewrite firstn_length. cbn [length] in *. lia.
      * exists r0. split; [|exact Hc].
        destruct Hin as [Hin|[Hin|Hin]]; auto.
        -- subst r0. lia.
        -- rewrite Forall_forall in F2. specialize (F2 _ Hin). lia.
    + destruct (r_end k r <? n) eqn:E2; [|reflexivity].
      apply IH; auto.
      * rewrite skipn_length. cbn [length] in *. lia.
      * exists r0. split; [|exact Hc].
        destruct Hin as [Hin|[Hin|Hin]]; auto.
        -- rewrite Forall_forall in F1. specialize (F1 _ Hin). rewrite Forall_forall in V1.
           specialize (V1 _ Hin). lia.
        -- subst r0. lia.
Qed.

Lemma check_valid_loop_ok k ms : forall s first rp,
  check_valid_loop k ms first rp s = CVOk <->
  Forall (range_ok k ms) s /\ Sorted (before k) s /\ (first = false -> HdRel (before k) rp s).
Proof.
  induction s as [|r s IH]; intros first rp; cbn [check_valid_loop].
  - split; [intros _; repeat split; constructor|reflexivity].
  - unfold range_ok, rvalid, before in *.
    destruct (number_checks k ms r) eqn:En; cbn [negb].
    2:{ split; [discriminate|]. intros (F & _). inversion F; subst. destruct H1. congruence. }
    destruct (r_start r <=? r_end k r) eqn:Ev; cbn [negb].
    2:{ split; [discriminate|]. intros (F & _). inversion F; subst. destruct H1. lia. }
    destruct (r_end k rp <? r_start r) eqn:Eo; cbn [negb andb].
    + rewrite IH. split.
      * intros (F & S & H). repeat split.
        -- constructor; auto. split; auto. lia.
        -- constructor; auto.
        -- intros _. constructor. lia.
      * intros (F & S & H). inversion F; subst. inversion S; subst. repeat split; auto.
    + destruct first; cbn [negb].
      * rewrite IH. split.
        -- intros (F & S & H). repeat split.
           ++ constructor; auto. split; auto. lia.
           ++ constructor; auto.
           ++ discriminate.
        -- intros (F & S & H). inversion F; subst. inversion S; subst. repeat split; auto.
      * split; [discriminate|]. intros (_ & _ & H). specialize (H eq_refl). inversion H; subst. lia.
Qed.

Lemma Sorted_before_strong k s : Forall (rvalid k) s -> Sorted (before k) s -> StronglySorted (before k) s.
Proof.
  induction s as [|a s IH]; intros V S; [constructor|].
  inversion V; subst. inversion S; subst. specialize (IH H2 H3).
  constructor; auto.
  destruct s as [|b s]; [constructor|].
  inversion H4; subst. inversion IH; subst. inversion H2; subst.
  constructor; auto.
  eapply Forall_impl; [|exact H7]. unfold before, rvalid in *. intros c Hc. lia.
Qed.

Section AnySort.
  (* any result of sort.Slice: a permutation of List that is sorted by start *)
  Variable k : rkind.
  Variables l s : list range.
  Hypothesis s_perm : Permutation s l.
  Hypothesis s_sorted : StronglySorted start_le s.

  Lemma any_valid_strong ms : check_valid_loop k ms true (0, 0) s = CVOk ->
    StronglySorted (before k) s /\ Forall (rvalid k) s.
  Proof.
    rewrite check_valid_loop_ok. intros (F & S & _).
    assert (V : Forall (rvalid k) s) by (eapply Forall_impl; [|exact F]; unfold range_ok; tauto).
    split; auto. now apply Sorted_before_strong.
  Qed.

  Lemma any_check_valid_sound ms : check_valid_loop k ms true (0, 0) s = CVOk ->
    Forall (range_ok k ms) l /\ ForallOrdPairs (disjoint k) l.
  Proof.
    intros H. destruct (any_valid_strong ms H) as (SS & _).
    apply check_valid_loop_ok in H. destruct H as (F & _). split.
    - eapply Permutation_Forall; eauto.
    - eapply ForallOrdPairs_perm; [apply disjoint_sym|exact s_perm|].
      apply (StronglySorted_FOP (before k)); [|exact SS]. intros a b Hab. apply disjoint_iff. now left.
  Qed.

  Lemma any_check_valid_spec ms :
    check_valid_loop k ms true (0, 0) s = CVOk <->
    Forall (range_ok k ms) l /\ ForallOrdPairs (disjoint k) l.
  Proof.
    split; [apply any_check_valid_sound|].
    rewrite check_valid_loop_ok. intros (F & D).
    assert (F' : Forall (range_ok k ms) s) by (eapply Permutation_Forall; [symmetry; exact s_perm|exact F]).
    assert (D' : ForallOrdPairs (disjoint k) s)
      by (eapply ForallOrdPairs_perm; [apply disjoint_sym|symmetry; exact s_perm|exact D]).
    repeat split; auto; [|discriminate].
    apply StronglySorted_Sorted.
    clear - F' D' s_sorted. induction s as [|a t IH]; [constructor|].
    inversion F' as [|? ? Fa Ft]; subst. inversion D' as [|? ? Da Dt]; subst.
    inversion s_sorted as [|? ? St Sa]; subst.
    constructor; auto.
    rewrite Forall_forall in *. intros b Hb.
    specialize (Ft _ Hb). specialize (Da _ Hb). specialize (Sa _ Hb).
    unfold disjoint, intersects, before, start_le, range_ok, rvalid in *. lia.
  Qed.

  Lemma any_has_sound n : has_loop (length s) k s n = Some true -> exists r, In r l /\ contains k r n.
  Proof.
    intros Hh. destruct (has_loop_sound _ _ _ _ Hh) as (r & Hin & Hc).
    exists r. split; auto. eapply Permutation_in; eauto.
  Qed.

  Lemma any_has_iff_member ms n : check_valid_loop k ms true (0, 0) s = CVOk ->
    (has_loop (length s) k s n = Some true <-> exists r, In r l /\ contains k r n).
  Proof.
    intros H. destruct (any_valid_strong ms H) as (SS & V). split; [apply any_has_sound|].
    intros (r & Hin & Hc). apply has_loop_complete; auto.
    exists r. split; auto. eapply Permutation_in; [symmetry|]; eauto.
  Qed.
End AnySort.

(* instantiation at the modelled sort *)
Lemma ranges_has_total k l n : ranges_has k l n <> None.
Proof. unfold ranges_has. apply has_loop_total. lia. Qed.

Lemma ranges_has_sound k l n : ranges_has k l n = Some true -> exists r, In r l /\ contains k r n.
Proof. unfold ranges_has. apply any_has_sound. apply sort_ranges_perm. Qed.

Lemma check_valid_spec k ms l :
  check_valid k ms l = CVOk <-> Forall (range_ok k ms) l /\ ForallOrdPairs (disjoint k) l.
Proof. unfold check_valid. apply any_check_valid_spec; [apply sort_ranges_perm|apply sort_ranges_sorted]. Qed.

Lemma ranges_has_iff_member k ms l n : check_valid k ms l = CVOk ->
  (ranges_has k l n = Some true <-> exists r, In r l /\ contains k r n).
Proof. unfold check_valid, ranges_has. apply any_has_iff_member. apply sort_ranges_perm. Qed.

Lemma ranges_has_false_iff k ms l n : check_valid k ms l = CVOk ->
  (ranges_has k l n = Some false <-> ~ exists r, In r l /\ contains k r n).
Proof.
  intros H. pose proof (ranges_has_iff_member k ms l n H) as Hi.
  pose proof (ranges_has_total k l n) as Ht.
  destruct (ranges_has k l n) as [[|]|]; try congruence.
  - split; [discriminate|]. intros Hn. exfalso. apply Hn. now apply Hi.
  - split; auto. intros _ Hm. apply Hi in Hm. discriminate.
Qed.

(* binary search needs the non-overlap that CheckValid establishes: without it a member can be missed *)
Lemma ranges_has_incomplete_without_valid :
  exists l n, (exists r, In r l /\ contains FieldR r n) /\ ranges_has FieldR l n = Some false.
Proof.
  exists [(1, 10); (2, 3)], 5. split.
  - exists (1, 10). split; [now left|]. unfold contains. vm_compute. split; discriminate.
  - vm_compute. reflexivity.
Qed.

Lemma overlap_loop_cons k rp ps rq qs :
  overlap_loop k (rp :: ps) (rq :: qs) =
  if intersects k rp rq then true
  else if r_start rp <? r_start rq then overlap_loop k ps (rq :: qs)
  else overlap_loop k (rp :: ps) qs.
Proof. reflexivity. Qed.

Lemma overlap_loop_nil_r k ps : overlap_loop k ps [] = false.
Proof. destruct ps; reflexivity. Qed.

Lemma overlap_loop_spec k : forall ps qs,
  Forall (rvalid k) ps -> Forall (rvalid k) qs ->
  StronglySorted (before k) ps -> StronglySorted (before k) qs ->
  (overlap_loop k ps qs = true <-> exists rp rq, In rp ps /\ In rq qs /\ intersects k rp rq = true).
Proof.
  induction ps as [|rp ps IHp].
  - intros qs _ _ _ _. destruct qs; cbn; split; try discriminate; intros (a & b & [] & _).
  - induction qs as [|rq qs IHq]; intros Vp Vq Sp Sq.
    + rewrite overlap_loop_nil_r. split; [discriminate|]. intros (a & b & _ & [] & _).
    + rewrite overlap_loop_cons.
      inversion Vp as [|? ? Vrp Vps]; subst. inversion Vq as [|? ? Vrq Vqs]; subst.
      inversion Sp as [|? ? Sps Fp]; subst. inversion Sq as [|? ? Sqs Fq]; subst.
      destruct (intersects k rp rq) eqn:Ei.
      * split; auto. intros _. exists rp, rq. repeat split; auto; now left.
      * destruct (r_start rp <? r_start rq) eqn:El.
        -- rewrite (IHp (rq :: qs)); auto. split.
           ++ intros (a & b & Ha & Hb & Hi). exists a, b. repeat split; auto. now right.
           ++ intros (a & b & [Ha|Ha] & Hb & Hi).
              ** subst a. exfalso.
                 destruct Hb as [Hb|Hb]; [subst b; congruence|].
                 rewrite Forall_forall in Fq. specialize (Fq _ Hb).
                 unfold intersects, before, rvalid in *. lia.
              ** exists a, b. repeat split; auto.
        -- rewrite IHq; auto. split.
           ++ intros (a & b & Ha & Hb & Hi). exists a, b. repeat split; auto. now right.
           ++ intros (a & b & Ha & [Hb|Hb] & Hi).
              ** subst b. exfalso.
                 destruct Ha as [Ha|Ha]; [subst a; congruence|].
                 rewrite Forall_forall in Fp. specialize (Fp _ Ha).
                 unfold intersects, before, rvalid in *. lia.
              ** exists a, b. repeat split; auto.
Qed.

Lemma check_overlap_spec msp msq p q :
  check_valid FieldR msp p = CVOk -> check_valid FieldR msq q = CVOk ->
  (check_overlap p q = true <-> exists rp rq, In rp p /\ In rq q /\ intersects FieldR rp rq = true).
Proof.
  unfold check_valid, check_overlap. intros Hp Hq.
  destruct (any_valid_strong FieldR _ msp Hp) as (Sp & Vp).
  destruct (any_valid_strong FieldR _ msq Hq) as (Sq & Vq).
  rewrite overlap_loop_spec by auto. split.
  - intros (a & b & Ha & Hb & Hi). exists a, b. repeat split; auto;
      (eapply Permutation_in; [apply sort_ranges_perm|]; auto).
  - intros (a & b & Ha & Hb & Hi). exists a, b. repeat split; auto;
      (eapply Permutation_in; [symmetry; apply sort_ranges_perm|]; auto).
Qed.

(* for lists that pass CheckValid, "intersects" is exactly "share a number" *)
Lemma check_overlap_shared_number msp msq p q :
  check_valid FieldR msp p = CVOk -> check_valid FieldR msq q = CVOk ->
  (check_overlap p q = true <->
   exists rp rq n, In rp p /\ In rq q /\ contains FieldR rp n /\ contains FieldR rq n).
Proof.
  intros Hp Hq. rewrite (check_overlap_spec msp msq p q Hp Hq).
  apply check_valid_spec in Hp. apply check_valid_spec in Hq.
  destruct Hp as [Fp _]. destruct Hq as [Fq _]. rewrite Forall_forall in Fp, Fq.
  split.
  - intros (a & b & Ha & Hb & Hi).
    apply intersects_valid_iff in Hi; [|apply Fp; auto|apply Fq; auto].
    destruct Hi as (n & H1 & H2). exists a, b, n. auto.
  - intros (a & b & n & Ha & Hb & H1 & H2). exists a, b. repeat split; auto.
    apply intersects_valid_iff; [apply Fp; auto|apply Fq; auto|]. exists n. auto.
Qed.
