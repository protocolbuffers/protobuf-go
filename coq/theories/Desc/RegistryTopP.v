(* RegistryTopP — facts about rangeTopLevelDescriptors, the package-marker loop and the
   spec-level filters used by the Files invariant. *)
From Coq Require Import List Arith Bool.
From PB Require Import Desc.RegistryModel Desc.RegistryBaseP.
Import ListNotations.

Lemma map_fst_flat_map {A B C} (g : A -> list (B * C)) (l : list A) :
  map fst (flat_map g l) = flat_map (fun x => map fst (g x)) l.
Proof. induction l as [|x l IH]; cbn; [reflexivity|]. now rewrite map_app, IH. Qed.

Lemma top_keys fid f : map fst (range_top_level fid f) = top_names f.
Proof.
  unfold top_names, range_top_level. rewrite !map_app, !map_fst_flat_map, !map_map. cbn [fst].
  f_equal. apply flat_map_ext. intros e. unfold top_enum. cbn [map fst]. now rewrite !map_map.
Qed.

Lemma top_entry_iff fid f k v :
  In (k, v) (range_top_level fid f) <->
  (exists e, In e (f_enums f) /\ k = fn_append (f_pkg f) (enum_name e) /\ v = VEnum fid k) \/
  (exists e x, In e (f_enums f) /\ In x (enum_values e) /\ k = fn_append (f_pkg f) x /\ v = VEnumVal fid k) \/
  (exists m, In m (f_msgs f) /\ k = fn_append (f_pkg f) (msg_name m) /\ v = VMsg fid k m) \/
  (exists x, In x (f_exts f) /\ k = fn_append (f_pkg f) x /\ v = VExt fid k) \/
  (exists sv, In sv (f_svcs f) /\ k = fn_append (f_pkg f) (svc_name sv) /\ v = VSvc fid k sv).
Proof.
  unfold range_top_level. rewrite !in_app_iff, in_flat_map, !in_map_iff. split.
  - intros [H|[H|[H|H]]].
    + destruct H as (e & He & H). apply in_rev in He. destruct H as [H|H].
      * inversion H; subst. left. now exists e.
      * apply in_map_iff in H. destruct H as (x & E & Hx). apply in_rev in Hx. inversion E; subst.
        right; left. now exists e, x.
    + destruct H as (m & E & Hm). apply in_rev in Hm. inversion E; subst. right; right; left. now exists m.
    + destruct H as (x & E & Hx). apply in_rev in Hx. inversion E; subst. right; right; right; left. now exists x.
    + destruct H as (sv & E & Hs). apply in_rev in Hs. inversion E; subst. right; right; right; right. now exists sv.
  - intros [H|[H|[H|[H|H]]]].
    + destruct H as (e & He & -> & ->). left. exists e. split; [now apply in_rev in He | now left].
    + destruct H as (e & x & He & Hx & -> & ->). left. exists e. split; [now apply in_rev in He|].
      right. apply in_map_iff. exists x. split; [reflexivity | now apply in_rev in Hx].
    + destruct H as (m & Hm & -> & ->). right; left. exists m. split; [reflexivity | now apply in_rev in Hm].
    + destruct H as (x & Hx & -> & ->). right; right; left. exists x. split; [reflexivity | now apply in_rev in Hx].
    + destruct H as (sv & Hs & -> & ->). right; right; right. exists sv. split; [reflexivity | now apply in_rev in Hs].
Qed.

Lemma top_in fid f k v :
  In (k, v) (range_top_level fid f) ->
  exists c, In c (file_scope_names f) /\ k = fn_append (f_pkg f) c /\ is_pkg v = false.
Proof.
  intros H. apply top_entry_iff in H. unfold file_scope_names.
  destruct H as [(e & He & -> & ->)|[(e & x & He & Hx & -> & ->)|[(m & Hm & -> & ->)|[(x & Hx & -> & ->)|(sv & Hs & -> & ->)]]]].
  - exists (enum_name e). repeat split. apply in_or_app; left. apply in_flat_map. exists e. split; [assumption | now left].
  - exists x. repeat split. apply in_or_app; left. apply in_flat_map. exists e. split; [assumption | now right].
  - exists (msg_name m). repeat split. apply in_or_app; right. apply in_or_app; left. now apply in_map.
  - exists x. repeat split. do 2 (apply in_or_app; right). now apply in_or_app; left.
  - exists (svc_name sv). repeat split. do 3 (apply in_or_app; right). now apply in_map.
Qed.

Lemma wf_file_parts f :
  wf_file f = true ->
  (forall c, In c (file_scope_names f) -> c <> [] /\ ~ In dotb c) /\
  NoDup (top_names f) /\
  (forall m, In m (f_msgs f) -> wf_msg m = true) /\
  (forall s, In s (f_svcs f) -> wf_svc s = true).
Proof.
  unfold wf_file. rewrite !andb_true_iff. intros [[[H1 H2] H3] H4].
  rewrite forallb_forall in H1, H3, H4. repeat split.
  - apply (valid_ident_spec c). now apply H1.
  - apply (valid_ident_spec c). now apply H1.
  - now apply nodupb_NoDup.
  - assumption.
  - assumption.
Qed.

Lemma top_in_wf fid f k v :
  wf_file f = true -> In (k, v) (range_top_level fid f) ->
  is_pkg v = false /\ k <> [] /\ parent k = f_pkg f /\ length (f_pkg f) < length k.
Proof.
  intros Hwf H. destruct (top_in _ _ _ _ H) as (c & Hc & -> & Hv).
  destruct (wf_file_parts f Hwf) as (Hval & _). destruct (Hval c Hc) as [Hc1 Hc2].
  repeat split.
  - assumption.
  - now apply fn_append_nonnil.
  - now apply parent_fn_append.
  - now apply fn_append_length.
Qed.

Lemma top_nodup fid f : wf_file f = true -> NoDup (map fst (range_top_level fid f)).
Proof. intros H. rewrite top_keys. now destruct (wf_file_parts f H) as (_ & Hn & _). Qed.

Lemma top_names_in fid f n : In n (top_names f) <-> exists v, In (n, v) (range_top_level fid f).
Proof.
  rewrite <- (top_keys fid f). rewrite in_map_iff. split.
  - intros ([k v] & E & H). cbn in E. subst. now exists v.
  - intros (v & H). now exists (n, v).
Qed.

Lemma top_aget fid f k v :
  wf_file f = true ->
  (aget name_eqb (range_top_level fid f) k = Some v <-> In (k, v) (range_top_level fid f)).
Proof.
  intros H. split.
  - apply aget_in. apply name_eqb_eq.
  - apply in_nodup_aget; [apply name_eqb_eq | now apply top_nodup].
Qed.

Lemma add_pkg_get m n k :
  dget (add_pkg m n) k =
  match dget m k with Some v => Some v | None => if name_eqb n k then Some (VPkg []) else None end.
Proof.
  unfold add_pkg. destruct (dget m n) as [vn|] eqn:E.
  - destruct (dget m k) eqn:Ek; [reflexivity|].
    destruct (name_eqb n k) eqn:En; [|reflexivity]. apply name_eqb_eq in En; subst. congruence.
  - rewrite dget_dput. destruct (name_eqb n k) eqn:En.
    + apply name_eqb_eq in En; subst. now rewrite E.
    + destruct (dget m k); reflexivity.
Qed.

Lemma add_pkgs_get l : forall m k,
  dget (fold_left add_pkg l m) k =
  match dget m k with Some v => Some v | None => if mem_name k l then Some (VPkg []) else None end.
Proof.
  induction l as [|a l IH]; intros m k; cbn [fold_left].
  - destruct (dget m k); reflexivity.
  - rewrite IH, add_pkg_get. destruct (dget m k); [reflexivity|].
    unfold mem_name. cbn [existsb]. rewrite (name_eqb_sym k a).
    destruct (name_eqb a k); reflexivity.
Qed.

Definition pkg_filter (rs : regs) (k : name) : regs := filter (fun r => name_eqb (f_pkg (snd r)) k) rs.
Definition path_filter (rs : regs) (p : name) : regs := filter (fun r => name_eqb (f_path (snd r)) p) rs.

Lemma path_filter_registered rs p : path_filter rs p <> [] <-> path_registered rs p.
Proof.
  unfold path_filter, path_registered. split.
  - intros H. destruct (filter _ rs) as [|[fid f] l] eqn:E; [contradiction|].
    assert (Hi : In (fid, f) (filter (fun r => name_eqb (f_path (snd r)) p) rs)) by (rewrite E; now left).
    apply filter_In in Hi. destruct Hi as [Hi He]. apply name_eqb_eq in He. now exists fid, f.
  - intros (fid & f & Hi & E) Hn.
    assert (Hf : In (fid, f) (filter (fun r => name_eqb (f_path (snd r)) p) rs)).
    { apply filter_In. split; [assumption|]. cbn. now apply name_eqb_eq. }
    rewrite Hn in Hf. destruct Hf.
Qed.

Lemma pkg_filter_registered rs k : pkg_filter rs k <> [] -> pkg_registered rs k.
Proof.
  unfold pkg_filter. intros H. destruct (filter _ rs) as [|[fid f] l] eqn:E; [contradiction|].
  assert (Hi : In (fid, f) (filter (fun r => name_eqb (f_pkg (snd r)) k) rs)) by (rewrite E; now left).
  apply filter_In in Hi. destruct Hi as [Hi He]. cbn [snd] in He. apply name_eqb_eq in He.
  destruct (name_eq_dec k []) as [->|Hk]; [now left|]. right. exists fid, f. split; [assumption|].
  rewrite He. now apply dot_prefix_refl.
Qed.

Lemma filter_snoc {A} (g : A -> bool) l x :
  filter g (l ++ [x]) = filter g l ++ (if g x then [x] else []).
Proof. rewrite filter_app. reflexivity. Qed.

Lemma norm_descs_id (d : list (name * dval)) : d <> [] -> norm_descs d = d.
Proof. destruct d; [contradiction | reflexivity]. Qed.

Lemma norm_descs_idem d : norm_descs (norm_descs d) = norm_descs d.
Proof. destruct d; reflexivity. Qed.

Lemma norm_descs_nonnil d : norm_descs d <> [].
Proof. destruct d; discriminate. Qed.

Lemma fold_dput_get l m k :
  NoDup (map fst l) ->
  dget (fold_left (fun m kd => dput m (fst kd) (snd kd)) l m) k =
  match aget name_eqb l k with Some v => Some v | None => dget m k end.
Proof. intros H. exact (fold_put_get name_eqb name_eqb_eq l m k H). Qed.

Lemma path_files_aput bp p l p' :
  path_files (aput name_eqb bp p l) p' = if name_eqb p p' then l else path_files bp p'.
Proof.
  unfold path_files. rewrite (aget_aput name_eqb name_eqb_eq). destruct (name_eqb p p'); reflexivity.
Qed.

Lemma dget_nil k : dget [] k = None.
Proof. reflexivity. Qed.
