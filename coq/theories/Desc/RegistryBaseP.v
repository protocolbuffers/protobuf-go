(* RegistryBaseP — basic lemmas for the registry model: name equality, association lists,
   dotted names (split/parent/pop/chain), duplicate-freeness. *)
From Coq Require Import List Arith NArith Bool Lia Permutation.
From PB Require Import Base.PBytesP Base.ListP Desc.RegistryModel Desc.SplitLastP.
Import ListNotations.

Lemma name_eqb_eq a b : name_eqb a b = true <-> a = b.
Proof. exact (byte_list_eqb_eq a b). Qed.

Lemma name_eqb_refl a : name_eqb a a = true.
Proof. exact (byte_list_eqb_refl a). Qed.

Lemma name_eqb_neq a b : name_eqb a b = false <-> a <> b.
Proof.
  split.
  - intros H E. apply name_eqb_eq in E. congruence.
  - intros H. destruct (name_eqb a b) eqn:E; [apply name_eqb_eq in E; contradiction | reflexivity].
Qed.

Lemma name_eq_dec (a b : name) : {a = b} + {a <> b}.
Proof. destruct (name_eqb a b) eqn:E; [left; now apply name_eqb_eq | right; now apply name_eqb_neq]. Qed.

Lemma name_eqb_sym a b : name_eqb a b = name_eqb b a.
Proof.
  destruct (name_eqb a b) eqn:E.
  - apply name_eqb_eq in E; subst; symmetry; apply name_eqb_refl.
  - symmetry. apply name_eqb_neq. apply name_eqb_neq in E. congruence.
Qed.

Lemma is_dot_eq c : is_dot c = true <-> c = dotb.
Proof. apply byte_eqb_eq. Qed.

Lemma is_nil_true {A} (l : list A) : is_nil l = true <-> l = [].
Proof. destruct l; cbn; split; congruence. Qed.
Lemma is_nil_false {A} (l : list A) : is_nil l = false <-> l <> [].
Proof. destruct l; cbn; split; congruence. Qed.

Lemma mem_name_in n l : mem_name n l = true <-> In n l.
Proof.
  unfold mem_name. rewrite existsb_exists. split.
  - intros (x & Hx & E). apply name_eqb_eq in E. now subst.
  - intros H. exists n. split; [assumption | apply name_eqb_refl].
Qed.

Lemma mem_name_false n l : mem_name n l = false <-> ~ In n l.
Proof.
  rewrite <- mem_name_in. destruct (mem_name n l); split; intros; congruence.
Qed.

Lemma nodupb_NoDup l : nodupb l = true <-> NoDup l.
Proof.
  induction l as [|x l IH]; cbn [nodupb].
  - split; [constructor | reflexivity].
  - rewrite andb_true_iff, negb_true_iff, mem_name_false, IH. split.
    + intros [H1 H2]. now constructor.
    + intros H. inversion H; auto.
Qed.

Lemma fold_left_fst {S R O} (g : S -> O -> S) (h : S * R -> O -> R) ops : forall st,
  fst (fold_left (fun st op => (g (fst st) op, h st op)) ops st) = fold_left g ops (fst st).
Proof. induction ops as [|op ops IH]; intros st; cbn [fold_left]; [reflexivity|]. now rewrite IH. Qed.

(* the same when the step returns a pair that is taken apart by [let], as the drivers [frun], [trun] do *)
Lemma fold_left_fst_let {S R O B} (step : S -> O -> S * B) (h : R -> B -> R) ops : forall st,
  fst (fold_left (fun st op => let (s', o) := step (fst st) op in (s', h (snd st) o)) ops st) =
  fold_left (fun s op => fst (step s op)) ops (fst st).
Proof.
  induction ops as [|op ops IH]; intros st; cbn [fold_left]; [reflexivity|].
  rewrite IH. now destruct (step (fst st) op).
Qed.

Section AList.
  Context {K V : Type} (eqb : K -> K -> bool).
  Hypothesis eqb_eq : forall a b, eqb a b = true <-> a = b.

  Lemma eqb_refl' a : eqb a a = true.
  Proof. now apply eqb_eq. Qed.

  Lemma aget_aput (m : list (K * V)) k v k' :
    aget eqb (aput eqb m k v) k' = if eqb k k' then Some v else aget eqb m k'.
  Proof.
    induction m as [|[k0 v0] m IH]; cbn [aput aget].
    - reflexivity.
    - destruct (eqb k0 k) eqn:E0.
      + apply eqb_eq in E0; subst k0. cbn [aget]. destruct (eqb k k'); reflexivity.
      + cbn [aget]. destruct (eqb k0 k') eqn:E1.
        * apply eqb_eq in E1; subst k0. destruct (eqb k k') eqn:E2; [|reflexivity].
          apply eqb_eq in E2; subst. rewrite eqb_refl' in E0. discriminate.
        * apply IH.
  Qed.

  Lemma aget_in (m : list (K * V)) k v : aget eqb m k = Some v -> In (k, v) m.
  Proof.
    induction m as [|[k0 v0] m IH]; cbn [aget]; [discriminate|].
    destruct (eqb k0 k) eqn:E.
    - apply eqb_eq in E; subst. intros H; inversion H; subst. now left.
    - intros H. right. auto.
  Qed.

  Lemma aget_none_notin (m : list (K * V)) k : aget eqb m k = None <-> ~ In k (map fst m).
  Proof.
    induction m as [|[k0 v0] m IH]; cbn [aget map fst].
    - split; [intros _ [] | reflexivity].
    - destruct (eqb k0 k) eqn:E.
      + apply eqb_eq in E; subst. split; [discriminate | intros H; exfalso; apply H; now left].
      + rewrite IH. split.
        * intros H [E'|Hi]; [subst; rewrite eqb_refl' in E; discriminate | contradiction].
        * intros H Hi. apply H. now right.
  Qed.

  Lemma in_nodup_aget (m : list (K * V)) k v :
    NoDup (map fst m) -> In (k, v) m -> aget eqb m k = Some v.
  Proof.
    induction m as [|[k0 v0] m IH]; cbn [aget map fst]; [intros _ []|].
    intros H. inversion H as [|? ? Hn Hd]; subst. intros [E|Hi].
    - inversion E; subst. now rewrite eqb_refl'.
    - destruct (eqb k0 k) eqn:E.
      + apply eqb_eq in E; subst. exfalso. apply Hn. change k with (fst (k, v)). now apply in_map.
      + auto.
  Qed.

  Lemma fold_put_get (l m : list (K * V)) k :
    NoDup (map fst l) ->
    aget eqb (fold_left (fun m kd => aput eqb m (fst kd) (snd kd)) l m) k =
    match aget eqb l k with Some v => Some v | None => aget eqb m k end.
  Proof.
    revert m; induction l as [|[k0 v0] l IH]; intros m H; cbn [fold_left aget fst snd].
    - reflexivity.
    - inversion H as [|? ? Hn Hd]; subst. rewrite IH by assumption.
      destruct (eqb k0 k) eqn:E.
      + apply eqb_eq in E; subst. apply aget_none_notin in Hn. rewrite Hn.
        rewrite aget_aput, eqb_refl'. reflexivity.
      + rewrite aget_aput, E. reflexivity.
  Qed.

  Lemma flat_aput_perm {X} (m : list (K * list X)) k x :
    (aget eqb m k = None \/ aget eqb m k = Some []) ->
    Permutation (flat_map snd (aput eqb m k [x])) (x :: flat_map snd m).
  Proof.
    induction m as [|[k0 v0] m IH]; cbn [aget aput flat_map snd].
    - intros _. cbn. apply Permutation_refl.
    - destruct (eqb k0 k) eqn:E.
      + intros [H|H]; [discriminate|]. inversion H; subst. cbn. apply Permutation_refl.
      + intros H. cbn [flat_map snd]. specialize (IH H).
        eapply Permutation_trans; [apply Permutation_app_head; exact IH|].
        apply Permutation_sym. apply Permutation_middle.
  Qed.
End AList.

Lemma dget_dput m k v k' : dget (dput m k v) k' = if name_eqb k k' then Some v else dget m k'.
Proof. apply aget_aput. apply name_eqb_eq. Qed.

Lemma split_last_dot_eq s : split_last_dot s = split_last_at dotb s.
Proof. reflexivity. Qed.

Lemma parent_app a b : ~ In dotb b -> parent (a ++ dotb :: b) = a.
Proof. intros H. unfold parent. rewrite split_last_dot_eq. now rewrite split_last_at_app. Qed.

Lemma parent_nil : parent [] = [].
Proof. reflexivity. Qed.

Lemma parent_cases s :
  (~ In dotb s /\ parent s = []) \/ (exists b, s = parent s ++ dotb :: b /\ ~ In dotb b).
Proof. exact (before_last_cases dotb s). Qed.

Lemma parent_length s : s <> [] -> length (parent s) < length s.
Proof. exact (before_last_shorter dotb s). Qed.

Lemma parent_ind (P : name -> Prop) :
  P [] -> (forall n, n <> [] -> P (parent n) -> P n) -> forall n, P n.
Proof.
  intros H0 Hs n. remember (length n) as k eqn:Ek. revert n Ek.
  induction k as [k IH] using lt_wf_ind. intros n Ek.
  destruct n as [|c t]; [exact H0|].
  apply Hs; [discriminate|]. apply (IH (length (parent (c :: t)))); [|reflexivity].
  subst k. apply parent_length. discriminate.
Qed.

Lemma parent_ext p y :
  parent (p ++ dotb :: y) = p \/ exists y', parent (p ++ dotb :: y) = p ++ dotb :: y'.
Proof.
  destruct (split_last_at dotb y) as [[a b]|] eqn:E.
  - right. apply split_last_at_some in E. destruct E as [-> Hn]. exists a.
    replace (p ++ dotb :: a ++ dotb :: b) with ((p ++ dotb :: a) ++ dotb :: b) by (rewrite <- app_assoc; reflexivity).
    now apply parent_app.
  - left. apply split_last_at_none in E. now apply parent_app.
Qed.

Lemma valid_ident_spec n : valid_ident n = true <-> n <> [] /\ ~ In dotb n.
Proof.
  unfold valid_ident. rewrite andb_true_iff, negb_true_iff, is_nil_false, forallb_forall. split.
  - intros [H1 H2]. split; [assumption|]. intros Hi. apply H2 in Hi.
    assert (is_dot dotb = true) by now apply is_dot_eq. rewrite H in Hi. discriminate.
  - intros [H1 H2]. split; [assumption|]. intros x Hx. destruct (is_dot x) eqn:E; [|reflexivity].
    apply is_dot_eq in E; subst. contradiction.
Qed.

Lemma fn_append_cons p c : p <> [] -> fn_append p c = p ++ dotb :: c.
Proof. destruct p; [contradiction | reflexivity]. Qed.

Lemma parent_fn_append p c : ~ In dotb c -> parent (fn_append p c) = p.
Proof. exact (before_last_join dotb p c). Qed.

Lemma fn_append_length p c : c <> [] -> length p < length (fn_append p c).
Proof.
  intros H. destruct p as [|x p]; cbn [fn_append].
  - destruct c; [contradiction | cbn; lia].
  - rewrite app_length. cbn. lia.
Qed.

Lemma fn_append_nonnil p c : c <> [] -> fn_append p c <> [].
Proof. intros H E. pose proof (fn_append_length p c H) as L. rewrite E in L. cbn in L. lia. Qed.

Lemma fn_append_inj p c c' : fn_append p c = fn_append p c' -> c = c'.
Proof.
  destruct p as [|x p]; cbn [fn_append]; [auto|].
  intros H. apply app_inv_head in H. now inversion H.
Qed.

Lemma skipn_app_dot p x : skipn (S (length p)) (p ++ dotb :: x) = x.
Proof. induction p as [|c p IH]; [reflexivity | exact IH]. Qed.

Lemma app_dot_neq p x : p ++ dotb :: x <> p.
Proof. intros H. apply (f_equal (@length _)) in H. rewrite app_length in H. cbn in H. lia. Qed.

Lemma split_first_dot_none s : ~ In dotb s -> split_first_dot s = None.
Proof.
  induction s as [|c t IH]; cbn [split_first_dot]; [reflexivity|].
  intros H. destruct (is_dot c) eqn:E.
  - apply is_dot_eq in E; subst. exfalso; apply H; now left.
  - rewrite IH; [reflexivity|]. intros Hi; apply H; now right.
Qed.

Lemma split_first_dot_app a b : ~ In dotb a -> split_first_dot (a ++ dotb :: b) = Some (a, b).
Proof.
  induction a as [|c a IH]; cbn [app split_first_dot]; intros H.
  - assert (E : is_dot dotb = true) by now apply is_dot_eq. now rewrite E.
  - destruct (is_dot c) eqn:E.
    + apply is_dot_eq in E; subst. exfalso; apply H; now left.
    + rewrite IH; [reflexivity|]. intros Hi; apply H; now right.
Qed.

Lemma pop_nodot s : ~ In dotb s -> pop s = (s, []).
Proof. intros H. unfold pop. now rewrite split_first_dot_none. Qed.

Lemma pop_app a b : ~ In dotb a -> pop (a ++ dotb :: b) = (a, b).
Proof. intros H. unfold pop. now rewrite split_first_dot_app. Qed.

Lemma chain_fuel_indep f1 : forall f2 n, length n < f1 -> length n < f2 -> chain_fuel f1 n = chain_fuel f2 n.
Proof.
  induction f1 as [|f1 IH]; intros f2 n H1 H2; [lia|].
  destruct f2 as [|f2]; [lia|]. cbn [chain_fuel].
  destruct n as [|c t]; [reflexivity|].
  assert (L : length (parent (c :: t)) < length (c :: t)) by (apply parent_length; discriminate).
  rewrite (IH f2) by lia. reflexivity.
Qed.

Lemma chain_nil : chain [] = Some [].
Proof. reflexivity. Qed.

Lemma chain_unfold n : n <> [] ->
  chain n = match chain (parent n) with Some l => Some (n :: l) | None => None end.
Proof.
  intros Hn. unfold chain at 1. cbn [chain_fuel]. destruct n as [|c t]; [contradiction|].
  assert (L : length (parent (c :: t)) < length (c :: t)) by (apply parent_length; discriminate).
  unfold chain. rewrite (chain_fuel_indep (length (c :: t)) (S (length (parent (c :: t))))) by lia.
  reflexivity.
Qed.

Lemma chain_total n : exists l, chain n = Some l.
Proof.
  induction n as [|n Hn IH] using parent_ind.
  - exists []. reflexivity.
  - destruct IH as [l Hl]. exists (n :: l). rewrite chain_unfold by assumption. now rewrite Hl.
Qed.

Lemma chain_cons n l : n <> [] -> chain n = Some l -> exists l', l = n :: l' /\ chain (parent n) = Some l'.
Proof.
  intros Hn H. rewrite chain_unfold in H by assumption.
  destruct (chain (parent n)) as [l'|]; [|discriminate]. inversion H; subst. now exists l'.
Qed.

Lemma chain_in_iff n : forall l q, chain n = Some l -> (In q l <-> dot_prefix q n).
Proof.
  induction n as [|n Hn IH] using parent_ind; intros l q H.
  - rewrite chain_nil in H. inversion H; subst. split; [intros []|].
    intros [Hq [E|[x E]]]; [congruence | destruct q; discriminate].
  - destruct (chain_cons _ _ Hn H) as (l' & -> & Hl'). specialize (IH l' q Hl'). split.
    + intros [<-|Hi].
      * split; [assumption | now left].
      * apply IH in Hi. destruct Hi as [Hq Hc]. split; [assumption|]. right.
        destruct (parent_cases n) as [[_ Ep]|(b & E & _)].
        -- rewrite Ep in Hc. destruct Hc as [Hc|[x Hc]]; [congruence | destruct q; discriminate].
        -- destruct Hc as [Hc|[x Hc]].
           ++ exists b. now rewrite Hc.
           ++ exists (x ++ dotb :: b). rewrite E, Hc. rewrite <- app_assoc. reflexivity.
    + intros [Hq [E|[x E]]].
      * left. now symmetry.
      * right. apply IH. split; [assumption|].
        subst n. destruct (parent_ext q x) as [Hp|[y' Hp]]; rewrite Hp; [now left | right; now exists y'].
Qed.

Lemma chain_in_nonnil n l q : chain n = Some l -> In q l -> q <> [].
Proof. intros H Hi. apply (chain_in_iff n l q H) in Hi. apply Hi. Qed.

Lemma dot_prefix_length q n : dot_prefix q n -> length q <= length n.
Proof.
  intros [_ [->|[x ->]]]; [lia|]. rewrite app_length. cbn. lia.
Qed.

Lemma dot_prefix_refl n : n <> [] -> dot_prefix n n.
Proof. intros H. split; [assumption | now left]. Qed.

Lemma dot_prefix_parent q n : dot_prefix q n -> parent q = [] \/ dot_prefix (parent q) n.
Proof.
  intros [Hq Hc]. destruct (parent_cases q) as [[_ Ep]|(b & E & _)]; [now left|].
  destruct (parent q) as [|c p'] eqn:Ep; [now left|]. right. split; [discriminate|]. right.
  destruct Hc as [<-|[x Hx]].
  - now exists b.
  - exists (b ++ dotb :: x). rewrite Hx, E. rewrite <- app_assoc. reflexivity.
Qed.
