(* RegistryMsgP — findDescriptorInMessage finds exactly the declarations nested in a
   (well-formed) message: soundness and completeness of [find_in_msg] w.r.t. [decls_in_msg]. *)
From Coq Require Import List Arith Bool.
From PB Require Import Base.ListP Desc.RegistryModel Desc.RegistryBaseP.
Import ListNotations.

Section MsgInd.
  Variable P : msg_decl -> Prop.
  Hypothesis H : forall n msgs enums exts fields oneofs,
      Forall P msgs -> P (MsgDecl n msgs enums exts fields oneofs).
  Fixpoint msg_decl_ind' (m : msg_decl) : P m :=
    match m with
    | MsgDecl n msgs enums exts fields oneofs =>
        H n msgs enums exts fields oneofs
          ((fix go (l : list msg_decl) : Forall P l :=
              match l with
              | [] => Forall_nil _
              | x :: r => Forall_cons x (msg_decl_ind' x) (go r)
              end) msgs)
    end.
End MsgInd.

Lemma first_msg_named_some {A} (f : msg_decl -> option A) nm l a :
  first_msg_named f nm l = Some a -> exists m', In m' l /\ msg_name m' = nm /\ f m' = Some a.
Proof.
  induction l as [|m l IH]; cbn [first_msg_named]; [discriminate|].
  destruct (name_eqb (msg_name m) nm) eqn:E.
  - intros Hf. apply name_eqb_eq in E. exists m. repeat split; [now left | assumption | assumption].
  - intros Hf. destruct (IH Hf) as (m' & Hi & Hn & Hf'). exists m'. repeat split; [now right | assumption | assumption].
Qed.

Lemma first_msg_named_nodup {A} (f : msg_decl -> option A) l m' :
  NoDup (map msg_name l) -> In m' l -> first_msg_named f (msg_name m') l = f m'.
Proof.
  induction l as [|m l IH]; cbn [first_msg_named map]; [intros _ []|].
  intros Hnd. inversion Hnd as [|? ? Hn Hd]; subst. intros [->|Hi].
  - now rewrite name_eqb_refl.
  - destruct (name_eqb (msg_name m) (msg_name m')) eqn:E.
    + apply name_eqb_eq in E. exfalso. apply Hn. rewrite E. now apply in_map.
    + auto.
Qed.

Definition scope_lookup (enums : list enum_decl) (exts fields oneofs : list name) (c : name) : option kind :=
  if existsb (fun e => name_eqb (enum_name e) c) enums then Some KEnum
  else if existsb (fun e => mem_name c (enum_values e)) (rev enums) then Some KEnumVal
  else if mem_name c exts then Some KExt
  else if mem_name c fields then Some KField
  else if mem_name c oneofs then Some KOneof
  else None.

Lemma enum_named_in enums c :
  existsb (fun e => name_eqb (enum_name e) c) enums = true <-> In c (map enum_name enums).
Proof.
  rewrite existsb_exists, in_map_iff. split.
  - intros (e & He & E). apply name_eqb_eq in E. now exists e.
  - intros (e & E & He). exists e. split; [assumption | now apply name_eqb_eq].
Qed.

Lemma enum_value_in enums c :
  existsb (fun e => mem_name c (enum_values e)) (rev enums) = true <-> In c (flat_map enum_values enums).
Proof.
  rewrite existsb_exists, in_flat_map. split.
  - intros (e & He & E). apply in_rev in He. apply mem_name_in in E. now exists e.
  - intros (e & He & E). exists e. split; [now apply in_rev in He | now apply mem_name_in].
Qed.

Lemma find_in_msg_unfold fid full n msgs enums exts fields oneofs sfx :
  find_in_msg fid full (MsgDecl n msgs enums exts fields oneofs) sfx =
  let c := fst (pop sfx) in
  if is_nil (snd (pop sfx)) then
    match scope_lookup enums exts fields oneofs c with
    | Some k => Some (Desc k fid (fn_append full c))
    | None => first_msg_named (fun _ => Some (Desc KMsg fid (fn_append full c))) c msgs
    end
  else first_msg_named (fun m' => find_in_msg fid (fn_append full c) m' (snd (pop sfx))) c msgs.
Proof.
  cbn [find_in_msg]. cbv zeta. unfold scope_lookup. destruct (is_nil (snd (pop sfx))); [|reflexivity].
  destruct (existsb (fun e => name_eqb (enum_name e) (fst (pop sfx))) enums); [reflexivity|].
  destruct (existsb (fun e => mem_name (fst (pop sfx)) (enum_values e)) (rev enums)); [reflexivity|].
  destruct (mem_name (fst (pop sfx)) exts); [reflexivity|].
  destruct (mem_name (fst (pop sfx)) fields); [reflexivity|].
  destruct (mem_name (fst (pop sfx)) oneofs); reflexivity.
Qed.

Lemma find_in_msg_last fid full n msgs enums exts fields oneofs c :
  ~ In dotb c ->
  find_in_msg fid full (MsgDecl n msgs enums exts fields oneofs) c =
  match scope_lookup enums exts fields oneofs c with
  | Some k => Some (Desc k fid (fn_append full c))
  | None => first_msg_named (fun _ => Some (Desc KMsg fid (fn_append full c))) c msgs
  end.
Proof. intros Hc. rewrite find_in_msg_unfold, pop_nodot by assumption. reflexivity. Qed.

Lemma find_in_msg_deeper fid full n msgs enums exts fields oneofs c x :
  ~ In dotb c -> x <> [] ->
  find_in_msg fid full (MsgDecl n msgs enums exts fields oneofs) (c ++ dotb :: x) =
  first_msg_named (fun m' => find_in_msg fid (fn_append full c) m' x) c msgs.
Proof.
  intros Hc Hx. rewrite find_in_msg_unfold, pop_app by assumption. cbn [fst snd].
  destruct x; [contradiction | reflexivity].
Qed.

(* membership in a right-nested append *)
Ltac in_app :=
  solve [ assumption
        | apply in_or_app; left; in_app
        | apply in_or_app; right; in_app ].

(* [scope_lookup] is a first-wins search through five lists of names; when their concatenation
   (followed by any [tl]) is duplicate-free it finds the list the name is in *)
Fixpoint first_in (L : list (kind * list name)) (c : name) : option kind :=
  match L with
  | [] => None
  | (k, l) :: r => if mem_name c l then Some k else first_in r c
  end.

Lemma scope_lookup_first enums exts fields oneofs c :
  scope_lookup enums exts fields oneofs c =
  first_in [(KEnum, map enum_name enums); (KEnumVal, flat_map enum_values enums);
            (KExt, exts); (KField, fields); (KOneof, oneofs)] c.
Proof.
  unfold scope_lookup. cbn [first_in].
  replace (existsb (fun e => name_eqb (enum_name e) c) enums) with (mem_name c (map enum_name enums))
    by (apply eq_true_iff_eq; rewrite mem_name_in; symmetry; apply enum_named_in).
  replace (existsb (fun e => mem_name c (enum_values e)) (rev enums)) with (mem_name c (flat_map enum_values enums))
    by (apply eq_true_iff_eq; rewrite mem_name_in; symmetry; apply enum_value_in).
  reflexivity.
Qed.

Section FirstIn.
  Variables (tl : list name) (c : name).
  Local Notation cat L := (fold_right (fun (kl : kind * list name) acc => snd kl ++ acc) tl L).

  Lemma cat_in L : (exists k l, In (k, l) L /\ In c l) \/ In c tl -> In c (cat L).
  Proof.
    induction L as [|[k0 l0] L IH]; cbn [fold_right snd].
    - intros [(k & l & [] & _)|H]; exact H.
    - intros H. apply in_or_app. destruct H as [(k & l & [E|Hi] & H)|H].
      + inversion E; subst. now left.
      + right. apply IH. left. now exists k, l.
      + right. apply IH. now right.
  Qed.

  Lemma first_in_found L k l : NoDup (cat L) -> In (k, l) L -> In c l -> first_in L c = Some k.
  Proof.
    induction L as [|[k0 l0] L IH]; cbn [fold_right snd first_in]; [intros _ []|]; intros ND [E|Hin] Hc.
    - inversion E; subst. apply mem_name_in in Hc. now rewrite Hc.
    - destruct (list_nodup_app_inv _ _ ND) as (_ & ND' & Hd). destruct (mem_name c l0) eqn:E0; [|now apply IH].
      exfalso. apply mem_name_in in E0. apply (Hd c E0). apply cat_in. left. now exists k, l.
  Qed.

  Lemma first_in_none L : NoDup (cat L) -> In c tl -> first_in L c = None.
  Proof.
    induction L as [|[k0 l0] L IH]; cbn [fold_right snd first_in]; intros ND Hc; [reflexivity|].
    destruct (list_nodup_app_inv _ _ ND) as (_ & ND' & Hd). destruct (mem_name c l0) eqn:E0; [|now apply IH].
    exfalso. apply mem_name_in in E0. apply (Hd c E0). apply cat_in. now right.
  Qed.

  Lemma cat_nodup_tl L : NoDup (cat L) -> NoDup tl.
  Proof.
    induction L as [|[k0 l0] L IH]; cbn [fold_right snd]; [auto|].
    intros ND. apply IH. now destruct (list_nodup_app_inv _ _ ND) as (_ & ND' & _).
  Qed.
End FirstIn.

Lemma scope_lookup_decl enums exts fields oneofs c k full tl :
  scope_lookup enums exts fields oneofs c = Some k ->
  In (k, fn_append full c)
     (flat_map (decls_enum full) enums ++ map (fun x => (KExt, fn_append full x)) exts
      ++ map (fun x => (KField, fn_append full x)) fields ++ map (fun x => (KOneof, fn_append full x)) oneofs ++ tl).
Proof.
  unfold scope_lookup. intros H.
  destruct (existsb (fun e => name_eqb (enum_name e) c) enums) eqn:E1.
  { inversion H. apply enum_named_in, in_map_iff in E1. destruct E1 as (e & <- & He).
    apply in_or_app; left. apply in_flat_map. exists e. split; [assumption | now left]. }
  destruct (existsb (fun e => mem_name c (enum_values e)) (rev enums)) eqn:E2.
  { inversion H. apply enum_value_in, in_flat_map in E2. destruct E2 as (e & He & Hv).
    apply in_or_app; left. apply in_flat_map. exists e. split; [assumption|].
    right. now apply (in_map (fun v => (KEnumVal, fn_append full v))). }
  destruct (mem_name c exts) eqn:E3.
  { inversion H. apply mem_name_in, (in_map (fun x => (KExt, fn_append full x))) in E3. in_app. }
  destruct (mem_name c fields) eqn:E4.
  { inversion H. apply mem_name_in, (in_map (fun x => (KField, fn_append full x))) in E4. in_app. }
  destruct (mem_name c oneofs) eqn:E5; [|discriminate].
  inversion H. apply mem_name_in, (in_map (fun x => (KOneof, fn_append full x))) in E5. in_app.
Qed.

Lemma find_in_msg_sound fid : forall m full suffix d,
  find_in_msg fid full m suffix = Some d ->
  d_fid d = fid /\ In (d_kind d, d_full d) (decls_in_msg full m).
Proof.
  induction m as [n msgs enums exts fields oneofs IH] using msg_decl_ind'.
  intros full suffix d. rewrite find_in_msg_unfold. cbv zeta. cbn [decls_in_msg]. rewrite Forall_forall in IH.
  destruct (is_nil (snd (pop suffix))); [destruct (scope_lookup enums exts fields oneofs _) as [k|] eqn:El|]; intros H.
  - inversion H; subst d. split; [reflexivity | now apply scope_lookup_decl].
  - apply first_msg_named_some in H. destruct H as (m' & Hm' & En & Hf). inversion Hf; subst d.
    split; [reflexivity|]. do 4 (apply in_or_app; right). apply in_flat_map. exists m'. rewrite En.
    split; [assumption | now left].
  - apply first_msg_named_some in H. destruct H as (m' & Hm' & En & Hf).
    destruct (IH m' Hm' _ _ _ Hf) as [Hfid Hin]. split; [assumption|].
    do 4 (apply in_or_app; right). apply in_flat_map. exists m'. rewrite En. split; [assumption | now right].
Qed.

Lemma find_in_msg_complete fid : forall m full k nn,
  wf_msg m = true -> full <> [] -> In (k, nn) (decls_in_msg full m) ->
  exists x, x <> [] /\ nn = full ++ dotb :: x /\ find_in_msg fid full m x = Some (Desc k fid nn).
Proof.
  induction m as [n msgs enums exts fields oneofs IH] using msg_decl_ind'.
  intros full k nn Hwf Hfull Hin.
  cbn [wf_msg msg_scope_names] in Hwf.
  apply andb_true_iff in Hwf. destruct Hwf as [Hwf Hsub].
  apply andb_true_iff in Hwf. destruct Hwf as [Hwf Hnd].
  apply andb_true_iff in Hwf. destruct Hwf as [_ Hval].
  apply nodupb_NoDup in Hnd. rewrite forallb_forall in Hval, Hsub.
  set (L := [(KEnum, map enum_name enums); (KEnumVal, flat_map enum_values enums);
             (KExt, exts); (KField, fields); (KOneof, oneofs)]).
  assert (V : forall c, In c (fold_right (fun kl acc => snd kl ++ acc) (map msg_name msgs) L) -> c <> [] /\ ~ In dotb c).
  { intros c Hc. apply valid_ident_spec. now apply Hval. }
  (* a name [c] from one of the five lists, looked up as the last component *)
  assert (Last : forall kk l c, In (kk, l) L -> In c l ->
             exists x, x <> [] /\ fn_append full c = full ++ dotb :: x /\
                       find_in_msg fid full (MsgDecl n msgs enums exts fields oneofs) x = Some (Desc kk fid (fn_append full c))).
  { intros kk l c Hl Hc. destruct (V c) as [Hc1 Hc2]; [apply cat_in; left; now exists kk, l|].
    exists c. repeat split.
    - assumption.
    - now apply fn_append_cons.
    - rewrite find_in_msg_last, scope_lookup_first by assumption. fold L.
      now rewrite (first_in_found (map msg_name msgs) c L kk l Hnd Hl Hc). }
  cbn [decls_in_msg] in Hin. rewrite !in_app_iff in Hin.
  destruct Hin as [Hin|[Hin|[Hin|[Hin|Hin]]]].
  1:{ apply in_flat_map in Hin. destruct Hin as (e & He & [Hin|Hin]).
      - inversion Hin; subst k nn. apply (Last KEnum (map enum_name enums)); [now left | now apply in_map].
      - apply in_map_iff in Hin. destruct Hin as (v & E & Hv). inversion E; subst k nn.
        apply (Last KEnumVal (flat_map enum_values enums)); [right; now left | apply in_flat_map; now exists e]. }
  1:{ apply in_map_iff in Hin. destruct Hin as (v & E & Hv). inversion E; subst k nn.
      apply (Last KExt exts); [do 2 right; now left | exact Hv]. }
  1:{ apply in_map_iff in Hin. destruct Hin as (v & E & Hv). inversion E; subst k nn.
      apply (Last KField fields); [do 3 right; now left | exact Hv]. }
  1:{ apply in_map_iff in Hin. destruct Hin as (v & E & Hv). inversion E; subst k nn.
      apply (Last KOneof oneofs); [do 4 right; now left | exact Hv]. }
  (* nested messages *)
  apply in_flat_map in Hin. destruct Hin as (m' & Hm' & Hin).
  assert (HF : In (msg_name m') (map msg_name msgs)) by now apply in_map.
  destruct (V (msg_name m')) as [Hc1 Hc2]; [apply cat_in; now right|].
  pose proof (cat_nodup_tl (map msg_name msgs) L Hnd) as NDm.
  destruct Hin as [Hin|Hin].
  - inversion Hin; subst k nn. exists (msg_name m'). repeat split.
    + assumption.
    + now apply fn_append_cons.
    + rewrite find_in_msg_last by assumption.
      rewrite scope_lookup_first. fold L. rewrite (first_in_none (map msg_name msgs) _ L Hnd) by assumption.
      now rewrite first_msg_named_nodup.
  - rewrite Forall_forall in IH.
    assert (Hfull' : fn_append full (msg_name m') <> []) by now apply fn_append_nonnil.
    destruct (IH m' Hm' _ _ _ (Hsub m' Hm') Hfull' Hin) as (x & Hx & En & Hf).
    exists (msg_name m' ++ dotb :: x). repeat split.
    + destruct (msg_name m'); discriminate.
    + rewrite En. rewrite fn_append_cons by assumption. rewrite <- app_assoc. reflexivity.
    + rewrite find_in_msg_deeper by assumption.
      rewrite first_msg_named_nodup by assumption. exact Hf.
Qed.
