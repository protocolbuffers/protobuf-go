(* Proofs about the descriptor-validation model (C35), part 5: ranges.
   The range functions of ValidateModel are a second transcription of desc_list.go.  They are
   related here, loop by loop, to those of DescRangesModel; the theory of DescRangesP then says
   what CheckValid establishes on any permutation of the declared ranges (validity, pairwise
   disjointness), that the binary search of Has decides membership and that the two-pointer
   sweep of CheckOverlap decides cross-disjointness.  Consequences for accepted files. *)
From Coq Require Import List NArith ZArith Bool Lia Permutation Sorting.Sorted.
From PB Require Import Desc.DescRangesModel Desc.DescRangesP.
From PB Require Import Desc.ValidateModel Desc.ValidateP.
Import ListNotations.
Open Scope Z_scope.

Section Ranges.
  Variable hi : Z * Z -> Z.            (* inclusive upper end of a range *)
  Definition lo (r : Z * Z) : Z := fst r.
  Definition disjoint (a b : Z * Z) : Prop := hi a < lo b \/ hi b < lo a.
End Ranges.

(* the sorted copy is a permutation *)
Lemma insert_perm : forall r l, Permutation (insert_by_start r l) (r :: l).
Proof.
  intros r l; induction l as [|x l IH]; [reflexivity|].
  cbn. destruct (fst r <? fst x); [reflexivity|].
  rewrite IH. apply perm_swap.
Qed.
Lemma sort_perm_aux : forall l acc, Permutation (fold_left (fun acc r => insert_by_start r acc) l acc) (acc ++ l).
Proof.
  induction l as [|x l IH]; intros acc; cbn; [rewrite app_nil_r; reflexivity|].
  rewrite IH. rewrite insert_perm. cbn [app]. apply Permutation_middle.
Qed.
Lemma sort_perm : forall l, Permutation (sort_ranges l) l.
Proof. intros l. unfold sort_ranges. rewrite sort_perm_aux. reflexivity. Qed.

(* the three loops are those of DescRangesModel *)
Lemma enum_ranges_ok_aux_check : forall s prev,
  enum_ranges_ok_aux prev s =
  match check_valid_loop EnumR false (match prev with None => true | Some _ => false end)
                         (match prev with Some p => p | None => (0, 0) end) s
  with CVOk => true | _ => false end.
Proof.
  induction s as [|r s IH]; intros prev; [reflexivity|].
  cbn [enum_ranges_ok_aux check_valid_loop number_checks negb]. rewrite (IH (Some r)).
  change (r_start r <=? r_end EnumR r) with (fst r <=? snd r).
  destruct (fst r <=? snd r); [|reflexivity].
  destruct prev as [p|]; cbn [negb]; [|rewrite andb_false_r; reflexivity].
  change (r_end EnumR p <? r_start r) with (snd p <? fst r).
  destruct (snd p <? fst r); reflexivity.
Qed.

Lemma field_ranges_ok_aux_check : forall ms s prev,
  field_ranges_ok_aux ms prev s =
  match check_valid_loop FieldR ms (match prev with None => true | Some _ => false end)
                         (match prev with Some p => p | None => (0, 0) end) s
  with CVOk => true | _ => false end.
Proof.
  induction s as [|r s IH]; intros prev; [reflexivity|].
  cbn [field_ranges_ok_aux check_valid_loop]. rewrite (IH (Some r)).
  change (number_checks FieldR ms r) with (range_num_valid (fst r) ms && range_num_valid (fr_end r) ms).
  destruct (range_num_valid (fst r) ms && range_num_valid (fr_end r) ms); [|reflexivity].
  change (r_start r <=? r_end FieldR r) with (fst r <=? fr_end r).
  destruct (fst r <=? fr_end r); [|reflexivity].
  destruct prev as [p|]; cbn [negb]; [|rewrite andb_false_r; reflexivity].
  change (r_end FieldR p <? r_start r) with (fr_end p <? fst r).
  destruct (fr_end p <? fst r); reflexivity.
Qed.

Lemma bsearch_unfold : forall fuel hi l n, l <> [] ->
  bsearch (S fuel) hi l n =
  match nth_error l (Nat.div2 (length l)) with
  | None => false
  | Some r => if n <? fst r then bsearch fuel hi (firstn (Nat.div2 (length l)) l) n
              else if hi r <? n then bsearch fuel hi (skipn (S (Nat.div2 (length l))) l) n
              else true
  end.
Proof. intros fuel hi l n H. destruct l; [congruence|reflexivity]. Qed.

Lemma has_loop_bsearch : forall k n f ls, (length ls <= f)%nat ->
  has_loop f k ls n = Some (bsearch (S f) (r_end k) ls n).
Proof.
  induction f as [|f IH]; intros [|a ls] Hl; try reflexivity; [cbn in Hl; lia|].
  rewrite bsearch_unfold by discriminate. cbn [has_loop]. unfold range in *.
  pose proof (div2_lt_length a ls) as Hi.
  destruct (nth_error _ _) as [r|] eqn:E; [|apply nth_error_None in E; lia].
  change (r_start r) with (fst r).
  destruct (n <? fst r); [apply IH; rewrite firstn_length; lia|].
  destruct (r_end k r <? n); [apply IH; rewrite skipn_length; lia|reflexivity].
Qed.

Lemma overlap_sweep_loop : forall fuel ps qs, (length ps + length qs < fuel)%nat ->
  overlap_sweep fuel ps qs = negb (overlap_loop FieldR ps qs).
Proof.
  induction fuel as [|f IH]; intros ps qs Hl; [lia|].
  destruct ps as [|p ps], qs as [|q qs]; try reflexivity.
  rewrite overlap_loop_cons. cbn [overlap_sweep].
  change (negb ((fr_end p <? fst q) || (fr_end q <? fst p))) with (intersects FieldR p q).
  destruct (intersects FieldR p q); [reflexivity|].
  change (r_start p <? r_start q) with (fst p <? fst q).
  destruct (fst p <? fst q); apply IH; cbn [length] in *; lia.
Qed.

(* CheckValid and Has *)
(* what a CheckValid pass over any permutation [s] of [l] establishes *)
Lemma checked_ranges : forall k ms l s, Permutation s l ->
  check_valid_loop k ms true (0, 0) s = CVOk ->
  Forall (range_ok k ms) l /\ NoDup l /\
  (forall a b, In a l -> In b l -> a <> b -> disjoint (r_end k) a b) /\
  (forall n, bsearch (S (length l)) (r_end k) s n = true <-> exists r, In r l /\ contains k r n).
Proof.
  intros k ms l s Hp Hc. destruct (any_check_valid_sound k l s Hp ms Hc) as [Hok Hd].
  assert (Hv : Forall (rvalid k) l) by (eapply Forall_impl; [|exact Hok]; intros r Hr; exact (proj2 Hr)).
  split; [exact Hok|]. split; [exact (disjoint_pairs_NoDup k l Hv Hd)|]. split.
  - intros a b Ha Hb Hne.
    destruct (ForallOrdPairs_In Hd a b Ha Hb) as [E|[D|D]]; [contradiction| |apply disjoint_sym in D];
      apply disjoint_iff in D; exact D.
  - intros n. rewrite <- (any_has_iff_member k l s Hp ms n Hc), <- (Permutation_length Hp).
    rewrite has_loop_bsearch by apply le_n. split; [intros E; f_equal; exact E|intros [= E]; exact E].
Qed.

(* declared ranges (in declaration order) after a successful CheckValid; 536870911 is [max_valid],
   written out as in Props/C35.v *)
Theorem enum_ranges_ok_spec : forall l,
  enum_ranges_ok l = true ->
  (forall r, In r l -> fst r <= snd r) /\ NoDup l /\
  (forall a b, In a l -> In b l -> a <> b -> disjoint snd a b) /\
  (forall n, enum_ranges_has l n = true <-> exists r, In r l /\ fst r <= n <= snd r).
Proof.
  intros l H. unfold enum_ranges_ok in H. rewrite enum_ranges_ok_aux_check in H.
  destruct (check_valid_loop EnumR false true (0, 0) (sort_ranges l)) eqn:Hc; try discriminate.
  destruct (checked_ranges EnumR false l _ (sort_perm l) Hc) as (Hok & Hnd & Hdj & Hhas).
  split; [|split; [exact Hnd|split; [exact Hdj|exact Hhas]]].
  rewrite Forall_forall in Hok. intros r Hr. exact (proj2 (Hok r Hr)).
Qed.

Theorem field_ranges_ok_spec : forall ms l,
  field_ranges_ok ms l = true ->
  (forall r, In r l -> 1 <= fst r <= fr_end r /\ (ms = false -> fr_end r <= 536870911)) /\ NoDup l /\
  (forall a b, In a l -> In b l -> a <> b -> disjoint fr_end a b) /\
  (forall n, field_ranges_has l n = true <-> exists r, In r l /\ fst r <= n <= fr_end r).
Proof.
  intros ms l H. unfold field_ranges_ok in H. rewrite field_ranges_ok_aux_check in H.
  destruct (check_valid_loop FieldR ms true (0, 0) (sort_ranges l)) eqn:Hc; try discriminate.
  destruct (checked_ranges FieldR ms l _ (sort_perm l) Hc) as (Hok & Hnd & Hdj & Hhas).
  split; [|split; [exact Hnd|split; [exact Hdj|exact Hhas]]].
  rewrite Forall_forall in Hok. intros r Hr. destruct (Hok r Hr) as [Hn Hv].
  change (range_num_valid (fst r) ms && range_num_valid (fr_end r) ms = true) in Hn.
  apply andb_true_iff in Hn. destruct Hn as [Hn1 Hn2]. unfold range_num_valid, max_valid in Hn1, Hn2.
  apply andb_true_iff in Hn1, Hn2. destruct Hn1 as [Ha _], Hn2 as [_ Hb]. apply Z.leb_le in Ha.
  split; [exact (conj Ha Hv)|]. intros ->. rewrite orb_false_r in Hb. apply Z.leb_le in Hb. exact Hb.
Qed.

(* for int32 inputs the wrapped end is the mathematical one *)
Lemma fr_end_int32 : forall r, -2147483648 < snd r <= 2147483647 -> fr_end r = snd r - 1.
Proof. exact field_end_nowrap. Qed.

(* CheckOverlap: the two-pointer sweep *)
Theorem ranges_no_overlap_spec : forall ms a b,
  field_ranges_ok ms a = true -> field_ranges_ok ms b = true -> ranges_no_overlap a b = true ->
  forall x y, In x a -> In y b -> disjoint fr_end x y.
Proof.
  intros ms a b Ha Hb H x y Hx Hy.
  unfold field_ranges_ok in Ha, Hb. rewrite field_ranges_ok_aux_check in Ha, Hb.
  destruct (check_valid_loop FieldR ms true (0, 0) (sort_ranges a)) eqn:Ca; try discriminate.
  destruct (check_valid_loop FieldR ms true (0, 0) (sort_ranges b)) eqn:Cb; try discriminate.
  destruct (any_valid_strong FieldR _ ms Ca) as (Sa & Va).
  destruct (any_valid_strong FieldR _ ms Cb) as (Sb & Vb).
  unfold ranges_no_overlap in H. rewrite overlap_sweep_loop in H
    by (rewrite (Permutation_length (sort_perm a)), (Permutation_length (sort_perm b)); lia).
  apply negb_true_iff in H.
  apply (disjoint_iff FieldR x y). unfold DescRangesP.disjoint.
  destruct (intersects FieldR x y) eqn:Ei; [|reflexivity].
  rewrite <- H. symmetry. apply (overlap_loop_spec FieldR _ _ Va Vb Sa Sb).
  exists x, y. split; [|split; [|exact Ei]]; (eapply Permutation_in; [symmetry; apply sort_perm|assumption]).
Qed.

(* consequences for accepted declarations *)
Definition msg_range_error (m : msg) : Prop :=
  (* an invalid range *)
  (exists r, In r (m_resranges m ++ m_extranges m) /\ ~ (1 <= fst r /\ fst r <= fr_end r /\ fr_end r <= 536870911)) \/
  (* the same range declared twice, or two overlapping ranges of the same kind *)
  ~ NoDup (m_resranges m) \/ ~ NoDup (m_extranges m) \/
  (exists a b, In a (m_resranges m) /\ In b (m_resranges m) /\ a <> b /\ ~ disjoint fr_end a b) \/
  (exists a b, In a (m_extranges m) /\ In b (m_extranges m) /\ a <> b /\ ~ disjoint fr_end a b) \/
  (* a reserved range overlapping an extension range *)
  (exists a b, In a (m_resranges m) /\ In b (m_extranges m) /\ ~ disjoint fr_end a b) \/
  (* a field numbered inside a reserved or an extension range *)
  (exists f r, In f (m_fields m) /\ In r (m_resranges m ++ m_extranges m) /\ fst r <= f_num f <= fr_end r).

Definition enum_range_error (e : enum) : Prop :=
  (exists r, In r (en_resranges e) /\ ~ fst r <= snd r) \/ ~ NoDup (en_resranges e) \/
  (exists a b, In a (en_resranges e) /\ In b (en_resranges e) /\ a <> b /\ ~ disjoint snd a b) \/
  (exists v r, In v (en_values e) /\ In r (en_resranges e) /\ fst r <= ev_number v <= snd r).

Theorem msg_local_ranges_sound : forall allow syntax t full m,
  msg_local false allow syntax t full m = Ok tt -> ~ msg_range_error m.
Proof.
  intros allow syntax t full m H.
  apply msg_local_ok in H. destruct H as (_ & Hres & Hext & Hov & _ & Hms & _ & _ & Hfields & _).
  rewrite andb_true_r in Hms. rewrite Hms in Hres, Hext.
  destruct (field_ranges_ok_spec _ _ Hres) as [R1 [R2 [R3 R4]]].
  destruct (field_ranges_ok_spec _ _ Hext) as [X1 [X2 [X3 X4]]].
  intros [E|[E|[E|[E|[E|[E|E]]]]]].
  - destruct E as [r [Hin Hbad]]. apply Hbad. apply in_app_or in Hin. destruct Hin as [Hin|Hin].
    + destruct (R1 r Hin) as [[Ha1 Ha2] Hb]. exact (conj Ha1 (conj Ha2 (Hb eq_refl))).
    + destruct (X1 r Hin) as [[Ha1 Ha2] Hb]. exact (conj Ha1 (conj Ha2 (Hb eq_refl))).
  - exact (E R2).
  - exact (E X2).
  - destruct E as [a [b [Ha [Hb [Hne Hnd]]]]]. exact (Hnd (R3 a b Ha Hb Hne)).
  - destruct E as [a [b [Ha [Hb [Hne Hnd]]]]]. exact (Hnd (X3 a b Ha Hb Hne)).
  - destruct E as [a [b [Ha [Hb Hnd]]]]. exact (Hnd (ranges_no_overlap_spec false _ _ Hres Hext Hov a b Ha Hb)).
  - destruct E as [f [r [Hf [Hr Hin]]]].
    destruct (validate_field_facts _ _ _ _ _ _ f (Hfields f Hf)) as (_ & _ & _ & Hnr & Hnx & _).
    apply in_app_or in Hr. destruct Hr as [Hr|Hr].
    + assert (field_ranges_has (m_resranges m) (f_num f) = true) by (apply R4; exists r; auto). congruence.
    + assert (field_ranges_has (m_extranges m) (f_num f) = true) by (apply X4; exists r; auto). congruence.
Qed.

Theorem validate_enum_ranges_sound : forall syntax e,
  validate_enum syntax e = Ok tt -> ~ enum_range_error e.
Proof.
  intros syntax e H.
  apply validate_enum_ok in H. destruct H as (_ & Hrr & _ & _ & _ & _ & HV).
  destruct (enum_ranges_ok_spec _ Hrr) as [R1 [R2 [R3 R4]]].
  intros [E|[E|[E|E]]].
  - destruct E as [r [Hin Hbad]]. exact (Hbad (R1 r Hin)).
  - exact (E R2).
  - destruct E as [a [b [Ha [Hb [Hne Hnd]]]]]. exact (Hnd (R3 a b Ha Hb Hne)).
  - destruct E as [v [r [Hv [Hr Hin]]]]. destruct (HV v Hv) as (_ & _ & Hnr).
    assert (enum_ranges_has (en_resranges e) (ev_number v) = true) by (apply R4; exists r; auto). congruence.
Qed.

Theorem validate_sound_ranges : forall allow f,
  validate false allow f = Accept ->
  (forall m, In m (file_msgs f) -> ~ msg_range_error m) /\
  (forall e, In e (file_enums f) -> ~ enum_range_error e).
Proof.
  intros allow f H. destruct (accept_structure false allow f H) as [Hm He]. split.
  - intros m Hin. destruct (Hm m Hin) as [[full Hloc] _]. exact (msg_local_ranges_sound _ _ _ _ _ Hloc).
  - intros e Hin. exact (validate_enum_ranges_sound _ _ (He e Hin)).
Qed.

Lemma ranges_examples :
  field_ranges_ok false [(50, 60); (10, 20); (30, 40)] = true /\
  field_ranges_ok false [(40, 50); (20, 30); (60, 70)] = true /\
  ranges_no_overlap [(50, 60); (10, 20); (30, 40)] [(40, 50); (20, 30); (60, 70)] = true /\
  ranges_no_overlap [(50, 60); (10, 20); (30, 40)] [(40, 50); (20, 31); (60, 70)] = false /\
  field_ranges_ok false [(10, 20); (19, 30)] = false /\
  field_ranges_has [(50, 60); (10, 20); (30, 40)] 39 = true /\
  field_ranges_has [(50, 60); (10, 20); (30, 40)] 40 = false.
Proof. repeat split; vm_compute; reflexivity. Qed.
