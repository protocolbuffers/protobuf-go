(* Proofs about the descriptor-validation model (C35), part 4: a valid-by-construction base.
   Files made of flat messages with scalar fields, valid distinct numbers and file-wide distinct
   valid names are accepted (under both AllowUnresolvable settings, with or without protolegacy). *)
From Coq Require Import List NArith ZArith Bool Lia.
From PB Require Import Base.ListP Desc.ValidateModel Desc.ValidateP Desc.ValidateSoundP.
Import ListNotations.
Open Scope Z_scope.

Definition scalar_kind (k : Z) : Prop := 1 <= k <= 18 /\ k <> 10 /\ k <> 11 /\ k <> 14.
(* 536870911 is [max_valid] (protowire.MaxValidNumber, 2^29 - 1), written out as in Props/C35.v *)
Definition base_field (syntax : N) (f : field) : Prop :=
  name_valid (f_name f) = true /\ 1 <= f_num f <= 536870911 /\
  (f_label f = 1 \/ f_label f = 3 \/ (f_label f = 2 /\ syntax = 0%N)) /\
  scalar_kind (f_type f) /\ f_tname f = [] /\ f_oneof f = None /\ f_p3opt f = false /\ f_extendee f = None.
Definition base_msg (syntax : N) (m : msg) : Prop :=
  exists name fields, m = Msg name fields [] [] [] [] [] [] [] false false /\ name_valid name = true /\
    Forall (base_field syntax) fields /\ NoDup (map f_num fields).
Definition msg_names (m : msg) : list str := m_name m :: map f_name (m_fields m).
Definition base_file (f : file) : Prop :=
  (fl_pkg f = [] \/ fullname_valid (fl_pkg f) = true) /\ fl_enums f = [] /\ fl_exts f = [] /\
  Forall (base_msg (fl_syntax f)) (fl_msgs f) /\ NoDup (flat_map msg_names (fl_msgs f)).

(* the last component of a full name *)
Fixpoint until_dot (s : str) : str :=
  match s with [] => [] | c :: r => if N.eqb c c_dot then [] else c :: until_dot r end.
Definition last_comp (s : str) : str := rev (until_dot (rev s)).

Lemma until_dot_nodot : forall a, has_dot a = false -> until_dot a = a.
Proof.
  induction a as [|c r IH]; intros H; [reflexivity|].
  unfold has_dot in H. cbn [existsb] in H. apply orb_false_iff in H. destruct H as [H1 H2].
  cbn [until_dot]. rewrite N.eqb_sym in H1. rewrite H1. rewrite IH by exact H2. reflexivity.
Qed.
Lemma until_dot_app : forall a b, has_dot a = false -> until_dot (a ++ c_dot :: b) = a.
Proof.
  induction a as [|c r IH]; intros b H; cbn [app until_dot].
  - rewrite N.eqb_refl. reflexivity.
  - unfold has_dot in H. cbn [existsb] in H. apply orb_false_iff in H. destruct H as [H1 H2].
    rewrite N.eqb_sym in H1. rewrite H1. rewrite IH by exact H2. reflexivity.
Qed.
Lemma has_dot_rev : forall a, has_dot (rev a) = has_dot a.
Proof.
  intros a. unfold has_dot. apply eq_iff_eq_true. rewrite !existsb_exists.
  split; intros [x [Hx He]]; exists x; (split; [|exact He]).
  - apply in_rev. exact Hx.
  - apply in_rev in Hx. exact Hx.
Qed.
Lemma last_comp_join : forall scope name, has_dot name = false -> last_comp (join scope name) = name.
Proof.
  intros scope name H. unfold last_comp, join. destruct scope as [|c r].
  - rewrite until_dot_nodot by (rewrite has_dot_rev; exact H). apply rev_involutive.
  - rewrite rev_app_distr. cbn [rev]. rewrite <- app_assoc. cbn [app].
    rewrite until_dot_app by (rewrite has_dot_rev; exact H). apply rev_involutive.
Qed.

Lemma is_letter_digit_not_dot : forall c, is_letter_digit c = true -> N.eqb c_dot c = false.
Proof.
  intros c H. apply N.eqb_neq. intros <-. vm_compute in H. discriminate.
Qed.
Lemma name_valid_nodot : forall s, name_valid s = true -> has_dot s = false.
Proof.
  intros [|c r] H; [discriminate|]. cbn in H. apply andb_true_iff in H. destruct H as [Hc Hr].
  unfold has_dot. cbn [existsb]. apply orb_false_iff. split.
  - apply is_letter_digit_not_dot. unfold is_letter_digit. rewrite Hc. reflexivity.
  - destruct (existsb (N.eqb c_dot) r) eqn:E; [|reflexivity].
    apply existsb_exists in E. destruct E as [x [Hx He]]. rewrite forallb_forall in Hr.
    rewrite (is_letter_digit_not_dot x (Hr x Hx)) in He. discriminate.
Qed.

(* step 1 succeeds *)
Definition keys (t : table) : list str := map fst t.
Definition keys_in (t : table) (S : list str) : Prop := forall k, In k (keys t) -> In (last_comp k) S.

Lemma lookup_none : forall t s, ~ In s (keys t) -> lookup t s = None.
Proof.
  induction t as [|[k d] r IH]; intros s H; [reflexivity|]. cbn in *.
  destruct (str_eqb k s) eqn:E; [apply str_eqb_eq in E; subst; exfalso; apply H; left; reflexivity|].
  apply IH. intros Hin. apply H. right. exact Hin.
Qed.

Lemma mk_base_ok : forall t scope n d S,
  name_valid n = true -> keys_in t S -> ~ In n S ->
  exists t', mk_base t scope n d = Ok (t', join scope n) /\ keys_in t' (n :: S).
Proof.
  intros t scope n d S Hv Hk Hn. unfold mk_base. rewrite Hv. cbn [negb].
  pose proof (last_comp_join scope n (name_valid_nodot _ Hv)) as Hl.
  rewrite lookup_none.
  - eexists. split; [reflexivity|]. intros k [<-|Hin]; cbn [fst].
    + rewrite Hl. left. reflexivity.
    + right. apply Hk. exact Hin.
  - intros Hin. apply Hn. rewrite <- Hl. apply Hk. exact Hin.
Qed.

Lemma init_names_ok : forall names t scope S,
  Forall (fun n => name_valid n = true) names -> NoDup names -> (forall n, In n names -> ~ In n S) -> keys_in t S ->
  exists t', init_names t scope names = Ok t' /\ keys_in t' (rev names ++ S).
Proof.
  induction names as [|n r IH]; intros t scope S Hv Hnd Hdis Hk.
  - exists t. split; [reflexivity|exact Hk].
  - inversion Hv as [|? ? Hvn Hvr]; subst. inversion Hnd as [|? ? Hnr Hndr]; subst.
    destruct (mk_base_ok t scope n DOther S Hvn Hk (Hdis n (or_introl eq_refl))) as [t1 [H1 Hk1]].
    cbn [init_names]. rewrite H1. cbn [bind fst].
    destruct (IH t1 scope (n :: S) Hvr Hndr) as [t2 [H2 Hk2]]; [|exact Hk1|].
    + intros x Hx [<-|Hin]; [exact (Hnr Hx)|]. exact (Hdis x (or_intror Hx) Hin).
    + exists t2. split; [exact H2|]. cbn [rev]. rewrite <- app_assoc. exact Hk2.
Qed.

Lemma base_field_name_valid : forall syntax fields,
  Forall (base_field syntax) fields -> Forall (fun n => name_valid n = true) (map f_name fields).
Proof.
  intros syntax fields H. induction H as [|f r Hf Hr IH]; [constructor|]. cbn. constructor; [exact (proj1 Hf)|exact IH].
Qed.

Lemma init_msg_ok : forall syntax m t scope S,
  base_msg syntax m -> NoDup (msg_names m) -> (forall n, In n (msg_names m) -> ~ In n S) -> keys_in t S ->
  exists t', init_msg t scope m = Ok t' /\ keys_in t' (rev (msg_names m) ++ S).
Proof.
  intros syntax m t scope S [name [fields [-> [Hvn [Hbf _]]]]] Hnd Hdis Hk.
  unfold msg_names in *. cbn [m_name m_fields] in *.
  inversion Hnd as [|? ? Hnr Hndr]; subst.
  destruct (mk_base_ok t scope name (DMsg (Msg name fields [] [] [] [] [] [] [] false false)) S Hvn Hk
              (Hdis name (or_introl eq_refl))) as [t1 [H1 Hk1]].
  destruct (init_names_ok (map f_name fields) t1 (join scope name) (name :: S)
              (base_field_name_valid _ _ Hbf) Hndr) as [t2 [H2 Hk2]]; [|exact Hk1|].
  { intros x Hx [<-|Hin]; [exact (Hnr Hx)|]. exact (Hdis x (or_intror Hx) Hin). }
  exists t2. split.
  - cbn [init_msg]. rewrite H1. cbn [bind fst snd]. rewrite H2. reflexivity.
  - cbn [rev]. rewrite <- app_assoc. exact Hk2.
Qed.

Lemma init_msgs_ok : forall syntax ms t scope S,
  Forall (base_msg syntax) ms -> NoDup (flat_map msg_names ms) ->
  (forall n, In n (flat_map msg_names ms) -> ~ In n S) -> keys_in t S ->
  exists t', init_msgs t scope ms = Ok t'.
Proof.
  induction ms as [|m r IH]; intros t scope S Hb Hnd Hdis Hk; [exists t; reflexivity|].
  inversion Hb as [|? ? Hbm Hbr]; subst. cbn [flat_map] in *.
  destruct (list_nodup_app_inv _ _ Hnd) as [Hnd1 [Hnd2 Hdisj]].
  destruct (init_msg_ok syntax m t scope S Hbm) as [t1 [H1 Hk1]].
  - exact Hnd1.
  - intros n Hn. apply Hdis. apply in_or_app. left. exact Hn.
  - exact Hk.
  - cbn [init_msgs]. rewrite H1. cbn [bind].
    apply (IH t1 scope (rev (msg_names m) ++ S) Hbr).
    + exact Hnd2.
    + intros n Hn Hin. apply in_app_or in Hin. destruct Hin as [Hin|Hin].
      * apply in_rev in Hin. exact (Hdisj n Hin Hn).
      * exact (Hdis n (in_or_app _ _ _ (or_intror Hn)) Hin).
    + exact Hk1.
Qed.

(* steps 2 and 3 on base messages *)
Lemma scalar_find_target : forall allow t scope k,
  scalar_kind k -> find_target allow t k scope [] = TOk (mkRField k None None).
Proof.
  intros allow t scope k [[H1 H2] [H3 [H4 H5]]]. unfold find_target.
  replace (k =? 14) with false by (symmetry; apply Z.eqb_neq; exact H5).
  replace (k =? 11) with false by (symmetry; apply Z.eqb_neq; exact H4).
  replace (k =? 10) with false by (symmetry; apply Z.eqb_neq; exact H3).
  replace (k =? 0) with false by (symmetry; apply Z.eqb_neq; lia).
  cbn [orb]. unfold kind_valid.
  replace (1 <=? k) with true by (symmetry; apply Z.leb_le; lia).
  replace (k <=? 18) with true by (symmetry; apply Z.leb_le; lia). reflexivity.
Qed.
Lemma scalar_resolve_field : forall allow t scope ie f,
  scalar_kind (f_type f) -> f_tname f = [] ->
  resolve_field allow t scope ie f = TOk (mkRField (f_type f) None None).
Proof.
  intros allow t scope ie f Hk Ht. unfold resolve_field. rewrite Ht, (scalar_find_target allow t scope _ Hk).
  cbn [rk rmsg]. destruct Hk as [_ [H3 _]].
  replace (f_type f =? 10) with false by (symmetry; apply Z.eqb_neq; exact H3). reflexivity.
Qed.

Lemma base_field_ok : forall legacy allow syntax t name fields full f,
  base_field syntax f ->
  validate_field legacy allow syntax t (Msg name fields [] [] [] [] [] [] [] false false) full f = Ok tt.
Proof.
  intros legacy allow syntax t name fields full f [Hv [Hnum [Hlab [Hk [Htn [Hon [Hp3 Hex]]]]]]].
  unfold validate_field. cbn [m_mapentry m_resnames m_resranges m_extranges m_fields].
  rewrite (scalar_resolve_field allow t full false f Hk Htn). cbn [rf_of].
  unfold is_map, has_message, enum_local_closed, group_invalid, map_invalid, f_in_oneof.
  cbn [rk rmsg renum mtarget_mapentry]. rewrite Hon, Hp3, Hex.
  assert (Hnv : num_valid (f_num f) = true).
  { unfold num_valid, max_valid. apply andb_true_iff. split; apply Z.leb_le; lia. }
  rewrite Hnv.
  destruct Hk as [_ [H10 _]].
  replace (f_type f =? 10) with false by (symmetry; apply Z.eqb_neq; exact H10).
  change (str_mem (f_name f) []) with false.
  change (field_ranges_has [] (f_num f)) with false.
  unfold presence_default.
  destruct Hlab as [Hl|[Hl|[Hl Hs]]]; rewrite Hl; cbn.
  - destruct (is_proto3 syntax); reflexivity.
  - destruct (kind_scalar_packable (f_type f)), (packed_feature syntax f), (is_proto3 syntax); reflexivity.
  - subst syntax. reflexivity.
Qed.

Lemma base_msg_resolve : forall allow syntax t scope m, base_msg syntax m -> resolve_msg allow t scope m = Ok tt.
Proof.
  intros allow syntax t scope m [name [fields [-> [_ [Hbf _]]]]]. cbn [resolve_msg].
  rewrite for_each_intro; [reflexivity|].
  intros f Hf. rewrite Forall_forall in Hbf. destruct (Hbf f Hf) as [_ [_ [_ [Hk [Htn [Hon _]]]]]].
  rewrite Hon. cbn [bind]. rewrite (scalar_resolve_field _ _ _ _ _ Hk Htn). reflexivity.
Qed.

Lemma base_msg_validate : forall legacy allow syntax t scope m, base_msg syntax m -> validate_msg legacy allow syntax t scope m = Ok tt.
Proof.
  intros legacy allow syntax t scope m [name [fields [-> [_ [Hbf Hnd]]]]].
  rewrite validate_msg_unfold. cbv zeta. cbn [m_name m_enums m_nested m_exts for_each].
  unfold msg_local. cbn [m_resnames m_resranges m_extranges m_msgset m_fields m_oneofs length].
  rewrite (proj2 (has_dup_field_number_false _) Hnd).
  change (has_dup []) with false. change (field_ranges_ok false []) with true.
  change (ranges_no_overlap [] []) with true.
  rewrite andb_false_r. cbn [negb check bind andb].
  rewrite for_each_intro; [reflexivity|].
  intros f Hf. rewrite Forall_forall in Hbf. apply base_field_ok. exact (Hbf f Hf).
Qed.

Theorem validate_accepts_base : forall legacy allow f, base_file f -> validate legacy allow f = Accept.
Proof.
  intros legacy allow f [Hpkg [Hen [Hex [Hms Hnd]]]].
  unfold validate, new_file.
  assert (Hp : (match fl_pkg f with [] => false | _ => negb (fullname_valid (fl_pkg f)) end) = false).
  { destruct Hpkg as [->|H]; [reflexivity|]. rewrite H. destruct (fl_pkg f); reflexivity. }
  rewrite Hp. cbn [check bind].
  unfold init_file. rewrite Hen, Hex. cbn [init_enums bind map init_names].
  destruct (init_msgs_ok (fl_syntax f) (fl_msgs f) [] (fl_pkg f) [] Hms Hnd) as [t Ht].
  { intros n _ []. } { intros k []. }
  rewrite Ht. cbn [bind resolve_exts for_each].
  assert (Hres : resolve_msgs allow t (fl_pkg f) (fl_msgs f) = Ok tt).
  { clear Ht Hnd. induction Hms as [|m r Hm Hr IH]; [reflexivity|].
    cbn [resolve_msgs]. rewrite (base_msg_resolve allow _ t (fl_pkg f) m Hm). exact IH. }
  rewrite Hres. cbn [bind].
  rewrite validate_msgs_for_each, for_each_intro; [reflexivity|].
  intros m Hm. rewrite Forall_forall in Hms. apply (base_msg_validate legacy allow (fl_syntax f)). exact (Hms m Hm).
Qed.

(* concrete witnesses used by Props/C35.v *)
(* "p", "M", "N", "a", "b", "c" *)
Definition ex_field (name : str) (num label ty : Z) : field :=
  mkField name num label ty [] None false None None None.
Definition ex_file : file :=
  mkFile 0 [112%N]
    []
    [ Msg [77%N] [ex_field [97%N] 1 1 5; ex_field [98%N] 2 3 9] [] [] [] [] [] [] [] false false;
      Msg [78%N] [ex_field [99%N] 536870911 2 1] [] [] [] [] [] [] [] false false ]
    [].

Lemma ex_file_base : base_file ex_file /\ validate false false ex_file = Accept /\ validate false true ex_file = Accept.
Proof.
  split; [|split; vm_compute; reflexivity].
  unfold base_file, ex_file. cbn [fl_pkg fl_enums fl_exts fl_msgs fl_syntax].
  assert (Hf : forall name num label ty, name_valid name = true -> 1 <= num <= 536870911 ->
            (label = 1 \/ label = 3 \/ (label = 2 /\ 0%N = 0%N)) -> scalar_kind ty ->
            base_field 0 (ex_field name num label ty)).
  { intros name num label ty Hn Hnum Hl Hk. unfold base_field, ex_field. cbn.
    exact (conj Hn (conj Hnum (conj Hl (conj Hk (conj eq_refl (conj eq_refl (conj eq_refl eq_refl))))))). }
  split; [right; reflexivity|]. split; [reflexivity|]. split; [reflexivity|]. split.
  - constructor; [|constructor; [|constructor]].
    + eexists. eexists. split; [reflexivity|]. split; [reflexivity|]. split.
      * constructor; [apply Hf; [reflexivity|lia|auto|unfold scalar_kind; lia]|].
        constructor; [apply Hf; [reflexivity|lia|auto|unfold scalar_kind; lia]|constructor].
      * cbn. constructor; [cbn; intuition lia|]. constructor; [intros []|constructor].
    + eexists. eexists. split; [reflexivity|]. split; [reflexivity|]. split.
      * constructor; [apply Hf; [reflexivity|lia|auto|unfold scalar_kind; lia]|constructor].
      * cbn. constructor; [intros []|constructor].
  - cbn. repeat (constructor; [cbn; intuition discriminate|]). constructor.
Qed.

Lemma checks_fire :
  validate false false
    (mkFile 0 [112%N] [] [Msg [77%N] [ex_field [97%N] 1 1 5; ex_field [98%N] 1 1 5] [] [] [] [] [] [] [] false false] [])
  = Reject E_m_dupnum /\
  validate false false (mkFile 1 [] [mkEnum [69%N] [mkEValue [65%N] (Some 1)] false [] []] [] []) = Reject E_e_first.
Proof. split; vm_compute; reflexivity. Qed.

Lemma invalid_packed_accepted :
  exists f, validate false false f = Accept /\
    exists m fl, In m (file_msgs f) /\ In fl (m_fields m) /\ f_packed fl = Some true /\ f_label fl = 1.
Proof.
  exists (mkFile 0 [112%N] [] [Msg [77%N] [mkField [97%N] 1 1 5 [] None false None (Some true) None] [] [] [] [] [] [] [] false false] []).
  split; [vm_compute; reflexivity|].
  eexists. eexists. split; [left; reflexivity|]. split; [left; reflexivity|]. split; reflexivity.
Qed.

Lemma reserved_implementation_number_accepted :
  exists f, validate false false f = Accept /\
    exists m fl, In m (file_msgs f) /\ In fl (m_fields m) /\ 19000 <= f_num fl <= 19999.
Proof.
  exists (mkFile 0 [112%N] [] [Msg [77%N] [ex_field [97%N] 19000 1 5] [] [] [] [] [] [] [] false false] []).
  split; [vm_compute; reflexivity|].
  eexists. eexists. split; [left; reflexivity|]. split; [left; reflexivity|]. cbn. lia.
Qed.
