(* RegistryInvP — the invariant tying the concrete Files state to the abstract list of
   registered files, and its preservation by RegisterFile. *)
From Coq Require Import List Arith Bool Lia Permutation.
From PB Require Import Desc.RegistryModel Desc.RegistryBaseP Desc.RegistryTopP.
Import ListNotations.

Record finv (s : fstate) (rs : regs) : Prop := {
  (* descsByName still nil: nothing registered yet *)
  fi_nil : fs_descs s = [] -> rs = [];
  fi_wf : forall fid f, In (fid, f) rs -> wf_file f = true;
  (* non-package entries are exactly the top-level declarations of the registered files *)
  fi_sound : forall k v, dget (norm_descs (fs_descs s)) k = Some v -> is_pkg v = false ->
             exists fid f, In (fid, f) rs /\ In (k, v) (range_top_level fid f);
  fi_complete : forall fid f k v, In (fid, f) rs -> In (k, v) (range_top_level fid f) ->
                dget (norm_descs (fs_descs s)) k = Some v;
  (* package markers are exactly "" and the dotted prefixes of registered packages; each
     holds the files of that package in registration order *)
  fi_pkg_sound : forall k fl, dget (norm_descs (fs_descs s)) k = Some (VPkg fl) ->
                 fl = map fst (pkg_filter rs k) /\ pkg_registered rs k;
  fi_pkg_complete : forall k, pkg_registered rs k ->
                    exists fl, dget (norm_descs (fs_descs s)) k = Some (VPkg fl);
  fi_path : forall p, path_files (fs_bypath s) p = path_filter rs p;
  fi_paths : NoDup (map (fun r => f_path (snd r)) rs);
  fi_num : fs_num s = length rs;
  fi_abs : Permutation (abs_files s) rs
}.

Definition lazy_init (s : fstate) : fstate := FState (norm_descs (fs_descs s)) (fs_bypath s) (fs_num s).

Lemma lazy_init_id s : fs_descs s <> [] -> lazy_init s = s.
Proof. intros H. unfold lazy_init. rewrite norm_descs_id by assumption. now destruct s. Qed.

Lemma finv_init : finv fs_init [].
Proof.
  constructor; cbn [fs_init fs_descs fs_bypath fs_num norm_descs].
  - reflexivity.
  - intros ? ? [].
  - intros k v H Hv. unfold dget in H. cbn [aget] in H. destruct (name_eqb [] k); [|discriminate].
    inversion H; subst. discriminate.
  - intros ? ? ? ? [].
  - intros k fl H. unfold dget in H. cbn [aget] in H. destruct (name_eqb [] k) eqn:E; [|discriminate].
    apply name_eqb_eq in E. inversion H; subst. split; [reflexivity | now left].
  - intros k [->|(fid & f & [] & _)]. exists []. reflexivity.
  - reflexivity.
  - constructor.
  - reflexivity.
  - apply perm_nil.
Qed.

Lemma finv_lazy s rs : finv s rs -> finv (lazy_init s) rs.
Proof.
  intros I. unfold lazy_init. constructor; cbn [fs_descs fs_bypath fs_num]; try rewrite norm_descs_idem.
  - intros H. now apply norm_descs_nonnil in H.
  - exact (fi_wf _ _ I).
  - exact (fi_sound _ _ I).
  - exact (fi_complete _ _ I).
  - exact (fi_pkg_sound _ _ I).
  - exact (fi_pkg_complete _ _ I).
  - exact (fi_path _ _ I).
  - exact (fi_paths _ _ I).
  - exact (fi_num _ _ I).
  - exact (fi_abs _ _ I).
Qed.

Lemma pkg_filter_nil s rs k :
  finv s rs -> (forall fl, dget (norm_descs (fs_descs s)) k <> Some (VPkg fl)) -> pkg_filter rs k = [].
Proof.
  intros I H. destruct (pkg_filter rs k) eqn:E; [reflexivity|]. exfalso.
  assert (P : pkg_registered rs k) by (apply pkg_filter_registered; rewrite E; discriminate).
  destruct (fi_pkg_complete _ _ I k P) as [fl Hfl]. exact (H fl Hfl).
Qed.

Lemma reg_path_iff s rs p :
  finv s rs -> (is_nil (path_files (fs_bypath s) p) = false <-> path_registered rs p).
Proof.
  intros I. rewrite (fi_path _ _ I). rewrite is_nil_false. apply path_filter_registered.
Qed.

Lemma reg_pkg_iff s rs pkg prefixes :
  finv s rs -> chain pkg = Some prefixes ->
  (existsb (pkg_conflict (norm_descs (fs_descs s))) prefixes = true <->
   exists q, dot_prefix q pkg /\ top_declared rs q).
Proof.
  intros I Hc. rewrite existsb_exists. split.
  - intros (q & Hq & Hconf). unfold pkg_conflict in Hconf.
    destruct (dget (norm_descs (fs_descs s)) q) as [v|] eqn:E; [|discriminate].
    apply negb_true_iff in Hconf. destruct (fi_sound _ _ I q v E Hconf) as (fid & f & Hi & Hin).
    exists q. split; [now apply (chain_in_iff pkg prefixes q Hc)|].
    exists fid, f. split; [assumption|]. apply (top_names_in fid). now exists v.
  - intros (q & Hp & fid & f & Hi & Hn). apply (top_names_in fid) in Hn. destruct Hn as [v Hv].
    exists q. split; [now apply (chain_in_iff pkg prefixes q Hc)|].
    unfold pkg_conflict. rewrite (fi_complete _ _ I fid f q v Hi Hv).
    destruct (top_in_wf fid f q v (fi_wf _ _ I fid f Hi) Hv) as (Hpk & _). now rewrite Hpk.
Qed.

Lemma reg_name_iff s rs fid f :
  finv s rs ->
  (existsb (fun kd => is_some (dget (norm_descs (fs_descs s)) (fst kd))) (range_top_level fid f) = true <->
   conflict_name rs f).
Proof.
  intros I. rewrite existsb_exists. split.
  - intros ([k v0] & Hin & Hs). cbn [fst] in Hs.
    destruct (dget (norm_descs (fs_descs s)) k) as [v|] eqn:E; [|discriminate].
    exists k. split; [apply (top_names_in fid); now exists v0|].
    destruct (is_pkg v) eqn:Ep.
    + right. destruct v as [fl| | | | |]; try discriminate. now destruct (fi_pkg_sound _ _ I k fl E).
    + left. destruct (fi_sound _ _ I k v E Ep) as (fid' & f' & Hi & Hin').
      exists fid', f'. split; [assumption|]. apply (top_names_in fid'). now exists v.
  - intros (n & Hn & Hc). apply (top_names_in fid) in Hn. destruct Hn as [v0 Hv0].
    exists (n, v0). split; [assumption|]. cbn [fst].
    destruct Hc as [(fid' & f' & Hi & Hn')|Hp].
    + apply (top_names_in fid') in Hn'. destruct Hn' as [v Hv].
      now rewrite (fi_complete _ _ I fid' f' n v Hi Hv).
    + destruct (fi_pkg_complete _ _ I n Hp) as [fl Hfl]. now rewrite Hfl.
Qed.

Section Success.
  Variables (s : fstate) (rs : regs) (fid : nat) (f : file) (prefixes : list name).
  Hypothesis I : finv s rs.
  Hypothesis Hwf : wf_file f = true.
  Hypothesis Hpath : path_files (fs_bypath s) (f_path f) = [].
  Hypothesis Hchain : chain (f_pkg f) = Some prefixes.
  Hypothesis Hpkg : existsb (pkg_conflict (norm_descs (fs_descs s))) prefixes = false.
  Hypothesis Hname :
    existsb (fun kd => is_some (dget (norm_descs (fs_descs s)) (fst kd))) (range_top_level fid f) = false.

  (* the table before the call (after lazy creation), the candidate's package, and the entries
     the call adds for it; local to this section *)
  Local Notation D0 := (norm_descs (fs_descs s)).
  Local Notation pkg := (f_pkg f).
  Local Notation tops := (range_top_level fid f).

  (* T1: the name check passed, so none of the new keys is taken.  T2: a new key is a proper
     extension of the package, hence never the package or one of its prefixes. *)
  Lemma T1 k v : In (k, v) tops -> dget D0 k = None.
  Proof.
    intros Hin. destruct (dget D0 k) eqn:E; [|reflexivity]. exfalso.
    apply not_true_iff_false in Hname. apply Hname. apply existsb_exists.
    exists (k, v). split; [assumption|]. cbn [fst]. now rewrite E.
  Qed.

  Lemma T2 k v : In (k, v) tops -> is_pkg v = false /\ length pkg < length k.
  Proof. intros Hin. destruct (top_in_wf fid f k v Hwf Hin) as (H1 & _ & _ & H4). now split. Qed.

  Lemma prefixes_iff q : In q prefixes <-> dot_prefix q pkg.
  Proof. apply (chain_in_iff pkg prefixes q Hchain). Qed.

  Lemma prefix_free_or_marker q : In q prefixes -> dget D0 q = None \/ exists fl, dget D0 q = Some (VPkg fl).
  Proof.
    intros Hq. destruct (dget D0 q) as [v|] eqn:E; [|now left]. right.
    destruct (is_pkg v) eqn:Ep.
    - destruct v as [fl| | | | |]; try discriminate. now exists fl.
    - exfalso. apply not_true_iff_false in Hpkg. apply Hpkg. apply existsb_exists.
      exists q. split; [assumption|]. unfold pkg_conflict. rewrite E, Ep. reflexivity.
  Qed.

  Lemma tops_aget k v : aget name_eqb tops k = Some v <-> In (k, v) tops.
  Proof. now apply top_aget. Qed.

  Lemma root_marker : exists fl, dget D0 [] = Some (VPkg fl).
  Proof. apply (fi_pkg_complete _ _ I). now left. Qed.

  Lemma pkg_free_or_marker : dget D0 pkg = None \/ exists fl, dget D0 pkg = Some (VPkg fl).
  Proof.
    destruct (name_eq_dec pkg []) as [E|N].
    - rewrite E. right. exact root_marker.
    - apply prefix_free_or_marker. apply prefixes_iff. now apply dot_prefix_refl.
  Qed.

  Lemma tops_not k : dget D0 k <> None -> aget name_eqb tops k = None.
  Proof.
    intros H. destruct (aget name_eqb tops k) eqn:Ea; [|reflexivity].
    apply tops_aget in Ea. apply T1 in Ea. contradiction.
  Qed.

  Lemma pkg_marker : exists fl,
    dget (fold_left add_pkg prefixes D0) pkg = Some (VPkg fl) /\ fl = map fst (pkg_filter rs pkg).
  Proof.
    rewrite add_pkgs_get. destruct pkg_free_or_marker as [E|[fl E]]; rewrite E.
    - assert (Hm : mem_name pkg prefixes = true).
      { apply mem_name_in. apply prefixes_iff. apply dot_prefix_refl. intros Hn.
        destruct root_marker as [fl0 H6]. rewrite Hn in E. congruence. }
      rewrite Hm. exists []. split; [reflexivity|]. rewrite (pkg_filter_nil s rs _ I) by (intros ?; congruence). reflexivity.
    - exists fl. split; [reflexivity|]. now destruct (fi_pkg_sound _ _ I pkg fl E).
  Qed.

  (* The new table is first described by one lookup equation ([G] below): a key is answered by
     the candidate's top-level entries, else, if it is the package, by its marker with the file
     appended, else by the old table, else by a fresh empty marker if it is a prefix of the package.
     Each field of the invariant is then a case analysis over these four answers; T1, T2 and the
     facts about the prefixes say which of them can meet an old entry. *)
  Lemma finv_success fl :
    dget (fold_left add_pkg prefixes D0) pkg = Some (VPkg fl) ->
    finv (FState (fold_left (fun m kd => dput m (fst kd) (snd kd)) tops
                            (dput (fold_left add_pkg prefixes D0) pkg (VPkg (fl ++ [fid]))))
                 (aput name_eqb (fs_bypath s) (f_path f) (path_files (fs_bypath s) (f_path f) ++ [(fid, f)]))
                 (S (fs_num s)))
         (rs ++ [(fid, f)]).
  Proof.
    intros Hfl.
    assert (Efl : fl = map fst (pkg_filter rs pkg)).
    { destruct pkg_marker as (fl' & H1 & H2). rewrite Hfl in H1. inversion H1. now subst. }
    remember (fold_left (fun m kd => dput m (fst kd) (snd kd)) tops
                        (dput (fold_left add_pkg prefixes D0) pkg (VPkg (fl ++ [fid])))) as D3 eqn:ED3.
    assert (G : forall k, dget D3 k =
                 match aget name_eqb tops k with
                 | Some v => Some v
                 | None => if name_eqb pkg k then Some (VPkg (fl ++ [fid])) else
                           match dget D0 k with
                           | Some v => Some v
                           | None => if mem_name k prefixes then Some (VPkg []) else None
                           end
                 end).
    { intros k. rewrite ED3. rewrite fold_dput_get by (now apply top_nodup).
      destruct (aget name_eqb tops k); [reflexivity|]. rewrite dget_dput.
      destruct (name_eqb pkg k); [reflexivity|]. apply add_pkgs_get. }
    clear ED3.
    assert (Htp : aget name_eqb tops pkg = None).
    { destruct (aget name_eqb tops pkg) eqn:E; [|reflexivity]. apply tops_aget in E. apply T2 in E. lia. }
    assert (HD3 : D3 <> []).
    { intros E. pose proof (G pkg) as Gp. rewrite E, Htp, name_eqb_refl, dget_nil in Gp. discriminate. }
    assert (EN : norm_descs D3 = D3) by now apply norm_descs_id.
    assert (Hnew : In (fid, f) (rs ++ [(fid, f)])) by (apply in_or_app; right; now left).
    constructor; cbn [fs_descs fs_bypath fs_num]; try rewrite EN.
    - (* nil *) intros E. contradiction.
    - (* wf *) intros fid' f' Hin. apply in_app_or in Hin. destruct Hin as [Hin|[E|[]]].
      + exact (fi_wf _ _ I fid' f' Hin).
      + inversion E; subst. exact Hwf.
    - (* sound *) intros k v Hk Hv. rewrite G in Hk.
      destruct (aget name_eqb tops k) as [v'|] eqn:Ea.
      + inversion Hk; subst v'. exists fid, f. split; [exact Hnew | now apply tops_aget].
      + destruct (name_eqb pkg k); [inversion Hk; subst v; discriminate|].
        destruct (dget D0 k) as [v'|] eqn:E0.
        * inversion Hk; subst v'. destruct (fi_sound _ _ I k v E0 Hv) as (fid' & f' & Hi & Hin).
          exists fid', f'. split; [apply in_or_app; now left | assumption].
        * destruct (mem_name k prefixes); [inversion Hk; subst v; discriminate | discriminate].
    - (* complete *) intros fid' f' k v Hin Htop. rewrite G.
      apply in_app_or in Hin. destruct Hin as [Hin|[E|[]]].
      + pose proof (fi_complete _ _ I fid' f' k v Hin Htop) as E0.
        destruct (top_in_wf fid' f' k v (fi_wf _ _ I fid' f' Hin) Htop) as (Hpk & _).
        rewrite tops_not by congruence.
        destruct (name_eqb pkg k) eqn:En.
        * apply name_eqb_eq in En. exfalso.
          destruct pkg_free_or_marker as [E7|[fl7 E7]]; rewrite En in E7; rewrite E7 in E0;
            [discriminate | inversion E0; subst v; discriminate].
        * now rewrite E0.
      + inversion E; subst fid' f'. apply tops_aget in Htop. now rewrite Htop.
    - (* pkg_sound *) intros k fl' Hk. rewrite G in Hk.
      destruct (aget name_eqb tops k) as [v'|] eqn:Ea.
      { inversion Hk; subst v'. apply tops_aget in Ea. apply T2 in Ea. destruct Ea as [Ea _]. discriminate. }
      unfold pkg_filter. rewrite filter_snoc. cbn [snd].
      destruct (name_eqb pkg k) eqn:En.
      + apply name_eqb_eq in En. inversion Hk; subst fl'. split.
        * rewrite map_app. rewrite <- En. fold (pkg_filter rs pkg). rewrite <- Efl. reflexivity.
        * destruct (name_eq_dec k []) as [->|Hk0]; [now left|]. right. exists fid, f.
          split; [exact Hnew|]. rewrite En. now apply dot_prefix_refl.
      + rewrite app_nil_r. destruct (dget D0 k) as [v'|] eqn:E0.
        * inversion Hk; subst v'. destruct (fi_pkg_sound _ _ I k fl' E0) as [H1 H2]. split; [exact H1|].
          destruct H2 as [->|(fid' & f' & Hi & Hp)]; [now left|]. right. exists fid', f'.
          split; [apply in_or_app; now left | assumption].
        * destruct (mem_name k prefixes) eqn:Em; [|discriminate]. inversion Hk; subst fl'. split.
          -- fold (pkg_filter rs k). rewrite (pkg_filter_nil s rs k I) by (intros ?; congruence). reflexivity.
          -- right. exists fid, f. split; [exact Hnew|]. apply prefixes_iff. now apply mem_name_in.
    - (* pkg_complete *) intros k Hp. rewrite G.
      assert (Hc : aget name_eqb tops k = None /\
                   ((exists fl0, dget D0 k = Some (VPkg fl0)) \/ (dget D0 k = None /\ In k prefixes))).
      { destruct Hp as [->|(fid' & f' & Hin & Hdp)].
        - destruct root_marker as [fl0 H6]. split; [apply tops_not; congruence | left; now exists fl0].
        - apply in_app_or in Hin. destruct Hin as [Hin|[E|[]]].
          + assert (P : pkg_registered rs k) by (right; now exists fid', f').
            destruct (fi_pkg_complete _ _ I k P) as [fl0 H0].
            split; [apply tops_not; congruence | left; now exists fl0].
          + inversion E; subst fid' f'. split.
            * destruct (aget name_eqb tops k) eqn:Ea; [|reflexivity]. apply tops_aget in Ea. apply T2 in Ea.
              destruct Ea as [_ L]. apply dot_prefix_length in Hdp. lia.
            * apply prefixes_iff in Hdp. destruct (prefix_free_or_marker k Hdp) as [E0|[fl0 E0]]; [right; now split | left; now exists fl0]. }
      destruct Hc as [Ha Hc]. rewrite Ha. destruct (name_eqb pkg k); [now eexists|].
      destruct Hc as [[fl0 E0]|[E0 Hi]]; rewrite E0; [now eexists|].
      apply mem_name_in in Hi. rewrite Hi. now eexists.
    - (* path *) intros p. rewrite path_files_aput. unfold path_filter. rewrite filter_snoc. cbn [snd].
      destruct (name_eqb (f_path f) p) eqn:En.
      + apply name_eqb_eq in En. subst p. rewrite (fi_path _ _ I (f_path f)). reflexivity.
      + rewrite app_nil_r. exact (fi_path _ _ I p).
    - (* paths *) rewrite map_app. cbn [map snd].
      apply (Permutation_NoDup (Permutation_cons_append _ _)). constructor; [|exact (fi_paths _ _ I)].
      intros Hin. apply in_map_iff in Hin. destruct Hin as ([fid' f'] & E & Hin). cbn [snd] in E.
      assert (P : path_registered rs (f_path f)) by now exists fid', f'.
      apply path_filter_registered in P. apply P. rewrite <- (fi_path _ _ I). exact Hpath.
    - (* num *) rewrite app_length. cbn [length]. rewrite (fi_num _ _ I). lia.
    - (* abs *) unfold abs_files. cbn [fs_bypath]. rewrite Hpath. cbn [app].
      eapply Permutation_trans.
      { apply flat_aput_perm.
        pose proof Hpath as Hp. unfold path_files in Hp.
        destruct (aget name_eqb (fs_bypath s) (f_path f)) as [l|]; [right; now subst | now left]. }
      eapply Permutation_trans; [apply perm_skip; exact (fi_abs _ _ I)|]. apply Permutation_cons_append.
  Qed.
End Success.
