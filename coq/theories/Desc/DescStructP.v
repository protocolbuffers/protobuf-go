(* Proofs about the structural part of Desc/DescLookupModel.v: full names, and the
   index / required-number / oneof-membership bookkeeping of one message. *)
From Coq Require Import List ZArith Bool Arith Lia.
From PB Require Import Base.PBytes Desc.SplitLastP Desc.DescLookupModel Desc.DescLookupP.
Import ListNotations.

Definition join_full_name (prefix name : bytes) : bytes :=
  match prefix with [] => name | _ => prefix ++ dot :: name end.

Lemma append_full_name_join prefix name : append_full_name prefix name = join_full_name prefix name.
Proof.
  unfold append_full_name, join_full_name. destruct prefix as [|c p].
  - cbn [length Nat.eqb app]. replace (S (length name) - (0 + 1 + length name - 1))%nat with 1%nat by lia.
    reflexivity.
  - cbn [Nat.eqb length]. rewrite app_length. cbn [length].
    replace (_ - _)%nat with 0%nat by lia. reflexivity.
Qed.

(* FullName.Name() / Parent() invert the join when the name is a single identifier *)
Lemma fullname_name_parent_join p n : ~ In dot n ->
  fullname_name (append_full_name p n) = n /\ fullname_parent (append_full_name p n) = p.
Proof.
  intros H. rewrite append_full_name_join.
  exact (conj (after_last_join dot p n H) (before_last_join dot p n H)).
Qed.

Definition exp_field (parent : bytes) (i : nat) (p : fproto) : fdesc :=
  {| fd_index := i; fd_fullname := append_full_name parent (fp_name p); fd_num := fp_num p;
     fd_card := fp_card p; fd_oneof := fp_oneof p |}.

Fixpoint exp_fields (parent : bytes) (i : nat) (fps : list fproto) : list fdesc :=
  match fps with
  | [] => []
  | p :: r => exp_field parent i p :: exp_fields parent (S i) r
  end.

Definition in_oneof (k : nat) (p : fproto) : bool :=
  match fp_oneof p with Some k' => Nat.eqb k' k | None => false end.

(* indices (counted from i) of the fields that name oneof k, in declaration order *)
Fixpoint positions (k : nat) (i : nat) (fps : list fproto) : list nat :=
  match fps with
  | [] => []
  | p :: r => (if in_oneof k p then [i] else []) ++ positions k (S i) r
  end.

Definition oneof_index_ok (n : nat) (p : fproto) : bool :=
  match fp_oneof p with Some k => Nat.ltb k n | None => true end.

Fixpoint add_members (os : list odesc) (i : nat) (fps : list fproto) : list odesc :=
  match fps with
  | [] => os
  | p :: r => add_members (match fp_oneof p with Some k => oneof_append os k i | None => os end) (S i) r
  end.

Definition is_required (p : fproto) : bool := Z.eqb (fp_card p) card_required.

Lemma oneof_append_length os k j : length (oneof_append os k j) = length os.
Proof. revert k. induction os as [|o os IH]; intros [|k]; cbn; auto. Qed.

Lemma add_members_length os i fps : length (add_members os i fps) = length os.
Proof.
  revert os i. induction fps as [|p fps IH]; intros; cbn; auto.
  rewrite IH. destruct (fp_oneof p); auto. apply oneof_append_length.
Qed.

Definition with_members (o : odesc) (js : list nat) : odesc :=
  {| od_index := od_index o; od_fullname := od_fullname o; od_fields := od_fields o ++ js |}.

Lemma with_members_nil o : with_members o [] = o.
Proof. destruct o. unfold with_members. cbn. now rewrite app_nil_r. Qed.

Lemma with_members_app o a b : with_members (with_members o a) b = with_members o (a ++ b).
Proof. unfold with_members. cbn. now rewrite app_assoc. Qed.

Lemma oneof_append_nth os k j k' :
  nth_error (oneof_append os k j) k' =
  if Nat.eqb k' k then option_map (fun o => with_members o [j]) (nth_error os k') else nth_error os k'.
Proof.
  revert k k'. induction os as [|o os IH]; intros k k'.
  - destruct k, k'; cbn; auto; now destruct (Nat.eqb k' k).
  - destruct k as [|k], k' as [|k']; cbn; auto; try apply IH.
Qed.

Lemma add_members_nth fps : forall os i k,
  nth_error (add_members os i fps) k =
  option_map (fun o => with_members o (positions k i fps)) (nth_error os k).
Proof.
  induction fps as [|p fps IH]; intros os i k; cbn [add_members positions].
  - destruct (nth_error os k); cbn; auto. now rewrite with_members_nil.
  - rewrite IH. unfold in_oneof. destruct (fp_oneof p) as [k0|].
    + rewrite oneof_append_nth. rewrite (Nat.eqb_sym k k0).
      destruct (Nat.eqb k0 k); destruct (nth_error os k); cbn; auto.
      now rewrite with_members_app.
    + destruct (nth_error os k); cbn; auto.
Qed.

Lemma resolve_fields_spec parent : forall fps i m,
  resolve_fields fps (init_fields parent i fps) m =
  if forallb (oneof_index_ok (length (md_oneofs m))) fps then
    Some {| md_fields := md_fields m ++ exp_fields parent i fps;
            md_oneofs := add_members (md_oneofs m) i fps;
            md_required := md_required m ++ map fp_num (filter is_required fps) |}
  else None.
Proof.
  induction fps as [|p fps IH]; intros i m.
  - cbn. destruct m. cbn. now rewrite !app_nil_r.
  - cbn [init_fields resolve_fields forallb exp_fields add_members filter fd_card fd_num fd_index fd_fullname].
    unfold oneof_index_ok at 1. unfold is_required at 1.
    destruct (fp_oneof p) as [k|] eqn:Eo.
    + destruct (Nat.ltb k (length (md_oneofs m))) eqn:Ek; cbn [andb]; auto.
      rewrite IH. cbn [md_fields md_oneofs md_required]. rewrite oneof_append_length.
      destruct (forallb _ fps); auto. f_equal. f_equal.
      * rewrite <- app_assoc. cbn. unfold exp_field. now rewrite Eo.
      * destruct (Z.eqb (fp_card p) card_required); cbn; rewrite <- ?app_assoc; reflexivity.
    + cbn [andb]. rewrite IH. cbn [md_fields md_oneofs md_required].
      destruct (forallb _ fps); auto. f_equal. f_equal.
      * rewrite <- app_assoc. cbn. unfold exp_field. now rewrite Eo.
      * destruct (Z.eqb (fp_card p) card_required); cbn; rewrite <- ?app_assoc; reflexivity.
Qed.

Lemma init_oneofs_length parent i names : length (init_oneofs parent i names) = length names.
Proof. revert i. induction names; intros; cbn; auto. Qed.

Lemma init_oneofs_nth parent names : forall i k,
  nth_error (init_oneofs parent i names) k =
  option_map (fun s => {| od_index := i + k; od_fullname := append_full_name parent s; od_fields := [] |})
             (nth_error names k).
Proof.
  induction names as [|s names IH]; intros i k.
  - now destruct k.
  - destruct k as [|k]; cbn.
    + now rewrite Nat.add_0_r.
    + rewrite IH. destruct (nth_error names k); cbn; auto. do 2 f_equal. lia.
Qed.

Lemma build_message_spec parent fps onames :
  build_message parent fps onames =
  if forallb (oneof_index_ok (length onames)) fps then
    Some {| md_fields := exp_fields parent 0 fps;
            md_oneofs := add_members (init_oneofs parent 0 onames) 0 fps;
            md_required := map fp_num (filter is_required fps) |}
  else None.
Proof.
  unfold build_message. rewrite resolve_fields_spec. cbn [md_fields md_oneofs md_required app].
  now rewrite init_oneofs_length.
Qed.

Lemma exp_fields_nth parent fps : forall s i,
  nth_error (exp_fields parent s fps) i = option_map (exp_field parent (s + i)) (nth_error fps i).
Proof.
  induction fps as [|p fps IH]; intros s i.
  - now destruct i.
  - destruct i as [|i]; cbn.
    + now rewrite Nat.add_0_r.
    + rewrite IH. destruct (nth_error fps i); cbn; auto. do 2 f_equal. lia.
Qed.

Lemma positions_In k fps : forall s j,
  In j (positions k s fps) <-> exists p, (s <= j)%nat /\ nth_error fps (j - s) = Some p /\ fp_oneof p = Some k.
Proof.
  induction fps as [|p fps IH]; intros s j; cbn [positions].
  - split; [intros []|]. intros (p & _ & H & _). destruct (j - s)%nat; discriminate.
  - rewrite in_app_iff, IH. unfold in_oneof. split.
    + intros [H|(q & Hle & Hq & Ho)].
      * destruct (fp_oneof p) as [k'|] eqn:E; [|destruct H].
        destruct (Nat.eqb k' k) eqn:Ek; [|destruct H]. destruct H as [H|[]]. subst j.
        apply Nat.eqb_eq in Ek. subst. exists p. rewrite Nat.sub_diag. cbn. auto.
      * exists q. split; [lia|]. split; auto.
        replace (j - s)%nat with (S (j - S s)) by lia. exact Hq.
    + intros (q & Hle & Hq & Ho). destruct (Nat.eq_dec j s) as [->|Hne].
      * left. rewrite Nat.sub_diag in Hq. cbn in Hq. inversion Hq; subst. rewrite Ho, Nat.eqb_refl. now left.
      * right. exists q. split; [lia|]. split; auto.
        replace (j - s)%nat with (S (j - S s)) in Hq by lia. exact Hq.
Qed.

(* Get(i).Index() = i, for fields and oneofs *)
Lemma build_get_index parent fps onames m : build_message parent fps onames = Some m ->
  (forall i f, nth_error (md_fields m) i = Some f -> fd_index f = i) /\
  (forall k o, nth_error (md_oneofs m) k = Some o -> od_index o = k) /\
  length (md_fields m) = length fps /\ length (md_oneofs m) = length onames.
Proof.
  rewrite build_message_spec. destruct (forallb _ fps); [|discriminate].
  intros H. inversion H; subst; clear H. cbn [md_fields md_oneofs]. repeat split.
  - intros i f. rewrite exp_fields_nth. destruct (nth_error fps i); cbn; [|discriminate].
    intros H. now inversion H.
  - intros k o. rewrite add_members_nth, init_oneofs_nth. destruct (nth_error onames k); cbn; [|discriminate].
    intros H. now inversion H.
  - clear. generalize 0%nat. induction fps; intros; cbn; auto.
  - now rewrite add_members_length, init_oneofs_length.
Qed.

(* FullName = parent's full name joined with Name, for fields and oneofs *)
Lemma build_fullname parent fps onames m : build_message parent fps onames = Some m ->
  (forall i f, nth_error (md_fields m) i = Some f ->
     exists p, nth_error fps i = Some p /\ fd_fullname f = join_full_name parent (fp_name p)
               /\ fd_num f = fp_num p /\ fd_card f = fp_card p /\ fd_oneof f = fp_oneof p) /\
  (forall k o, nth_error (md_oneofs m) k = Some o ->
     exists s, nth_error onames k = Some s /\ od_fullname o = join_full_name parent s).
Proof.
  rewrite build_message_spec. destruct (forallb _ fps); [|discriminate].
  intros H. inversion H; subst; clear H. cbn [md_fields md_oneofs]. split.
  - intros i f. rewrite exp_fields_nth. destruct (nth_error fps i) as [p|]; cbn; [|discriminate].
    intros H. inversion H; subst. exists p. cbn. rewrite append_full_name_join. auto.
  - intros k o. rewrite add_members_nth, init_oneofs_nth. destruct (nth_error onames k) as [s|]; cbn; [|discriminate].
    intros H. inversion H; subst. exists s. cbn. rewrite append_full_name_join. auto.
Qed.

(* RequiredNumbers lists exactly the numbers of the required fields, in declaration order *)
Lemma build_required parent fps onames m : build_message parent fps onames = Some m ->
  md_required m = map fp_num (filter is_required fps).
Proof.
  rewrite build_message_spec. destruct (forallb _ fps); [|discriminate].
  intros H. now inversion H.
Qed.

Lemma build_required_has parent fps onames m n : build_message parent fps onames = Some m ->
  (numbers_has (md_required m) n = true <->
   exists p, In p fps /\ fp_card p = card_required /\ fp_num p = n).
Proof.
  intros H. rewrite (build_required _ _ _ _ H), numbers_has_iff, in_map_iff. split.
  - intros (p & Hn & Hin). apply filter_In in Hin. destruct Hin as [Hin Hr].
    exists p. repeat split; auto. unfold is_required in Hr. now apply Z.eqb_eq.
  - intros (p & Hin & Hc & Hn). exists p. split; auto. apply filter_In. split; auto.
    unfold is_required. now apply Z.eqb_eq.
Qed.

(* Oneof.Fields and Field.ContainingOneof are mutual *)
Lemma build_oneof_mutual parent fps onames m : build_message parent fps onames = Some m ->
  forall k o, nth_error (md_oneofs m) k = Some o ->
  forall j, In j (od_fields o) <-> exists f, nth_error (md_fields m) j = Some f /\ fd_oneof f = Some k.
Proof.
  rewrite build_message_spec. destruct (forallb _ fps); [|discriminate].
  intros H. inversion H; subst; clear H. cbn [md_fields md_oneofs].
  intros k o. rewrite add_members_nth, init_oneofs_nth. destruct (nth_error onames k) as [s|]; cbn; [|discriminate].
  intros H. inversion H; subst; clear H. unfold with_members. cbn [od_fields app]. intros j.
  rewrite positions_In. rewrite Nat.sub_0_r. split.
  - intros (p & _ & Hp & Ho). exists (exp_field parent j p). rewrite exp_fields_nth, Hp. cbn. auto.
  - intros (f & Hf & Ho). rewrite exp_fields_nth in Hf. destruct (nth_error fps j) as [p|]; cbn in Hf; [|discriminate].
    inversion Hf; subst. exists p. split; [lia|]. auto.
Qed.

(* every field that names a oneof points to an existing one *)
Lemma build_containing_oneof_exists parent fps onames m : build_message parent fps onames = Some m ->
  forall j f k, nth_error (md_fields m) j = Some f -> fd_oneof f = Some k ->
  exists o, nth_error (md_oneofs m) k = Some o /\ In j (od_fields o).
Proof.
  intros H j f k Hf Hk.
  assert (Hlen : (k < length (md_oneofs m))%nat).
  { pose proof H as H0. rewrite build_message_spec in H0.
    destruct (forallb (oneof_index_ok (length onames)) fps) eqn:Ef; [|discriminate].
    inversion H0; subst; clear H0. cbn [md_fields md_oneofs] in *.
    rewrite add_members_length, init_oneofs_length.
    rewrite exp_fields_nth in Hf. destruct (nth_error fps j) as [p|] eqn:Ep; cbn in Hf; [|discriminate].
    inversion Hf; subst. cbn in Hk. rewrite forallb_forall in Ef.
    specialize (Ef p (nth_error_In _ _ Ep)). unfold oneof_index_ok in Ef. rewrite Hk in Ef.
    now apply Nat.ltb_lt. }
  destruct (nth_error (md_oneofs m) k) as [o|] eqn:Eo.
  - exists o. split; auto. apply (build_oneof_mutual _ _ _ _ H k o Eo). eauto.
  - apply nth_error_None in Eo. lia.
Qed.

(* the oneof index check is the only failure *)
Lemma build_message_ok_iff parent fps onames :
  (exists m, build_message parent fps onames = Some m) <->
  forall p k, In p fps -> fp_oneof p = Some k -> (k < length onames)%nat.
Proof.
  rewrite build_message_spec. destruct (forallb _ fps) eqn:E.
  - split; [|eauto]. intros _ p k Hin Hk. rewrite forallb_forall in E. specialize (E p Hin).
    unfold oneof_index_ok in E. rewrite Hk in E. now apply Nat.ltb_lt.
  - split; [intros [m H]; discriminate|]. intros H. exfalso.
    assert (forallb (oneof_index_ok (length onames)) fps = true); [|congruence].
    apply forallb_forall. intros p Hin. unfold oneof_index_ok. destruct (fp_oneof p) eqn:Ep; auto.
    apply Nat.ltb_lt. eauto.
Qed.
