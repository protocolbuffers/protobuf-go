(* Proofs about the editions feature-resolution model (C38). *)
From Coq Require Import List NArith Bool.
From PB Require Import Gen.EditionDefaults Desc.FeaturesModel.
Import ListNotations.
Open Scope N_scope.

(* one merge step, feature by feature *)
Lemma view_upd_presence : forall ft p o, view ft (upd_presence p o) =
  match ft, o with FPresence, Some v => interp FPresence v | _, _ => view ft p end.
Proof. intros ft p [v|]; destruct ft; reflexivity. Qed.
Lemma view_upd_enum : forall ft p o, view ft (upd_enum p o) =
  match ft, o with FEnum, Some v => interp FEnum v | _, _ => view ft p end.
Proof. intros ft p [v|]; destruct ft; reflexivity. Qed.
Lemma view_upd_repeated : forall ft p o, view ft (upd_repeated p o) =
  match ft, o with FRepeated, Some v => interp FRepeated v | _, _ => view ft p end.
Proof. intros ft p [v|]; destruct ft; reflexivity. Qed.
Lemma view_upd_utf8 : forall ft p o, view ft (upd_utf8 p o) =
  match ft, o with FUtf8, Some v => interp FUtf8 v | _, _ => view ft p end.
Proof. intros ft p [v|]; destruct ft; reflexivity. Qed.
Lemma view_upd_msgenc : forall ft p o, view ft (upd_msgenc p o) =
  match ft, o with FMsgEnc, Some v => interp FMsgEnc v | _, _ => view ft p end.
Proof. intros ft p [v|]; destruct ft; reflexivity. Qed.
Lemma view_upd_json : forall ft p o, view ft (upd_json p o) =
  match ft, o with FJson, Some v => interp FJson v | _, _ => view ft p end.
Proof. intros ft p [v|]; destruct ft; reflexivity. Qed.
Lemma view_upd_golegacy : forall ft p o, view ft (upd_golegacy p o) =
  match ft, o with FGoLegacy, Some v => interp FGoLegacy v | _, _ => view ft p end.
Proof. intros ft p [v|]; destruct ft; reflexivity. Qed.
Lemma view_upd_strip : forall ft p o, view ft (upd_strip p o) =
  match ft, o with FStrip, Some v => interp FStrip v | _, _ => view ft p end.
Proof. intros ft p [v|]; destruct ft; reflexivity. Qed.
Lemma view_upd_api : forall ft p o, view ft (upd_api p o) =
  match ft, o with FApi, Some v => interp FApi v | _, _ => view ft p end.
Proof. intros ft p [v|]; destruct ft; reflexivity. Qed.

Local Opaque upd_presence upd_enum upd_repeated upd_utf8 upd_msgenc upd_json upd_golegacy upd_strip upd_api view interp.
Lemma merge_view : forall ft p c,
  view ft (merge p c) = match ov_get ft c with Some v => interp ft v | None => view ft p end.
Proof.
  intros ft p c. unfold merge.
  destruct ft;
    repeat (first [rewrite view_upd_api | rewrite view_upd_strip | rewrite view_upd_golegacy
                  | rewrite view_upd_json | rewrite view_upd_msgenc | rewrite view_upd_utf8
                  | rewrite view_upd_repeated | rewrite view_upd_enum | rewrite view_upd_presence];
            cbv iota beta);
    cbn [ov_get];
    repeat match goal with |- context [match ?o with Some _ => _ | None => _ end] => destruct o end;
    reflexivity.
Qed.
Local Transparent upd_presence upd_enum upd_repeated upd_utf8 upd_msgenc upd_json upd_golegacy upd_strip upd_api view interp.

Lemma merge_empty : forall p, merge p ov_empty = p.
Proof. intros []; reflexivity. Qed.

(* fold_left facts with the step function abstract, so that the kernel never unfolds [merge] *)
Section Fold.
  Variables (S O W : Type) (V : Type) (mg : S -> O -> S) (get : O -> option V) (vw : S -> W) (itp : V -> W).
  Hypothesis step : forall p c, vw (mg p c) = match get c with Some v => itp v | None => vw p end.

  Lemma fold_unset : forall chain base,
    (forall o, In o chain -> get o = None) -> vw (fold_left mg chain base) = vw base.
  Proof.
    induction chain as [|o r IH]; intros base H; [reflexivity|].
    cbn [fold_left]. rewrite IH by (intros o' Ho'; apply H; right; exact Ho').
    rewrite step, (H o) by (left; reflexivity). reflexivity.
  Qed.

  Lemma fold_nearest : forall pre o post base v,
    get o = Some v -> (forall o', In o' post -> get o' = None) ->
    vw (fold_left mg (pre ++ o :: post) base) = itp v.
  Proof.
    intros pre o post base v Ho Hpost.
    rewrite fold_left_app. cbn [fold_left].
    rewrite fold_unset by exact Hpost. rewrite step, Ho. reflexivity.
  Qed.
End Fold.

Lemma resolve_from_app : forall base l1 l2,
  resolve_from base (l1 ++ l2) = resolve_from (resolve_from base l1) l2.
Proof. intros; unfold resolve_from; apply fold_left_app. Qed.

Lemma resolve_from_unset : forall ft chain base,
  (forall o, In o chain -> ov_get ft o = None) ->
  view ft (resolve_from base chain) = view ft base.
Proof.
  intros ft chain base H. unfold resolve_from.
  exact (fold_unset efeat ovset fview N merge (ov_get ft) (view ft) (interp ft) (merge_view ft) chain base H).
Qed.

Lemma resolve_from_nearest : forall ft pre o post base v,
  ov_get ft o = Some v ->
  (forall o', In o' post -> ov_get ft o' = None) ->
  view ft (resolve_from base (pre ++ o :: post)) = interp ft v.
Proof.
  intros ft pre o post base v Ho Hpost. unfold resolve_from.
  exact (fold_nearest efeat ovset fview N merge (ov_get ft) (view ft) (interp ft) (merge_view ft) pre o post base v Ho Hpost).
Qed.

Lemma fold_left_repeat_id : forall (A B : Type) (f : A -> B -> A) (b : B) n a,
  (forall a, f a b = a) -> fold_left f (repeat b n) a = a.
Proof.
  intros A B f b n; induction n as [|n IH]; intros a H; [reflexivity|].
  cbn [repeat fold_left]. rewrite H. apply IH, H.
Qed.

Lemma resolve_from_empties : forall n base, resolve_from base (repeat ov_empty n) = base.
Proof. intros; unfold resolve_from; apply fold_left_repeat_id, merge_empty. Qed.

(* the generated defaults table (Tier T): facts by computation *)
Definition supported (ed : N) : bool := (ed =? 998) || (ed =? 999) || (ed =? 1000) || (ed =? 1001) || (ed =? 9999).

Definition all_set (o : ovset) : bool := forallb (fun ft => match ov_get ft o with Some _ => true | None => false end) all_feats.

Lemma supported_cases : forall ed, supported ed = true -> ed = 998 \/ ed = 999 \/ ed = 1000 \/ ed = 1001 \/ ed = 9999.
Proof.
  intros ed H. unfold supported in H.
  repeat (apply orb_true_iff in H; destruct H as [H|H]); apply N.eqb_eq in H; auto 6.
Qed.

Lemma defaults_supported : forall ed, supported ed = true ->
  exists d, defaults_for ed = DOk d /\ all_set d = true.
Proof.
  intros ed H. destruct (supported_cases ed H) as [->|[->|[->|[->| ->]]]];
    eexists; (split; [vm_compute; reflexivity | vm_compute; reflexivity]).
Qed.

Lemma all_set_get : forall d ft, all_set d = true -> exists v, ov_get ft d = Some v.
Proof.
  intros d ft H. unfold all_set in H. rewrite forallb_forall in H.
  specialize (H ft). assert (Hin : In ft all_feats) by (destruct ft; cbn; auto 12).
  specialize (H Hin). destruct (ov_get ft d); [eauto|discriminate].
Qed.

(* fixed_features and overridable_features never set the same feature, so the order in
   which the two runtimes (protodesc: fixed then overridable; filedesc: wire order) apply
   them is immaterial *)
Definition row_disjoint (r : N * (list (N * N) * list (N * N))) : bool :=
  forallb (fun p => negb (existsb (fun q => fst p =? fst q) (snd (snd r)))) (fst (snd r)).
Lemma defaults_fixed_overridable_disjoint : forallb row_disjoint edition_defaults = true.
Proof. vm_compute; reflexivity. Qed.

(* every feature number in the table is one the runtime knows (filedesc.unmarshalFeatureSet
   panics on others) *)
Definition known_num (n : N) : bool :=
  (1 <=? n) && (n <=? 8) || (100201 <=? n) && (n <=? 100203).
Lemma defaults_fields_known :
  forallb (fun r => forallb (fun p => known_num (fst p)) (fst (snd r) ++ snd (snd r))) edition_defaults = true.
Proof. vm_compute; reflexivity. Qed.

(* unknown editions: the panic / exit behind finding F10 *)
Lemma defaults_unknown_edition_panics : defaults_for 99999 = DPanic.
Proof. vm_compute; reflexivity. Qed.
Lemma defaults_edition_zero_exits : defaults_for 0 = DExit.
Proof. vm_compute; reflexivity. Qed.

Theorem resolve_nearest_override : forall ed chain ft,
  supported ed = true ->
  exists e d dv,
    resolve ed chain = Some e /\ defaults_for ed = DOk d /\ ov_get ft d = Some dv /\
    (* no ancestor-or-self sets it: the edition default *)
    ((forall o, In o chain -> ov_get ft o = None) -> view ft e = interp ft dv) /\
    (* otherwise: the nearest (last on the path file -> ... -> leaf) explicit setting *)
    (forall pre o post v, chain = pre ++ o :: post -> ov_get ft o = Some v ->
        (forall o', In o' post -> ov_get ft o' = None) -> view ft e = interp ft v).
Proof.
  intros ed chain ft Hs.
  destruct (defaults_supported ed Hs) as [d [Hd Hall]].
  destruct (all_set_get d ft Hall) as [dv Hdv].
  exists (resolve_from (merge ef_zero d) chain), d, dv.
  unfold resolve; rewrite Hd. repeat split; auto.
  - intros Hnone. rewrite resolve_from_unset by exact Hnone. rewrite merge_view, Hdv. reflexivity.
  - intros pre o post v -> Ho Hpost. apply resolve_from_nearest; assumption.
Qed.

(* the explicit [packed] option of a field is nearer than any feature *)
Lemma field_packed_option_wins : forall legacy syntax parent own fi b,
  fi_packedopt fi = Some b ->
  fr_packed (field_record legacy syntax parent own fi)
  = (fr_card (field_record legacy syntax parent own fi) =? 3)
    && negb (kind_unpackable (fr_kind (field_record legacy syntax parent own fi))) && b.
Proof. intros legacy syntax parent own fi b H. unfold field_record. rewrite H. reflexivity. Qed.

Lemma field_packed_feature : forall legacy syntax parent own fi,
  fi_packedopt fi = None ->
  fr_packed (field_record legacy syntax parent own fi)
  = (fr_card (field_record legacy syntax parent own fi) =? 3)
    && negb (kind_unpackable (fr_kind (field_record legacy syntax parent own fi))) && ef_packed (merge parent own).
Proof. intros legacy syntax parent own fi H. unfold field_record. rewrite H. reflexivity. Qed.

(* proto2 / proto3 are exactly their editions translation *)
Definition E_proto2 : efeat := mkEfeat 1 true false false false false false false true 0.
Definition E_proto3 : efeat := mkEfeat 1 false false true true true false true false 0.

Lemma file_features_proto2 : resolve 998 [ov_empty] = Some E_proto2.
Proof. vm_compute; reflexivity. Qed.
Lemma file_features_proto3 : resolve 999 [ov_empty] = Some E_proto3.
Proof. vm_compute; reflexivity. Qed.
Lemma file_features_proto2_editions : resolve 1000 [p2_file_ov] = Some E_proto2.
Proof. vm_compute; reflexivity. Qed.
Lemma file_features_proto3_editions : resolve 1000 [p3_file_ov] = Some E_proto3.
Proof. vm_compute; reflexivity. Qed.

Lemma resolve_cons_empties : forall ed o n e,
  resolve ed [o] = Some e -> resolve ed (o :: repeat ov_empty n) = Some e.
Proof.
  intros ed o n e. unfold resolve. destruct (defaults_for ed); try discriminate.
  intros H; injection H as <-. f_equal.
  change (o :: repeat ov_empty n) with ([o] ++ repeat ov_empty n).
  rewrite resolve_from_app, resolve_from_empties. reflexivity.
Qed.

(* messages carry no overrides in a translated legacy file: the parent of every leaf has
   the file's features, at any nesting depth *)
Theorem legacy_file_features : forall n,
  resolve 998 (ov_empty :: repeat ov_empty n) = Some E_proto2 /\
  resolve 1000 (p2_file_ov :: repeat ov_empty n) = Some E_proto2 /\
  resolve 999 (ov_empty :: repeat ov_empty n) = Some E_proto3 /\
  resolve 1000 (p3_file_ov :: repeat ov_empty n) = Some E_proto3.
Proof.
  intros n; repeat split; apply resolve_cons_empties;
    [apply file_features_proto2 | apply file_features_proto2_editions
    | apply file_features_proto3 | apply file_features_proto3_editions].
Qed.

(* The feature set a field sees, natively and in its editions form; [merge] is only ever
   computed on closed feature sets. *)
Lemma proto2_native_merge : forall po,
  apply_packed (merge E_proto2 ov_empty) po
  = mkEfeat 1 true false false (match po with Some b => b | None => false end) false false false true 0.
Proof. intros [b|]; reflexivity. Qed.

Lemma proto2_editions_merge : forall lab ty po oo ext mp,
  merge E_proto2 (p2_field_ov (mkFieldIn lab ty po oo ext mp))
  = mkEfeat 1 true (lab =? 2) false (match po with Some b => b | None => false end) false (ty =? 10) false true 0.
Proof.
  intros lab ty po oo ext mp. unfold p2_field_ov. cbn [fi_label fi_type fi_packedopt].
  destruct (lab =? 2), (ty =? 10), po as [[|]|]; reflexivity.
Qed.

Lemma proto3_native_merge : forall po,
  apply_packed (merge E_proto3 ov_empty) po
  = mkEfeat 1 false false true (match po with Some b => b | None => true end) true false true false 0.
Proof. intros [b|]; reflexivity. Qed.

Lemma proto3_editions_merge : forall p3opt lab ty po oo ext mp,
  merge E_proto3 (p3_field_ov p3opt (mkFieldIn lab ty po oo ext mp))
  = mkEfeat 1 p3opt false true (match po with Some b => b | None => true end) true false true false 0.
Proof. intros [|] lab ty [[|]|]; reflexivity. Qed.

Lemma if_same : forall (A : Type) (b : bool) (x : A), (if b then x else x) = x.
Proof. intros A []; reflexivity. Qed.

Ltac read_field :=
  cbn [p2_field_tr p3_field_tr fi_label fi_type fi_packedopt fi_in_oneof fi_is_ext fi_mapish apply_packed
       ef_legacyreq ef_delim ef_presence ef_packed ef_utf8].

(* The translation moves [required] and the group type into features; everything else is
   carried over unchanged. *)
Theorem proto2_field_equivalence : forall legacy fi,
  (fi_is_ext fi = true -> fi_label fi <> 2) ->
  field_record legacy 2 E_proto2 ov_empty fi
  = field_record legacy 4 E_proto2 (p2_field_ov fi) (p2_field_tr fi).
Proof.
  intros legacy [lab ty po oo ext mp] Hext; cbn [fi_is_ext fi_label] in Hext.
  unfold field_record. rewrite proto2_native_merge, proto2_editions_merge. read_field.
  rewrite !andb_false_r, !if_same.
  assert (Hcard : (if negb ext && (lab =? 2) then 2 else if lab =? 2 then 1 else lab) = lab).
  { destruct (N.eqb_spec lab 2) as [->|_]; [|rewrite andb_false_r; reflexivity].
    destruct ext; [exfalso; apply Hext; reflexivity | reflexivity]. }
  rewrite Hcard.
  destruct (N.eqb_spec ty 10) as [->|Hty]; [reflexivity|].
  rewrite andb_false_r, (proj2 (N.eqb_neq ty 10) Hty). reflexivity.
Qed.

Theorem proto3_field_equivalence : forall legacy p3opt fi,
  fi_is_ext fi = false ->
  (p3opt = true -> fi_in_oneof fi = true /\ fi_label fi = 1) ->
  field_record legacy 3 E_proto3 ov_empty fi
  = field_record legacy 4 E_proto3 (p3_field_ov p3opt fi) (p3_field_tr p3opt fi).
Proof.
  intros legacy p3opt [lab ty po oo ext mp] Hext Hp3; cbn [fi_is_ext fi_label fi_in_oneof] in *.
  subst ext. unfold field_record. rewrite proto3_native_merge, proto3_editions_merge. read_field.
  rewrite !andb_false_r, if_same, orb_true_r.
  destruct p3opt; [|reflexivity].
  destruct (Hp3 eq_refl) as [-> ->]. cbn [orb N.eqb Pos.eqb]. rewrite orb_true_r. reflexivity.
Qed.

(* extensions: everything but the UTF-8 bit (strs.EnforceUTF8 only consults the feature for
   filedesc.Field, so an extension in an editions file never enforces UTF-8, whereas the same
   extension in a proto3 file does) *)
Theorem proto3_extension_equivalence_partial : forall legacy fi,
  fi_is_ext fi = true ->
  let a := field_record legacy 3 E_proto3 ov_empty fi in
  let b := field_record legacy 4 E_proto3 (p3_field_ov false fi) (p3_field_tr false fi) in
  fr_card a = fr_card b /\ fr_kind a = fr_kind b /\ fr_presence a = fr_presence b /\ fr_packed a = fr_packed b.
Proof.
  intros legacy [lab ty po oo ext mp] Hext; cbn [fi_is_ext] in Hext; subst ext.
  unfold field_record. rewrite proto3_native_merge, proto3_editions_merge. read_field.
  repeat split.
Qed.

Lemma proto3_extension_utf8_differs :
  exists fi, fi_is_ext fi = true /\
    fr_utf8 (field_record false 3 E_proto3 ov_empty fi) = true /\
    fr_utf8 (field_record false 4 E_proto3 (p3_field_ov false fi) (p3_field_tr false fi)) = false.
Proof. exists (mkFieldIn 1 9 None false true false). repeat split. Qed.

Lemma legacy_enum_closedness :
  enum_closed E_proto2 = true /\ enum_closed E_proto3 = false.
Proof. split; reflexivity. Qed.

(* the codec sees only the resolved record *)
Section Codec.
  Context {Out : Type}.
  Variable codec : fieldrec -> Out.    (* any wire / JSON / text behaviour written over the resolved field record *)
  Lemma codec_depends_only_on_resolved : forall legacy s1 s2 p1 p2 o1 o2 f1 f2,
    field_record legacy s1 p1 o1 f1 = field_record legacy s2 p2 o2 f2 ->
    codec (field_record legacy s1 p1 o1 f1) = codec (field_record legacy s2 p2 o2 f2).
  Proof. intros; f_equal; assumption. Qed.
End Codec.
