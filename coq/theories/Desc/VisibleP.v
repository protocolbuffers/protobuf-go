(* Proofs about the import-visibility model (C35).  Soundness only: it holds for every fuel of
   [import_public].  That the model's fuel [length g] suffices to reach every publicly reachable
   file (completeness of [visible_b]) is not proved here or elsewhere. *)
From Coq Require Import List Arith Bool Lia.
From PB Require Import Desc.VisibleModel.
Import ListNotations.

(* reachable through one or more PUBLIC import edges *)
Inductive pub_reach (g : graph) : nat -> nat -> Prop :=
  | pr_step : forall i j, In (j, true) (imports_of g i) -> pub_reach g i j
  | pr_trans : forall i j k, In (j, true) (imports_of g i) -> pub_reach g j k -> pub_reach g i k.

(* the rule: the file itself, a direct import, or reachable from a direct import through
   public edges only *)
Definition visible (g : graph) (a f : nat) : Prop :=
  f = a \/ (exists p, In (f, p) (imports_of g a)) \/
  (exists d p, In (d, p) (imports_of g a) /\ pub_reach g d f).

(* everything importPublic adds is a public import of the list, or publicly reachable from one *)
Lemma import_public_sound : forall g fuel imps acc x,
  In x (import_public fuel g imps acc) ->
  In x acc \/ exists j, In (j, true) imps /\ (x = j \/ pub_reach g j x).
Proof.
  intros g fuel. induction fuel as [|fuel IH]; intros imps acc x H; [left; exact H|].
  cbn [import_public] in H. revert acc H.
  induction imps as [|[j p] imps IHi]; intros acc H; [left; exact H|].
  cbn [fold_left fst snd] in H. apply IHi in H. destruct H as [H|[j' [Hj' Hx]]].
  - destruct p.
    + apply IH in H. destruct H as [[Hjx|H]|[k [Hk Hx]]].
      * right. exists j. split; [left; reflexivity|left; symmetry; exact Hjx].
      * left. exact H.
      * right. exists j. split; [left; reflexivity|]. right.
        destruct Hx as [->|Hx]; [apply pr_step; exact Hk|eapply pr_trans; [exact Hk|exact Hx]].
    + left. exact H.
  - right. exists j'. split; [right; exact Hj'|exact Hx].
Qed.

Theorem visible_b_sound : forall g a f, visible_b g a f = true -> visible g a f.
Proof.
  intros g a f H. unfold visible_b in H. apply existsb_exists in H. destruct H as [x [Hin Hx]].
  apply Nat.eqb_eq in Hx. subst x. unfold import_set in Hin.
  assert (Hgen : forall ds acc,
            (forall d, In d ds -> exists p, In (d, p) (imports_of g a)) ->
            In f (fold_left (fun acc d => import_public (length g) g (imports_of g d) acc) ds acc) ->
            In f acc \/ exists d p, In (d, p) (imports_of g a) /\ pub_reach g d f).
  { induction ds as [|d ds IHd]; intros acc Hds H; [left; exact H|].
    cbn [fold_left] in H. apply IHd in H; [|intros d' Hd'; apply Hds; right; exact Hd'].
    destruct H as [H|H]; [|right; exact H].
    apply import_public_sound in H. destruct H as [H|[j [Hj Hx]]]; [left; exact H|].
    right. destruct (Hds d (or_introl eq_refl)) as [p Hp]. exists d, p. split; [exact Hp|].
    destruct Hx as [->|Hx]; [apply pr_step; exact Hj|eapply pr_trans; [exact Hj|exact Hx]]. }
  apply Hgen in Hin.
  - destruct Hin as [Hin|Hin]; [|right; right; exact Hin].
    apply in_app_or in Hin. destruct Hin as [Hin|[<-|[]]]; [|left; reflexivity].
    apply in_rev in Hin. apply in_map_iff in Hin. destruct Hin as [[d p] [<- Hd]]. right. left. exists p. exact Hd.
  - intros d Hd. apply in_map_iff in Hd. destruct Hd as [[d' p] [<- Hd]]. exists p. exact Hd.
Qed.

(* the file itself is always visible *)
Lemma visible_b_self : forall g a, visible_b g a a = true.
Proof.
  intros g a. unfold visible_b, import_set. apply existsb_exists. exists a. split; [|apply Nat.eqb_refl].
  assert (Hmono : forall fuel imps acc x, In x acc -> In x (import_public fuel g imps acc)).
  { induction fuel as [|fuel IH]; intros imps acc x H; [exact H|]. cbn [import_public]. revert acc H.
    induction imps as [|[j p] imps IHi]; intros acc H; [exact H|]. cbn [fold_left fst snd]. apply IHi.
    destruct p; [apply IH; right; exact H|exact H]. }
  generalize (map fst (imports_of g a)) at 1 as ds.
  assert (Hin : In a (rev (map fst (imports_of g a)) ++ [a])) by (apply in_or_app; right; left; reflexivity).
  revert Hin. generalize (rev (map fst (imports_of g a)) ++ [a]) as acc.
  intros acc Hin ds. revert acc Hin. induction ds as [|d ds IHd]; intros acc Hin; [exact Hin|].
  cbn [fold_left]. apply IHd. apply Hmono. exact Hin.
Qed.

(* a file behind a NON-public import of a direct import is not visible: the three-file shape
   a -> b -> c, and the same with a public edge *)
Lemma visible_examples :
  visible_b [[]; [(0, false)]; [(1, false)]] 2 0 = false /\
  visible_b [[]; [(0, true)]; [(1, false)]] 2 0 = true /\
  visible_b [[]; [(0, false)]; [(1, true)]] 2 0 = false /\
  visible_b [[]; [(0, true)]; [(1, true)]; [(2, false)]] 3 0 = true /\
  visible_b [[]; [(0, true)]; [(1, false)]; [(2, false)]] 3 0 = false /\
  visible_b [[]; []; [(0, false); (1, true)]; [(2, true)]; [(3, false)]] 4 1 = true /\
  visible_b [[]; []; [(0, false); (1, true)]; [(2, true)]; [(3, false)]] 4 0 = false.
Proof. repeat split; vm_compute; reflexivity. Qed.

(* if no direct import of [a] has a public import, only [a] and its direct imports are visible *)
Theorem no_public_edges_only_direct : forall g a f,
  (forall d p, In (d, p) (imports_of g a) -> forall j, ~ In (j, true) (imports_of g d)) ->
  visible g a f -> f = a \/ exists p, In (f, p) (imports_of g a).
Proof.
  intros g a f H [Hv|[Hv|[d [p [Hd Hr]]]]]; [left; exact Hv|right; exact Hv|].
  exfalso. inversion Hr as [i j Hj|i j k Hj _]; subst; exact (H d p Hd _ Hj).
Qed.
