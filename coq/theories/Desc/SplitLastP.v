(* Splitting a byte string at the last occurrence of a separator.  The descriptor models each
   spell out strings.LastIndexByte(s, '.') for FullName.Parent / Name (RegistryModel,
   ConvertModel, DescLookupModel) and RegistryModel does the same with '/' for type URLs; the
   facts about all of them are proved here once, over the separator. *)
From Coq Require Import List Bool Arith Lia.
From Coq Require Import Strings.Byte.
From PB Require Import Base.PBytesP.
Import ListNotations.

Section Sep.
  Variable sep : byte.

  Fixpoint split_last_at (s : list byte) : option (list byte * list byte) :=
    match s with
    | [] => None
    | c :: t => match split_last_at t with
                | Some (a, b) => Some (c :: a, b)
                | None => if Byte.eqb c sep then Some ([], t) else None
                end
    end.

  Definition before_last (s : list byte) : list byte :=
    match split_last_at s with Some (a, _) => a | None => [] end.
  Definition after_last (s : list byte) : list byte :=
    match split_last_at s with Some (_, b) => b | None => s end.
  Definition join_at (p n : list byte) : list byte :=
    match p with [] => n | _ => p ++ sep :: n end.

  Lemma split_last_at_none s : split_last_at s = None <-> ~ In sep s.
  Proof.
    induction s as [|c t IH]; cbn [split_last_at In]; [tauto|].
    destruct (split_last_at t) as [[a b]|].
    - split; [discriminate|]. intros H. exfalso. apply H. right.
      destruct (in_dec Byte.byte_eq_dec sep t) as [Hi|Hn]; [exact Hi|]. apply IH in Hn. discriminate.
    - destruct (Byte.eqb c sep) eqn:Ec.
      + apply byte_eqb_eq in Ec. split; [discriminate | intros H; exfalso; apply H; now left].
      + apply byte_eqb_neq in Ec. split; [|reflexivity]. intros _ [Hc|Hi]; [contradiction | now apply IH].
  Qed.

  Lemma split_last_at_some s a b : split_last_at s = Some (a, b) -> s = a ++ sep :: b /\ ~ In sep b.
  Proof.
    revert a; induction s as [|c t IH]; cbn [split_last_at]; [discriminate|].
    intros a. destruct (split_last_at t) as [[a' b']|] eqn:E.
    - intros H; inversion H; subst. destruct (IH _ eq_refl) as [-> Hn]. now split.
    - destruct (Byte.eqb c sep) eqn:Ec; [|discriminate].
      intros H; inversion H; subst. apply byte_eqb_eq in Ec; subst c. split; [reflexivity|].
      now apply split_last_at_none.
  Qed.

  Lemma split_last_at_app a b : ~ In sep b -> split_last_at (a ++ sep :: b) = Some (a, b).
  Proof.
    intros Hn. induction a as [|c a IH]; cbn [app split_last_at].
    - apply split_last_at_none in Hn. now rewrite Hn, byte_eqb_refl.
    - now rewrite IH.
  Qed.

  Lemma split_last_at_join p n :
    ~ In sep n -> split_last_at (join_at p n) = match p with [] => None | _ => Some (p, n) end.
  Proof.
    intros Hn. destruct p; cbn [join_at]; [now apply split_last_at_none | now apply split_last_at_app].
  Qed.

  Lemma before_last_join p n : ~ In sep n -> before_last (join_at p n) = p.
  Proof. intros Hn. unfold before_last. rewrite split_last_at_join by exact Hn. now destruct p. Qed.

  Lemma after_last_join p n : ~ In sep n -> after_last (join_at p n) = n.
  Proof. intros Hn. unfold after_last. rewrite split_last_at_join by exact Hn. now destruct p. Qed.

  Lemma before_last_cases s :
    (~ In sep s /\ before_last s = []) \/ (exists b, s = before_last s ++ sep :: b /\ ~ In sep b).
  Proof.
    unfold before_last. destruct (split_last_at s) as [[a b]|] eqn:E.
    - right. exists b. now apply split_last_at_some.
    - left. split; [now apply split_last_at_none | reflexivity].
  Qed.

  Lemma before_last_shorter s : s <> [] -> length (before_last s) < length s.
  Proof.
    intros Hs. destruct (before_last_cases s) as [[_ ->]|(b & E & _)].
    - destruct s; [contradiction | cbn; lia].
    - apply (f_equal (@length byte)) in E. rewrite app_length in E. cbn [length] in E. lia.
  Qed.
End Sep.
