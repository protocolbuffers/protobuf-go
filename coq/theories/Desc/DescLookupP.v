(* Proofs about Desc/DescLookupModel.v: Go-map lemmas, first-wins / last-wins construction
   of the lookup maps, Names, FieldNumbers. *)
From Coq Require Import List ZArith Bool Arith Lia.
From Coq Require Import ZifyBool ZifyNat.
From PB Require Import Base.PBytes Base.PBytesP Desc.DescLookupModel.
Import ListNotations.

Lemma bytes_eqb_eq a b : bytes_eqb a b = true <-> a = b.
Proof. exact (byte_list_eqb_eq a b). Qed.

Lemma bytes_eqb_refl a : bytes_eqb a a = true.
Proof. now apply bytes_eqb_eq. Qed.

Lemma bytes_eqb_sym a b : bytes_eqb a b = bytes_eqb b a.
Proof. apply eq_true_iff_eq. rewrite !bytes_eqb_eq. split; congruence. Qed.

Fixpoint find_index {A} (p : A -> bool) (l : list A) : option nat :=
  match l with
  | [] => None
  | a :: r => if p a then Some O else option_map S (find_index p r)
  end.

Fixpoint find_last_index {A} (p : A -> bool) (l : list A) : option nat :=
  match l with
  | [] => None
  | a :: r => match find_last_index p r with
              | Some j => Some (S j)
              | None => if p a then Some O else None
              end
  end.

Lemma find_index_ext {A} (p q : A -> bool) l : (forall a, p a = q a) -> find_index p l = find_index q l.
Proof. intros H. induction l as [|a l IH]; cbn; auto. now rewrite H, IH. Qed.

Lemma find_last_index_ext {A} (p q : A -> bool) l : (forall a, p a = q a) -> find_last_index p l = find_last_index q l.
Proof. intros H. induction l as [|a l IH]; cbn; auto. now rewrite H, IH. Qed.

(* the specification of "first": the element at the index satisfies p and no earlier one does *)
Lemma find_index_Some {A} (p : A -> bool) l i :
  find_index p l = Some i <->
  (exists a, nth_error l i = Some a /\ p a = true) /\
  (forall j b, (j < i)%nat -> nth_error l j = Some b -> p b = false).
Proof.
  split.
  - revert i. induction l as [|a l IH]; intros i H; cbn in H; [discriminate|].
    destruct (p a) eqn:E.
    + inversion H; subst. split; [exists a; auto|]. intros; lia.
    + destruct (find_index p l) as [j|]; cbn in H; [|discriminate].
      inversion H; subst. destruct (IH j eq_refl) as [(b & Hb & Hp) Hlt].
      split; [exists b; auto|]. intros [|j'] c Hj Hc; cbn in Hc.
      * now inversion Hc; subst.
      * eapply Hlt; [|eauto]. lia.
  - revert i. induction l as [|a l IH]; intros i [(b & Hb & Hp) Hlt].
    + destruct i; discriminate.
    + cbn. destruct (p a) eqn:E.
      * destruct i as [|i]; auto. specialize (Hlt O a ltac:(lia) eq_refl). congruence.
      * destruct i as [|i]; cbn in Hb; [inversion Hb; subst; congruence|].
        rewrite (IH i); [reflexivity|]. split; [exists b; auto|].
        intros j' c Hj Hc. apply (Hlt (S j') c); [lia|exact Hc].
Qed.

Lemma find_index_None {A} (p : A -> bool) l :
  find_index p l = None <-> forall a, In a l -> p a = false.
Proof.
  induction l as [|a l IH]; cbn.
  - split; auto. intros _ a [].
  - destruct (p a) eqn:E.
    + split; [discriminate|]. intros H. specialize (H a (or_introl eq_refl)). congruence.
    + destruct (find_index p l); cbn.
      * split; [discriminate|]. intros H. assert (Some n = None); [|discriminate].
        apply IH. intros; apply H; auto.
      * split; auto. intros _ b [Hb|Hb]; [now subst|]. now apply IH.
Qed.

(* protodesc finds duplicate numbers by asking whether some element is not the first with its key *)
Lemma in_combine_seq {A} (l : list A) s i x :
  In (i, x) (combine (seq s (length l)) l) <-> (s <= i)%nat /\ nth_error l (i - s) = Some x.
Proof.
  revert s i x. induction l as [|y r IH]; intros s i x; cbn [length seq combine].
  - split; [intros []|]. intros [_ H]. destruct (i - s)%nat; discriminate.
  - cbn [In]. rewrite IH. split.
    + intros [H|[H1 H2]].
      * injection H as <- <-. split; [lia|]. rewrite Nat.sub_diag. reflexivity.
      * split; [lia|]. replace (i - s)%nat with (S (i - S s)) by lia. exact H2.
    + intros [H1 H2]. destruct (Nat.eq_dec i s) as [->|Hne].
      * left. rewrite Nat.sub_diag in H2. cbn in H2. injection H2 as ->. reflexivity.
      * right. split; [lia|]. replace (i - s)%nat with (S (i - S s)) in H2 by lia. exact H2.
Qed.

Lemma existsb_false {A} (f : A -> bool) l : existsb f l = false <-> forall x, In x l -> f x = false.
Proof.
  rewrite <- not_true_iff_false, existsb_exists. split.
  - intros H x Hx. apply not_true_iff_false. intros Hf. apply H. exists x. auto.
  - intros H (x & Hx & Hf). rewrite (H x Hx) in Hf. discriminate.
Qed.

Lemma NoDup_map_nth_error {A K} (key : A -> K) l i j a b :
  NoDup (map key l) -> nth_error l i = Some a -> nth_error l j = Some b -> key a = key b -> i = j.
Proof.
  intros Hnd Hi Hj Hk. apply (proj1 (NoDup_nth_error _) Hnd).
  - apply nth_error_Some. rewrite nth_error_map, Hi. discriminate.
  - rewrite !nth_error_map, Hi, Hj. cbn. congruence.
Qed.

(* [first n] = index of the first element with key [n].  No element sits behind the first one
   with its key exactly when the keys are pairwise distinct. *)
Lemma first_index_own_NoDup {A K} (key : A -> K) (keqb : K -> K -> bool) (first : K -> option nat) l :
  (forall a b, keqb a b = true <-> a = b) ->
  (forall n, first n = find_index (fun a => keqb (key a) n) l) ->
  existsb (fun p => match first (key (snd p)) with Some j => negb (Nat.eqb j (fst p)) | None => false end)
          (combine (seq 0 (length l)) l) = false
  <-> NoDup (map key l).
Proof.
  intros keqb_eq Hfirst. rewrite existsb_false. split.
  - intros H. apply NoDup_nth_error. intros i j Hi Hij.
    assert (Hown : forall k c, nth_error l k = Some c ->
                               find_index (fun a => keqb (key a) (key c)) l = Some k).
    { intros k c Hk. specialize (H (k, c)). cbn [fst snd] in H. rewrite Hfirst in H.
      destruct (find_index _ l) as [k'|] eqn:Hf.
      - f_equal. apply Nat.eqb_eq, negb_false_iff, H, in_combine_seq. rewrite Nat.sub_0_r. auto with arith.
      - rewrite find_index_None in Hf. specialize (Hf c (nth_error_In _ _ Hk)).
        rewrite (proj2 (keqb_eq _ _) eq_refl) in Hf. discriminate. }
    rewrite !nth_error_map in Hij. rewrite map_length in Hi. apply nth_error_Some in Hi.
    destruct (nth_error l i) as [a|] eqn:Ha; [|congruence].
    destruct (nth_error l j) as [b|] eqn:Hb; [|discriminate]. injection Hij as Hk.
    pose proof (Hown i a Ha) as Fi. rewrite Hk, (Hown j b Hb) in Fi. congruence.
  - intros Hnd [j b] Hin. apply in_combine_seq in Hin. destruct Hin as [_ Hj]. rewrite Nat.sub_0_r in Hj.
    cbn [fst snd]. rewrite Hfirst. destruct (find_index _ l) as [k|] eqn:Hf; [|reflexivity].
    apply find_index_Some in Hf. destruct Hf as [(a & Ha & Hp) _]. apply keqb_eq in Hp.
    rewrite (NoDup_map_nth_error key l k j a b Hnd Ha Hj Hp), Nat.eqb_refl. reflexivity.
Qed.

Lemma find_last_index_None {A} (p : A -> bool) l :
  find_last_index p l = None <-> forall a, In a l -> p a = false.
Proof.
  induction l as [|a l IH]; cbn.
  - split; auto. intros _ a [].
  - destruct (find_last_index p l) eqn:F.
    + split; [discriminate|]. intros H. assert (Some n = None); [|discriminate].
      apply IH. intros; apply H; auto.
    + destruct (p a) eqn:E.
      * split; [discriminate|]. intros H. specialize (H a (or_introl eq_refl)). congruence.
      * split; auto. intros _ b [Hb|Hb]; [now subst|]. now apply IH.
Qed.

Section GoMapP.
  Variables K V : Type.
  Variable keqb : K -> K -> bool.
  Hypothesis keqb_eq : forall a b, keqb a b = true <-> a = b.

  Lemma keqb_refl a : keqb a a = true.
  Proof. now apply keqb_eq. Qed.

  Lemma keqb_trans_false a b c : keqb a b = true -> keqb c b = false -> keqb c a = false.
  Proof.
    intros H1 H2. apply keqb_eq in H1. subst.
    exact H2.
  Qed.

  Lemma gm_get_remove (m : gomap K V) k k' :
    gm_get keqb (gm_remove keqb m k) k' = if keqb k' k then None else gm_get keqb m k'.
  Proof.
    unfold gm_remove. induction m as [|[k0 v0] m IH]; cbn.
    - now destruct (keqb k' k).
    - destruct (keqb k k0) eqn:E0; cbn.
      + apply keqb_eq in E0. subst k0. rewrite IH. now destruct (keqb k' k).
      + destruct (keqb k' k0) eqn:E1.
        * destruct (keqb k' k) eqn:E2; auto.
          apply keqb_eq in E1, E2. subst. rewrite keqb_refl in E0. discriminate.
        * exact IH.
  Qed.

  Lemma gm_get_put (m : gomap K V) k v k' :
    gm_get keqb (gm_put keqb m k v) k' = if keqb k' k then Some v else gm_get keqb m k'.
  Proof.
    unfold gm_put. cbn. destruct (keqb k' k) eqn:E; auto.
    rewrite gm_get_remove, E. reflexivity.
  Qed.

  Lemma gm_get_put_if_absent (m : gomap K V) k v k' :
    gm_get keqb (gm_put_if_absent keqb m k v) k' =
    match gm_get keqb m k' with
    | Some x => Some x
    | None => if keqb k' k then Some v else None
    end.
  Proof.
    unfold gm_put_if_absent. destruct (gm_get keqb m k) eqn:E.
    - destruct (gm_get keqb m k') eqn:E'; auto.
      destruct (keqb k' k) eqn:Ek; auto. apply keqb_eq in Ek. subst. congruence.
    - rewrite gm_get_put. destruct (keqb k' k) eqn:Ek.
      + apply keqb_eq in Ek. subst. now rewrite E.
      + now destruct (gm_get keqb m k').
  Qed.

  (* keys of a map stay unique *)
  Lemma gm_remove_keys (m : gomap K V) k kv : In kv (gm_remove keqb m k) -> In kv m /\ keqb k (fst kv) = false.
  Proof.
    unfold gm_remove. rewrite filter_In. intros [H1 H2]. split; auto. now destruct (keqb k (fst kv)).
  Qed.

  Lemma gm_remove_nodup (m : gomap K V) k : NoDup (map fst m) -> NoDup (map fst (gm_remove keqb m k)).
  Proof.
    induction m as [|[k0 v0] m IH]; cbn; intros H; [constructor|].
    inversion H; subst. destruct (keqb k k0); cbn; auto.
    constructor; auto. intros Hin. apply H2.
    apply in_map_iff in Hin. destruct Hin as (kv & Hk & Hin). apply gm_remove_keys in Hin.
    apply in_map_iff. exists kv. tauto.
  Qed.

  Lemma gm_put_nodup (m : gomap K V) k v : NoDup (map fst m) -> NoDup (map fst (gm_put keqb m k v)).
  Proof.
    intros H. unfold gm_put. cbn. constructor; [|now apply gm_remove_nodup].
    intros Hin. apply in_map_iff in Hin. destruct Hin as (kv & Hk & Hin).
    apply gm_remove_keys in Hin. destruct Hin as [_ Hf]. rewrite Hk, keqb_refl in Hf. discriminate.
  Qed.

  Lemma gm_get_In (m : gomap K V) k v : gm_get keqb m k = Some v -> In (k, v) m.
  Proof.
    induction m as [|[k0 v0] m IH]; cbn; [discriminate|].
    destruct (keqb k k0) eqn:E.
    - intros H. inversion H; subst. apply keqb_eq in E. subst. now left.
    - intros H. right. now apply IH.
  Qed.

  Lemma gm_In_get (m : gomap K V) k v : NoDup (map fst m) -> In (k, v) m -> gm_get keqb m k = Some v.
  Proof.
    induction m as [|[k0 v0] m IH]; cbn; intros Hn Hin; [destruct Hin|].
    inversion Hn; subst. destruct Hin as [Hin|Hin].
    - inversion Hin; subst. now rewrite keqb_refl.
    - destruct (keqb k k0) eqn:E.
      + apply keqb_eq in E. subst. exfalso. apply H1. apply in_map_iff. exists (k0, v). auto.
      + now apply IH.
  Qed.

End GoMapP.

Section FirstWins.
  Variable K : Type.
  Variable keqb : K -> K -> bool.
  Hypothesis keqb_eq : forall a b, keqb a b = true <-> a = b.

  (* first wins: every element enters its keys with insert-if-absent *)
  Variable E : Type.
  Variable keys : E -> list K.

  Definition fw_step (i : nat) (d : E) (m : gomap K nat) : gomap K nat :=
    fold_left (fun m k => gm_put_if_absent keqb m k i) (keys d) m.
  Fixpoint fw_loop (i : nat) (l : list E) (m : gomap K nat) : gomap K nat :=
    match l with
    | [] => m
    | d :: r => fw_loop (S i) r (fw_step i d m)
    end.

  Lemma fw_keys_get (ks : list K) i (m : gomap K nat) k :
    gm_get keqb (fold_left (fun m k => gm_put_if_absent keqb m k i) ks m) k =
    match gm_get keqb m k with
    | Some x => Some x
    | None => if existsb (keqb k) ks then Some i else None
    end.
  Proof.
    revert m. induction ks as [|k0 ks IH]; intros m; cbn.
    - now destruct (gm_get keqb m k).
    - rewrite IH. rewrite (gm_get_put_if_absent K nat keqb keqb_eq).
      destruct (gm_get keqb m k); auto.
      destruct (keqb k k0); cbn; auto.
  Qed.

  Lemma fw_loop_get l : forall i m k,
    gm_get keqb (fw_loop i l m) k =
    match gm_get keqb m k with
    | Some x => Some x
    | None => option_map (Nat.add i) (find_index (fun d => existsb (keqb k) (keys d)) l)
    end.
  Proof.
    induction l as [|d l IH]; intros i m k; cbn [fw_loop find_index].
    - now destruct (gm_get keqb m k).
    - rewrite IH. unfold fw_step. rewrite fw_keys_get.
      destruct (gm_get keqb m k); auto.
      destruct (existsb (keqb k) (keys d)); cbn.
      + f_equal. lia.
      + destruct (find_index (fun d0 => existsb (keqb k) (keys d0)) l); cbn; auto; try (f_equal; lia).
  Qed.

  (* built from the empty map: the index of the first element answering to [k] *)
  Lemma fw_loop_first l k (p : E -> bool) :
    (forall d, existsb (keqb k) (keys d) = p d) ->
    gm_get keqb (fw_loop 0 l []) k = find_index p l.
  Proof.
    intros Hp. rewrite fw_loop_get. cbn. rewrite (find_index_ext _ p) by exact Hp.
    destruct (find_index p l); reflexivity.
  Qed.

End FirstWins.

Section LastWins.
  Variable K : Type.
  Variable keqb : K -> K -> bool.
  Hypothesis keqb_eq : forall a b, keqb a b = true <-> a = b.
  Variable E : Type.

  (* last wins: every element assigns its key *)
  Variable key : E -> K.
  Fixpoint lw_loop (i : nat) (l : list E) (m : gomap K nat) : gomap K nat :=
    match l with
    | [] => m
    | d :: r => lw_loop (S i) r (gm_put keqb m (key d) i)
    end.

  Lemma lw_loop_get l : forall i m k,
    gm_get keqb (lw_loop i l m) k =
    match find_last_index (fun d => keqb k (key d)) l with
    | Some j => Some (i + j)%nat
    | None => gm_get keqb m k
    end.
  Proof.
    induction l as [|d l IH]; intros i m k; cbn [lw_loop find_last_index]; auto.
    rewrite IH. destruct (find_last_index (fun d0 => keqb k (key d0)) l).
    - f_equal. lia.
    - rewrite (gm_get_put K nat keqb keqb_eq). destruct (keqb k (key d)); auto; try (f_equal; lia).
  Qed.

  Lemma lw_loop_last l k :
    gm_get keqb (lw_loop 0 l []) k = find_last_index (fun d => keqb k (key d)) l.
  Proof. rewrite lw_loop_get. cbn. destruct (find_last_index _ l); reflexivity. Qed.

  (* with pairwise distinct keys, last = first *)
  Lemma first_last_unique l k :
    NoDup (map key l) ->
    find_last_index (fun d => keqb k (key d)) l = find_index (fun d => keqb k (key d)) l.
  Proof.
    induction l as [|d l IH]; cbn; auto. intros H. inversion H; subst.
    rewrite IH by auto. destruct (keqb k (key d)) eqn:Ek.
    - apply keqb_eq in Ek. subst k.
      assert (Hn : find_index (fun d0 => keqb (key d) (key d0)) l = None).
      { apply find_index_None. intros a Ha. destruct (keqb (key d) (key a)) eqn:Ea; auto.
        apply keqb_eq in Ea. exfalso. apply H2. rewrite Ea. now apply in_map. }
      now rewrite Hn.
    - now destruct (find_index (fun d0 => keqb k (key d0)) l).
  Qed.
End LastWins.

Arguments fw_loop {K} keqb {E} keys. Arguments lw_loop {K} keqb {E} key.

(* the recogniser of F8 *)
Lemma existsb_bytes_In a l : existsb (bytes_eqb a) l = true <-> In a l.
Proof.
  rewrite existsb_exists. split.
  - intros (x & Hx & He). apply bytes_eqb_eq in He. now subst.
  - intros H. exists a. split; auto. apply bytes_eqb_refl.
Qed.

Lemma has_dup_bytes_false l : has_dup_bytes l = false <-> NoDup l.
Proof.
  induction l as [|a l IH]; cbn.
  - split; auto. constructor.
  - rewrite orb_false_iff, IH. split.
    + intros [H1 H2]. constructor; auto. intros Hin. apply existsb_bytes_In in Hin. congruence.
    + intros H. inversion H; subst. split; auto.
      destruct (existsb (bytes_eqb a) l) eqn:E; auto. apply existsb_bytes_In in E. contradiction.
Qed.

Lemma byname_loop_fw i l m : byname_loop i l m = fw_loop bytes_eqb (fun d => [d]) i l m.
Proof. revert i m. induction l as [|d l IH]; intros; cbn; auto. Qed.

Lemma list_by_name_first l s : list_by_name l s = find_index (fun d => bytes_eqb s d) l.
Proof.
  unfold list_by_name. rewrite byname_loop_fw.
  apply (fw_loop_first _ bytes_eqb bytes_eqb_eq). intros d. apply orb_false_r.
Qed.

Lemma enumvalues_loop_name i l m :
  ev_name (enumvalues_loop i l m) = fw_loop bytes_eqb (fun d : bytes * Z => [fst d]) i l (ev_name m).
Proof. revert i m. induction l as [|d l IH]; intros; cbn; auto. now rewrite IH. Qed.

Lemma enumvalues_loop_num i l m :
  ev_num (enumvalues_loop i l m) = fw_loop Z.eqb (fun d : bytes * Z => [snd d]) i l (ev_num m).
Proof. revert i m. induction l as [|d l IH]; intros; cbn; auto. now rewrite IH. Qed.

Lemma enumvalues_by_name_first l s :
  enumvalues_by_name l s = find_index (fun d => bytes_eqb s (fst d)) l.
Proof.
  unfold enumvalues_by_name, enumvalues_init.
  rewrite enumvalues_loop_name.
  apply (fw_loop_first _ bytes_eqb bytes_eqb_eq). intros d. apply orb_false_r.
Qed.

Lemma enumvalues_by_number_first l n :
  enumvalues_by_number l n = find_index (fun d => Z.eqb n (snd d)) l.
Proof.
  unfold enumvalues_by_number, enumvalues_init.
  rewrite enumvalues_loop_num.
  apply (fw_loop_first _ Z.eqb Z.eqb_eq). intros d. apply orb_false_r.
Qed.

Definition json_keys (d : fld) : list bytes := f_json d :: (if f_grouplike d then [f_ljson d] else []).
Definition text_keys (d : fld) : list bytes := f_text d :: (if f_grouplike d then [f_ltext d] else []).

Lemma fields_loop_name i l m :
  fm_name (fields_loop i l m) = fw_loop bytes_eqb (fun d => [f_name d]) i l (fm_name m).
Proof. revert i m. induction l as [|d l IH]; intros; cbn [fields_loop fw_loop]; auto. now rewrite IH. Qed.

Lemma fields_loop_num i l m :
  fm_num (fields_loop i l m) = fw_loop Z.eqb (fun d => [f_num d]) i l (fm_num m).
Proof. revert i m. induction l as [|d l IH]; intros; cbn [fields_loop fw_loop]; auto. now rewrite IH. Qed.

Lemma fields_loop_json i l m :
  fm_json (fields_loop i l m) = fw_loop bytes_eqb json_keys i l (fm_json m).
Proof.
  revert i m. induction l as [|d l IH]; intros; cbn [fields_loop fw_loop]; auto.
  rewrite IH. f_equal. unfold fields_step, fw_step, json_keys. cbn. now destruct (f_grouplike d).
Qed.

Lemma fields_loop_text i l m :
  fm_text (fields_loop i l m) = fw_loop bytes_eqb text_keys i l (fm_text m).
Proof.
  revert i m. induction l as [|d l IH]; intros; cbn [fields_loop fw_loop]; auto.
  rewrite IH. f_equal. unfold fields_step, fw_step, text_keys. cbn. now destruct (f_grouplike d).
Qed.

(* the keys a field answers to *)
Definition json_key (s : bytes) (d : fld) : bool :=
  bytes_eqb s (f_json d) || (f_grouplike d && bytes_eqb s (f_ljson d)).
Definition text_key (s : bytes) (d : fld) : bool :=
  bytes_eqb s (f_text d) || (f_grouplike d && bytes_eqb s (f_ltext d)).

Lemma fields_by_name_first l s : fields_by_name l s = find_index (fun d => bytes_eqb s (f_name d)) l.
Proof.
  unfold fields_by_name, fields_init.
  rewrite fields_loop_name.
  apply (fw_loop_first _ bytes_eqb bytes_eqb_eq). intros d. apply orb_false_r.
Qed.

Lemma fields_by_number_first l n : fields_by_number l n = find_index (fun d => Z.eqb n (f_num d)) l.
Proof.
  unfold fields_by_number, fields_init.
  rewrite fields_loop_num.
  apply (fw_loop_first _ Z.eqb Z.eqb_eq). intros d. apply orb_false_r.
Qed.

Lemma fields_by_json_first l s : fields_by_json l s = find_index (json_key s) l.
Proof.
  unfold fields_by_json, fields_init.
  rewrite fields_loop_json. apply (fw_loop_first _ bytes_eqb bytes_eqb_eq).
  intros d. unfold json_keys, json_key. cbn. destruct (f_grouplike d); cbn; now rewrite ?orb_false_r.
Qed.

Lemma fields_by_text_first l s : fields_by_text l s = find_index (text_key s) l.
Proof.
  unfold fields_by_text, fields_init.
  rewrite fields_loop_text. apply (fw_loop_first _ bytes_eqb bytes_eqb_eq).
  intros d. unfold text_keys, text_key. cbn. destruct (f_grouplike d); cbn; now rewrite ?orb_false_r.
Qed.

(* OneofFields: last wins *)
Lemma oneof_loop_name i l m : fm_name (oneof_loop i l m) = lw_loop bytes_eqb f_name i l (fm_name m).
Proof. revert i m. induction l as [|d l IH]; intros; cbn [oneof_loop lw_loop]; auto. now rewrite IH. Qed.
Lemma oneof_loop_json i l m : fm_json (oneof_loop i l m) = lw_loop bytes_eqb f_json i l (fm_json m).
Proof. revert i m. induction l as [|d l IH]; intros; cbn [oneof_loop lw_loop]; auto. now rewrite IH. Qed.
Lemma oneof_loop_text i l m : fm_text (oneof_loop i l m) = lw_loop bytes_eqb f_text i l (fm_text m).
Proof. revert i m. induction l as [|d l IH]; intros; cbn [oneof_loop lw_loop]; auto. now rewrite IH. Qed.
Lemma oneof_loop_num i l m : fm_num (oneof_loop i l m) = lw_loop Z.eqb f_num i l (fm_num m).
Proof. revert i m. induction l as [|d l IH]; intros; cbn [oneof_loop lw_loop]; auto. now rewrite IH. Qed.

Lemma oneof_by_name_last l s : oneof_by_name l s = find_last_index (fun d => bytes_eqb s (f_name d)) l.
Proof.
  unfold oneof_by_name, oneof_init. rewrite oneof_loop_name. apply (lw_loop_last _ bytes_eqb bytes_eqb_eq).
Qed.
Lemma oneof_by_json_last l s : oneof_by_json l s = find_last_index (fun d => bytes_eqb s (f_json d)) l.
Proof.
  unfold oneof_by_json, oneof_init. rewrite oneof_loop_json. apply (lw_loop_last _ bytes_eqb bytes_eqb_eq).
Qed.
Lemma oneof_by_text_last l s : oneof_by_text l s = find_last_index (fun d => bytes_eqb s (f_text d)) l.
Proof.
  unfold oneof_by_text, oneof_init. rewrite oneof_loop_text. apply (lw_loop_last _ bytes_eqb bytes_eqb_eq).
Qed.
Lemma oneof_by_number_last l n : oneof_by_number l n = find_last_index (fun d => Z.eqb n (f_num d)) l.
Proof.
  unfold oneof_by_number, oneof_init. rewrite oneof_loop_num. apply (lw_loop_last _ Z.eqb Z.eqb_eq).
Qed.

(* first-wins is refuted for OneofFields (finding F8): members a_b and aB, both with JSON name "aB" *)
Definition F8_witness : list fld :=
  let s_a_b := ["a"; "_"; "b"]%byte in
  let s_aB := ["a"; "B"]%byte in
  [ {| f_name := s_a_b; f_json := s_aB; f_text := s_a_b; f_num := 1; f_grouplike := false; f_ljson := []; f_ltext := [] |};
    {| f_name := s_aB; f_json := s_aB; f_text := s_aB; f_num := 2; f_grouplike := false; f_ljson := []; f_ltext := [] |} ].

Lemma oneof_lookup_first_wins_refuted :
  exists l s, oneof_by_json l s <> find_index (fun d => bytes_eqb s (f_json d)) l
              /\ fields_by_json l s = find_index (fun d => bytes_eqb s (f_json d)) l.
Proof. exists F8_witness, ["a"; "B"]%byte. vm_compute. split; [discriminate|reflexivity]. Qed.

(* ... and holds whenever the recogniser of F8 does not fire *)
Lemma oneof_by_json_first_except_F8 l s : excl_F8_json l = false ->
  oneof_by_json l s = find_index (fun d => bytes_eqb s (f_json d)) l.
Proof.
  unfold excl_F8_json. rewrite has_dup_bytes_false. intros H.
  rewrite oneof_by_json_last. now apply (first_last_unique _ bytes_eqb bytes_eqb_eq).
Qed.

Lemma oneof_by_text_first_except_F8 l s : excl_F8_text l = false ->
  oneof_by_text l s = find_index (fun d => bytes_eqb s (f_text d)) l.
Proof.
  unfold excl_F8_text. rewrite has_dup_bytes_false. intros H.
  rewrite oneof_by_text_last. now apply (first_last_unique _ bytes_eqb bytes_eqb_eq).
Qed.

(* names and numbers of the fields of a validated message are unique *)
Lemma oneof_by_name_first_unique l s : NoDup (map f_name l) ->
  oneof_by_name l s = find_index (fun d => bytes_eqb s (f_name d)) l.
Proof. intros H. rewrite oneof_by_name_last. now apply (first_last_unique _ bytes_eqb bytes_eqb_eq). Qed.

Lemma oneof_by_number_first_unique l n : NoDup (map f_num l) ->
  oneof_by_number l n = find_index (fun d => Z.eqb n (f_num d)) l.
Proof. intros H. rewrite oneof_by_number_last. now apply (first_last_unique _ Z.eqb Z.eqb_eq). Qed.

Definition bytes_dec : forall a b : bytes, {a = b} + {a <> b} := list_eq_dec Byte.byte_eq_dec.

Definition cnt (m : gomap bytes Z) (s : bytes) : Z :=
  match gm_get bytes_eqb m s with Some c => c | None => 0%Z end.

Definition names_step (m : gomap bytes Z) (s : bytes) : gomap bytes Z :=
  gm_put bytes_eqb m s ((match gm_get bytes_eqb m s with Some c => c | None => 0 end) + 1)%Z.

Lemma names_fold_cnt l : forall m s,
  cnt (fold_left names_step l m) s = (cnt m s + Z.of_nat (count_occ bytes_dec l s))%Z.
Proof.
  induction l as [|a l IH]; intros m s; cbn [fold_left count_occ]; [cbn; lia|].
  rewrite IH. unfold cnt at 1. unfold names_step at 1.
  rewrite (gm_get_put _ _ bytes_eqb bytes_eqb_eq). destruct (bytes_dec a s) as [->|Hne].
  - rewrite bytes_eqb_refl. unfold cnt. lia.
  - destruct (bytes_eqb s a) eqn:E; [apply bytes_eqb_eq in E; congruence|]. unfold cnt. lia.
Qed.

(* entries are positive and keys unique *)
Lemma names_fold_inv l : forall m,
  NoDup (map fst m) -> (forall kv, In kv m -> (0 < snd kv)%Z) ->
  NoDup (map fst (fold_left names_step l m)) /\ (forall kv, In kv (fold_left names_step l m) -> (0 < snd kv)%Z).
Proof.
  induction l as [|a l IH]; intros m Hn Hp; cbn [fold_left]; auto.
  apply IH.
  - unfold names_step. now apply (gm_put_nodup _ _ bytes_eqb bytes_eqb_eq).
  - intros kv [Hkv|Hkv].
    + subst kv. cbn. destruct (gm_get bytes_eqb m a) eqn:E; [|lia].
      apply (gm_get_In _ _ bytes_eqb bytes_eqb_eq) in E. specialize (Hp _ E). cbn in Hp. lia.
    + apply gm_remove_keys in Hkv. apply Hp. tauto.
Qed.

Lemma names_init_fold l : names_init l = fold_left names_step l [].
Proof. reflexivity. Qed.

Lemma names_has_iff l s : names_has l s = true <-> In s l.
Proof.
  rewrite (count_occ_In bytes_dec). unfold names_has.
  pose proof (names_fold_cnt l [] s) as H. rewrite <- names_init_fold in H. unfold cnt in H. cbn in H.
  destruct (gm_get bytes_eqb (names_init l) s); lia.
Qed.

Lemma names_check_dup_false l : names_check_dup l = false <-> NoDup l.
Proof.
  unfold names_check_dup.
  destruct (names_fold_inv l [] (NoDup_nil _) (fun _ (H : In _ []) => match H with end)) as [Hn Hp].
  rewrite <- names_init_fold in Hn, Hp.
  rewrite (NoDup_count_occ bytes_dec). split.
  - intros H s.
    pose proof (names_fold_cnt l [] s) as Hc. rewrite <- names_init_fold in Hc. unfold cnt in Hc. cbn in Hc.
    destruct (gm_get bytes_eqb (names_init l) s) as [c|] eqn:E; [|lia].
    apply (gm_get_In _ _ bytes_eqb bytes_eqb_eq) in E.
    destruct (existsb (fun kv => (1 <? snd kv)%Z) (names_init l)) eqn:Ex; [discriminate|].
    assert (Hf : (1 <? c)%Z = false).
    { destruct (1 <? c)%Z eqn:E1; auto.
      assert (existsb (fun kv => (1 <? snd kv)%Z) (names_init l) = true); [|congruence].
      apply existsb_exists. exists (s, c). auto. }
    lia.
  - intros H. destruct (existsb (fun kv => (1 <? snd kv)%Z) (names_init l)) eqn:Ex; auto.
    apply existsb_exists in Ex. destruct Ex as ([k c] & Hin & Hc). cbn in Hc.
    apply (gm_In_get _ _ bytes_eqb bytes_eqb_eq _ _ _ Hn) in Hin.
    pose proof (names_fold_cnt l [] k) as Hk. rewrite <- names_init_fold in Hk. unfold cnt in Hk. cbn in Hk.
    rewrite Hin in Hk. specialize (H k). lia.
Qed.

Lemma numbers_fold_get l : forall m n,
  (exists u, gm_get Z.eqb (fold_left (fun m n => gm_put Z.eqb m n tt) l m) n = Some u) <->
  (exists u, gm_get Z.eqb m n = Some u) \/ In n l.
Proof.
  induction l as [|a l IH]; intros m n; cbn [fold_left].
  - split; [auto|]. intros [H|[]]; auto.
  - rewrite IH. rewrite (gm_get_put _ _ Z.eqb Z.eqb_eq). destruct (Z.eqb n a) eqn:E.
    + apply Z.eqb_eq in E. subst. split; intros _; [right; now left|left; eauto].
    + apply Z.eqb_neq in E. split.
      * intros [H|H]; auto. right. now right.
      * intros [H|[H|H]]; auto. congruence.
Qed.

Lemma numbers_has_iff l n : numbers_has l n = true <-> In n l.
Proof.
  unfold numbers_has, numbers_init.
  pose proof (numbers_fold_get l [] n) as H. cbn in H.
  destruct (gm_get Z.eqb (fold_left (fun m n => gm_put Z.eqb m n tt) l []) n) eqn:E.
  - split; auto. intros _. destruct H as [H _]. destruct H as [[u' Hu]|H]; eauto. discriminate.
  - split; [discriminate|]. intros Hin. destruct H as [_ H]. destruct H as [u' Hu]; auto. discriminate.
Qed.

(* batched versions are the pointwise maps *)
Lemma fields_by_name_many_eq l ks : fields_by_name_many l ks = map (fields_by_name l) ks. Proof. reflexivity. Qed.
Lemma fields_by_json_many_eq l ks : fields_by_json_many l ks = map (fields_by_json l) ks. Proof. reflexivity. Qed.
Lemma fields_by_text_many_eq l ks : fields_by_text_many l ks = map (fields_by_text l) ks. Proof. reflexivity. Qed.
Lemma fields_by_number_many_eq l ks : fields_by_number_many l ks = map (fields_by_number l) ks. Proof. reflexivity. Qed.
Lemma oneof_by_name_many_eq l ks : oneof_by_name_many l ks = map (oneof_by_name l) ks. Proof. reflexivity. Qed.
Lemma oneof_by_json_many_eq l ks : oneof_by_json_many l ks = map (oneof_by_json l) ks. Proof. reflexivity. Qed.
Lemma oneof_by_text_many_eq l ks : oneof_by_text_many l ks = map (oneof_by_text l) ks. Proof. reflexivity. Qed.
Lemma oneof_by_number_many_eq l ks : oneof_by_number_many l ks = map (oneof_by_number l) ks. Proof. reflexivity. Qed.
Lemma list_by_name_many_eq l ks : list_by_name_many l ks = map (list_by_name l) ks. Proof. reflexivity. Qed.
Lemma enumvalues_by_name_many_eq l ks : enumvalues_by_name_many l ks = map (enumvalues_by_name l) ks. Proof. reflexivity. Qed.
Lemma enumvalues_by_number_many_eq l ks : enumvalues_by_number_many l ks = map (enumvalues_by_number l) ks. Proof. reflexivity. Qed.
Lemma names_has_many_eq l ks : names_has_many l ks = map (names_has l) ks. Proof. reflexivity. Qed.
Lemma numbers_has_many_eq l ks : numbers_has_many l ks = map (numbers_has l) ks. Proof. reflexivity. Qed.
