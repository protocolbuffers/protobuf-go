(* RegistryFilesP — history-level theorems about protoregistry.Files: the invariant holds
   after every history; RegisterFile succeeds iff there is no conflict with the registered
   set; a failed registration is a no-op; counts, ranges and FindFileByPath are exact. *)
From Coq Require Import List Arith Bool Lia Permutation.
From PB Require Import Desc.RegistryModel Desc.RegistryBaseP Desc.RegistryTopP Desc.RegistryInvP.
Import ListNotations.

Lemma register_file_cases s rs fid f :
  finv s rs ->
  (conflict_path rs f /\ register_file s fid f = (lazy_init s, RErrPath)) \/
  (~ conflict_path rs f /\ conflict_pkg rs f /\ register_file s fid f = (lazy_init s, RErrPkg)) \/
  (~ conflict_path rs f /\ ~ conflict_pkg rs f /\ conflict_name rs f /\
   register_file s fid f = (lazy_init s, RErrName)) \/
  (~ conflict_path rs f /\ ~ conflict_pkg rs f /\ ~ conflict_name rs f /\
   snd (register_file s fid f) = ROk /\
   (wf_file f = true -> finv (fst (register_file s fid f)) (rs ++ [(fid, f)]))).
Proof.
  intros I. unfold register_file. cbv zeta. fold (lazy_init s).
  destruct (chain_total (f_pkg f)) as [prefixes Hc].
  destruct (is_nil (path_files (fs_bypath s) (f_path f))) eqn:Ep; cbn [negb].
  2:{ left. split; [|reflexivity]. now apply (reg_path_iff s rs (f_path f) I). }
  assert (NP : ~ conflict_path rs f).
  { intros H. apply (reg_path_iff s rs (f_path f) I) in H. congruence. }
  right. rewrite Hc.
  destruct (existsb (pkg_conflict (norm_descs (fs_descs s))) prefixes) eqn:Epk.
  { left. split; [assumption|]. split; [|reflexivity]. now apply (reg_pkg_iff s rs (f_pkg f) prefixes I Hc). }
  assert (NK : ~ conflict_pkg rs f).
  { intros H. apply (reg_pkg_iff s rs (f_pkg f) prefixes I Hc) in H. congruence. }
  right.
  destruct (existsb (fun kd => is_some (dget (norm_descs (fs_descs s)) (fst kd))) (range_top_level fid f)) eqn:En.
  { left. split; [assumption|]. split; [assumption|]. split; [|reflexivity]. now apply (reg_name_iff s rs fid f I). }
  assert (NN : ~ conflict_name rs f).
  { intros H. apply (reg_name_iff s rs fid f I) in H. congruence. }
  right. apply is_nil_true in Ep.
  destruct (pkg_marker s rs f prefixes I Hc Epk) as (fl & Hfl & _).
  rewrite Hfl. cbn [fst snd]. split; [assumption|]. split; [assumption|]. split; [assumption|].
  split; [reflexivity|].
  intros Hwf. exact (finv_success s rs fid f prefixes I Hwf Ep Hc Epk En fl Hfl).
Qed.

Lemma conflict_nil f :
  wf_file f = true -> ~ conflict_path [] f /\ ~ conflict_pkg [] f /\ ~ conflict_name [] f.
Proof.
  intros Hwf. repeat split.
  - intros (fid & f' & [] & _).
  - intros (q & _ & fid & f' & [] & _).
  - intros (n & Hn & [(fid & f' & [] & _)|[->|(fid & f' & [] & _)]]).
    apply (top_names_in O) in Hn. destruct Hn as [v Hv].
    destruct (top_in_wf O f [] v Hwf Hv) as (_ & Hk & _). now apply Hk.
Qed.

Lemma register_file_fail_noop s rs fid f :
  finv s rs -> wf_file f = true ->
  snd (register_file s fid f) <> ROk -> fst (register_file s fid f) = s.
Proof.
  intros I Hwf Hr.
  assert (Hd : (conflict_path rs f \/ conflict_pkg rs f \/ conflict_name rs f) -> lazy_init s = s).
  { intros Hc. apply lazy_init_id. intros E. rewrite (fi_nil _ _ I E) in Hc.
    destruct (conflict_nil f Hwf) as (H1 & H2 & H3). tauto. }
  destruct (register_file_cases s rs fid f I) as [(C & E)|[(_ & C & E)|[(_ & _ & C & E)|(_ & _ & _ & E & _)]]].
  - rewrite E. cbn [fst]. apply Hd. now left.
  - rewrite E. cbn [fst]. apply Hd. right. now left.
  - rewrite E. cbn [fst]. apply Hd. right. now right.
  - contradiction.
Qed.

Lemma fregs_run_state ops : fst (fregs_run ops) = fstate_after ops.
Proof. exact (fold_left_fst (fun s op => fst (fstep s op)) _ ops (fs_init, [])). Qed.

(* the state the extracted driver [frun] ends in is the [fstate_after] the theorems speak of *)
Lemma frun_state ops : fst (frun ops) = fstate_after ops.
Proof. exact (fold_left_fst_let fstep (fun l o => l ++ [o]) ops (fs_init, [])). Qed.

Lemma fstep_nonreg s op : (forall fid f, op <> FReg fid f) -> fst (fstep s op) = s.
Proof. intros H. destruct op; try reflexivity. exfalso. now apply (H fid f). Qed.

Lemma finv_step s rs op :
  finv s rs -> wf_fop op = true ->
  finv (fst (fregs_step (s, rs) op)) (snd (fregs_step (s, rs) op)).
Proof.
  intros I Hwf. unfold fregs_step. cbn [fst snd].
  destruct op as [fid f| | | | | |]; try exact I.
  cbn [fstep wf_fop] in *.
  destruct (register_file s fid f) as [s' r] eqn:E. cbn [fst snd].
  destruct (register_file_cases s rs fid f I) as [(C & E')|[(_ & C & E')|[(_ & _ & C & E')|(_ & _ & _ & Er & If)]]];
    rewrite E in *; cbn [fst snd] in *.
  - inversion E'; subst. now apply finv_lazy.
  - inversion E'; subst. now apply finv_lazy.
  - inversion E'; subst. now apply finv_lazy.
  - subst r. exact (If Hwf).
Qed.

Lemma finv_fold ops : forall st,
  finv (fst st) (snd st) -> forallb wf_fop ops = true ->
  finv (fst (fold_left fregs_step ops st)) (snd (fold_left fregs_step ops st)).
Proof.
  induction ops as [|op ops IH]; intros [s rs] I Hwf; cbn [fold_left]; [exact I|].
  cbn [forallb] in Hwf. apply andb_true_iff in Hwf. destruct Hwf as [H1 H2].
  apply IH; [|assumption]. now apply finv_step.
Qed.

Theorem finv_run ops :
  forallb wf_fop ops = true -> finv (fstate_after ops) (registered ops).
Proof.
  intros Hwf. rewrite <- fregs_run_state. unfold registered, fregs_run.
  apply finv_fold; [exact finv_init | assumption].
Qed.

(* the abstraction function agrees with the history-derived list of registered files *)
Theorem abs_files_registered ops :
  forallb wf_fop ops = true -> Permutation (abs_files (fstate_after ops)) (registered ops).
Proof. intros H. exact (fi_abs _ _ (finv_run ops H)). Qed.

(* the outcome of RegisterFile is classified for every candidate file, well formed or not *)
Theorem register_result_iff ops fid f :
  forallb wf_fop ops = true ->
  let r := snd (register_file (fstate_after ops) fid f) in
  let rs := registered ops in
  (r = ROk <-> ~ conflict_path rs f /\ ~ conflict_pkg rs f /\ ~ conflict_name rs f) /\
  (r = RErrPath <-> conflict_path rs f) /\
  (r = RErrPkg <-> ~ conflict_path rs f /\ conflict_pkg rs f) /\
  (r = RErrName <-> ~ conflict_path rs f /\ ~ conflict_pkg rs f /\ conflict_name rs f).
Proof.
  intros Hops. cbv zeta. pose proof (finv_run ops Hops) as I.
  (* in each case the outcome is known; every implication then holds because two different
     outcomes are equated (congruence) or from the case's conflict facts (tauto) *)
  destruct (register_file_cases _ _ fid f I) as [(C & E)|[(NP & C & E)|[(NP & NK & C & E)|(NP & NK & NN & E & _)]]];
    rewrite E; cbn [snd]; repeat split; intros; first [congruence | tauto].
Qed.

Theorem register_ok_iff_no_conflict ops fid f :
  forallb wf_fop ops = true -> wf_file f = true ->
  let r := snd (register_file (fstate_after ops) fid f) in
  let rs := registered ops in
  (r = ROk <-> ~ conflict_path rs f /\ ~ conflict_pkg rs f /\ ~ conflict_name rs f) /\
  (r = RErrPath <-> conflict_path rs f) /\
  (r = RErrPkg <-> ~ conflict_path rs f /\ conflict_pkg rs f) /\
  (r = RErrName <-> ~ conflict_path rs f /\ ~ conflict_pkg rs f /\ conflict_name rs f).
Proof. intros Hops _. exact (register_result_iff ops fid f Hops). Qed.

Theorem failed_register_noop ops fid f :
  forallb wf_fop ops = true -> wf_file f = true ->
  snd (register_file (fstate_after ops) fid f) <> ROk ->
  fst (register_file (fstate_after ops) fid f) = fstate_after ops.
Proof.
  intros Hops Hwf. apply (register_file_fail_noop _ (registered ops)); [now apply finv_run | assumption].
Qed.

(* ... hence every later observation is unchanged *)
Theorem failed_register_later_obs ops fid f ops2 :
  forallb wf_fop ops = true -> wf_file f = true ->
  snd (register_file (fstate_after ops) fid f) <> ROk ->
  frun_from (fst (register_file (fstate_after ops) fid f)) ops2 = frun_from (fstate_after ops) ops2.
Proof. intros H1 H2 H3. now rewrite failed_register_noop. Qed.

(* the model's auxiliary outcomes (fuel exhaustion, failed type assertion) are unreachable *)
Theorem register_total ops fid f :
  forallb wf_fop ops = true -> wf_file f = true ->
  snd (register_file (fstate_after ops) fid f) <> ROutOfFuel /\
  snd (register_file (fstate_after ops) fid f) <> RPanic.
Proof.
  intros Hops Hwf. pose proof (finv_run ops Hops) as I.
  destruct (register_file_cases _ _ fid f I) as [(C & E)|[(NP & C & E)|[(NP & NK & C & E)|(NP & NK & NN & E & _)]]];
    rewrite E; cbn [snd]; split; discriminate.
Qed.

Lemma filter_unique {A} (g : A -> name) (l : list A) p :
  NoDup (map g l) -> length (filter (fun r => name_eqb (g r) p) l) <= 1.
Proof.
  induction l as [|a l IH]; cbn [map filter length]; [lia|].
  intros H. inversion H as [|? ? Hn Hd]; subst. specialize (IH Hd).
  destruct (name_eqb (g a) p) eqn:E; [|assumption].
  apply name_eqb_eq in E. cbn [length].
  destruct (filter (fun r => name_eqb (g r) p) l) as [|b l'] eqn:Ef; [cbn; lia|]. exfalso.
  assert (Hb : In b (filter (fun r => name_eqb (g r) p) l)) by (rewrite Ef; now left).
  apply filter_In in Hb. destruct Hb as [Hb Eb]. apply name_eqb_eq in Eb.
  apply Hn. rewrite E, <- Eb. now apply in_map.
Qed.

Lemma path_filter_cases rs p :
  NoDup (map (fun r => f_path (snd r)) rs) ->
  (path_filter rs p = [] /\ ~ path_registered rs p) \/
  (exists fid f, path_filter rs p = [(fid, f)] /\
                 forall fid' f', In (fid', f') rs /\ f_path f' = p <-> (fid', f') = (fid, f)).
Proof.
  intros Hn. assert (L : length (path_filter rs p) <= 1) by (apply (filter_unique (fun r => f_path (snd r))); exact Hn).
  assert (M : forall fid' f', In (fid', f') rs /\ f_path f' = p <-> In (fid', f') (path_filter rs p)).
  { intros fid' f'. unfold path_filter. rewrite filter_In. cbn [snd]. now rewrite name_eqb_eq. }
  destruct (path_filter rs p) as [|[fid f] [|c l]] eqn:E; cbn [length] in L; [| |lia].
  - left. split; [reflexivity|]. intros (fid' & f' & H). now apply (M fid' f') in H.
  - right. exists fid, f. split; [reflexivity|]. intros fid' f'. rewrite M. cbn [In]. split; [intros [H|[]]|]; auto.
Qed.

Lemma pkg_files_spec s rs p : finv s rs -> pkg_files s p = map fst (pkg_filter rs p).
Proof.
  intros I. unfold pkg_files.
  destruct (fs_descs s) as [|e d] eqn:Ed; [rewrite dget_nil, (fi_nil _ _ I Ed); reflexivity|].
  change (e :: d) with (norm_descs (e :: d)). rewrite <- Ed.
  destruct (dget (norm_descs (fs_descs s)) p) as [[fl| | | | |]|] eqn:E;
    [now destruct (fi_pkg_sound _ _ I p fl E) | ..];
    rewrite (pkg_filter_nil s rs p I) by (intros ?; congruence); reflexivity.
Qed.

Theorem counts_and_ranges_exact ops :
  forallb wf_fop ops = true ->
  let s := fstate_after ops in
  let rs := registered ops in
  num_files s = length rs /\
  Permutation (range_files s) (map fst rs) /\
  (forall p, range_files_by_package s p = map fst (filter (fun r => name_eqb (f_pkg (snd r)) p) rs)) /\
  (forall p, num_files_by_package s p = length (filter (fun r => name_eqb (f_pkg (snd r)) p) rs)) /\
  NoDup (map (fun r => f_path (snd r)) rs) /\
  (forall p, find_file_by_path s p <> PMultiple) /\
  (forall p fid, find_file_by_path s p = PFound fid <-> exists f, In (fid, f) rs /\ f_path f = p) /\
  (forall p, find_file_by_path s p = PNotFound <-> ~ path_registered rs p).
Proof.
  intros Hops. cbv zeta. pose proof (finv_run ops Hops) as I.
  set (s := fstate_after ops) in *. set (rs := registered ops) in *.
  pose proof (fun p => path_filter_cases rs p (fi_paths _ _ I)) as C.
  repeat split.
  - exact (fi_num _ _ I).
  - unfold range_files. apply Permutation_map. exact (fi_abs _ _ I).
  - intros p. unfold range_files_by_package. now rewrite (pkg_files_spec s rs p I).
  - intros p. unfold num_files_by_package. rewrite (pkg_files_spec s rs p I). now rewrite map_length.
  - exact (fi_paths _ _ I).
  - intros p. unfold find_file_by_path. rewrite (fi_path _ _ I).
    destruct (C p) as [[E _]|(a & b & E & _)]; rewrite E; discriminate.
  - unfold find_file_by_path. rewrite (fi_path _ _ I).
    destruct (C p) as [[E _]|(a & b & E & U)]; rewrite E; [discriminate|].
    intros H. inversion H; subst a. exists b. now apply (U fid b).
  - intros (f & Hf). unfold find_file_by_path. rewrite (fi_path _ _ I).
    destruct (C p) as [[_ N]|(a & b & E & U)]; [exfalso; apply N; now exists fid, f|].
    rewrite E. apply U in Hf. now inversion Hf.
  - unfold find_file_by_path. rewrite (fi_path _ _ I). intros H.
    destruct (C p) as [[_ N]|(a & b & E & _)]; [exact N | rewrite E in H; discriminate].
  - intros Hp. unfold find_file_by_path. rewrite (fi_path _ _ I).
    destruct (C p) as [[E _]|(a & b & _ & U)]; [now rewrite E|].
    exfalso. apply Hp. exists a, b. now apply U.
Qed.
