(* Proofs about the descriptor-validation model (C35), part 2: soundness.
   Declarative "definite error" predicates, and: an accepted file exhibits none of them. *)
From Coq Require Import List NArith ZArith Bool Lia.
From PB Require Base.ListEqbP Desc.DescLookupP.
Import ListEqbP.
From PB Require Import Desc.ValidateModel Desc.ValidateP.
Import ListNotations.
Open Scope Z_scope.

Lemma str_eqb_eq : forall a b, str_eqb a b = true <-> a = b.
Proof. exact (list_eqb_eq N.eqb N.eqb_eq). Qed.
Lemma str_mem_in : forall s l, str_mem s l = true <-> In s l.
Proof.
  intros s l. unfold str_mem. rewrite existsb_exists. split.
  - intros [x [Hx He]]. apply str_eqb_eq in He. subst. exact Hx.
  - intros H. exists s. split; [exact H|]. apply str_eqb_eq. reflexivity.
Qed.
Lemma has_dup_nodup : forall l, has_dup l = false -> NoDup l.
Proof.
  induction l as [|x r IH]; intros H; [constructor|].
  cbn in H. apply orb_false_iff in H. destruct H as [H1 H2].
  constructor; [|apply IH; exact H2].
  intros Hin. apply str_mem_in in Hin. congruence.
Qed.

(* duplicate numbers: both searches are [find_index] on the number *)
Lemma first_field_num_find : forall fields n,
  first_field_num fields n = DescLookupP.find_index (fun f => f_num f =? n) fields.
Proof.
  intros fields n. unfold first_field_num.
  transitivity (option_map (Nat.add 0) (DescLookupP.find_index (fun f => f_num f =? n) fields));
    [|destruct (DescLookupP.find_index _ fields); reflexivity].
  generalize 0%nat. induction fields as [|f r IH]; intros i; [reflexivity|].
  cbn [DescLookupP.find_index]. destruct (f_num f =? n); [cbn; f_equal; lia|].
  rewrite IH. destruct (DescLookupP.find_index _ r); cbn; [f_equal; lia|reflexivity].
Qed.

Lemma first_index_num_find : forall vs n i,
  first_index_num vs n i = option_map (Nat.add i) (DescLookupP.find_index (fun v => ev_number v =? n) vs).
Proof.
  induction vs as [|v r IH]; intros n i; [reflexivity|].
  cbn [first_index_num DescLookupP.find_index]. destruct (ev_number v =? n); [cbn; f_equal; lia|].
  rewrite IH. destruct (DescLookupP.find_index _ r); cbn; [f_equal; lia|reflexivity].
Qed.

Lemma has_dup_field_number_false : forall fields,
  has_dup_field_number fields = false <-> NoDup (map f_num fields).
Proof.
  intros fields. apply (DescLookupP.first_index_own_NoDup f_num Z.eqb (first_field_num fields) fields Z.eqb_eq).
  intros n. apply first_field_num_find.
Qed.

Lemma has_alias_false : forall vs, has_alias vs = false <-> NoDup (map ev_number vs).
Proof.
  intros vs.
  apply (DescLookupP.first_index_own_NoDup ev_number Z.eqb (fun n => first_index_num vs n 0) vs Z.eqb_eq).
  intros n. rewrite first_index_num_find. destruct (DescLookupP.find_index _ vs); reflexivity.
Qed.

Definition dup_field_number (m : msg) : Prop :=
  exists i j fi fj, (i < j)%nat /\ nth_error (m_fields m) i = Some fi /\ nth_error (m_fields m) j = Some fj
                    /\ f_num fi = f_num fj.

(* on a message declaration *)
Definition reserved_name_used (m : msg) : Prop := exists f, In f (m_fields m) /\ In (f_name f) (m_resnames m).
Definition duplicate_reserved_name (m : msg) : Prop := ~ NoDup (m_resnames m).
Definition invalid_field_number (m : msg) : Prop := exists f, In f (m_fields m) /\ ~ (1 <= f_num f <= 536870911).
Definition invalid_label (m : msg) : Prop := exists f, In f (m_fields m) /\ f_label f <> 1 /\ f_label f <> 2 /\ f_label f <> 3.
Definition field_with_extendee (m : msg) : Prop := exists f s, In f (m_fields m) /\ f_extendee f = Some s.
Definition empty_oneof (m : msg) : Prop :=
  exists k, (k < length (m_oneofs m))%nat /\ forall f, In f (m_fields m) -> f_oneof f <> Some (Z.of_nat k).
Definition proto3_required (syntax : N) (m : msg) : Prop := syntax = 1%N /\ exists f, In f (m_fields m) /\ f_label f = 2.
Definition proto3_extension_ranges (syntax : N) (m : msg) : Prop := syntax = 1%N /\ m_extranges m <> [].
Definition proto3_optional_outside_proto3 (syntax : N) (m : msg) : Prop :=
  syntax <> 1%N /\ exists f, In f (m_fields m) /\ f_p3opt f = true.
Definition proto3_optional_not_optional (m : msg) : Prop := exists f, In f (m_fields m) /\ f_p3opt f = true /\ f_label f <> 1.
Definition message_set_unsupported (m : msg) : Prop := m_msgset m = true.
(* on an enum declaration *)
Definition empty_enum (e : enum) : Prop := en_values e = [].
Definition enum_dup_number_noalias (e : enum) : Prop :=
  en_alias e = false /\
  exists i j vi vj, (i < j)%nat /\ nth_error (en_values e) i = Some vi /\ nth_error (en_values e) j = Some vj
                    /\ ev_number vi = ev_number vj.
Definition alias_without_aliases (e : enum) : Prop := en_alias e = true /\ NoDup (map ev_number (en_values e)).
Definition open_enum_first_nonzero (syntax : N) (e : enum) : Prop :=
  syntax <> 0%N /\ exists v r, en_values e = v :: r /\ ev_number v <> 0.
Definition enum_reserved_name_used (e : enum) : Prop := exists v, In v (en_values e) /\ In (ev_name v) (en_resnames e).
Definition enum_duplicate_reserved_name (e : enum) : Prop := ~ NoDup (en_resnames e).
Definition enum_value_without_number (e : enum) : Prop := exists v, In v (en_values e) /\ ev_num v = None.

Definition msg_definite_error (syntax : N) (m : msg) : Prop :=
  dup_field_number m \/ reserved_name_used m \/ duplicate_reserved_name m \/ invalid_field_number m \/ invalid_label m
  \/ field_with_extendee m \/ empty_oneof m \/ proto3_required syntax m \/ proto3_extension_ranges syntax m
  \/ proto3_optional_outside_proto3 syntax m \/ proto3_optional_not_optional m \/ message_set_unsupported m.
Definition enum_definite_error (syntax : N) (e : enum) : Prop :=
  empty_enum e \/ enum_dup_number_noalias e \/ alias_without_aliases e \/ open_enum_first_nonzero syntax e
  \/ enum_reserved_name_used e \/ enum_duplicate_reserved_name e \/ enum_value_without_number e.

Lemma oneof_members_In : forall fields k i f,
  In (i, f) (oneof_members fields k) <-> nth_error fields i = Some f /\ f_oneof f = Some k.
Proof.
  intros fields k i f. unfold oneof_members.
  rewrite filter_In, DescLookupP.in_combine_seq, Nat.sub_0_r. cbn [snd].
  destruct (f_oneof f) as [j|]; [rewrite Z.eqb_eq|]; intuition (auto with arith; congruence).
Qed.

Lemma oneof_members_nil : forall fields k,
  oneof_members fields k = [] -> forall f, In f fields -> f_oneof f <> Some k.
Proof.
  intros fields k H f Hf Heq. destruct (In_nth_error _ _ Hf) as [i Hi].
  apply (in_nil (a := (i, f))). rewrite <- H. apply oneof_members_In. auto.
Qed.

Lemma validate_oneofs_nonempty : forall syntax fields n k seen,
  validate_oneofs syntax fields n k seen = Ok tt ->
  forall j, (j < n)%nat -> oneof_members fields (k + Z.of_nat j) <> [].
Proof.
  intros syntax fields n; induction n as [|n IH]; intros k seen H j Hj; [lia|].
  cbn [validate_oneofs] in H.
  destruct (oneof_members fields k) as [|[i0 f0] ms] eqn:Hm; [discriminate|].
  destruct j as [|j].
  - rewrite Z.add_0_r. rewrite Hm. discriminate.
  - replace (k + Z.of_nat (S j)) with ((k + 1) + Z.of_nat j) by lia.
    destruct (negb (Nat.eqb (length ((i0, f0) :: ms) - 1) (fst (last ((i0, f0) :: ms) (i0, f0)) - i0))); [discriminate|].
    destruct (is_proto3 syntax && Nat.eqb (length ((i0, f0) :: ms)) 1 && f_p3opt f0).
    + eapply IH; [exact H|lia].
    + destruct seen; [discriminate|].
      apply bind_ok in H. destruct H as [[] [_ H]]. eapply IH; [exact H|lia].
Qed.

Theorem msg_local_sound : forall allow syntax t full m,
  msg_local false allow syntax t full m = Ok tt -> ~ msg_definite_error syntax m.
Proof.
  intros allow syntax t full m H.
  apply msg_local_ok in H. destruct H as (Hrn & _ & _ & _ & Hdup & Hms & _ & Hp3x & Hfields & Honeofs).
  pose proof (fun f Hf => validate_field_facts _ _ _ _ _ _ f (Hfields f Hf)) as HF.
  unfold msg_definite_error.
  intros [E|[E|[E|[E|[E|[E|[E|[E|[E|[E|[E|E]]]]]]]]]]].
  - destruct E as [i [j [fi [fj [Hij [Hi [Hj Heq]]]]]]]. apply has_dup_field_number_false in Hdup.
    rewrite (DescLookupP.NoDup_map_nth_error f_num _ i j fi fj Hdup Hi Hj Heq) in Hij. exact (Nat.lt_irrefl _ Hij).
  - destruct E as [f [Hf Hin]]. destruct (HF f Hf) as [Hn _]. apply str_mem_in in Hin. congruence.
  - apply E. apply has_dup_nodup. exact Hrn.
  - destruct E as [f [Hf Hbad]]. destruct (HF f Hf) as [_ [Hn _]]. unfold num_valid, max_valid in Hn.
    apply andb_true_iff in Hn. destruct Hn as [Ha Hb]. apply Z.leb_le in Ha. apply Z.leb_le in Hb.
    exact (Hbad (conj Ha Hb)).
  - destruct E as [f [Hf [H1 [H2 H3]]]]. destruct (HF f Hf) as [_ [_ [Hc _]]]. unfold card_valid in Hc.
    repeat (apply orb_true_iff in Hc; destruct Hc as [Hc|Hc]); apply Z.eqb_eq in Hc; congruence.
  - destruct E as [f [s [Hf He]]]. destruct (HF f Hf) as (_ & _ & _ & _ & _ & Hx & _). congruence.
  - destruct E as [k [Hk Hnone]].
    pose proof (validate_oneofs_nonempty _ _ _ _ _ Honeofs k Hk) as Hne. cbn in Hne.
    destruct (oneof_members (m_fields m) (Z.of_nat k)) as [|[i f] r] eqn:Hm; [congruence|].
    destruct (proj1 (oneof_members_In (m_fields m) (Z.of_nat k) i f)) as [Hnth Hj]; [rewrite Hm; left; reflexivity|].
    exact (Hnone f (nth_error_In _ _ Hnth) Hj).
  - destruct E as [-> [f [Hf Hl]]]. destruct (HF f Hf) as (_ & _ & _ & _ & _ & _ & _ & Hreq). exact (Hreq eq_refl Hl).
  - destruct E as [-> Hne]. cbn in Hp3x. destruct (m_extranges m); [congruence|discriminate].
  - destruct E as [Hs [f [Hf Hp]]]. destruct (HF f Hf) as (_ & _ & _ & _ & _ & _ & Hp3 & _). destruct (Hp3 Hp) as [Hs3 _].
    unfold is_proto3 in Hs3. apply N.eqb_eq in Hs3. congruence.
  - destruct E as [f [Hf [Hp Hl]]]. destruct (HF f Hf) as (_ & _ & _ & _ & _ & _ & Hp3 & _). destruct (Hp3 Hp) as [_ Hl1]. congruence.
  - unfold message_set_unsupported in E. rewrite E in Hms. discriminate.
Qed.

Theorem validate_enum_sound : forall syntax e,
  validate_enum syntax e = Ok tt -> ~ enum_definite_error syntax e.
Proof.
  intros syntax e H.
  apply validate_enum_ok in H. destruct H as (Hrn & _ & Hempty & Hdup & Hnoalias & Hopen & HV).
  unfold enum_definite_error.
  intros [E|[E|[E|[E|[E|[E|E]]]]]].
  - unfold empty_enum in E. rewrite E in Hempty. discriminate.
  - destruct E as [Ha [i [j [vi [vj [Hij [Hi [Hj Heq]]]]]]]].
    rewrite Ha, andb_true_r in Hdup. apply has_alias_false in Hdup.
    rewrite (DescLookupP.NoDup_map_nth_error ev_number _ i j vi vj Hdup Hi Hj Heq) in Hij. exact (Nat.lt_irrefl _ Hij).
  - destruct E as [Ha Hnd]. apply has_alias_false in Hnd. rewrite Ha, Hnd in Hnoalias. discriminate.
  - destruct E as [Hs [v [r [Hv Hnz]]]].
    destruct Hopen as [Hf _]; [apply N.eqb_neq; exact Hs|]. rewrite Hv in Hf.
    apply negb_false_iff, Z.eqb_eq in Hf. congruence.
  - destruct E as [v [Hv Hin]]. destruct (HV v Hv) as (_ & Hm & _). apply str_mem_in in Hin. congruence.
  - apply E. apply has_dup_nodup. exact Hrn.
  - destruct E as [v [Hv Hnone]]. destruct (HV v Hv) as (Hn & _). rewrite Hnone in Hn. discriminate.
Qed.

Theorem validate_sound : forall allow f,
  validate false allow f = Accept ->
  (forall m, In m (file_msgs f) -> ~ msg_definite_error (fl_syntax f) m) /\
  (forall e, In e (file_enums f) -> ~ enum_definite_error (fl_syntax f) e).
Proof.
  intros allow f H. destruct (accept_structure false allow f H) as [Hm He]. split.
  - intros m Hin. destruct (Hm m Hin) as [[full Hloc] _]. exact (msg_local_sound _ _ _ _ _ Hloc).
  - intros e Hin. exact (validate_enum_sound _ _ (He e Hin)).
Qed.
