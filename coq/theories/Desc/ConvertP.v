(* Desc/ConvertP.v -- proofs about Desc/ConvertModel.v (C34, C37). *)
From Coq Require Import List NArith ZArith Bool Lia.
From Coq Require String.
From PB Require Import Base.PBytes Base.PBytesP Desc.ConvertModel Desc.SplitLastP.
Import ListNotations.
Open Scope N_scope.

Lemma beq_byte_refl c : beq_byte c c = true.
Proof. exact (byte_eqb_refl c). Qed.

Lemma beq_byte_eq a b : beq_byte a b = true -> a = b.
Proof. exact (proj1 (byte_eqb_eq a b)). Qed.

Lemma beq_refl s : beq s s = true.
Proof. exact (byte_list_eqb_refl s). Qed.

Lemma beq_eq a : forall b, beq a b = true -> a = b.
Proof. exact (fun b => proj1 (byte_list_eqb_eq a b)). Qed.

Lemma beq_neq a b : beq a b = false -> a <> b.
Proof. intros H E. subst. rewrite beq_refl in H. discriminate. Qed.

Lemma split_last_eq s : split_last s = split_last_at c_dot s.
Proof. reflexivity. Qed.

Lemma dot_not_letter_or_digit : is_letter_or_digit c_dot = false.
Proof. reflexivity. Qed.

Lemma ident_no_dot s : ident_ok s = true -> ~ In c_dot s.
Proof.
  intros H Hi. assert (Hc : is_letter_or_digit c_dot = true); [|now rewrite dot_not_letter_or_digit in Hc].
  destruct s as [|c r]; [discriminate|]. cbn [ident_ok] in H. apply andb_prop in H as [H1 H2].
  destruct Hi as [->|Hi].
  - unfold is_letter_or_digit. now rewrite H1.
  - rewrite forallb_forall in H2. now apply H2.
Qed.

(* FullName.Parent and FullName.Name invert FullName.Append for a valid short name *)
Lemma fn_name_append p n : ident_ok n = true -> fn_name (fn_append p n) = n.
Proof. intros H. exact (after_last_join c_dot p n (ident_no_dot n H)). Qed.

Lemma fn_parent_append p n : ident_ok n = true -> fn_parent (fn_append p n) = p.
Proof. intros H. exact (before_last_join c_dot p n (ident_no_dot n H)). Qed.

Lemma fn_parent_shorter s : s <> [] -> (length (fn_parent s) < length s)%nat.
Proof. exact (before_last_shorter c_dot s). Qed.

(* what a lookup can see under a given full name *)
Definition visible (tbl : list Decl) (env : list RemoteD) (s : bytes) : bool :=
  match find_decl tbl s with
  | Some _ => true
  | None => match find_remote env s with Some r => r_imported r | None => false end
  end.

(* ... and what it reports about it: (kind, IsMapEntry, declared in this file) *)
Definition visible_hit (tbl : list Decl) (env : list RemoteD) (s : bytes) : option (N * bool * bool) :=
  match find_decl tbl s with
  | Some d => Some (d_kind d, d_mapentry d, true)
  | None => match find_remote env s with
            | Some r => if r_imported r then Some (r_kind r, r_mapentry r, false) else None
            | None => None
            end
  end.

Lemma visible_hit_some tbl env s k me loc :
  visible_hit tbl env s = Some (k, me, loc) ->
  visible tbl env s = true /\ (loc = true <-> find_decl tbl s <> None).
Proof.
  unfold visible_hit, visible. destruct (find_decl tbl s).
  - intros H; inversion H. split; [reflexivity|]. split; [discriminate | reflexivity].
  - destruct (find_remote env s) as [r|]; [|discriminate]. destruct (r_imported r); [|discriminate].
    intros H; inversion H. split; [reflexivity|]. split; [discriminate | congruence].
Qed.

Lemma visible_hit_none tbl env s : visible_hit tbl env s = None -> visible tbl env s = false.
Proof.
  unfold visible_hit, visible. destruct (find_decl tbl s); [discriminate|].
  destruct (find_remote env s) as [r|]; [|reflexivity]. now destruct (r_imported r).
Qed.

(* the scopes tried, innermost first *)
Fixpoint scope_chain (fuel : nat) (scope : bytes) : list bytes :=
  scope :: match scope, fuel with
           | [], _ => []
           | _, O => []
           | _, S k => scope_chain k (fn_parent scope)
           end.

Lemma find_loop_step tbl env fuel scope ref nimp :
  find_loop tbl env fuel scope ref nimp =
  match visible_hit tbl env (fn_append scope ref) with
  | Some (k, me, loc) => LFound (fn_append scope ref) k me loc
  | None =>
      let nimp' := match find_remote env (fn_append scope ref) with Some _ => true | None => nimp end in
      match scope, fuel with
      | [], _ => if nimp' then LNotImported else LNotFound
      | _, O => if nimp' then LNotImported else LNotFound
      | _, S k => find_loop tbl env k (fn_parent scope) ref nimp'
      end
  end.
Proof.
  unfold visible_hit. destruct fuel; cbn [find_loop];
    (destruct (find_decl tbl (fn_append scope ref)); [reflexivity|]);
    (destruct (find_remote env (fn_append scope ref)) as [r|]; [destruct (r_imported r)|]); reflexivity.
Qed.

(* The loop answers with the first scope of the chain under which something is visible, and
   reports a miss only when there is none. *)
Lemma find_loop_spec tbl env ref : forall fuel scope nimp,
  match find_loop tbl env fuel scope ref nimp with
  | LFound s k me loc =>
      exists pre sc post,
        scope_chain fuel scope = pre ++ sc :: post /\ s = fn_append sc ref /\
        forallb (fun c => negb (visible tbl env (fn_append c ref))) pre = true /\
        visible_hit tbl env s = Some (k, me, loc)
  | LInvalid => False
  | _ => forallb (fun c => negb (visible tbl env (fn_append c ref))) (scope_chain fuel scope) = true
  end.
Proof.
  induction fuel as [|fuel IH]; intros scope nimp; rewrite find_loop_step;
    (destruct (visible_hit tbl env (fn_append scope ref)) as [[[k me] loc]|] eqn:Ev;
     [ (* visible under the innermost scope: the chain splits in front of it *)
       cbv beta iota; exists [], scope; eexists; split; [reflexivity | auto]
     | apply visible_hit_none in Ev; cbv zeta;
       set (nimp' := match find_remote env _ with Some _ => true | None => nimp end) ]).
  - assert (Hs : scope_chain 0 scope = [scope]) by (destruct scope; reflexivity).
    destruct scope; destruct nimp'; rewrite Hs; cbn [forallb]; now rewrite Ev.
  - destruct scope as [|c sc]; [destruct nimp'; cbn [scope_chain forallb]; now rewrite Ev|].
    specialize (IH (fn_parent (c :: sc)) nimp'). cbn [scope_chain forallb]. rewrite Ev. cbn [negb andb].
    destruct (find_loop tbl env fuel (fn_parent (c :: sc)) ref nimp') as [s k me loc| | |]; try exact IH.
    destruct IH as (pre & sc' & post & Hc & Hs & Hp & Hh). exists ((c :: sc) :: pre), sc', post.
    rewrite Hc. cbn [forallb]. rewrite Ev. auto.
Qed.

Lemma find_loop_hit tbl env ref fuel scope nimp s k me loc :
  find_loop tbl env fuel scope ref nimp = LFound s k me loc -> visible_hit tbl env s = Some (k, me, loc).
Proof.
  intros H. pose proof (find_loop_spec tbl env ref fuel scope nimp) as S. rewrite H in S.
  now destruct S as (_ & _ & _ & _ & _ & _ & Hh).
Qed.

(* with enough fuel the chain of scopes ends at the global scope *)
Lemma scope_chain_last : forall fuel scope, (length scope <= fuel)%nat -> last (scope_chain fuel scope) [c_dot] = [].
Proof.
  induction fuel as [|fuel IH]; intros scope H.
  - destruct scope; [reflexivity|cbn in H; lia].
  - destruct scope as [|c sc]; [reflexivity|].
    cbn [scope_chain].
    assert (Hl : (length (fn_parent (c :: sc)) <= fuel)%nat).
    { assert (Hs : (length (fn_parent (c :: sc)) < length (c :: sc))%nat) by (apply fn_parent_shorter; discriminate).
      lia. }
    specialize (IH _ Hl).
    destruct (scope_chain fuel (fn_parent (c :: sc))) eqn:E.
    + destruct fuel; destruct (fn_parent (c :: sc)); discriminate.
    + exact IH.
Qed.

(* C34 name_resolution_innermost_first, relative references *)
Theorem resolution_innermost_first tbl env scope ref s k me loc :
  pn_is_full ref = false ->
  find_descriptor tbl env scope ref = LFound s k me loc ->
  exists pre sc post,
    scope_chain (length scope) scope = pre ++ sc :: post /\
    s = fn_append sc ref /\
    visible tbl env s = true /\
    forallb (fun c => negb (visible tbl env (fn_append c ref))) pre = true /\
    (loc = true <-> find_decl tbl s <> None).
Proof.
  unfold find_descriptor. intros Hf. rewrite Hf.
  destruct (negb (pn_valid ref)); [discriminate|]. intros H.
  pose proof (find_loop_spec tbl env ref (length scope) scope false) as S. rewrite H in S.
  destruct S as (pre & sc & post & Hc & Hs & Hp & Hh). apply visible_hit_some in Hh as [Hv Hl].
  exists pre, sc, post. auto.
Qed.

Theorem resolution_absolute tbl env scope ref s k me loc :
  pn_is_full ref = true ->
  find_descriptor tbl env scope ref = LFound s k me loc ->
  s = pn_strip ref /\ visible tbl env s = true.
Proof.
  unfold find_descriptor. intros Hf. rewrite Hf.
  destruct (negb (pn_valid ref)); [discriminate|]. rewrite find_loop_step. change (fn_append [] (pn_strip ref)) with (pn_strip ref).
  destruct (visible_hit tbl env (pn_strip ref)) as [[[k' me'] loc']|] eqn:Eh;
    [|cbv zeta; destruct (find_remote env (pn_strip ref)); discriminate].
  intros H; inversion H; subst. split; [reflexivity | now apply visible_hit_some in Eh].
Qed.

Theorem resolution_complete tbl env scope ref :
  pn_is_full ref = false -> pn_valid ref = true ->
  (find_descriptor tbl env scope ref = LNotFound \/ find_descriptor tbl env scope ref = LNotImported) ->
  forallb (fun c => negb (visible tbl env (fn_append c ref))) (scope_chain (length scope) scope) = true.
Proof.
  unfold find_descriptor. intros Hf Hv. rewrite Hf, Hv. cbn [negb]. intros H.
  pose proof (find_loop_spec tbl env ref (length scope) scope false) as S. now destruct H as [H|H]; rewrite H in S.
Qed.

Lemma bind_ok {A B} (r : Res A) (f : A -> Res B) b : bind r f = Ok b -> exists a, r = Ok a /\ f a = Ok b.
Proof. destruct r as [a|]; cbn [bind]; [eauto | discriminate]. Qed.

Lemma bind_lift {A B} (r r' : Res A) (f f' : A -> Res B) b :
  (forall a, r = Ok a -> r' = Ok a) -> (forall a, f a = Ok b -> f' a = Ok b) ->
  bind r f = Ok b -> bind r' f' = Ok b.
Proof. intros Hr Hf H. apply bind_ok in H as (a & Ea & H). rewrite (Hr a Ea). exact (Hf a H). Qed.

Lemma mapM_map_rt {A B C} (f : A -> Res B) (g : B -> C) (h : A -> C) : forall l l',
  (forall a, In a l -> forall b, f a = Ok b -> g b = h a) ->
  mapM f l = Ok l' -> map g l' = map h l.
Proof.
  induction l as [|x l IH]; intros l' HF; cbn [mapM].
  - intros H; inversion H; reflexivity.
  - intros H. apply bind_ok in H as (y & Ex & H). apply bind_ok in H as (ys & El & H).
    inversion H; subst. cbn [map]. f_equal; [apply HF; [now left | exact Ex]|].
    apply IH; [|exact El]. intros a Ha. apply HF. now right.
Qed.

Lemma mapM_length {A B} (f : A -> Res B) : forall l l', mapM f l = Ok l' -> length l' = length l.
Proof.
  intros l l' H. rewrite <- (map_length (fun _ => tt) l'), <- (map_length (fun _ => tt) l). f_equal.
  now apply (mapM_map_rt f (fun _ => tt) (fun _ => tt) l l').
Qed.

Lemma mapM_agree {A B} (f g : A -> Res B) : forall l l',
  (forall a, In a l -> forall b, f a = Ok b -> g a = Ok b) -> mapM f l = Ok l' -> mapM g l = Ok l'.
Proof.
  induction l as [|x l IH]; intros l' HF; cbn [mapM]; [auto|].
  intros H. apply bind_ok in H as (y & Ex & H). apply bind_ok in H as (ys & El & H).
  rewrite (HF x (or_introl eq_refl) y Ex), (IH ys (fun a Ha => HF a (or_intror Ha)) El). exact H.
Qed.

Lemma mapM_map {A B C} (f : B -> Res C) (g : A -> B) : forall l, mapM f (map g l) = mapM (fun x => f (g x)) l.
Proof. induction l as [|x l IH]; cbn; [reflexivity|]. now rewrite IH. Qed.

Lemma Forall_flat_map {A B} (P : B -> Prop) (f : A -> list B) (l : list A) :
  Forall P (flat_map f l) <-> forall a, In a l -> Forall P (f a).
Proof.
  rewrite Forall_forall. setoid_rewrite Forall_forall. setoid_rewrite in_flat_map. split.
  - intros H a Ha b Hb. apply H. now exists a.
  - intros H b (a & Ha & Hb). exact (H a Ha b Hb).
Qed.

Section MsgInd.
  Variable P : MsgP -> Prop.
  Hypothesis Hm : forall name fields exts nested enums xr oneofs rr rn opts vis,
      Forall P nested -> P (mkMsgP name fields exts nested enums xr oneofs rr rn opts vis).
  Fixpoint MsgP_ind2 (m : MsgP) : P m :=
    match m with
    | mkMsgP name fields exts nested enums xr oneofs rr rn opts vis =>
        Hm name fields exts nested enums xr oneofs rr rn opts vis
           ((fix go (l : list MsgP) : Forall P l :=
               match l with
               | [] => Forall_nil P
               | x :: r => Forall_cons x (MsgP_ind2 x) (go r)
               end) nested)
    end.
End MsgInd.

(* the nested loop of [res_msg] is [mapM] *)
Lemma res_msg_unfold canon S tbl env scope parent name fields exts nested enums xr oneofs rr rn opts vis :
  res_msg canon S tbl env scope parent (mkMsgP name fields exts nested enums xr oneofs rr rn opts vis) =
  let full := fn_append scope name in
  let ef := merge_feat parent (msg_feat opts) in
  let me := msg_is_map_entry opts in
  bind (mapM (res_field canon S tbl env full ef me (length oneofs)) fields) (fun rfields =>
  bind (mapM (res_enum S full ef) enums) (fun renums =>
  bind (mapM (res_msg canon S tbl env full ef) nested) (fun rmsgs =>
  bind (mapM (res_ext canon S tbl env full ef) exts) (fun rexts =>
  Ok (mkRMsg full me rfields
             (map (fun o => mkROneof (fn_append full (o_name o)) (o_opts o)) oneofs)
             renums rmsgs rexts xr rr rn ef opts vis))))).
Proof.
  cbn [res_msg]. cbv zeta.
  destruct (mapM (res_field canon S tbl env (fn_append scope name) (merge_feat parent (msg_feat opts))
                            (msg_is_map_entry opts) (length oneofs)) fields); [|reflexivity].
  cbn [bind].
  destruct (mapM (res_enum S (fn_append scope name) (merge_feat parent (msg_feat opts))) enums); [|reflexivity].
  cbn [bind].
  match goal with |- bind (?F nested) _ = _ =>
    assert (E : forall l, F l = mapM (res_msg canon S tbl env (fn_append scope name) (merge_feat parent (msg_feat opts))) l)
  end.
  { induction l as [|x l IH]; [reflexivity|]. cbn [mapM]. rewrite <- IH. reflexivity. }
  rewrite E. reflexivity.
Qed.

Definition okd (d : Decl) : Prop := ident_ok (d_name d) = true.

Lemma decls_check_names : forall todo seen, decls_check seen todo = true -> Forall okd todo.
Proof.
  induction todo as [|d r IH]; intros seen; cbn; [constructor|].
  intros H. apply andb_prop in H as [H H3]. apply andb_prop in H as [H1 H2].
  constructor; [exact H1|eauto].
Qed.

Lemma okd_names {A} (nm : A -> bytes) scope k me (l : list A) :
  Forall okd (map (fun x => decl scope (nm x) k me) l) -> forall x, In x l -> ident_ok (nm x) = true.
Proof. intros H x Hx. rewrite Forall_forall in H. exact (H _ (in_map _ l x Hx)). Qed.

Lemma decls_enum_okd scope e :
  Forall okd (decls_enum scope e) ->
  ident_ok (e_name e) = true /\ forall v, In v (e_values e) -> ident_ok (ev_name v) = true.
Proof. intros H. inversion H as [|? ? Hn Hv]; subst. split; [exact Hn | exact (okd_names _ _ _ _ _ Hv)]. Qed.

Lemma decls_msg_okd scope name fields exts nested enums xr oneofs rr rn opts vis :
  Forall okd (decls_msg scope (mkMsgP name fields exts nested enums xr oneofs rr rn opts vis)) ->
  ident_ok name = true /\
  (forall f, In f fields -> ident_ok (f_name f) = true) /\
  (forall o, In o oneofs -> ident_ok (o_name o) = true) /\
  (forall e, In e enums -> Forall okd (decls_enum (fn_append scope name) e)) /\
  (forall m, In m nested -> Forall okd (decls_msg (fn_append scope name) m)) /\
  (forall f, In f exts -> ident_ok (f_name f) = true).
Proof.
  cbn [decls_msg]. intros H. inversion H as [|? ? Hn H1]; subst.
  rewrite !Forall_app, !Forall_flat_map in H1. destruct H1 as (Hf & Ho & He & Hm & Hx).
  split; [exact Hn|]. split; [exact (okd_names _ _ _ _ _ Hf)|]. split; [exact (okd_names _ _ _ _ _ Ho)|].
  split; [exact He|]. split; [exact Hm | exact (okd_names _ _ _ _ _ Hx)].
Qed.

Lemma decls_file_okd p :
  Forall okd (decls_file p) ->
  (forall e, In e (fp_enums p) -> Forall okd (decls_enum (pkg_of p) e)) /\
  (forall m, In m (fp_msgs p) -> Forall okd (decls_msg (pkg_of p) m)) /\
  (forall f, In f (fp_exts p) -> ident_ok (f_name f) = true) /\
  (forall s, In s (fp_svcs p) ->
     ident_ok (s_name s) = true /\ forall x, In x (s_methods s) -> ident_ok x = true).
Proof.
  unfold decls_file. rewrite !Forall_app, !Forall_flat_map. intros (He & Hm & Hx & Hs).
  split; [exact He|]. split; [exact Hm|]. split; [exact (okd_names _ _ _ _ _ Hx)|].
  intros s Hin. specialize (Hs s Hin). inversion Hs as [|? ? Hn Hms]; subst.
  split; [exact Hn | exact (okd_names (fun x => x) _ _ _ _ Hms)].
Qed.

Section RoundTrip.
  Variable canon : N -> bytes -> bytes.
  Variable tbl : list Decl.
  Variable env : list RemoteD.
  Variable syn : N.

  Lemma res_target_PD k scope f :
    res_target PD tbl env k scope f = find_target tbl env k scope (opt_get (f_type_name f) []).
  Proof.
    unfold res_target, find_target. cbn [st_ref st_kind0 PD].
    destruct (k =? KIND_ENUM); [reflexivity|].
    destruct ((k =? KIND_MESSAGE) || (k =? KIND_GROUP)); [reflexivity|].
    destruct (k =? 0) eqn:E0; [|reflexivity].
    apply N.eqb_eq in E0. subst. reflexivity.
  Qed.

  Lemma field_rt scope parent pme noneofs f rf :
    ident_ok (f_name f) = true ->
    res_field canon PD tbl env scope parent pme noneofs f = Ok rf ->
    field_to_proto syn rf = norm_field canon tbl env syn scope parent pme false f.
  Proof.
    intros Hn. unfold res_field. rewrite res_target_PD. cbn [st_field_ef PD].
    unfold norm_field.
    set (ef := pd_field_ef parent (f_opts f)).
    intros H. apply bind_ok in H as (oo & Eo & H).
    assert (Eoo : oo = option_map Z.to_nat (f_oneof_index f)).
    { destruct (f_oneof_index f) as [oi|]; [destruct ((0 <=? oi)%Z && (Z.to_nat oi <? noneofs)%nat)|]; now inversion Eo. }
    subst oo. clear Eo.
    destruct (find_target tbl env (kind0 ef f) scope (opt_get (f_type_name f) [])) as [[[k en] ms]|e]; cbn [bind] in H; [|discriminate].
    inversion H; subst; clear H.
    unfold field_to_proto, has_json_name, json_name, has_optional_keyword, rf_is_ext, out_type, out_label.
    cbn [rf_full rf_number rf_card rf_kind rf_json rf_p3opt rf_lazy rf_default rf_oneof rf_msg rf_enum rf_extendee rf_ef rf_opts].
    rewrite (fn_name_append scope (f_name f) Hn). cbn [negb andb orb option_map].
    f_equal.
    - generalize (if (k =? KIND_GROUP) && (tref_mapentry ms || pme) then KIND_MESSAGE else k). intros K.
      destruct (kind_valid K); destruct (syn =? 4); cbn [andb]; try reflexivity.
      destruct (K =? KIND_GROUP); reflexivity.
    - destruct (f_oneof_index f); reflexivity.
    - destruct (f_json_name f); reflexivity.
    - destruct (f_oneof_index f); reflexivity.
  Qed.

  Lemma ext_rt scope parent f rf :
    ident_ok (f_name f) = true ->
    res_ext canon PD tbl env scope parent f = Ok rf ->
    field_to_proto syn rf = norm_field canon tbl env syn scope parent false true f.
  Proof.
    intros Hn. unfold res_ext. rewrite res_target_PD. cbn [st_field_ef st_ref st_ext_lazy PD].
    unfold norm_field, abs_ref.
    set (ef := pd_field_ef parent (f_opts f)).
    destruct (find_kind K_MSG tbl env scope (opt_get (f_extendee f) [])) as [xt|e]; cbn [bind]; [|discriminate].
    destruct (find_target tbl env (kind0 ef f) scope (opt_get (f_type_name f) [])) as [[[k en] ms]|e]; cbn [bind]; [|discriminate].
    intros H; inversion H; subst; clear H.
    unfold field_to_proto, has_json_name, json_name, has_optional_keyword, rf_is_ext, out_type, out_label, card_of.
    cbn [rf_full rf_number rf_card rf_kind rf_json rf_p3opt rf_lazy rf_default rf_oneof rf_msg rf_enum rf_extendee rf_ef rf_opts].
    rewrite (fn_name_append scope (f_name f) Hn). cbn [negb andb orb option_map].
    f_equal.
    - destruct (kind_valid k); destruct (syn =? 4); cbn [andb]; try reflexivity.
      destruct (k =? KIND_GROUP); reflexivity.
    - destruct (f_json_name f); reflexivity.
  Qed.

  Lemma enum_rt S scope parent e re :
    Forall okd (decls_enum scope e) ->
    res_enum S scope parent e = Ok re -> enum_to_proto re = e.
  Proof.
    intros HF. apply decls_enum_okd in HF as [Hn Hv].
    unfold res_enum. intros H; inversion H; subst; clear H.
    unfold enum_to_proto. cbn [re_full re_values re_rranges re_rnames re_opts re_vis].
    rewrite (fn_name_append scope (e_name e) Hn), map_map. cbn [rv_full rv_number rv_opts].
    assert (E : map (fun x => mkEnumValP (fn_name (fn_append (fn_parent (fn_append scope (e_name e))) (ev_name x)))
                                   (ev_number x) (ev_opts x)) (e_values e) = e_values e).
    { rewrite <- (map_id (e_values e)) at 2. apply map_ext_in. intros v Hv'.
      rewrite (fn_name_append _ (ev_name v) (Hv v Hv')). destruct v; reflexivity. }
    rewrite E. destruct e; reflexivity.
  Qed.

  Lemma msg_rt : forall m scope parent rm,
    Forall okd (decls_msg scope m) ->
    res_msg canon PD tbl env scope parent m = Ok rm ->
    msg_to_proto syn rm = norm_msg canon tbl env syn scope parent m.
  Proof.
    induction m as [name fields exts nested enums xr oneofs rr rn opts vis IH] using MsgP_ind2.
    intros scope parent rm HF H. rewrite Forall_forall in IH.
    apply decls_msg_okd in HF as (Hn & Hfields & Honeofs & Henums & Hnested & Hexts).
    rewrite res_msg_unfold in H. cbv zeta in H.
    apply bind_ok in H as (rfields & Ef & H). apply bind_ok in H as (renums & Ee & H).
    apply bind_ok in H as (rmsgs & Em & H). apply bind_ok in H as (rexts & Ex & H).
    inversion H; subst rm; clear H.
    cbn [msg_to_proto norm_msg]. rewrite (fn_name_append scope name Hn).
    f_equal.
    - eapply mapM_map_rt; [|exact Ef]. intros f Hf b Hb. eapply field_rt; eauto.
    - eapply mapM_map_rt; [|exact Ex]. intros f Hf b Hb. eapply ext_rt; eauto.
    - eapply mapM_map_rt; [|exact Em]. intros x Hx b Hb. eapply IH; eauto.
    - rewrite <- (map_id enums). eapply mapM_map_rt; [|exact Ee]. intros e He b Hb. eapply enum_rt; eauto.
    - rewrite map_map. rewrite <- (map_id oneofs) at 2. apply map_ext_in.
      intros o Ho. cbn [ro_full ro_opts].
      rewrite (fn_name_append _ (o_name o) (Honeofs o Ho)). destruct o; reflexivity.
  Qed.

  Theorem to_proto_res_file p d :
    Forall okd (decls_file p) ->
    (forall s0 e0, syntax_of p = Some (s0, e0) -> s0 = syn) ->
    tbl = decls_file p ->
    res_file canon PD tbl env p = Ok d ->
    to_proto d = normalize canon env p.
  Proof.
    intros HF Hsyn Htbl H. apply decls_file_okd in HF as (Henums & Hmsgs & Hexts & Hsvcs).
    unfold res_file in H. unfold normalize.
    destruct (syntax_of p) as [[s0 ed]|]; [|discriminate]. specialize (Hsyn s0 ed eq_refl). subst s0.
    apply bind_ok in H as (renums & Ee & H). apply bind_ok in H as (rmsgs & Em & H).
    apply bind_ok in H as (rexts & Ex & H). inversion H; subst d; clear H.
    unfold to_proto.
    cbn [rfl_path rfl_package rfl_syntax rfl_edition rfl_deps rfl_public rfl_enums rfl_msgs rfl_exts rfl_svcs rfl_opts].
    rewrite <- Htbl.
    f_equal.
    - destruct (pkg_of p); reflexivity.
    - eapply mapM_map_rt; [|exact Em]. intros m Hm b Hb. eapply msg_rt; eauto.
    - rewrite <- (map_id (fp_enums p)). eapply mapM_map_rt; [|exact Ee]. intros e He b Hb. eapply enum_rt; eauto.
    - eapply mapM_map_rt; [|exact Ex]. intros f Hf b Hb. eapply ext_rt; eauto.
    - rewrite map_map. rewrite <- (map_id (fp_svcs p)) at 2. apply map_ext_in.
      intros s Hs. cbn [rs_full rs_methods rs_opts]. destruct (Hsvcs s Hs) as [Hn Hms].
      rewrite (fn_name_append _ (s_name s) Hn), map_map.
      assert (E : map (fun x => fn_name (fn_append (fn_append (pkg_of p) (s_name s)) x)) (s_methods s) = s_methods s).
      { rewrite <- (map_id (s_methods s)) at 2. apply map_ext_in. intros x Hx. now rewrite fn_name_append by auto. }
      rewrite E. destruct s; reflexivity.
  Qed.
End RoundTrip.

(* C34 to_proto_new_file *)
Theorem to_proto_new_file canon env p d :
  new_file canon env p = Ok d -> to_proto d = normalize canon env p.
Proof.
  unfold new_file.
  destruct (fp_name p) as [[|c n]|] eqn:En; try discriminate.
  destruct (negb (beq (pkg_of p) [] || fullname_ok (pkg_of p))); [discriminate|].
  destruct (syntax_of p) as [[s0 e0]|] eqn:Es; [|discriminate].
  destruct (decls_check [] (decls_file p)) eqn:Ec; [|discriminate].
  intros H. eapply (to_proto_res_file canon (decls_file p) env s0); eauto.
  - eapply decls_check_names; eauto.
  - intros s1 e1 E. congruence.
Qed.

(* Well-formedness of the builder's input (what protoc-gen-go embeds): every type is set and
   every reference is absolute; plus the exclusion of the two recorded divergences:
   FK2 an extension with lazy = true,
   FK3 a field with both an explicit packed option and features.repeated_field_encoding. *)
Definition ref_abs (r : option bytes) : bool := match r with Some r => pn_is_full r | None => true end.
Definition no_packed_clash (o : option FieldOpts) : bool :=
  match o with
  | Some o => match o_packed o, o_feat o with
              | Some _, Some fs => match fo_rep fs with Some _ => false | None => true end
              | _, _ => true
              end
  | None => true
  end.
Definition wf37_field (f : FieldP) : bool :=
  match f_type f with Some k => negb (k =? 0) | None => false end
  && ref_abs (f_type_name f) && no_packed_clash (f_opts f).
Definition wf37_ext (f : FieldP) : bool :=
  wf37_field f && ref_abs (f_extendee f) && negb (opts_lazy (f_opts f)).
Fixpoint wf37_msg (m : MsgP) : bool :=
  match m with
  | mkMsgP _ fields exts nested enums _ _ _ _ _ _ =>
      forallb wf37_field fields && forallb wf37_ext exts && forallb wf37_msg nested
  end.
Definition wf37 (p : FileP) : bool :=
  forallb wf37_msg (fp_msgs p) && forallb wf37_ext (fp_exts p).

Lemma field_ef_agree parent o : no_packed_clash o = true -> fd_field_ef parent o = pd_field_ef parent o.
Proof.
  unfold no_packed_clash, fd_field_ef, pd_field_ef, field_feat.
  destruct o as [[pk lz ft rest]|]; cbn [o_packed o_feat]; [|reflexivity].
  destruct pk as [b|]; [|reflexivity].
  destruct ft as [[a1 a2 a3 a4 a5 a6 ar]|]; cbn [fo_rep]; [|reflexivity].
  destruct a3; [discriminate|]. intros _. destruct parent. reflexivity.
Qed.

Lemma find_decl_kind_of tbl want s : forall d,
  find_decl tbl s = Some d -> d_kind d = want -> find_decl_kind tbl want s = Some d.
Proof.
  induction tbl as [|x tbl IH]; cbn; [discriminate|].
  intros d. destruct (beq (d_full x) s) eqn:E.
  - intros H; inversion H; subst. intros Hk. rewrite Hk, N.eqb_refl. reflexivity.
  - intros H Hk. rewrite andb_false_r. auto.
Qed.

Lemma find_decl_kind_none tbl want s : find_decl tbl s = None -> find_decl_kind tbl want s = None.
Proof.
  induction tbl as [|x tbl IH]; cbn; [reflexivity|].
  destruct (beq (d_full x) s); [discriminate|]. rewrite andb_false_r. exact IH.
Qed.

Lemma ref_agree want tbl env scope ref t :
  pn_is_full ref = true \/ ref = [] ->
  find_kind want tbl env scope ref = Ok t -> fd_ref want tbl env scope ref = Ok t.
Proof.
  intros [Hf|Hn].
  - unfold find_kind, find_descriptor, fd_ref. rewrite Hf. cbn [negb].
    destruct (negb (pn_valid ref)); [discriminate|].
    cbn [find_loop]. change (fn_append [] (pn_strip ref)) with (pn_strip ref).
    destruct (find_decl tbl (pn_strip ref)) as [d|] eqn:Ed.
    + destruct (d_kind d =? want) eqn:Ek; [|discriminate].
      intros H; inversion H; subst. apply N.eqb_eq in Ek.
      now rewrite (find_decl_kind_of tbl want (pn_strip ref) d Ed Ek).
    + rewrite (find_decl_kind_none tbl want _ Ed).
      destruct (find_remote env (pn_strip ref)) as [r|]; [|discriminate].
      destruct (r_imported r); [|discriminate].
      destruct (r_kind r =? want); [|discriminate].
      intros H; inversion H; reflexivity.
  - subst. unfold find_kind, find_descriptor. cbn. discriminate.
Qed.

Lemma ref_abs_cases r : ref_abs r = true -> pn_is_full (opt_get r []) = true \/ opt_get r [] = [].
Proof. destruct r; cbn; auto. Qed.

Section Agree.
  Variable canon : N -> bytes -> bytes.
  Variable tbl : list Decl.
  Variable env : list RemoteD.

  Lemma target_agree k scope f kem :
    negb (k =? 0) = true -> ref_abs (f_type_name f) = true ->
    res_target PD tbl env k scope f = Ok kem -> res_target FD tbl env k scope f = Ok kem.
  Proof.
    intros Hk Hr. apply ref_abs_cases in Hr.
    unfold res_target. cbn [st_ref st_kind0 PD FD].
    destruct (k =? KIND_ENUM) eqn:E1; [apply bind_lift; [intros t; now apply ref_agree | auto]|].
    destruct ((k =? KIND_MESSAGE) || (k =? KIND_GROUP)) eqn:E2; [apply bind_lift; [intros t; now apply ref_agree | auto]|].
    destruct (k =? 0) eqn:E0; [discriminate|].
    unfold find_target. rewrite E1, E2, E0.
    destruct (opt_get (f_type_name f) []); [|discriminate].
    destruct (kind_valid k); [|discriminate]. auto.
  Qed.

  Lemma kind0_nonzero ef f : match f_type f with Some k => negb (k =? 0) | None => false end = true ->
    negb (kind0 ef f =? 0) = true.
  Proof.
    unfold kind0. destruct (f_type f) as [k|]; [|discriminate]. cbn [opt_get]. intros H.
    destruct ((k =? KIND_MESSAGE) && ef_delim ef); [reflexivity|exact H].
  Qed.

  Lemma field_agree scope parent pme n f rf :
    wf37_field f = true ->
    res_field canon PD tbl env scope parent pme n f = Ok rf ->
    res_field canon FD tbl env scope parent pme n f = Ok rf.
  Proof.
    unfold wf37_field. intros H. apply andb_prop in H as [H H3]. apply andb_prop in H as [H1 H2].
    unfold res_field. cbn [st_field_ef PD FD]. rewrite (field_ef_agree parent (f_opts f) H3).
    apply bind_lift; [auto | intros oo].
    apply bind_lift; [intros kem; apply target_agree; [now apply kind0_nonzero | exact H2] | auto].
  Qed.

  Lemma ext_agree scope parent f rf :
    wf37_ext f = true ->
    res_ext canon PD tbl env scope parent f = Ok rf ->
    res_ext canon FD tbl env scope parent f = Ok rf.
  Proof.
    unfold wf37_ext, wf37_field. intros H. apply andb_prop in H as [H H5]. apply andb_prop in H as [H H4].
    apply andb_prop in H as [H H3]. apply andb_prop in H as [H1 H2].
    unfold res_ext. cbn [st_field_ef st_ref st_ext_lazy PD FD]. rewrite (field_ef_agree parent (f_opts f) H3).
    apply bind_lift; [intros xt; apply ref_agree; now apply ref_abs_cases | intros xt].
    apply bind_lift; [intros kem; apply target_agree; [now apply kind0_nonzero | exact H2] | intros kem].
    apply negb_true_iff in H5. now rewrite H5.
  Qed.

  Lemma enum_agree scope parent e re :
    res_enum PD scope parent e = Ok re -> res_enum FD scope parent e = Ok re.
  Proof. unfold res_enum. cbn [st_enum_ef PD FD]. auto. Qed.

  Lemma msg_agree : forall m scope parent rm,
    wf37_msg m = true ->
    res_msg canon PD tbl env scope parent m = Ok rm -> res_msg canon FD tbl env scope parent m = Ok rm.
  Proof.
    induction m as [name fields exts nested enums xr oneofs rr rn opts vis IH] using MsgP_ind2.
    intros scope parent rm Hwf. rewrite Forall_forall in IH.
    cbn [wf37_msg] in Hwf. apply andb_prop in Hwf as [Hwf Hn]. apply andb_prop in Hwf as [Hf Hx].
    rewrite forallb_forall in Hf, Hx, Hn.
    rewrite !res_msg_unfold. cbv zeta.
    apply bind_lift; [intros l; apply mapM_agree; intros f Hin b; apply field_agree; auto | intros rfields].
    apply bind_lift; [intros l; apply mapM_agree; intros e _ b; apply enum_agree | intros renums].
    apply bind_lift; [intros l; apply mapM_agree; intros x Hin b; apply IH; auto | intros rmsgs].
    apply bind_lift; [intros l; apply mapM_agree; intros f Hin b; apply ext_agree; auto | auto].
  Qed.

  Lemma file_agree p d :
    wf37 p = true -> res_file canon PD tbl env p = Ok d -> res_file canon FD tbl env p = Ok d.
  Proof.
    unfold wf37. intros Hwf. apply andb_prop in Hwf as [Hm Hx].
    rewrite forallb_forall in Hm, Hx.
    unfold res_file. destruct (syntax_of p) as [[syn ed]|]; [|discriminate].
    apply bind_lift; [intros l; apply mapM_agree; intros e _ b; apply enum_agree | intros renums].
    apply bind_lift; [intros l; apply mapM_agree; intros x Hin b; apply msg_agree; auto | intros rmsgs].
    apply bind_lift; [intros l; apply mapM_agree; intros f Hin b; apply ext_agree; auto | auto].
  Qed.
End Agree.

(* C37 builders_agree_partial (on the decoded proto) *)
Theorem builders_agree canon env p d :
  wf37 p = true -> new_file canon env p = Ok d -> fd_build canon env p = Ok d.
Proof.
  unfold new_file, fd_build. intros Hwf.
  destruct (fp_name p) as [[|c n]|]; try discriminate.
  destruct (negb (beq (pkg_of p) [] || fullname_ok (pkg_of p))); [discriminate|].
  destruct (syntax_of p) as [[s0 e0]|]; [|discriminate].
  destruct (decls_check [] (decls_file p)); [|discriminate].
  apply file_agree. exact Hwf.
Qed.

(* ... and on the raw descriptor, for any decoder that inverts the encoder *)
Section Raw.
  Variable encode : FileP -> bytes.
  Variable decode : bytes -> option FileP.
  Hypothesis decode_encode : forall p, decode (encode p) = Some p.

  Definition raw_build canon env (raw : bytes) : Res RFile :=
    match decode raw with Some p => fd_build canon env p | None => Err 3 end.

  Theorem builders_agree_raw canon env p d :
    wf37 p = true -> new_file canon env p = Ok d -> raw_build canon env (encode p) = Ok d.
  Proof. intros Hwf H. unfold raw_build. rewrite decode_encode. now apply builders_agree. Qed.
End Raw.

Lemma split_dots_nonempty s : split_dots s <> [].
Proof.
  induction s as [|c r IH]; cbn; [discriminate|].
  destruct (is_dot c); [discriminate|]. destruct (split_dots r); discriminate.
Qed.

Lemma split_dots_app p n : split_dots (p ++ c_dot :: n) = split_dots p ++ split_dots n.
Proof.
  induction p as [|c p IH].
  - cbn [app split_dots]. unfold is_dot at 1. rewrite beq_byte_refl. reflexivity.
  - cbn [app split_dots]. destruct (is_dot c); [now rewrite IH|].
    rewrite IH. pose proof (split_dots_nonempty p) as Hne.
    destruct (split_dots p) as [|h t]; [congruence|reflexivity].
Qed.

Lemma split_dots_no_dot n : ~ In c_dot n -> split_dots n = [n].
Proof.
  induction n as [|c r IH]; cbn [split_dots]; [reflexivity|]. intros H.
  destruct (is_dot c) eqn:E; [apply beq_byte_eq in E; subst c; exfalso; apply H; now left|].
  rewrite IH; [reflexivity|]. intros Hi; apply H; now right.
Qed.

Definition scope_ok (s : bytes) : Prop := s = [] \/ fullname_ok s = true.

Lemma fullname_ok_join p r : scope_ok p -> fullname_ok r = true -> fullname_ok (fn_append p r) = true.
Proof.
  intros Hp Hr. unfold fn_append. destruct p as [|c p]; [exact Hr|].
  destruct Hp as [Hp|Hp]; [discriminate|].
  unfold fullname_ok in *. now rewrite split_dots_app, forallb_app, Hp, Hr.
Qed.

Lemma fullname_ok_append p n : scope_ok p -> ident_ok n = true -> fullname_ok (fn_append p n) = true.
Proof.
  intros Hp Hn. apply fullname_ok_join; [exact Hp|].
  unfold fullname_ok. rewrite (split_dots_no_dot n (ident_no_dot n Hn)). cbn [forallb]. now rewrite Hn.
Qed.

Lemma split_last_split_dots s a b : split_last s = Some (a, b) -> split_dots s = split_dots a ++ split_dots b.
Proof. rewrite split_last_eq. intros H. apply split_last_at_some in H as [-> _]. apply split_dots_app. Qed.

Lemma scope_ok_parent s : scope_ok s -> scope_ok (fn_parent s).
Proof.
  intros [Hs|Hs]; [subst; left; reflexivity|].
  unfold fn_parent. destruct (split_last s) as [[a b]|] eqn:E; [|left; reflexivity].
  right. unfold fullname_ok in *. rewrite (split_last_split_dots s a b E), forallb_app in Hs.
  now apply andb_prop in Hs as [Ha _].
Qed.

Definition vald (d : Decl) : Prop := fullname_ok (d_full d) = true.

Lemma vald_decl scope n k me : scope_ok scope -> ident_ok n = true -> vald (decl scope n k me).
Proof. exact (fullname_ok_append scope n). Qed.

Lemma decl_names_valid {A} (nm : A -> bytes) scope k me (l : list A) :
  scope_ok scope -> (forall x, In x l -> ident_ok (nm x) = true) ->
  Forall vald (map (fun x => decl scope (nm x) k me) l).
Proof.
  intros Hs H. apply Forall_forall. intros d Hd. apply in_map_iff in Hd as (x & <- & Hin).
  apply vald_decl; auto.
Qed.

Lemma names_valid scope (names : list bytes) k :
  scope_ok scope -> Forall (fun n => ident_ok n = true) names ->
  Forall vald (map (fun n => decl scope n k false) names).
Proof. intros Hs HF. rewrite Forall_forall in HF. now apply (decl_names_valid (fun n => n)). Qed.

Lemma decls_enum_valid scope e : scope_ok scope -> Forall okd (decls_enum scope e) -> Forall vald (decls_enum scope e).
Proof.
  intros Hs HF. apply decls_enum_okd in HF as [Hn Hv]. unfold decls_enum.
  rewrite (fn_parent_append scope (e_name e) Hn).
  constructor; [now apply vald_decl | now apply decl_names_valid].
Qed.

Lemma decls_msg_valid : forall m scope, scope_ok scope -> Forall okd (decls_msg scope m) -> Forall vald (decls_msg scope m).
Proof.
  induction m as [name fields exts nested enums xr oneofs rr rn opts vis IH] using MsgP_ind2.
  intros scope Hs HF. rewrite Forall_forall in IH.
  apply decls_msg_okd in HF as (Hn & Hfields & Honeofs & Henums & Hnested & Hexts).
  assert (Hfull : scope_ok (fn_append scope name)) by (right; now apply fullname_ok_append).
  cbn [decls_msg]. constructor; [now apply vald_decl|].
  rewrite !Forall_app, !Forall_flat_map.
  split; [now apply decl_names_valid|]. split; [now apply decl_names_valid|].
  split; [intros e He; apply decls_enum_valid; auto|].
  split; [intros x Hx; apply IH; auto | now apply decl_names_valid].
Qed.

Lemma decls_file_valid p : scope_ok (pkg_of p) -> Forall okd (decls_file p) -> Forall vald (decls_file p).
Proof.
  intros Hs HF. apply decls_file_okd in HF as (Henums & Hmsgs & Hexts & Hsvcs).
  unfold decls_file. rewrite !Forall_app, !Forall_flat_map.
  split; [intros e He; apply decls_enum_valid; auto|].
  split; [intros m Hm; apply decls_msg_valid; auto|].
  split; [now apply decl_names_valid|].
  intros s Hin. destruct (Hsvcs s Hin) as [Hn Hms].
  constructor; [now apply vald_decl|].
  apply (decl_names_valid (fun x => x)); [right; now apply fullname_ok_append | exact Hms].
Qed.

(* imported only here: String's [length], [concat], ... would shadow List's in the statements above *)
Import String.
Local Open Scope string_scope.
Definition bs (s : string) : bytes := list_byte_of_string s.
Definition idc : N -> bytes -> bytes := fun _ s => s.

Definition mk_field (name : string) (num : Z) (label ty : N) (tn : option string) (o : option FieldOpts) : FieldP :=
  mkFieldP (bs name) num label (Some ty) (option_map bs tn) None None None None None o.
Definition mk_msg (name : string) (fields : list FieldP) (nested : list MsgP) (enums : list EnumP) : MsgP :=
  mkMsgP (bs name) fields [] nested enums [] [] [] [] None 0.
Definition mk_enum (name : string) (vals : list (string * Z)) (o : option GenOpts) : EnumP :=
  mkEnumP (bs name) (map (fun v => mkEnumValP (bs (fst v)) (snd v) None) vals) [] [] o 0.
Definition mk_file (name pkg : string) (syntax : option string) (ed : option N) msgs enums exts : FileP :=
  mkFileP (Some (bs name)) (Some (bs pkg)) (option_map bs syntax) ed [] [] msgs enums exts [] None.

(* proto2: message a.M { optional M f = 1 (relative name); optional E e = 2; message M {} }  enum a.E *)
Definition ex_file : FileP :=
  mk_file "x.proto" "a" None None
    [mk_msg "M" [mk_field "f" 1 1 11 (Some "M") None; mk_field "e" 2 1 14 (Some ".a.E") None]
                 [mk_msg "M" [] [] []] []]
    [mk_enum "E" [("Z", 0%Z)] None] [].

Definition is_ok {A} (r : Res A) : bool := match r with Ok _ => true | Err _ => false end.

Lemma ex_file_accepted : is_ok (new_file idc [] ex_file) = true.
Proof. vm_compute. reflexivity. Qed.

(* the relative name M inside a.M resolves to the nested a.M.M *)
Definition ex_abs_name : bytes := bs ".a.M.M".
Lemma ex_file_normal_form :
  match normalize idc [] ex_file with
  | mkFileP _ _ _ _ _ _ [mkMsgP _ (f :: _) _ _ _ _ _ _ _ _ _] _ _ _ _ => f_type_name f = Some ex_abs_name
  | _ => False
  end.
Proof. vm_compute. reflexivity. Qed.

Lemma ex_file_wf37 : wf37 (normalize idc [] ex_file) = true /\ is_ok (new_file idc [] (normalize idc [] ex_file)) = true.
Proof. vm_compute. split; reflexivity. Qed.

(* FK1 input: an enum with its own features, edition 2023,
   enum E { option features.enum_type = CLOSED; }: both builders say closed *)
Definition feat_closed : FeatOv := mkFeatOv None (Some 2) None None None None [].
Definition fk1_file : FileP :=
  mk_file "fk1.proto" "c" (Some "editions") (Some 1000) []
    [mk_enum "E" [("A", 1%Z)] (Some (mkGenOpts (Some feat_closed) []))] [].
Definition first_enum_open (r : Res RFile) : option bool :=
  match r with Ok d => match rfl_enums d with e :: _ => Some (ef_open (re_ef e)) | [] => None end | Err _ => None end.

Lemma builders_agree_enum_features_example :
  wf37 fk1_file = true /\
  first_enum_open (new_file idc [] fk1_file) = Some false /\ first_enum_open (fd_build idc [] fk1_file) = Some false.
Proof. vm_compute. repeat split; reflexivity. Qed.

(* FK3: packed = false together with features.repeated_field_encoding = PACKED *)
Definition feat_packed : FeatOv := mkFeatOv None None (Some 1) None None None [].
Definition fk3_file : FileP :=
  mk_file "fk3.proto" "c" (Some "editions") (Some 1000)
    [mk_msg "M" [mk_field "r" 1 3 5 None (Some (mkFieldOpts (Some false) None (Some feat_packed) []))] [] []] [] [].
Definition first_field_packed (r : Res RFile) : option bool :=
  match r with
  | Ok d => match rfl_msgs d with
            | mkRMsg _ _ (f :: _) _ _ _ _ _ _ _ _ _ _ :: _ => Some (is_packed f)
            | _ => None end
  | Err _ => None end.

Theorem builders_disagree_packed_feature :
  exists p, first_field_packed (new_file idc [] p) = Some false /\ first_field_packed (fd_build idc [] p) = Some true.
Proof. exists fk3_file. vm_compute. split; reflexivity. Qed.

(* FK2: extension with lazy = true *)
Definition fk2_file : FileP :=
  mkFileP (Some (bs "fk2.proto")) (Some (bs "c")) None None [] []
    [mkMsgP (bs "M") [] [] [] [] [(100%Z, 200%Z, None)] [] [] [] None 0] []
    [mkFieldP (bs "x") 100 1 (Some 11) (Some (bs ".c.M")) (Some (bs ".c.M")) None None None None
              (Some (mkFieldOpts None (Some true) None []))] [] None.
Definition first_ext_lazy (r : Res RFile) : option bool :=
  match r with Ok d => match rfl_exts d with f :: _ => Some (rf_lazy f) | [] => None end | Err _ => None end.

Theorem builders_disagree_extension_lazy :
  exists p, first_ext_lazy (new_file idc [] p) = Some false /\ first_ext_lazy (fd_build idc [] p) = Some true.
Proof. exists fk2_file. vm_compute. split; reflexivity. Qed.

(* FK4 witness: an editions file that says LABEL_REQUIRED the proto2 way *)
Definition fk4_file : FileP :=
  mk_file "fk4.proto" "c" (Some "editions") (Some 1000)
    [mk_msg "M" [mk_field "r" 1 2 5 None None] [] []] [] [].
