(* C34: new_file (to_proto d) = d.  Builds on Desc/ConvertP.v (name resolution and
   to_proto (new_file p) = normalize p). *)
From Coq Require Import List NArith ZArith Bool Lia.
From PB Require Import Base.PBytes Desc.ConvertModel Desc.ConvertP.
Import ListNotations.
Open Scope N_scope.

Definition valr (r : RemoteD) : Prop := fullname_ok (r_full r) = true.

Lemma find_decl_some tbl s : forall d, find_decl tbl s = Some d -> d_full d = s /\ In d tbl.
Proof.
  induction tbl as [|x tbl IH]; cbn; [discriminate|]. intros d.
  destruct (beq (d_full x) s) eqn:E.
  - intros H; inversion H; subst. split; [now apply beq_eq|now left].
  - intros H. destruct (IH d H). split; [assumption|now right].
Qed.

Lemma find_remote_some env s : forall r, find_remote env s = Some r -> r_full r = s /\ In r env.
Proof.
  induction env as [|x env IH]; cbn; [discriminate|]. intros r.
  destruct (beq (r_full x) s) eqn:E.
  - intros H; inversion H; subst. split; [now apply beq_eq|now left].
  - intros H. destruct (IH r H). split; [assumption|now right].
Qed.

Lemma find_descriptor_hit tbl env scope ref s k me loc :
  find_descriptor tbl env scope ref = LFound s k me loc -> visible_hit tbl env s = Some (k, me, loc).
Proof.
  unfold find_descriptor. destruct (negb (pn_valid ref)); [discriminate|].
  destruct (pn_is_full ref); apply find_loop_hit.
Qed.

Lemma hit_valid tbl env s x :
  Forall vald tbl -> Forall valr env -> visible_hit tbl env s = Some x -> fullname_ok s = true.
Proof.
  intros Ht He. unfold visible_hit. destruct (find_decl tbl s) as [d|] eqn:Hd.
  - intros _. apply find_decl_some in Hd as [<- Hin]. rewrite Forall_forall in Ht. now apply Ht.
  - destruct (find_remote env s) as [r|] eqn:Hr; [|discriminate]. intros _.
    apply find_remote_some in Hr as [<- Hin]. rewrite Forall_forall in He. now apply He.
Qed.

(* the absolute spelling of a found name finds the same thing from any scope *)
Lemma find_descriptor_abs tbl env scope' s k me loc :
  fullname_ok s = true -> visible_hit tbl env s = Some (k, me, loc) ->
  find_descriptor tbl env scope' (c_dot :: s) = LFound s k me loc.
Proof.
  intros Hv Hh. unfold find_descriptor, pn_valid, pn_strip, pn_is_full.
  assert (Hd : is_dot c_dot = true) by (unfold is_dot; apply beq_byte_refl).
  rewrite Hd. cbn [tl]. rewrite Hv. cbn [negb]. rewrite find_loop_step.
  change (fn_append [] s) with s. now rewrite Hh.
Qed.

Lemma find_kind_abs want tbl env scope scope' ref t :
  Forall vald tbl -> Forall valr env ->
  find_kind want tbl env scope ref = Ok t ->
  find_kind want tbl env scope' (tref_name t) = Ok t.
Proof.
  intros Ht He. unfold find_kind.
  destruct (find_descriptor tbl env scope ref) as [s k me loc| | |] eqn:E; try discriminate.
  destruct (k =? want) eqn:Ek; [|discriminate].
  intros H; inversion H; subst; clear H. unfold tref_name. cbn [t_full].
  pose proof (find_descriptor_hit _ _ _ _ _ _ _ _ E) as Hh.
  rewrite (find_descriptor_abs tbl env scope' s k me loc (hit_valid _ _ _ _ Ht He Hh) Hh).
  now rewrite Ek.
Qed.

Definition msgish (k : N) : bool := (k =? KIND_MESSAGE) || (k =? KIND_GROUP).

Lemma find_target_shape tbl env k scope ref k1 en ms :
  find_target tbl env k scope ref = Ok (k1, en, ms) ->
  (k = 0 \/ k = k1) /\ kind_valid k1 = true /\
  ((k1 = KIND_ENUM /\ ms = None /\ exists t, en = Some t /\ find_kind K_ENUM tbl env scope ref = Ok t)
   \/ (msgish k1 = true /\ en = None /\ exists t, ms = Some t /\ find_kind K_MSG tbl env scope ref = Ok t)
   \/ (en = None /\ ms = None /\ ref = [] /\ (k1 =? KIND_ENUM) = false /\ msgish k1 = false /\ (k1 =? 0) = false)).
Proof.
  unfold find_target, msgish.
  destruct (k =? KIND_ENUM) eqn:E1.
  { destruct (find_kind K_ENUM tbl env scope ref) as [t|] eqn:E; cbn [bind]; [|discriminate].
    intros H; inversion H; subst. apply N.eqb_eq in E1. subst k1.
    split; [now right|]. split; [reflexivity|]. left. eauto. }
  destruct ((k =? KIND_MESSAGE) || (k =? KIND_GROUP)) eqn:E2.
  { destruct (find_kind K_MSG tbl env scope ref) as [t|] eqn:E; cbn [bind]; [|discriminate].
    intros H; inversion H; subst. split; [auto|]. split; [|right; left; eauto 6].
    apply orb_prop in E2 as [E2|E2]; apply N.eqb_eq in E2; now subst k1. }
  destruct (k =? 0) eqn:E0.
  { apply N.eqb_eq in E0. unfold find_kind.
    destruct (find_descriptor tbl env scope ref) as [s dk me loc| | |]; try discriminate.
    destruct (dk =? K_ENUM) eqn:Ee.
    - intros H; inversion H; subst. split; [now left|]. split; [reflexivity|]. left. eauto.
    - destruct (dk =? K_MSG) eqn:Em; [|discriminate].
      intros H; inversion H; subst. split; [auto|]. split; [reflexivity|]. right; left. eauto 6. }
  destruct ref; [|discriminate].
  destruct (kind_valid k) eqn:Ev; [|discriminate].
  intros H; inversion H; subst. split; [auto|]. split; [exact Ev|]. right; right. auto 8.
Qed.

(* What protoc guarantees and [new_file] (which has no validation stage) does not check:
   the type is set; an editions file does not spell group / required the proto2 way;
   proto3_optional only occurs in proto3 files; an extension's json_name is the camel-cased name. *)
Definition wf34_field (syn : N) (is_ext : bool) (f : FieldP) : bool :=
  match f_type f with
  | Some t => negb (t =? 0) && negb ((syn =? 4) && (t =? KIND_GROUP))
  | None => false
  end
  && negb ((syn =? 4) && (f_label f =? 2))
  && (negb (opt_get (f_p3opt f) false) || (syn =? 3))
  && (negb is_ext || match f_json_name f with Some j => beq j (json_camel (f_name f)) | None => true end).

Fixpoint wf34_msg (syn : N) (m : MsgP) : bool :=
  match m with
  | mkMsgP _ fields exts nested _ _ _ _ _ _ _ =>
      forallb (wf34_field syn false) fields && forallb (wf34_field syn true) exts && forallb (wf34_msg syn) nested
  end.

Definition wf34 (p : FileP) : bool :=
  match syntax_of p with
  | Some (syn, _) => forallb (wf34_msg syn) (fp_msgs p) && forallb (wf34_field syn true) (fp_exts p)
  | None => false
  end.

Lemma oneof_idem n oi oo :
  match oi with
  | None => Ok None
  | Some k => if (0 <=? k)%Z && (Z.to_nat k <? n)%nat then Ok (Some (Z.to_nat k)) else Err 2
  end = Ok oo ->
  match option_map (fun z => Z.of_nat (Z.to_nat z)) oi with
  | None => Ok None
  | Some k => if (0 <=? k)%Z && (Z.to_nat k <? n)%nat then Ok (Some (Z.to_nat k)) else Err 2
  end = Ok oo.
Proof.
  destruct oi as [k|]; cbn [option_map]; [|auto].
  rewrite Nat2Z.id.
  destruct ((0 <=? k)%Z && (Z.to_nat k <? n)%nat) eqn:E; [|discriminate].
  apply andb_prop in E as [_ E2]. rewrite E2.
  assert (H0 : (0 <=? Z.of_nat (Z.to_nat k))%Z = true) by (apply Z.leb_le; lia).
  rewrite H0. auto.
Qed.

Section Idem.
  Variable canon : N -> bytes -> bytes.
  Variable tbl : list Decl.
  Variable env : list RemoteD.
  Variable syn : N.
  Hypothesis Ht : Forall vald tbl.
  Hypothesis He : Forall valr env.
  Hypothesis Hc : forall k s, canon k (canon k s) = canon k s.

  Definition Dfn (delim : bool) (k : N) : N := if (k =? KIND_MESSAGE) && delim then KIND_GROUP else k.
  Definition ADJ (k : N) (mp : bool) : N := if (k =? KIND_GROUP) && mp then KIND_MESSAGE else k.
  Definition REFof (en ms : option TRef) : option bytes :=
    match ms with Some x => Some (tref_name x)
                | None => match en with Some x => Some (tref_name x) | None => None end end.

  (* re-reading the emitted type_name under a kind of the same class gives the same enum / message *)
  Lemma find_target_abs scope ref k k1 en ms k' :
    find_target tbl env k scope ref = Ok (k1, en, ms) ->
    k' = k1 \/ (msgish k1 = true /\ msgish k' = true) ->
    find_target tbl env k' scope (opt_get (REFof en ms) []) = Ok (k', en, ms).
  Proof.
    intros Et Hcl. destruct (find_target_shape _ _ _ _ _ _ _ _ Et) as (_ & Hv & Hsh).
    unfold REFof, find_target.
    destruct Hsh as [(-> & -> & t1 & -> & Hk)|[(Hm & -> & t1 & -> & Hk)|(-> & -> & -> & E1 & Em & E0)]]; cbn [opt_get].
    - destruct Hcl as [->|[Hm _]]; [|discriminate]. change (KIND_ENUM =? KIND_ENUM) with true.
      now rewrite (find_kind_abs K_ENUM tbl env scope scope ref t1 Ht He Hk).
    - assert (Hm' : msgish k' = true) by (destruct Hcl as [->|[_ Hm']]; assumption).
      assert (E1 : (k' =? KIND_ENUM) = false).
      { unfold msgish in Hm'. apply orb_prop in Hm' as [E|E]; apply N.eqb_eq in E; now subst k'. }
      unfold msgish in Hm'. rewrite E1, Hm'.
      now rewrite (find_kind_abs K_MSG tbl env scope scope ref t1 Ht He Hk).
    - destruct Hcl as [->|[Hm _]]; [|congruence]. unfold msgish in Em. now rewrite E1, Em, E0, Hv.
  Qed.

  (* the kind computation is stable under emitting and re-reading the type; finitely many cases
     unless the type is neither message nor group *)
  Lemma kind_idem delim t mp :
    ((syn =? 4) && (t =? KIND_GROUP)) = false -> kind_valid (Dfn delim t) = true ->
    let k1 := Dfn delim t in
    let k' := Dfn delim (opt_get (out_type syn (ADJ k1 mp)) 0) in
    (k' = k1 \/ (msgish k1 = true /\ msgish k' = true)) /\ ADJ k' mp = ADJ k1 mp.
  Proof.
    intros Hg Hv. cbv zeta. unfold out_type.
    destruct (N.eqb_spec t KIND_MESSAGE) as [->|Hm]; [|destruct (N.eqb_spec t KIND_GROUP) as [->|Hgr]].
    - destruct delim, mp, (syn =? 4); cbn; auto.
    - rewrite andb_true_r in Hg. rewrite Hg. destruct delim, mp; cbn; auto.
    - apply N.eqb_neq in Hm, Hgr.
      assert (HD : Dfn delim t = t) by (unfold Dfn; now rewrite Hm). rewrite HD in *.
      assert (HA : ADJ t mp = t) by (unfold ADJ; now rewrite Hgr).
      rewrite HA, Hv, Hgr, andb_false_r. cbn [opt_get]. rewrite HD, HA. auto.
  Qed.

  Lemma target_idem scope ref delim t k1 en ms mp :
    (t =? 0) = false -> ((syn =? 4) && (t =? KIND_GROUP)) = false ->
    find_target tbl env (Dfn delim t) scope ref = Ok (k1, en, ms) ->
    find_target tbl env (Dfn delim (opt_get (out_type syn (ADJ k1 mp)) 0)) scope (opt_get (REFof en ms) [])
      = Ok (Dfn delim (opt_get (out_type syn (ADJ k1 mp)) 0), en, ms)
    /\ ADJ (Dfn delim (opt_get (out_type syn (ADJ k1 mp)) 0)) mp = ADJ k1 mp.
  Proof.
    intros Ht0 Hg Et. destruct (find_target_shape _ _ _ _ _ _ _ _ Et) as (Hk & Hv & _).
    assert (Hd : Dfn delim t = k1).
    { destruct Hk as [Hk|Hk]; [|exact Hk]. unfold Dfn in Hk.
      destruct ((t =? KIND_MESSAGE) && delim); [discriminate|]. subst t. discriminate. }
    subst k1. destruct (kind_idem delim t mp Hg Hv) as [Hcl HA].
    split; [exact (find_target_abs _ _ _ _ _ _ _ Et Hcl) | exact HA].
  Qed.

  Lemma kind0_Dfn ef f : kind0 ef f = Dfn (ef_delim ef) (opt_get (f_type f) 0).
  Proof. reflexivity. Qed.

  Lemma norm_field_eq scope parent pme is_ext f t k1 en ms :
    f_type f = Some t ->
    find_target tbl env (Dfn (ef_delim (pd_field_ef parent (f_opts f))) t) scope (opt_get (f_type_name f) []) = Ok (k1, en, ms) ->
    norm_field canon tbl env syn scope parent pme is_ext f =
    let ef := pd_field_ef parent (f_opts f) in
    let K := if negb is_ext then ADJ k1 (tref_mapentry ms || pme) else k1 in
    mkFieldP (f_name f) (f_number f) (out_label syn (card_of ef f is_ext)) (out_type syn K)
             (REFof en ms)
             (if is_ext then abs_ref tbl env K_MSG scope (opt_get (f_extendee f) []) else None)
             (option_map (canon K) (f_default f))
             (if is_ext then None else option_map (fun z => Z.of_nat (Z.to_nat z)) (f_oneof_index f))
             (match f_json_name f with Some j => Some (if is_ext then json_camel (f_name f) else j) | None => None end)
             (if (syn =? 3) && (((syn =? 2) && (card_of ef f is_ext =? 1)
                                 && (is_ext || match f_oneof_index f with None => true | Some _ => false end))
                                || opt_get (f_p3opt f) false) then Some true else None)
             (f_opts f).
  Proof.
    intros Ety Et. unfold norm_field. rewrite kind0_Dfn, Ety. cbn [opt_get]. rewrite Et.
    destruct is_ext; reflexivity.
  Qed.

  Lemma field_idem scope parent pme n f rf :
    wf34_field syn false f = true ->
    res_field canon PD tbl env scope parent pme n f = Ok rf ->
    res_field canon PD tbl env scope parent pme n (norm_field canon tbl env syn scope parent pme false f) = Ok rf.
  Proof.
    unfold wf34_field. intros Hwf.
    destruct (f_type f) as [t|] eqn:Ety; [|discriminate].
    apply andb_prop in Hwf as [Hwf _]. apply andb_prop in Hwf as [Hwf Hp3]. apply andb_prop in Hwf as [Hty Hlab].
    apply andb_prop in Hty as [Ht0 Hg]. apply negb_true_iff in Ht0. apply negb_true_iff in Hg. apply negb_true_iff in Hlab.
    unfold res_field at 1. rewrite res_target_PD. cbn [st_field_ef PD].
    set (ef := pd_field_ef parent (f_opts f)).
    rewrite kind0_Dfn, Ety. cbn [opt_get]. intros H.
    apply bind_ok in H as (oo & Eo & H). apply bind_ok in H as ([[k1 en] ms] & Et & H).
    inversion H; subst rf; clear H.
    destruct (target_idem scope _ (ef_delim ef) t k1 en ms (tref_mapentry ms || pme) Ht0 Hg Et) as [HT HA].
    rewrite (norm_field_eq scope parent pme false f t k1 en ms Ety Et). cbv zeta. fold ef. cbn [negb].
    set (K := ADJ k1 (tref_mapentry ms || pme)) in *.
    unfold res_field. rewrite res_target_PD. cbn [st_field_ef PD].
    cbn [f_name f_number f_label f_type f_type_name f_extendee f_default f_oneof_index f_json_name f_p3opt f_opts].
    fold ef.
    rewrite (oneof_idem n _ oo Eo). cbn [bind].
    rewrite kind0_Dfn. cbn [f_type]. rewrite HT. cbn [bind]. unfold ADJ in HA. rewrite HA.
    f_equal. f_equal.
    - (* cardinality *)
      unfold card_of, out_label. cbn [negb andb f_label].
      destruct (ef_legacy_req ef); [reflexivity|].
      destruct (syn =? 4); cbn [andb] in *; [now rewrite Hlab|reflexivity].
    - destruct (f_json_name f); reflexivity.
    - (* proto3_optional *)
      cbn [opt_get]. destruct (syn =? 3) eqn:E3; cbn [andb].
      + assert (E2 : (syn =? 2) = false) by (apply N.eqb_eq in E3; subst; reflexivity).
        rewrite E2. cbn [andb orb]. destruct (opt_get (f_p3opt f) false); reflexivity.
      + rewrite orb_false_r in Hp3. apply negb_true_iff in Hp3. now rewrite Hp3.
    - (* default *)
      destruct (f_default f); cbn [option_map]; [now rewrite Hc|reflexivity].
  Qed.

  Lemma ADJ_false k : ADJ k false = k.
  Proof. unfold ADJ. now rewrite andb_false_r. Qed.

  Lemma ext_idem scope parent f rf :
    wf34_field syn true f = true ->
    res_ext canon PD tbl env scope parent f = Ok rf ->
    res_ext canon PD tbl env scope parent (norm_field canon tbl env syn scope parent false true f) = Ok rf.
  Proof.
    unfold wf34_field. intros Hwf.
    destruct (f_type f) as [t|] eqn:Ety; [|discriminate].
    apply andb_prop in Hwf as [Hwf Hjs]. apply andb_prop in Hwf as [Hwf Hp3]. apply andb_prop in Hwf as [Hty Hlab].
    apply andb_prop in Hty as [Ht0 Hg]. apply negb_true_iff in Ht0. apply negb_true_iff in Hg. apply negb_true_iff in Hlab.
    cbn [negb orb] in Hjs.
    unfold res_ext at 1. rewrite res_target_PD. cbn [st_field_ef st_ref st_ext_lazy PD].
    set (ef := pd_field_ef parent (f_opts f)).
    rewrite kind0_Dfn, Ety. cbn [opt_get]. intros H.
    apply bind_ok in H as (xt & Ex & H). apply bind_ok in H as ([[k1 en] ms] & Et & H).
    inversion H; subst rf; clear H.
    destruct (target_idem scope _ (ef_delim ef) t k1 en ms false Ht0 Hg Et) as [HT HA].
    rewrite !ADJ_false in HT. rewrite !ADJ_false in HA.
    rewrite (norm_field_eq scope parent false true f t k1 en ms Ety Et). cbv zeta. fold ef. cbn [negb].
    unfold res_ext. rewrite res_target_PD. cbn [st_field_ef st_ref st_ext_lazy PD].
    cbn [f_name f_number f_label f_type f_type_name f_extendee f_default f_oneof_index f_json_name f_p3opt f_opts].
    fold ef.
    unfold abs_ref. rewrite Ex. cbn [opt_get].
    rewrite (find_kind_abs K_MSG tbl env scope scope _ xt Ht He Ex). cbn [bind].
    rewrite kind0_Dfn. cbn [f_type]. rewrite HT. cbn [bind]. rewrite HA.
    f_equal. f_equal.
    - unfold card_of, out_label. cbn [negb andb].
      destruct (syn =? 4); cbn [andb] in *; [now rewrite Hlab|reflexivity].
    - destruct (f_json_name f) as [j|]; [|reflexivity]. apply beq_eq in Hjs. now subst j.
    - cbn [opt_get]. destruct (syn =? 3) eqn:E3; cbn [andb].
      + assert (E2 : (syn =? 2) = false) by (apply N.eqb_eq in E3; subst; reflexivity).
        rewrite E2. cbn [andb orb]. destruct (opt_get (f_p3opt f) false); reflexivity.
      + rewrite orb_false_r in Hp3. apply negb_true_iff in Hp3. now rewrite Hp3.
    - destruct (f_default f); cbn [option_map]; [now rewrite Hc|reflexivity].
  Qed.

  Lemma msg_idem : forall m scope parent rm,
    wf34_msg syn m = true ->
    res_msg canon PD tbl env scope parent m = Ok rm ->
    res_msg canon PD tbl env scope parent (norm_msg canon tbl env syn scope parent m) = Ok rm.
  Proof.
    induction m as [name fields exts nested enums xr oneofs rr rn opts vis IH] using MsgP_ind2.
    intros scope parent rm Hwf. rewrite Forall_forall in IH.
    cbn [wf34_msg] in Hwf. apply andb_prop in Hwf as [Hwf Hn]. apply andb_prop in Hwf as [Hf Hx].
    rewrite forallb_forall in Hf, Hx, Hn.
    cbn [norm_msg]. rewrite !res_msg_unfold. cbv zeta.
    apply bind_lift; [intros l; rewrite mapM_map; apply mapM_agree; intros f Hin b; apply field_idem; auto | intros rfields].
    apply bind_lift; [auto | intros renums].
    apply bind_lift; [intros l; rewrite mapM_map; apply mapM_agree; intros x Hin b; apply IH; auto | intros rmsgs].
    apply bind_lift; [intros l; rewrite mapM_map; apply mapM_agree; intros f Hin b; apply ext_idem; auto | auto].
  Qed.
End Idem.

Lemma flat_map_map {A B C} (f : B -> list C) (g : A -> B) (l : list A) :
  flat_map f (map g l) = flat_map (fun x => f (g x)) l.
Proof. induction l as [|x l IH]; cbn; [reflexivity|]. now rewrite IH. Qed.

Lemma flat_map_ext_Forall {A B} (f g : A -> list B) (l : list A) :
  Forall (fun a => f a = g a) l -> flat_map f l = flat_map g l.
Proof. induction l as [|x l IH]; cbn; intros H; [reflexivity|]. inversion H; subst. now rewrite H2, IH. Qed.

Lemma decls_msg_norm canon tbl env syn : forall m scope scope' parent,
  decls_msg scope (norm_msg canon tbl env syn scope' parent m) = decls_msg scope m.
Proof.
  induction m as [name fields exts nested enums xr oneofs rr rn opts vis IH] using MsgP_ind2.
  intros scope scope' parent. cbn [norm_msg decls_msg]. rewrite !map_map. cbn [f_name norm_field].
  f_equal. f_equal. f_equal. f_equal. f_equal.
  rewrite flat_map_map. apply flat_map_ext_Forall.
  eapply Forall_impl; [|exact IH]. intros m Hm. apply Hm.
Qed.

Lemma syntax_of_norm p syn ed name pkg deps pub msgs enums exts svcs opts :
  syntax_of p = Some (syn, ed) ->
  syntax_of (mkFileP name pkg (syntax_text syn) (if syn =? 4 then Some ed else None) deps pub msgs enums exts svcs opts)
  = Some (syn, ed).
Proof.
  unfold syntax_of at 1.
  destruct (beq (opt_get (fp_syntax p) []) [] || beq (opt_get (fp_syntax p) []) ["p"; "r"; "o"; "t"; "o"; "2"]%byte).
  { intros H; inversion H; subst. reflexivity. }
  destruct (beq (opt_get (fp_syntax p) []) ["p"; "r"; "o"; "t"; "o"; "3"]%byte).
  { intros H; inversion H; subst. reflexivity. }
  destruct (beq (opt_get (fp_syntax p) []) ["e"; "d"; "i"; "t"; "i"; "o"; "n"; "s"]%byte); [|discriminate].
  intros H; inversion H; subst. reflexivity.
Qed.

Lemma normalize_eq canon env p syn ed :
  syntax_of p = Some (syn, ed) ->
  normalize canon env p =
  mkFileP (Some (opt_get (fp_name p) []))
          (match pkg_of p with [] => None | _ :: _ => Some (pkg_of p) end)
          (syntax_text syn) (if syn =? 4 then Some ed else None) (fp_deps p) (fp_public p)
          (map (norm_msg canon (decls_file p) env syn (pkg_of p) (merge_feat (ef_defaults ed) (gen_feat (fp_opts p)))) (fp_msgs p))
          (fp_enums p)
          (map (norm_field canon (decls_file p) env syn (pkg_of p) (merge_feat (ef_defaults ed) (gen_feat (fp_opts p))) false true) (fp_exts p))
          (fp_svcs p) (fp_opts p).
Proof. intros E. unfold normalize. rewrite E. reflexivity. Qed.

(* C34 new_file_to_proto, first half: NewFile of the normal form gives the same descriptor *)
Theorem new_file_normalize canon env p d :
  (forall k s, canon k (canon k s) = canon k s) ->
  Forall valr env ->
  wf34 p = true ->
  new_file canon env p = Ok d -> new_file canon env (normalize canon env p) = Ok d.
Proof.
  intros Hc He Hwf. unfold wf34 in Hwf. unfold new_file at 1.
  destruct (fp_name p) as [[|c n]|] eqn:En; try discriminate.
  destruct (beq (pkg_of p) [] || fullname_ok (pkg_of p)) eqn:Epk; cbn [negb]; [|discriminate].
  destruct (syntax_of p) as [[syn ed]|] eqn:Es; [|discriminate].
  destruct (decls_check [] (decls_file p)) eqn:Ec; [|discriminate].
  apply andb_prop in Hwf as [Hwm Hwx]. rewrite forallb_forall in Hwm, Hwx.
  assert (Hok : Forall okd (decls_file p)) by (eapply decls_check_names; eauto).
  assert (Hsc : scope_ok (pkg_of p)).
  { apply orb_prop in Epk as [E|E]; [left; now apply beq_eq in E|right; exact E]. }
  pose proof (decls_file_valid p Hsc Hok) as Ht.
  intros Hres.
  rewrite (normalize_eq canon env p syn ed Es).
  set (ef := merge_feat (ef_defaults ed) (gen_feat (fp_opts p))) in *.
  set (q := mkFileP _ _ _ _ _ _ _ _ _ _ _).
  assert (Hn : fp_name q = Some (c :: n)) by (unfold q; cbn [fp_name]; rewrite En; reflexivity).
  assert (Hp : pkg_of q = pkg_of p) by (unfold q, pkg_of at 1; cbn [fp_package]; destruct (pkg_of p); reflexivity).
  assert (Hs : syntax_of q = Some (syn, ed)) by (unfold q; apply (syntax_of_norm p); exact Es).
  assert (Hd : decls_file q = decls_file p).
  { unfold decls_file. rewrite Hp. unfold q. cbn [fp_enums fp_msgs fp_exts fp_svcs].
    rewrite !map_map. cbn [f_name norm_field].
    f_equal. f_equal.
    rewrite flat_map_map. apply flat_map_ext_Forall. apply Forall_forall. intros m _. apply decls_msg_norm. }
  assert (Hres' : res_file canon PD (decls_file p) env q = Ok d).
  { revert Hres. unfold res_file. rewrite Hs, Es, Hp. fold ef.
    apply bind_lift; [auto | intros renums].
    apply bind_lift; [intros l; unfold q; cbn [fp_msgs]; rewrite mapM_map; apply mapM_agree;
                      intros x Hin b; apply msg_idem; auto | intros rmsgs].
    apply bind_lift; [intros l; unfold q; cbn [fp_exts]; rewrite mapM_map; apply mapM_agree;
                      intros f Hin b; apply ext_idem; auto | auto]. }
  unfold new_file. rewrite Hn, Hp, Epk, Hs, Hd, Ec. cbn [negb]. exact Hres'.
Qed.

(* C34 new_file_to_proto *)
Theorem new_file_to_proto canon env p d :
  (forall k s, canon k (canon k s) = canon k s) ->
  Forall valr env ->
  wf34 p = true ->
  new_file canon env p = Ok d -> new_file canon env (to_proto d) = Ok d.
Proof.
  intros Hc He Hwf H. rewrite (to_proto_new_file canon env p d H). now apply new_file_normalize.
Qed.

Lemma ex_file_wf34 : wf34 ex_file = true.
Proof. vm_compute. reflexivity. Qed.

Lemma idc_idem : forall k s, idc k (idc k s) = idc k s.
Proof. reflexivity. Qed.

(* FK4: without [wf34] the round trip fails: an editions file that says LABEL_REQUIRED (label 2)
   is accepted, ToFileDescriptorProto writes LABEL_OPTIONAL, and NewFile of that has
   cardinality optional *)
Definition first_field_card (r : Res RFile) : option N :=
  match r with
  | Ok d => match rfl_msgs d with
            | mkRMsg _ _ (f :: _) _ _ _ _ _ _ _ _ _ _ :: _ => Some (rf_card f)
            | _ => None end
  | Err _ => None end.

Theorem new_file_to_proto_needs_wf :
  exists p d, new_file idc [] p = Ok d /\ first_field_card (Ok d) = Some 2 /\
              first_field_card (new_file idc [] (to_proto d)) = Some 1.
Proof.
  eexists fk4_file, _. split; [vm_compute; reflexivity|].
  vm_compute. split; reflexivity.
Qed.
