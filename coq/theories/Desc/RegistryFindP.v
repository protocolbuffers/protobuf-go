(* RegistryFindP — FindDescriptorByName finds exactly the declarations of the registered
   files (every kind: top-level and nested messages, enums, enum values in their enclosing
   scope, extensions, fields, oneofs, services, methods). *)
From Coq Require Import List Arith Bool.
From PB Require Import Desc.RegistryModel Desc.RegistryBaseP Desc.RegistryTopP Desc.RegistryMsgP
                       Desc.RegistryInvP Desc.RegistryFilesP.
Import ListNotations.

Lemma dget_norm d q : q <> [] -> dget (norm_descs d) q = dget d q.
Proof.
  intros Hq. destruct d as [|e d]; [|reflexivity]. cbn [norm_descs]. unfold dget. cbn [aget].
  destruct (name_eqb [] q) eqn:E; [|reflexivity]. apply name_eqb_eq in E. congruence.
Qed.

Lemma find_first_norm d nm l :
  (forall q, In q l -> q <> []) -> find_first d nm l = find_first (norm_descs d) nm l.
Proof.
  induction l as [|q l IH]; intros H; cbn [find_first]; [reflexivity|].
  rewrite dget_norm by (apply H; now left). rewrite IH by (intros; apply H; now right). reflexivity.
Qed.

(* Why the prefix walk of FindDescriptorByName (nm, Parent(nm), ..., first key present) stops at
   the right entry: every key of descsByName has its parent registered as a package
   ([parent_closed]), so by induction along Parent nothing at all is registered below a key that
   holds a declaration ([no_ext]); hence for nm = p.x with p a top-level declaration the walk
   passes every p.y unanswered and reaches p with the suffix x ([find_first_reach]). *)
Lemma parent_closed s rs k v :
  finv s rs -> dget (norm_descs (fs_descs s)) k = Some v -> k <> [] ->
  exists fl, dget (norm_descs (fs_descs s)) (parent k) = Some (VPkg fl).
Proof.
  intros I E Hk. apply (fi_pkg_complete _ _ I).
  destruct (is_pkg v) eqn:Ep.
  - destruct v as [fl| | | | |]; try discriminate.
    destruct (fi_pkg_sound _ _ I k fl E) as [_ [->|(fid & f & Hi & Hp)]]; [contradiction|].
    destruct (dot_prefix_parent _ _ Hp) as [E0|Hp']; [rewrite E0; now left|]. right. now exists fid, f.
  - destruct (fi_sound _ _ I k v E Ep) as (fid & f & Hi & Hin).
    destruct (top_in_wf fid f k v (fi_wf _ _ I fid f Hi) Hin) as (_ & _ & Hpar & _). rewrite Hpar.
    destruct (name_eq_dec (f_pkg f) []) as [E0|N]; [rewrite E0; now left|]. right. exists fid, f.
    split; [assumption | now apply dot_prefix_refl].
Qed.

Lemma no_ext s rs p d :
  finv s rs -> dget (norm_descs (fs_descs s)) p = Some d -> is_pkg d = false ->
  forall y, dget (norm_descs (fs_descs s)) (p ++ dotb :: y) = None.
Proof.
  intros I Ed Hd.
  assert (G : forall q : name, forall y, q = p ++ dotb :: y -> dget (norm_descs (fs_descs s)) q = None);
    [|intros y; now apply (G _ y)].
  intros q. induction q as [|q Hq IH] using parent_ind; intros y Eq.
  - destruct p; discriminate.
  - destruct (dget (norm_descs (fs_descs s)) q) as [v|] eqn:E; [|reflexivity]. exfalso.
    destruct (parent_closed s rs q v I E Hq) as [fl Hfl]. subst q.
    destruct (parent_ext p y) as [Hp|[y' Hp]]; rewrite Hp in *.
    + rewrite Ed in Hfl. inversion Hfl; subst. discriminate.
    + rewrite (IH y' eq_refl) in Hfl. discriminate.
Qed.

Lemma find_first_reach D nm p d x :
  p <> [] -> dget D p = Some d -> (forall y, dget D (p ++ dotb :: y) = None) -> nm = p ++ dotb :: x ->
  forall q : name, (q = p \/ exists y, q = p ++ dotb :: y) ->
  forall l, chain q = Some l -> find_first D nm l = resolve d nm x.
Proof.
  intros Hp Ed Hno Enm q.
  induction q as [|q Hq IH] using parent_ind; intros Hq' l Hl.
  - destruct Hq' as [E|[y E]]; [congruence | destruct p; discriminate].
  - destruct (chain_cons _ _ Hq Hl) as (l' & -> & Hl'). cbn [find_first].
    destruct Hq' as [->|[y ->]].
    + rewrite Ed. subst nm. now rewrite skipn_app_dot.
    + rewrite Hno. apply IH; [|assumption].
      destruct (parent_ext p y) as [E|[y' E]]; rewrite E; [now left | right; now exists y'].
Qed.

Lemma find_first_hit D nm l d :
  find_first D nm l = FFound d ->
  exists q v, In q l /\ dget D q = Some v /\ resolve v nm (skipn (S (length q)) nm) = FFound d.
Proof.
  induction l as [|q l IH]; cbn [find_first]; [discriminate|].
  destruct (dget D q) as [v|] eqn:E.
  - intros H. exists q, v. repeat split; [now left | assumption | assumption].
  - intros H. destruct (IH H) as (q' & v & Hi & Hg & Hr). exists q', v. repeat split; [now right | assumption | assumption].
Qed.

Lemma find_norm s nm l :
  chain nm = Some l -> find_descriptor_by_name s nm = find_first (norm_descs (fs_descs s)) nm l.
Proof.
  intros Hl. unfold find_descriptor_by_name. rewrite Hl. apply find_first_norm.
  intros q Hq. exact (chain_in_nonnil nm l q Hl Hq).
Qed.

Lemma resolve_sound fid f k v nm sfx d :
  In (k, v) (range_top_level fid f) -> resolve v nm sfx = FFound d ->
  d_full d = nm /\ d_fid d = fid /\ In (d_kind d, d_full d) (declared_by f).
Proof.
  intros Hin Hr. apply top_entry_iff in Hin. unfold declared_by. rewrite !in_app_iff.
  destruct Hin as [(e & He & Ek & ->)|[(e & x & He & Hx & Ek & ->)|[(m & Hm & Ek & ->)|[(x & Hx & Ek & ->)|(sv & Hs & Ek & ->)]]]];
    cbn [resolve] in Hr.
  - destruct (name_eqb k nm) eqn:E; [|discriminate]. apply name_eqb_eq in E. inversion Hr; subst d.
    cbn [d_full d_fid d_kind]. repeat split; [assumption|]. left.
    apply in_flat_map. exists e. split; [assumption|]. left. now rewrite Ek.
  - destruct (name_eqb k nm) eqn:E; [|discriminate]. apply name_eqb_eq in E. inversion Hr; subst d.
    cbn [d_full d_fid d_kind]. repeat split; [assumption|]. left.
    apply in_flat_map. exists e. split; [assumption|]. right. apply in_map_iff. exists x. split; [now rewrite Ek | assumption].
  - destruct (name_eqb k nm) eqn:E.
    + apply name_eqb_eq in E. inversion Hr; subst d. cbn [d_full d_fid d_kind]. repeat split; [assumption|].
      right; left. apply in_flat_map. exists m. split; [assumption|].
      left. now rewrite Ek.
    + destruct (find_in_msg fid k m sfx) as [d'|] eqn:Ef; [|discriminate].
      destruct (name_eqb (d_full d') nm) eqn:E2; [|discriminate]. apply name_eqb_eq in E2. inversion Hr; subst d'.
      destruct (find_in_msg_sound fid m k sfx d Ef) as [Hfid Hd]. repeat split; [assumption | assumption|].
      right; left. apply in_flat_map. exists m. split; [assumption|].
      right. unfold decls_msg. rewrite <- Ek. exact Hd.
  - destruct (name_eqb k nm) eqn:E; [|discriminate]. apply name_eqb_eq in E. inversion Hr; subst d.
    cbn [d_full d_fid d_kind]. repeat split; [assumption|].
    do 2 right; left.
    apply in_map_iff. exists x. split; [now rewrite Ek | assumption].
  - destruct (name_eqb k nm) eqn:E.
    + apply name_eqb_eq in E. inversion Hr; subst d. cbn [d_full d_fid d_kind]. repeat split; [assumption|].
      do 3 right. apply in_flat_map. exists sv. split; [assumption|]. left. now rewrite Ek.
    + destruct (mem_name (fst (pop sfx)) (svc_methods sv)) eqn:Em; [|discriminate].
      destruct (name_eqb (fn_append k (fst (pop sfx))) nm) eqn:E2; [|discriminate].
      apply name_eqb_eq in E2. inversion Hr; subst d. cbn [d_full d_fid d_kind]. repeat split; [assumption|].
      do 3 right. apply in_flat_map. exists sv. split; [assumption|]. right. apply mem_name_in in Em.
      apply in_map_iff. exists (fst (pop sfx)). split; [now rewrite Ek | assumption].
Qed.

Lemma find_sound s rs nm d :
  finv s rs -> find_descriptor_by_name s nm = FFound d -> d_full d = nm /\ declared rs d.
Proof.
  intros I H. destruct (chain_total nm) as [l Hl]. rewrite (find_norm s nm l Hl) in H.
  destruct (find_first_hit _ _ _ _ H) as (q & v & Hq & Hg & Hr).
  destruct (is_pkg v) eqn:Ep; [destruct v; try discriminate; cbn [resolve] in Hr; discriminate|].
  destruct (fi_sound _ _ I q v Hg Ep) as (fid & f & Hi & Hin).
  destruct (resolve_sound fid f q v nm _ d Hin Hr) as (H1 & H2 & H3).
  split; [assumption|]. exists f. rewrite H2. now split.
Qed.

Lemma find_top s rs fid f k v :
  finv s rs -> In (fid, f) rs -> In (k, v) (range_top_level fid f) ->
  find_descriptor_by_name s k = resolve v k (skipn (S (length k)) k).
Proof.
  intros I Hi Hin. destruct (chain_total k) as [l Hl]. rewrite (find_norm s k l Hl).
  destruct (top_in_wf fid f k v (fi_wf _ _ I fid f Hi) Hin) as (_ & Hk & _).
  destruct (chain_cons _ _ Hk Hl) as (l' & -> & _). cbn [find_first].
  now rewrite (fi_complete _ _ I fid f k v Hi Hin).
Qed.

Lemma find_below s rs fid f p v x :
  finv s rs -> In (fid, f) rs -> In (p, v) (range_top_level fid f) ->
  find_descriptor_by_name s (p ++ dotb :: x) = resolve v (p ++ dotb :: x) x.
Proof.
  intros I Hi Hin. destruct (chain_total (p ++ dotb :: x)) as [l Hl]. rewrite (find_norm s _ l Hl).
  destruct (top_in_wf fid f p v (fi_wf _ _ I fid f Hi) Hin) as (Hpk & Hp & _).
  pose proof (fi_complete _ _ I fid f p v Hi Hin) as Hg.
  apply (find_first_reach _ _ p v x Hp Hg (no_ext s rs p v I Hg Hpk) eq_refl (p ++ dotb :: x)); [|assumption].
  right. now exists x.
Qed.

Lemma find_complete s rs d :
  finv s rs -> declared rs d -> find_descriptor_by_name s (d_full d) = FFound d.
Proof.
  intros I (f & Hi & Hd). destruct d as [k fid n]. cbn [d_kind d_fid d_full] in *.
  pose proof (fi_wf _ _ I fid f Hi) as Hwf.
  destruct (wf_file_parts f Hwf) as (Hval & _ & Hmsgs & Hsvcs).
  unfold declared_by in Hd. rewrite !in_app_iff in Hd.
  destruct Hd as [Hd|[Hd|[Hd|Hd]]].
  - (* top-level enums and their values *)
    apply in_flat_map in Hd. destruct Hd as (e & He & Hd). destruct Hd as [Hd|Hd].
    + inversion Hd; subst k n.
      assert (Hin : In (fn_append (f_pkg f) (enum_name e), VEnum fid (fn_append (f_pkg f) (enum_name e))) (range_top_level fid f)).
      { apply top_entry_iff. left. now exists e. }
      rewrite (find_top s rs fid f _ _ I Hi Hin). cbn [resolve]. now rewrite name_eqb_refl.
    + apply in_map_iff in Hd. destruct Hd as (x & E & Hx). inversion E; subst k n.
      assert (Hin : In (fn_append (f_pkg f) x, VEnumVal fid (fn_append (f_pkg f) x)) (range_top_level fid f)).
      { apply top_entry_iff. right; left. now exists e, x. }
      rewrite (find_top s rs fid f _ _ I Hi Hin). cbn [resolve]. now rewrite name_eqb_refl.
  - (* top-level messages and everything nested in them *)
    apply in_flat_map in Hd. destruct Hd as (m & Hm & Hd).
    assert (Hin : In (fn_append (f_pkg f) (msg_name m), VMsg fid (fn_append (f_pkg f) (msg_name m)) m) (range_top_level fid f)).
    { apply top_entry_iff. right; right; left. now exists m. }
    destruct Hd as [Hd|Hd].
    + inversion Hd; subst k n.
      rewrite (find_top s rs fid f _ _ I Hi Hin). cbn [resolve]. now rewrite name_eqb_refl.
    + destruct (top_in_wf fid f _ _ Hwf Hin) as (_ & Hfull & _).
      destruct (find_in_msg_complete fid m _ k n (Hmsgs m Hm) Hfull Hd) as (x & Hx & En & Hf).
      rewrite En. rewrite (find_below s rs fid f _ _ x I Hi Hin). cbn [resolve].
      assert (E1 : name_eqb (fn_append (f_pkg f) (msg_name m)) (fn_append (f_pkg f) (msg_name m) ++ dotb :: x) = false).
      { apply name_eqb_neq. intros E. symmetry in E. now apply app_dot_neq in E. }
      rewrite E1, Hf. cbn [d_full]. rewrite <- En. now rewrite name_eqb_refl.
  - (* top-level extensions *)
    apply in_map_iff in Hd. destruct Hd as (x & E & Hx). inversion E; subst k n.
    assert (Hin : In (fn_append (f_pkg f) x, VExt fid (fn_append (f_pkg f) x)) (range_top_level fid f)).
    { apply top_entry_iff. right; right; right; left. now exists x. }
    rewrite (find_top s rs fid f _ _ I Hi Hin). cbn [resolve]. now rewrite name_eqb_refl.
  - (* services and methods *)
    apply in_flat_map in Hd. destruct Hd as (sv & Hs & Hd).
    assert (Hin : In (fn_append (f_pkg f) (svc_name sv), VSvc fid (fn_append (f_pkg f) (svc_name sv)) sv) (range_top_level fid f)).
    { apply top_entry_iff. right; right; right; right. now exists sv. }
    destruct Hd as [Hd|Hd].
    + inversion Hd; subst k n.
      rewrite (find_top s rs fid f _ _ I Hi Hin). cbn [resolve]. now rewrite name_eqb_refl.
    + apply in_map_iff in Hd. destruct Hd as (x & E & Hx). inversion E; subst k n.
      destruct (top_in_wf fid f _ _ Hwf Hin) as (_ & Hfull & _).
      pose proof (Hsvcs sv Hs) as Hws. unfold wf_svc in Hws. rewrite !andb_true_iff in Hws.
      destruct Hws as [[_ Hv] _]. rewrite forallb_forall in Hv.
      destruct (proj1 (valid_ident_spec x) (Hv x Hx)) as [Hx1 Hx2].
      rewrite (fn_append_cons _ x Hfull).
      rewrite (find_below s rs fid f _ _ x I Hi Hin). cbn [resolve].
      assert (E1 : name_eqb (fn_append (f_pkg f) (svc_name sv)) (fn_append (f_pkg f) (svc_name sv) ++ dotb :: x) = false).
      { apply name_eqb_neq. intros E'. symmetry in E'. now apply app_dot_neq in E'. }
      rewrite E1. rewrite pop_nodot by assumption. cbn [fst].
      apply mem_name_in in Hx. rewrite Hx. rewrite (fn_append_cons _ x Hfull). now rewrite name_eqb_refl.
Qed.

Lemma resolve_total v nm sfx : resolve v nm sfx <> FOutOfFuel.
Proof.
  destruct v; cbn [resolve]; try discriminate; (destruct (name_eqb full nm); [discriminate|]); try discriminate.
  - destruct (find_in_msg fid full m sfx) as [d'|]; [destruct (name_eqb (d_full d') nm)|]; discriminate.
  - destruct (mem_name (fst (pop sfx)) (svc_methods s)); [destruct (name_eqb _ nm)|]; discriminate.
Qed.

Lemma find_total_state s nm : find_descriptor_by_name s nm <> FOutOfFuel.
Proof.
  unfold find_descriptor_by_name. destruct (chain_total nm) as [l ->].
  induction l as [|q l IH]; cbn [find_first]; [discriminate|].
  destruct (dget (fs_descs s) q) as [v|]; [apply resolve_total | exact IH].
Qed.

Theorem find_total ops nm : find_descriptor_by_name (fstate_after ops) nm <> FOutOfFuel.
Proof. apply find_total_state. Qed.

Theorem find_by_name_sound_complete ops :
  forallb wf_fop ops = true ->
  let s := fstate_after ops in
  let rs := registered ops in
  (forall nm d, find_descriptor_by_name s nm = FFound d <-> (d_full d = nm /\ declared rs d)) /\
  (forall nm, find_descriptor_by_name s nm = FNotFound <-> ~ exists d, d_full d = nm /\ declared rs d).
Proof.
  intros Hops. cbv zeta. pose proof (finv_run ops Hops) as I. split.
  - intros nm d. split.
    + apply (find_sound _ _ nm d I).
    + intros [<- Hd]. now apply (find_complete _ _ d I).
  - intros nm. split.
    + intros H (d & <- & Hd). rewrite (find_complete _ _ d I Hd) in H. discriminate.
    + intros H. destruct (find_descriptor_by_name (fstate_after ops) nm) as [d| |] eqn:E.
      * exfalso. apply H. exists d. now apply (find_sound _ _ nm d I).
      * reflexivity.
      * exfalso. now apply (find_total ops nm).
Qed.

(* consequence: among the registered files every full name is declared at most once *)
Theorem declared_unique ops d d' :
  forallb wf_fop ops = true ->
  declared (registered ops) d -> declared (registered ops) d' -> d_full d = d_full d' -> d = d'.
Proof.
  intros Hops H1 H2 E. pose proof (finv_run ops Hops) as I.
  pose proof (find_complete _ _ d I H1) as F1. pose proof (find_complete _ _ d' I H2) as F2.
  rewrite E in F1. rewrite F1 in F2. now inversion F2.
Qed.
