(* Facts about the run-time support of the translated Go code (Base/GoInt.v),
   shared by all the "translation = model" proofs: wraps on the range of their
   type, [len], the checked accesses on a list that is the image [map f l] of a
   model list (whatever the view [f] of an element is), and bridges between the
   bit operations and comparisons of N and Z. *)
From Coq Require Import List Arith NArith ZArith Lia Bool.
From Coq Require Import ZifyBool ZifyNat ZifyN.
From PB Require Import Base.PBytes Base.PBytesP Base.GoInt.
Import ListNotations.
Open Scope Z_scope.

Lemma wrap_u8_small x : 0 <= x < 256 -> wrap_u8 x = x.
Proof. intros H. unfold wrap_u8. now apply Z.mod_small. Qed.
Lemma wrap_u32_small x : 0 <= x < 4294967296 -> wrap_u32 x = x.
Proof. intros H. unfold wrap_u32. now apply Z.mod_small. Qed.
Lemma wrap_u64_small x : 0 <= x < 18446744073709551616 -> wrap_u64 x = x.
Proof. intros H. unfold wrap_u64. now apply Z.mod_small. Qed.
Lemma wrap_i8_small x : -128 <= x < 128 -> wrap_i8 x = x.
Proof. intros H. unfold wrap_i8. rewrite Z.mod_small; lia. Qed.
Lemma wrap_i32_small x : -2147483648 <= x < 2147483648 -> wrap_i32 x = x.
Proof. intros H. unfold wrap_i32. rewrite Z.mod_small; lia. Qed.
Lemma wrap_i64_small x : -9223372036854775808 <= x < 9223372036854775808 -> wrap_i64 x = x.
Proof. intros H. unfold wrap_i64. rewrite Z.mod_small; lia. Qed.

Lemma len_cons {A} (x : A) l : len (x :: l) = len l + 1.
Proof. unfold len. cbn [length]. lia. Qed.
Lemma len_nonneg {A} (l : list A) : 0 <= len l.
Proof. unfold len. lia. Qed.
Lemma len_app {A} (a b : list A) : len (a ++ b) = len a + len b.
Proof. unfold len. rewrite app_length. lia. Qed.
Lemma len_map {A B} (f : A -> B) l : len (map f l) = Z.of_nat (length l).
Proof. unfold len. now rewrite map_length. Qed.

(* the bounds tests of [index] and of the slice expressions, for a position
   given as a [nat] *)
Lemma index_guard i n : (i < n)%nat -> (Z.of_nat i <? 0) || (Z.of_nat n <=? Z.of_nat i) = false.
Proof. lia. Qed.
Lemma slice_guard i n : (i <= n)%nat -> (Z.of_nat i <? 0) || (Z.of_nat n <? Z.of_nat i) = false.
Proof. lia. Qed.

Lemma index_nth l i : 0 <= i < len l -> index l i = Val (nth (Z.to_nat i) l 0).
Proof. intros H. unfold index. replace ((i <? 0) || (len l <=? i)) with false by lia. reflexivity. Qed.

Lemma slice_hi_neg b k : k < 0 -> slice_hi b k = Panic.
Proof. intros H. unfold slice_hi. replace (k <? 0) with true by lia. reflexivity. Qed.

Section View.
  Context {A : Type} (f : A -> Z).

  (* the element after a prefix *)
  Lemma index_map_app p x r : index (map f (p ++ x :: r)) (Z.of_nat (length p)) = Val (f x).
  Proof.
    unfold index. rewrite len_map, index_guard by (rewrite app_length; cbn [length]; lia).
    rewrite Nat2Z.id, map_app, app_nth2 by (rewrite map_length; lia).
    rewrite map_length, Nat.sub_diag. reflexivity.
  Qed.

  Lemma slice_lo_map l n : (n <= length l)%nat -> slice_lo (map f l) (Z.of_nat n) = Val (map f (skipn n l)).
  Proof. intros H. unfold slice_lo. now rewrite len_map, slice_guard, Nat2Z.id, skipn_map by exact H. Qed.

  Lemma slice_hi_map l n : (n <= length l)%nat -> slice_hi (map f l) (Z.of_nat n) = Val (map f (firstn n l)).
  Proof. intros H. unfold slice_hi. now rewrite len_map, slice_guard, Nat2Z.id, firstn_map by exact H. Qed.

  Lemma slice_lo_map_app p r : slice_lo (map f (p ++ r)) (Z.of_nat (length p)) = Val (map f r).
  Proof. rewrite slice_lo_map by (rewrite app_length; lia). now rewrite skipn_app_len. Qed.
End View.

Lemma lor_disjoint a b : Z.land a b = 0 -> Z.lor a b = a + b.
Proof. intros H. rewrite <- (Z.lxor_lor _ _ H). symmetry. apply Z.add_nocarry_lxor. exact H. Qed.

Lemma of_N_land a b : Z.of_N (N.land a b) = Z.land (Z.of_N a) (Z.of_N b).
Proof. destruct a, b; reflexivity. Qed.
Lemma of_N_lor a b : Z.of_N (N.lor a b) = Z.lor (Z.of_N a) (Z.of_N b).
Proof. destruct a, b; reflexivity. Qed.
Lemma of_N_ldiff a b : Z.of_N (N.ldiff a b) = Z.ldiff (Z.of_N a) (Z.of_N b).
Proof. destruct a, b; reflexivity. Qed.

Lemma of_N_leb a b : (Z.of_N a <=? Z.of_N b) = (a <=? b)%N.
Proof. lia. Qed.
Lemma of_N_ltb a b : (Z.of_N a <? Z.of_N b) = (a <? b)%N.
Proof. lia. Qed.
Lemma of_N_eqb a b : (Z.of_N a =? Z.of_N b) = (a =? b)%N.
Proof. lia. Qed.
