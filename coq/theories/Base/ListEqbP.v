(* Equality test on lists from an equality test on elements: the generic statement.  The models
   define their string comparisons as separate fixpoints of this shape (bytes_eqb, str_eqb ...);
   each is convertible to an instance of [list_eqb], so its specification is an instance of
   [list_eqb_eq].  The instances for the two byte tests are in Base/PBytesP.v.  Likewise for
   removing a prefix ([list_strip_prefix]). *)
From Coq Require Import List Bool.
Import ListNotations.

(* in a section, so that [list_eqb eqb] unfolds to a fixpoint over the two lists only *)
Section ListEqb.
  Context {A : Type} (eqb : A -> A -> bool).
  Fixpoint list_eqb (a b : list A) : bool :=
    match a, b with
    | [], [] => true
    | x :: a', y :: b' => eqb x y && list_eqb a' b'
    | _, _ => false
    end.
End ListEqb.

Lemma list_eqb_eq {A} (eqb : A -> A -> bool) :
  (forall x y, eqb x y = true <-> x = y) -> forall a b, list_eqb eqb a b = true <-> a = b.
Proof.
  intros H. induction a as [|x a IH]; intros [|y b]; cbn; try (split; [discriminate|congruence]).
  - split; reflexivity.
  - rewrite andb_true_iff, H, IH. split; [intros [-> ->]; reflexivity|intros [= -> ->]; auto].
Qed.

Lemma list_eqb_refl {A} (eqb : A -> A -> bool) :
  (forall x, eqb x x = true) -> forall a, list_eqb eqb a a = true.
Proof. intros H. induction a as [|x a IH]; cbn; [reflexivity|]. now rewrite H, IH. Qed.

(* removing a prefix, with the same element test; again the models carry one fixpoint each *)
Section StripPrefix.
  Context {A : Type} (eqb : A -> A -> bool).
  Fixpoint list_strip_prefix (p s : list A) : option (list A) :=
    match p, s with
    | [], _ => Some s
    | a :: p', b :: s' => if eqb a b then list_strip_prefix p' s' else None
    | _ :: _, [] => None
    end.
End StripPrefix.

Lemma list_strip_prefix_app {A} (eqb : A -> A -> bool) :
  (forall x, eqb x x = true) -> forall p s, list_strip_prefix eqb p (p ++ s) = Some s.
Proof. intros H p s. induction p as [|a p IH]; [reflexivity|]. cbn [app list_strip_prefix]. now rewrite H. Qed.
