(* Facts about bytes: injectivity of b2n, and equality of bytes and of byte strings under the two
   tests the models use (Byte.eqb, and N.eqb on b2n) as instances of Base/ListEqbP; testing one bit of an N.
   The list facts of Base/ListP come along. *)
From Coq Require Import List Bool Arith NArith.
From PB Require Import Base.PBytes Base.ListEqbP.
From PB Require Export Base.ListP.
Import ListNotations.

Lemma b2n_inj a b : b2n a = b2n b -> a = b.
Proof. intros H. rewrite <- (n2b_b2n a), <- (n2b_b2n b). now rewrite H. Qed.

Lemma n2b_inj_b2n b x : b2n b = x -> n2b x = b.
Proof. intros <-. apply n2b_b2n. Qed.

(* the two byte tests of the models, and byte strings compared with them *)
Lemma byte_eqb_eq a b : Byte.eqb a b = true <-> a = b.
Proof. split; [apply Byte.byte_dec_bl | apply Byte.byte_dec_lb]. Qed.

Lemma byte_eqb_refl a : Byte.eqb a a = true.
Proof. now apply byte_eqb_eq. Qed.

Lemma byte_eqb_neq a b : Byte.eqb a b = false <-> a <> b.
Proof. rewrite <- byte_eqb_eq. destruct (Byte.eqb a b); split; congruence. Qed.

Lemma b2n_eqb_eq a b : N.eqb (b2n a) (b2n b) = true <-> a = b.
Proof. rewrite N.eqb_eq. split; [apply b2n_inj|now intros ->]. Qed.

Lemma byte_list_eqb_eq a b : list_eqb Byte.eqb a b = true <-> a = b.
Proof. exact (list_eqb_eq Byte.eqb byte_eqb_eq a b). Qed.

Lemma byte_list_eqb_refl a : list_eqb Byte.eqb a a = true.
Proof. exact (list_eqb_refl Byte.eqb byte_eqb_refl a). Qed.

Lemma b2n_list_eqb_eq a b : list_eqb (fun x y => N.eqb (b2n x) (b2n y)) a b = true <-> a = b.
Proof. exact (list_eqb_eq _ b2n_eqb_eq a b). Qed.

Lemma b2n_list_eqb_refl a : list_eqb (fun x y => N.eqb (b2n x) (b2n y)) a a = true.
Proof. now apply b2n_list_eqb_eq. Qed.

(* one bit of a word (the presence bitmaps and the seen-sets of the JSON and text decoders) *)
Lemma land_pow2 w k : N.land w (2^k) = if N.testbit w k then (2^k)%N else 0%N.
Proof.
  apply N.bits_inj. intros m. rewrite N.land_spec, N.pow2_bits_eqb.
  destruct (N.testbit w k) eqn:E.
  - rewrite N.pow2_bits_eqb. destruct (N.eqb_spec k m); subst; [now rewrite E|now rewrite andb_false_r].
  - rewrite N.bits_0. destruct (N.eqb_spec k m); subst; [now rewrite E|now rewrite andb_false_r].
Qed.
