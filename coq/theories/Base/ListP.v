(* ListP — facts about lists that the standard library of Coq 8.16 does not state: extensionality of
   forallb and flat_map on the elements of a list, firstn/skipn at the length of a prefix, filters under
   permutation, NoDup over append and under map, find and existsb. *)
From Coq Require Import List Arith NArith Bool Permutation.
Import ListNotations.

Lemma list_forallb_ext_in {A} (f g : A -> bool) l : (forall x, In x l -> f x = g x) -> forallb f l = forallb g l.
Proof.
  induction l as [|a l IH]; intros H; [reflexivity|]. cbn [forallb].
  rewrite (H a (or_introl eq_refl)), IH; [reflexivity|]. intros x Hx. apply H. right. exact Hx.
Qed.

Lemma list_flat_map_ext_in {A B} (f g : A -> list B) l : (forall x, In x l -> f x = g x) -> flat_map f l = flat_map g l.
Proof.
  induction l as [|a l IH]; intros H; [reflexivity|]. cbn [flat_map].
  rewrite (H a (or_introl eq_refl)), IH; [reflexivity|]. intros x Hx. apply H. right. exact Hx.
Qed.

Lemma flat_map_length_ge {A B} (f : A -> list B) l :
  (forall x, f x <> []) -> (length l <= length (flat_map f l))%nat.
Proof.
  intros Hf. induction l as [|x l IH]; [reflexivity|].
  cbn [flat_map length]. rewrite app_length.
  specialize (Hf x). destruct (f x); [congruence|]. cbn [length Nat.add].
  apply le_n_S. eapply Nat.le_trans; [exact IH|apply Nat.le_add_l].
Qed.

Lemma firstn_app_len {A} (a b : list A) : firstn (length a) (a ++ b) = a.
Proof. induction a as [|x a IH]; [reflexivity|]. cbn [length app firstn]. now rewrite IH. Qed.

Lemma skipn_app_len {A} (a b : list A) : skipn (length a) (a ++ b) = b.
Proof. induction a as [|x a IH]; [reflexivity|exact IH]. Qed.

Lemma list_firstn_app_length {A} (a b : list A) n : n = length a -> firstn n (a ++ b) = a.
Proof. intros ->. apply firstn_app_len. Qed.

(* the front part of an append, cut off by the length of what follows it *)
Lemma firstn_consumed {A} (a r : list A) : firstn (length (a ++ r) - length r) (a ++ r) = a.
Proof. rewrite app_length, Nat.add_sub. apply firstn_app_len. Qed.

Lemma firstn_add {A} n i (l : list A) : firstn (n + i) l = firstn n l ++ firstn i (skipn n l).
Proof.
  revert l. induction n as [|n IH]; intros l; [reflexivity|].
  destruct l as [|x l]; cbn [Nat.add firstn skipn app]; [now rewrite firstn_nil|]. now rewrite IH.
Qed.

Lemma skipn_add {A} n i (l : list A) : skipn (n + i) l = skipn i (skipn n l).
Proof.
  revert l. induction n as [|n IH]; intros l; [reflexivity|].
  destruct l as [|x l]; cbn [Nat.add skipn]; [now rewrite skipn_nil|]. apply IH.
Qed.

Lemma skipn_nth_cons {A} (l : list A) i d : (i < length l)%nat -> skipn i l = nth i l d :: skipn (S i) l.
Proof.
  revert i. induction l as [|a l IH]; intros [|i] H; cbn [length] in H; [inversion H|inversion H|reflexivity|].
  apply IH, Nat.succ_lt_mono, H.
Qed.

Lemma list_filter_split_perm {A} (f : A -> bool) (l : list A) :
  Permutation (filter f l ++ filter (fun x => negb (f x)) l) l.
Proof.
  induction l as [|a l IH]; [reflexivity|]. cbn [filter]. destruct (f a); cbn [negb app].
  - constructor. exact IH.
  - etransitivity; [apply Permutation_sym, Permutation_middle|]. constructor. exact IH.
Qed.

Lemma list_perm_filter {A} (f : A -> bool) l l' : Permutation l l' -> Permutation (filter f l) (filter f l').
Proof.
  induction 1 as [|x l l' P IH|x y l|l l' l'' P1 IH1 P2 IH2]; cbn [filter].
  - constructor.
  - destruct (f x); [now constructor|exact IH].
  - destruct (f x), (f y); try reflexivity. apply perm_swap.
  - etransitivity; eassumption.
Qed.

Lemma list_perm_existsb {A} (p : A -> bool) l1 l2 : Permutation l1 l2 -> existsb p l1 = existsb p l2.
Proof.
  induction 1; cbn [existsb].
  - reflexivity.
  - now f_equal.
  - now rewrite !orb_assoc, (orb_comm (p y)).
  - congruence.
Qed.

Lemma list_nodup_app_intro {A} (a b : list A) :
  NoDup a -> NoDup b -> (forall x, In x a -> ~ In x b) -> NoDup (a ++ b).
Proof.
  induction a as [|x a IH]; intros Ha Hb Hd; [exact Hb|].
  inversion Ha; subst. cbn. constructor.
  - intros Hin. apply in_app_or in Hin. destruct Hin as [Hin|Hin]; [contradiction|].
    apply (Hd x); [now left | exact Hin].
  - apply IH; auto. intros y Hy. apply Hd. now right.
Qed.

Lemma list_nodup_app_inv {A} (a b : list A) :
  NoDup (a ++ b) -> NoDup a /\ NoDup b /\ (forall x, In x a -> In x b -> False).
Proof.
  induction a as [|x a IH]; cbn.
  - intros H. repeat split; [constructor | assumption | intros ? []].
  - intros H. inversion H as [|? ? Hn Hd]; subst. destruct (IH Hd) as (Ha & Hb & Hab).
    repeat split.
    + constructor; [|assumption]. intros Hi. apply Hn. apply in_or_app. now left.
    + assumption.
    + intros y [->|Hy] Hyb; [apply Hn; apply in_or_app; now right | eauto].
Qed.

Lemma list_nodup_map_inj {A B} (f : A -> B) l x y :
  NoDup (map f l) -> In x l -> In y l -> f x = f y -> x = y.
Proof.
  induction l as [|a l IH]; intros Hnd Hx Hy E; [contradiction|].
  cbn [map] in Hnd. inversion Hnd as [|? ? Hn Hnd']; subst.
  destruct Hx as [->|Hx], Hy as [->|Hy]; try reflexivity.
  - exfalso. apply Hn. rewrite E. apply in_map, Hy.
  - exfalso. apply Hn. rewrite <- E. apply in_map, Hx.
  - apply IH; assumption.
Qed.

Lemma list_nodup_map_filter {A B} (f : A -> B) (g : A -> bool) l : NoDup (map f l) -> NoDup (map f (filter g l)).
Proof.
  induction l as [|a r IH]; cbn [filter map]; intros H; [constructor|].
  inversion H as [|? ? Ha Hr]; subst. destruct (g a); [|now apply IH].
  cbn [map]. constructor; [|now apply IH]. intros Hin. apply Ha.
  apply in_map_iff in Hin. destruct Hin as [x [E Hx]]. apply filter_In in Hx. rewrite <- E. apply in_map. tauto.
Qed.

Lemma find_unique {A} (f : A -> bool) l x :
  In x l -> f x = true -> (forall y, In y l -> f y = true -> y = x) -> find f l = Some x.
Proof.
  intros Hin Hx Hu. destruct (find f l) as [y|] eqn:E.
  - apply find_some in E. destruct E. f_equal. now apply Hu.
  - rewrite (find_none f l E x Hin) in Hx. discriminate.
Qed.

(* the converse of the standard [find_none] *)
Lemma find_none_intro {A} (f : A -> bool) l : (forall n, In n l -> f n = false) -> find f l = None.
Proof.
  induction l as [|x r IH]; intros H; [reflexivity|].
  cbn [find]. rewrite (H x) by now left. apply IH. intros n Hn. apply H. now right.
Qed.

Lemma list_existsb_Neqb_In n l : existsb (N.eqb n) l = true <-> In n l.
Proof.
  rewrite existsb_exists. split.
  - intros (x & Hx & E). apply N.eqb_eq in E. subst. exact Hx.
  - intros H. exists n. split; [exact H|apply N.eqb_refl].
Qed.

(* a boolean test satisfying these two equations decides NoDup *)
Lemma list_nodupb_spec (nd : list N -> bool) :
  nd [] = true -> (forall x r, nd (x :: r) = negb (existsb (N.eqb x) r) && nd r) ->
  forall l, nd l = true <-> NoDup l.
Proof.
  intros Hnil Hcons. induction l as [|x r IH]; [split; [constructor|intros _; exact Hnil]|].
  rewrite Hcons, andb_true_iff, negb_true_iff, IH. split.
  - intros [H1 H2]. constructor; [|exact H2]. intros Hin. apply list_existsb_Neqb_In in Hin. congruence.
  - intros H. inversion H as [|? ? Hn Hr]; subst. split; [|exact Hr].
    destruct (existsb (N.eqb x) r) eqn:E; [|reflexivity]. apply list_existsb_Neqb_In in E. contradiction.
Qed.
