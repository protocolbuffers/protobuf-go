(* Proofs about Base/Utf8Valid.v: Go's utf8.Valid accepts exactly the well-formed
   UTF-8 byte strings of the Unicode standard. *)
From Coq Require Import List NArith ZArith Lia Bool Arith.
From Coq Require Import ZifyBool ZifyNat ZifyN.
Require Import PB.Base.PBytes PB.Base.PBytesP PB.Base.Utf8Valid.
Import ListNotations.
Open Scope N_scope.

Lemma bad_err : decode_bad (rune_error, 1%nat) = true.
Proof. reflexivity. Qed.
Lemma bad_n r n : n <> 1%nat -> decode_bad (r, n) = false.
Proof. intros H. unfold decode_bad. cbn [fst snd]. destruct (Nat.eqb_spec n 1); [tauto|apply andb_false_r]. Qed.

(* The first table: what it says about a legal leading byte, in the terms
   of DecodeRune (size by range, bounds on the second byte) *)
(* [decide_tests x] replaces every test [x <? k] or [x =? k] in the goal by the truth
   value that [lia] can establish from the context; tests it cannot decide stay *)
Ltac decide_tests x :=
  repeat match goal with
  | |- context [x <? ?k] =>
      first [replace (x <? k) with true by lia | replace (x <? k) with false by lia]
  | |- context [x =? ?k] =>
      first [replace (x =? k) with true by lia | replace (x =? k) with false by lia]
  end.

Lemma first_xx x0 : 0x80 <= x0 -> x0 < 0xC2 \/ 0xF5 <= x0 -> first x0 = t_xx.
Proof. intros H1 H2. unfold first. destruct (x0 <? 0xC2) eqn:E; decide_tests x0; reflexivity. Qed.

Lemma first_spec x0 : 0xC2 <= x0 < 0xF5 ->
  (first x0 =? t_xx) = false /\
  N.land (first x0) 7 = (if x0 <? 0xE0 then 2 else if x0 <? 0xF0 then 3 else 4) /\
  accept_lo (N.shiftr (first x0) 4) = (if x0 =? 0xE0 then 0xA0 else if x0 =? 0xF0 then 0x90 else 0x80) /\
  accept_hi (N.shiftr (first x0) 4) + 1 = (if x0 =? 0xED then 0xA0 else if x0 =? 0xF4 then 0x90 else 0xC0).
Proof.
  intros H. unfold first.
  destruct (x0 <? 0xE0) eqn:E1; [decide_tests x0; repeat split; reflexivity|].
  destruct (x0 =? 0xE0) eqn:E2; [decide_tests x0; repeat split; reflexivity|].
  destruct (x0 <? 0xED) eqn:E3; [decide_tests x0; repeat split; reflexivity|].
  destruct (x0 =? 0xED) eqn:E4; [decide_tests x0; repeat split; reflexivity|].
  destruct (x0 <? 0xF0) eqn:E5; [decide_tests x0; repeat split; reflexivity|].
  destruct (x0 =? 0xF0) eqn:E6; [decide_tests x0; repeat split; reflexivity|].
  destruct (x0 <? 0xF4) eqn:E7; decide_tests x0; repeat split; reflexivity.
Qed.

Lemma out_of_range c lo hi : (c <? lo) || (hi <? c) = negb ((lo <=? c) && (c <? hi + 1)).
Proof. lia. Qed.

(* one iteration of utf8.Valid's main loop = one utf8.DecodeRune *)
Lemma valid_loop_decode b0 rest :
  valid_loop (b0 :: rest) =
  if decode_bad (decode_rune (b0 :: rest)) then false
  else valid_loop (skipn (snd (decode_rune (b0 :: rest))) (b0 :: rest)).
Proof.
  pose proof (b2n_lt b0) as H0. cbn [valid_loop decode_rune].
  destruct (b2n b0 <? 0x80) eqn:E1.
  { unfold decode_bad. cbn [fst snd skipn].
    replace (b2n b0 =? rune_error) with false by (unfold rune_error; lia). reflexivity. }
  destruct (b2n b0 <? 0xC2) eqn:E2; [rewrite first_xx by lia; reflexivity|].
  destruct (b2n b0 <? 0xF5) eqn:E5.
  2:{ rewrite first_xx by lia. replace (b2n b0 <? 0xE0) with false by lia.
      replace (b2n b0 <? 0xF0) with false by lia. reflexivity. }
  destruct (first_spec (b2n b0)) as (Hx & Hs & Hlo & Hhi); [lia|].
  rewrite Hx, !Hs, Hlo. unfold locb, hicb, cont.
  destruct (b2n b0 <? 0xE0) eqn:E3.
  { destruct rest as [|b1 r1]; [reflexivity|].
    replace (N.of_nat (length (b0 :: b1 :: r1)) <? 2) with false by (cbn [length]; lia).
    rewrite !out_of_range, Hhi. decide_tests (b2n b0).
    destruct ((0x80 <=? b2n b1) && (b2n b1 <? 0xC0)); [rewrite bad_n by lia|]; reflexivity. }
  destruct (b2n b0 <? 0xF0) eqn:E4.
  { destruct rest as [|b1 [|b2 r2]]; [reflexivity|reflexivity|].
    replace (N.of_nat (length (b0 :: b1 :: b2 :: r2)) <? 3) with false by (cbn [length]; lia).
    rewrite !out_of_range, Hhi. change (0xBF + 1) with 0xC0.
    replace (b2n b0 =? 0xF0) with false by lia. replace (b2n b0 =? 0xF4) with false by lia.
    destruct (_ && (b2n b1 <? _)); [cbn [andb]|reflexivity].
    destruct ((0x80 <=? b2n b2) && (b2n b2 <? 0xC0)); [rewrite bad_n by lia|]; reflexivity. }
  destruct rest as [|b1 [|b2 [|b3 r3]]]; [reflexivity|reflexivity|reflexivity|].
  replace (N.of_nat (length (b0 :: b1 :: b2 :: b3 :: r3)) <? 4) with false by (cbn [length]; lia).
  rewrite !out_of_range, Hhi. change (0xBF + 1) with 0xC0.
  replace (b2n b0 =? 0xE0) with false by lia. replace (b2n b0 =? 0xED) with false by lia.
  destruct (_ && (b2n b1 <? _)); [cbn [andb]|reflexivity].
  destruct ((0x80 <=? b2n b2) && (b2n b2 <? 0xC0)); [cbn [andb]|reflexivity].
  destruct ((0x80 <=? b2n b3) && (b2n b3 <? 0xC0)); [rewrite bad_n by lia|]; reflexivity.
Qed.

(* DecodeRune against the shortest-form encoding.  A code point is
   assembled from, and split into, base-64 digits: *)
Lemma digits2 r a d : d < 64 -> r = a * 64 + d <-> r / 64 = a /\ r mod 64 = d.
Proof. lia. Qed.
Lemma digits3 r a b d : b < 64 -> d < 64 ->
  r = a * 4096 + b * 64 + d <-> r / 4096 = a /\ (r / 64) mod 64 = b /\ r mod 64 = d.
Proof.
  intros Hb Hd. assert (E : r = a * 4096 + b * 64 + d <-> r = (a * 64 + b) * 64 + d) by lia.
  change 4096 with (64 * 64) at 2. rewrite <- N.div_div by discriminate.
  rewrite E, (digits2 r _ d Hd), (digits2 (r / 64) a b Hb). tauto.
Qed.
Lemma digits4 r a b c d : b < 64 -> c < 64 -> d < 64 ->
  r = a * 262144 + b * 4096 + c * 64 + d <->
  r / 262144 = a /\ (r / 4096) mod 64 = b /\ (r / 64) mod 64 = c /\ r mod 64 = d.
Proof.
  intros Hb Hc Hd.
  assert (E : r = a * 262144 + b * 4096 + c * 64 + d <-> r = (a * 4096 + b * 64 + c) * 64 + d) by lia.
  change 262144 with (64 * 4096) at 2. change 4096 with (64 * 64) at 3. rewrite <- !(N.div_div r 64) by discriminate.
  rewrite E, (digits2 r _ d Hd), (digits3 (r / 64) a b c Hb Hc). tauto.
Qed.

(* the encoding of a code point given by its digits, one lemma per length *)
Lemma encode_rune2 a d : 2 <= a < 32 -> d < 64 ->
  encode_rune (a * 64 + d) = [n2b (192 + a); n2b (128 + d)].
Proof.
  intros Ha Hd. unfold encode_rune. destruct (proj1 (digits2 _ a d Hd) eq_refl) as [-> ->].
  replace (_ <? 128) with false by lia. now replace (_ <? 2048) with true by lia.
Qed.
Lemma encode_rune3 a b d : a < 16 -> b < 64 -> d < 64 -> (a = 0 -> 32 <= b) ->
  encode_rune (a * 4096 + b * 64 + d) = [n2b (224 + a); n2b (128 + b); n2b (128 + d)].
Proof.
  intros Ha Hb Hd H0. unfold encode_rune.
  destruct (proj1 (digits3 _ a b d Hb Hd) eq_refl) as (-> & -> & ->).
  replace (_ <? 128) with false by lia. replace (_ <? 2048) with false by lia.
  now replace (_ <? 65536) with true by lia.
Qed.
Lemma encode_rune4 a b c d : b < 64 -> c < 64 -> d < 64 -> (a = 0 -> 16 <= b) ->
  encode_rune (a * 262144 + b * 4096 + c * 64 + d) =
  [n2b (240 + a); n2b (128 + b); n2b (128 + c); n2b (128 + d)].
Proof.
  intros Hb Hc Hd H0. unfold encode_rune.
  destruct (proj1 (digits4 _ a b c d Hb Hc Hd) eq_refl) as (-> & -> & -> & ->).
  replace (_ <? 128) with false by lia. replace (_ <? 2048) with false by lia.
  now replace (_ <? 65536) with false by lia.
Qed.

(* DecodeRune's test of the second byte: a continuation byte, with a tighter bound
   [m] below after the lead byte [k1] and above after the lead byte [k2] *)
Lemma second_byte x0 x1 k1 k2 m : 128 <= m <= 192 ->
  ((if x0 =? k1 then m else 128) <=? x1) && (x1 <? (if x0 =? k2 then m else 192)) = true <->
  128 <= x1 < 192 /\ (x0 = k1 -> m <= x1) /\ (x0 = k2 -> x1 < m).
Proof. intros Hm. destruct (N.eqb_spec x0 k1); destruct (N.eqb_spec x0 k2); lia. Qed.

Lemma cont_offset d : d < 64 -> cont (128 + d) = true.
Proof. unfold cont. lia. Qed.

(* a byte as its offset from the base of its class *)
Lemma n2b_offset k b : k <= b2n b -> n2b (k + (b2n b - k)) = b.
Proof. intros H. apply n2b_inj_b2n. lia. Qed.

(* a successful DecodeRune step consumed the shortest-form encoding of a scalar value *)
Lemma decode_rune_sound bs r n :
  decode_rune bs = (r, n) -> decode_bad (r, n) = false -> bs <> [] ->
  scalar r /\ encode_rune r = firstn n bs /\ (1 <= n <= length bs)%nat.
Proof.
  unfold decode_rune. destruct bs as [|b0 rest]; [congruence|]. intros D B _. revert D.
  assert (BE : forall (P : Prop), (rune_error, 1%nat) = (r, n) -> P).
  { intros P [= <- <-]. rewrite bad_err in B. discriminate. }
  pose proof (b2n_lt b0) as H0. clear B.
  destruct (b2n b0 <? 128) eqn:E1.
  { intros [= <- <-]. unfold scalar, encode_rune. rewrite E1.
    cbn [firstn length]. rewrite n2b_b2n. repeat split; lia. }
  destruct (b2n b0 <? 194) eqn:E2; [exact (BE _)|].
  destruct (b2n b0 <? 224) eqn:E3.
  { destruct rest as [|b1 rest]; [exact (BE _)|]. unfold cont.
    destruct ((128 <=? b2n b1) && (b2n b1 <? 192)) eqn:C1; [|exact (BE _)].
    intros [= <- <-]. clear BE. cbn [firstn length].
    rewrite encode_rune2, !n2b_offset by lia.
    split; [unfold scalar; lia|]. split; [reflexivity|lia]. }
  destruct (b2n b0 <? 240) eqn:E4.
  { destruct rest as [|b1 [|b2 rest]]; try (exact (BE _)). unfold cont.
    match goal with |- context [if ?c then _ else _] => destruct c eqn:C end; [|exact (BE _)].
    intros [= <- <-]. clear BE.
    apply andb_prop in C. destruct C as [C1 C2]. apply second_byte in C1; [|lia]. cbn [firstn length].
    rewrite encode_rune3, !n2b_offset by lia.
    split; [unfold scalar; lia|]. split; [reflexivity|lia]. }
  destruct (b2n b0 <? 245) eqn:E5; [|exact (BE _)].
  destruct rest as [|b1 [|b2 [|b3 rest]]]; try (exact (BE _)). unfold cont.
  match goal with |- context [if ?c then _ else _] => destruct c eqn:C end; [|exact (BE _)].
  intros [= <- <-]. clear BE.
  apply andb_prop in C. destruct C as [C C3]. apply andb_prop in C. destruct C as [C1 C2].
  apply second_byte in C1; [|lia]. cbn [firstn length].
  rewrite encode_rune4, !n2b_offset by lia.
  split; [unfold scalar; lia|]. split; [reflexivity|lia].
Qed.

Lemma encode_rune_length r : (1 <= length (encode_rune r) <= 4)%nat.
Proof. unfold encode_rune. repeat match goal with |- context [if ?c then _ else _] => destruct c end; cbn [length]; lia. Qed.

(* DecodeRune on such an encoding, one lemma per length *)
Lemma decode_rune2 a d rest : 2 <= a < 32 -> d < 64 ->
  decode_rune (n2b (192 + a) :: n2b (128 + d) :: rest) = (a * 64 + d, 2%nat).
Proof.
  intros Ha Hd. cbn [decode_rune]. rewrite !b2n_n2b by lia.
  decide_tests (192 + a). rewrite cont_offset by assumption. f_equal. lia.
Qed.
Lemma decode_rune3 a b d rest : a < 16 -> b < 64 -> d < 64 -> (a = 0 -> 32 <= b) -> (a = 13 -> b < 32) ->
  decode_rune (n2b (224 + a) :: n2b (128 + b) :: n2b (128 + d) :: rest) = (a * 4096 + b * 64 + d, 3%nat).
Proof.
  intros Ha Hb Hd H0 H13. cbn [decode_rune]. rewrite !b2n_n2b by lia. decide_tests (224 + a).
  rewrite (proj2 (second_byte _ _ 224 237 160 ltac:(lia))) by lia. rewrite cont_offset by assumption.
  cbn [andb]. f_equal. lia.
Qed.
Lemma decode_rune4 a b c d rest :
  a < 5 -> b < 64 -> c < 64 -> d < 64 -> (a = 0 -> 16 <= b) -> (a = 4 -> b < 16) ->
  decode_rune (n2b (240 + a) :: n2b (128 + b) :: n2b (128 + c) :: n2b (128 + d) :: rest) =
  (a * 262144 + b * 4096 + c * 64 + d, 4%nat).
Proof.
  intros Ha Hb Hc Hd H0 H4. cbn [decode_rune]. rewrite !b2n_n2b by lia. decide_tests (240 + a).
  rewrite (proj2 (second_byte _ _ 240 244 144 ltac:(lia))) by lia. rewrite !cont_offset by assumption.
  cbn [andb]. f_equal. lia.
Qed.

(* DecodeRune on the encoding of a scalar value returns that value and its length *)
Lemma decode_encode_rune r rest : scalar r ->
  decode_rune (encode_rune r ++ rest) = (r, length (encode_rune r)).
Proof.
  unfold scalar, encode_rune. intros S.
  destruct (r <? 128) eqn:E1.
  { cbn [app length decode_rune]. rewrite b2n_n2b by lia. now rewrite E1. }
  destruct (r <? 2048) eqn:E2.
  { cbn [app length]. rewrite decode_rune2 by lia. f_equal. lia. }
  destruct (r <? 65536) eqn:E3.
  { cbn [app length]. rewrite decode_rune3 by lia. f_equal. lia. }
  cbn [app length]. rewrite decode_rune4 by lia. f_equal. lia.
Qed.

(* only ASCII is encoded in one byte, and every longer encoding starts at 0xC2 or above *)
Lemma encode_rune_ascii r : length (encode_rune r) = 1%nat <-> r < 128.
Proof.
  unfold encode_rune. destruct (r <? 128) eqn:E; [cbn [length]; lia|].
  destruct (r <? 0x800); [|destruct (r <? 0x10000)]; cbn [length]; lia.
Qed.

Lemma encode_rune_head r : r <= 0x10FFFF ->
  (r < 128 -> r = b2n (hd x00 (encode_rune r))) /\ (128 <= r -> 0xC2 <= b2n (hd x00 (encode_rune r))).
Proof.
  unfold encode_rune. intros Hr.
  destruct (r <? 128) eqn:E1; [|destruct (r <? 0x800) eqn:E2; [|destruct (r <? 0x10000) eqn:E3]];
    cbn [hd]; rewrite b2n_n2b by lia; lia.
Qed.

Lemma decode_encode_not_bad r : decode_bad (r, length (encode_rune r)) = false \/ length (encode_rune r) = 1%nat /\ r < 128.
Proof.
  destruct (r <? 128) eqn:E; [right; split; [apply encode_rune_ascii|]; lia|].
  left. apply bad_n. rewrite encode_rune_ascii. lia.
Qed.

Lemma valid_loop_encode r rest : scalar r -> valid_loop (encode_rune r ++ rest) = valid_loop rest.
Proof.
  intros S. pose proof (encode_rune_length r) as L.
  destruct (encode_rune r ++ rest) as [|b0 t] eqn:E.
  { destruct (encode_rune r); cbn in *; [lia|discriminate]. }
  rewrite valid_loop_decode. rewrite <- E. rewrite decode_encode_rune by assumption.
  cbn [snd]. rewrite skipn_app_len.
  destruct (decode_encode_not_bad r) as [->|[L1 R1]]; [reflexivity|].
  unfold decode_bad. cbn [fst snd]. replace (r =? rune_error) with false by (unfold rune_error; lia). reflexivity.
Qed.

Lemma valid_loop_sound : forall n p, (length p <= n)%nat -> valid_loop p = true -> is_utf8 p.
Proof.
  induction n; intros p L V.
  - destruct p; [constructor|cbn in L; lia].
  - destruct p as [|b0 rest]; [constructor|].
    rewrite valid_loop_decode in V.
    destruct (decode_rune (b0 :: rest)) as [r k] eqn:D.
    destruct (decode_bad (r, k)) eqn:B; [discriminate|].
    destruct (decode_rune_sound _ _ _ D B ltac:(discriminate)) as (S & En & K).
    cbn [snd] in V.
    rewrite <- (firstn_skipn k (b0 :: rest)). rewrite <- En.
    constructor; [assumption|]. apply IHn; [|assumption].
    rewrite skipn_length. cbn [length] in *. lia.
Qed.

Theorem valid_loop_spec p : valid_loop p = true <-> is_utf8 p.
Proof.
  split.
  - apply (valid_loop_sound (length p)). lia.
  - induction 1; [reflexivity|]. now rewrite valid_loop_encode.
Qed.

Lemma valid_loop_ascii b r : ascii b = true -> valid_loop (b :: r) = valid_loop r.
Proof. unfold ascii. intros H. cbn [valid_loop]. now rewrite H. Qed.

(* the word test of the fast path: some byte of the eight has its high bit set *)
Lemma high_bit_0 b : (N.land (b2n b) 0x80808080 =? 0) = ascii b.
Proof. destruct b; reflexivity. Qed.
Lemma high_bit_8 b : (N.land (N.shiftl (b2n b) 8) 0x80808080 =? 0) = ascii b.
Proof. destruct b; reflexivity. Qed.
Lemma high_bit_16 b : (N.land (N.shiftl (b2n b) 16) 0x80808080 =? 0) = ascii b.
Proof. destruct b; reflexivity. Qed.
Lemma high_bit_24 b : (N.land (N.shiftl (b2n b) 24) 0x80808080 =? 0) = ascii b.
Proof. destruct b; reflexivity. Qed.

Lemma lor_eqb_0 a b : (N.lor a b =? 0) = (a =? 0) && (b =? 0).
Proof.
  destruct (N.eqb_spec (N.lor a b) 0) as [E|E].
  - apply N.lor_eq_0_iff in E. destruct E as [-> ->]. reflexivity.
  - destruct (N.eqb_spec a 0) as [->|]; [|reflexivity]. destruct (N.eqb_spec b 0) as [->|]; [|reflexivity].
    exfalso. apply E. reflexivity.
Qed.

Lemma le32_high b0 b1 b2 b3 :
  (N.land (le32 b0 b1 b2 b3) 0x80808080 =? 0) = ascii b0 && ascii b1 && ascii b2 && ascii b3.
Proof.
  unfold le32. rewrite !N.land_lor_distr_l, !lor_eqb_0.
  now rewrite high_bit_0, high_bit_8, high_bit_16, high_bit_24.
Qed.

Lemma has_high8_spec b0 b1 b2 b3 b4 b5 b6 b7 :
  has_high8 b0 b1 b2 b3 b4 b5 b6 b7 =
  negb (ascii b0 && ascii b1 && ascii b2 && ascii b3 && ascii b4 && ascii b5 && ascii b6 && ascii b7).
Proof.
  unfold has_high8. rewrite N.land_lor_distr_l, lor_eqb_0, !le32_high. f_equal.
  now rewrite !andb_assoc.
Qed.

Lemma skip_ascii8_valid : forall n p, (length p <= n)%nat -> valid_loop (skip_ascii8 p) = valid_loop p.
Proof.
  induction n; intros p L.
  - destruct p; [reflexivity|cbn in L; lia].
  - destruct p as [|b0 [|b1 [|b2 [|b3 [|b4 [|b5 [|b6 [|b7 r]]]]]]]]; [reflexivity..|].
    assert (Lr : (length r <= n)%nat) by (cbn [length] in L; lia).
    cbn [skip_ascii8]. rewrite has_high8_spec.
    destruct (ascii b0) eqn:A0; [|reflexivity]. destruct (ascii b1) eqn:A1; [|reflexivity].
    destruct (ascii b2) eqn:A2; [|reflexivity]. destruct (ascii b3) eqn:A3; [|reflexivity].
    destruct (ascii b4) eqn:A4; [|reflexivity]. destruct (ascii b5) eqn:A5; [|reflexivity].
    destruct (ascii b6) eqn:A6; [|reflexivity]. destruct (ascii b7) eqn:A7; [|reflexivity].
    cbn [andb negb]. rewrite (IHn r Lr).
    now rewrite !valid_loop_ascii.
Qed.

(* Go's utf8.Valid accepts exactly the well-formed UTF-8 byte strings *)
Theorem utf8_valid_spec bs : utf8_valid bs = true <-> is_utf8 bs.
Proof. unfold utf8_valid. rewrite (skip_ascii8_valid (length bs)) by lia. apply valid_loop_spec. Qed.

(* the validity test of the text and JSON codecs (iterate DecodeRune, fail on (RuneError,1)) is the same predicate *)
Lemma valid_by_decode_eq : forall n p, (length p <= n)%nat -> valid_by_decode n p = valid_loop p.
Proof.
  induction n; intros p L.
  - destruct p; [reflexivity|cbn in L; lia].
  - destruct p as [|b0 rest]; [reflexivity|].
    rewrite valid_loop_decode. cbn [valid_by_decode].
    destruct (decode_rune (b0 :: rest)) as [r k] eqn:D.
    destruct (decode_bad (r, k)) eqn:B; [reflexivity|].
    destruct (decode_rune_sound _ _ _ D B ltac:(discriminate)) as (S & En & K).
    cbn [snd]. apply IHn. rewrite skipn_length. cbn [length] in *. lia.
Qed.

Theorem utf8_valid_dec_eq p : utf8_valid_dec p = utf8_valid p.
Proof.
  unfold utf8_valid_dec, utf8_valid. rewrite valid_by_decode_eq by lia.
  now rewrite (skip_ascii8_valid (length p)) by lia.
Qed.
