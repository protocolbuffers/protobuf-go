(* Proofs about Base/Utf8Model.v: what a valid DecodeRune result looks like,
   canonical re-encoding, independence of the bytes after the sequence. *)
From Coq Require Import List Arith NArith ZArith Lia Bool.
From Coq Require Import ZifyBool ZifyNat ZifyN.
From PB Require Import Base.PBytes Base.Utf8Model.
From PB Require Base.Utf8Valid Base.Utf8ValidP.
Import ListNotations.
Open Scope N_scope.

(* everything the string codec needs to know about one decoded rune *)
Record rune_ok (bs : list byte) (r : N) (n : nat) : Prop := {
  ro_len : (1 <= n <= 4)%nat;
  ro_avail : (n <= length bs)%nat;
  ro_max : r <= max_rune;
  ro_nosurr : is_surrogate r = false;
  ro_enc : encode_rune_raw r = firstn n bs;
  ro_ascii : (n = 1%nat <-> r < 128);
  ro_head : forall b0 t, bs = b0 :: t -> (r < 128 -> r = b2n b0) /\ (128 <= r -> 194 <= b2n b0);
  ro_prefix : forall t, decode_rune (firstn n bs ++ t) = (r, n)
}.

(* DecodeRune, the (RuneError, 1) test and the raw encoder of Base/Utf8Model.v are
   those of Base/Utf8Valid.v, definition for definition *)
Lemma decode_rune_eq bs : decode_rune bs = Utf8Valid.decode_rune bs.
Proof. reflexivity. Qed.
Lemma rune_invalid_eq d : rune_invalid d = Utf8Valid.decode_bad d.
Proof. reflexivity. Qed.
Lemma encode_rune_raw_eq r : encode_rune_raw r = Utf8Valid.encode_rune r.
Proof. reflexivity. Qed.

(* so every field is read off the two theorems proved there: a good decode
   consumed the encoding of a scalar value, and decoding an encoding gives the
   value back *)
Theorem decode_rune_ok bs r n :
  bs <> [] -> decode_rune bs = (r, n) -> rune_invalid (r, n) = false -> rune_ok bs r n.
Proof.
  intros Hne Hd Hi. rewrite decode_rune_eq in Hd. rewrite rune_invalid_eq in Hi.
  destruct (Utf8ValidP.decode_rune_sound bs r n Hd Hi Hne) as (S & En & Hn).
  pose proof (Utf8ValidP.encode_rune_length r) as L.
  pose proof (Utf8ValidP.encode_rune_ascii r) as A.
  assert (Ln : length (Utf8Valid.encode_rune r) = n) by (rewrite En; apply firstn_length_le; lia).
  assert (Hmax : r <= max_rune) by (unfold Utf8Valid.scalar in S; unfold max_rune; lia).
  rewrite Ln in L, A. constructor.
  - exact L.
  - apply Hn.
  - exact Hmax.
  - unfold is_surrogate. unfold Utf8Valid.scalar in S. lia.
  - rewrite encode_rune_raw_eq. exact En.
  - exact A.
  - intros b0 t ->. destruct n; [lia|]. pose proof (Utf8ValidP.encode_rune_head r Hmax) as Hh.
    rewrite En in Hh. exact Hh.
  - intros t. rewrite decode_rune_eq, <- En, <- Ln. exact (Utf8ValidP.decode_encode_rune r t S).
Qed.

(* an invalid first byte is >= 0x80 and exactly one byte is consumed *)
Lemma decode_rune_invalid b0 t r n :
  decode_rune (b0 :: t) = (r, n) -> rune_invalid (r, n) = true -> n = 1%nat /\ 128 <= b2n b0.
Proof.
  unfold rune_invalid. cbn [fst snd]. intros Hd Hi.
  assert (n = 1%nat) by (destruct (Nat.eqb n 1) eqn:E; [now apply Nat.eqb_eq|rewrite andb_false_r in Hi; discriminate]).
  split; [assumption|].
  unfold decode_rune in Hd. destruct (b2n b0 <? 128) eqn:E1; [|lia].
  inversion Hd; subst. unfold rune_error in Hi. pose proof (b2n_lt b0). lia.
Qed.

Lemma decode_rune_nonempty_pos b0 t : (1 <= snd (decode_rune (b0 :: t)))%nat.
Proof.
  destruct (decode_rune (b0 :: t)) as [r n] eqn:E. cbn [snd].
  destruct (rune_invalid (r, n)) eqn:I.
  - destruct (decode_rune_invalid _ _ _ _ E I). lia.
  - destruct (decode_rune_ok (b0 :: t) r n); [discriminate|assumption|assumption|lia].
Qed.

Lemma decode_rune_le_length bs : (snd (decode_rune bs) <= length bs)%nat.
Proof.
  destruct bs as [|b0 t]; [cbn; lia|].
  destruct (decode_rune (b0 :: t)) as [r n] eqn:E. cbn [snd].
  destruct (rune_invalid (r, n)) eqn:I.
  - destruct (decode_rune_invalid _ _ _ _ E I). cbn [length]. lia.
  - destruct (decode_rune_ok (b0 :: t) r n); [discriminate|assumption|assumption|lia].
Qed.

(* a valid decode: encode_rune (with Go's replacement of invalid runes) gives
   back the consumed bytes *)
Lemma encode_decode_rune bs r n :
  bs <> [] -> decode_rune bs = (r, n) -> rune_invalid (r, n) = false -> encode_rune r = firstn n bs.
Proof.
  intros Hne Hd Hi. destruct (decode_rune_ok bs r n Hne Hd Hi).
  unfold encode_rune. rewrite ro_nosurr0. replace (max_rune <? r) with false by lia. assumption.
Qed.

Lemma decode_rune_ascii b t : b2n b < 128 -> decode_rune (b :: t) = (b2n b, 1%nat).
Proof. intros H. unfold decode_rune. replace (b2n b <? 128) with true by lia. reflexivity. Qed.
