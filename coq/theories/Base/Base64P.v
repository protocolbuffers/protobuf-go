(* What the base64 models share: induction over a byte string three bytes at a time, and the
   arithmetic of the 24-bit group n = a*2^16 + b*2^8 + c read as four sextets. *)
From Coq Require Import List NArith ZArith Lia ZifyN.
Import ListNotations.
Open Scope N_scope.

Lemma list3_ind {A} (P : list A -> Prop) :
  P [] -> (forall a, P [a]) -> (forall a b, P [a; b]) -> (forall a b c r, P r -> P (a :: b :: c :: r)) ->
  forall s, P s.
Proof.
  intros H0 H1 H2 H3. assert (H : forall n s, (length s <= n)%nat -> P s).
  { induction n as [|n IH]; intros [|a [|b [|c r]]] Hl; cbn [length] in Hl; try lia; auto. apply H3, IH. lia. }
  intros s. apply (H (length s)). lia.
Qed.

Lemma mod4_add x : ((4 + x) mod 4 = x mod 4)%nat.
Proof. replace (4 + x)%nat with (x + 1 * 4)%nat by lia. apply Nat.mod_add. lia. Qed.

(* div and mod by constants are handed to lia as their Euclidean equations, in goals that contain
   nothing else *)
Lemma sextets_lt n : n < 16777216 ->
  n / 262144 < 64 /\ (n / 4096) mod 64 < 64 /\ (n / 64) mod 64 < 64 /\ n mod 64 < 64.
Proof. intros H. repeat split; zify; Z.div_mod_to_equations; lia. Qed.

Lemma sextets_sum n : n / 262144 * 262144 + (n / 4096) mod 64 * 4096 + (n / 64) mod 64 * 64 + n mod 64 = n.
Proof. zify; Z.div_mod_to_equations; lia. Qed.

Lemma octets a b c n : a < 256 -> b < 256 -> c < 256 -> n = a * 65536 + b * 256 + c ->
  n < 16777216 /\ n / 65536 = a /\ (n / 256) mod 256 = b /\ n mod 256 = c.
Proof. intros Ha Hb Hc ->. repeat split; zify; Z.div_mod_to_equations; lia. Qed.

(* the sextets that a group of two bytes, or of one, leaves zero *)
Lemma sextets_low a b c n : n = a * 65536 + b * 256 + c ->
  (c = 0 -> n mod 64 = 0) /\ (b = 0 -> c = 0 -> (n / 64) mod 64 = 0).
Proof. intros ->. split; intros; subst; zify; Z.div_mod_to_equations; lia. Qed.
