(* C18 — proofs about the lazy-publication protocol model (LazyCasModel.v).
   One inductive invariant, preserved by every step of every thread; the
   property theorems are its consequences for every reachable state, i.e. for
   every trace and any number of threads. *)
From Coq Require Import List Arith NArith Bool Lia.
From PB Require Import Conc.LazyCasModel.
Import ListNotations.

Lemma upd_same {A} (f : nat -> A) k v : upd f k v k = v.
Proof. unfold upd. now rewrite Nat.eqb_refl. Qed.
Lemma upd_other {A} (f : nat -> A) k v x : x <> k -> upd f k v x = f x.
Proof. unfold upd. intros H. apply Nat.eqb_neq in H. now rewrite H. Qed.

Definition uses_idx (p : pc) : bool :=
  match p with PIdxStore | PDecode => true | _ => false end.

Section Inv.
  Variable c : config.

  Definition rets_sound (s : state) (l : local) : Prop :=
    forall f r, In (f, r) (rets l) -> if present c f then r = fld s f /\ r <> None else r = None.

  (* what the local state l of a thread requires of the shared state *)
  Record local_ok (s : state) (l : local) : Prop := {
    K_idx  : uses_idx (at_pc l) = true -> idx l = build_index c (msg_of c (cur l));
    K_priv : at_pc l = PDecode ->
               priv l < next s /\ heap s (priv l) ++ todo l = seq_result c (cur l) /\
               forall f, fld s f <> Some (priv l);
    K_load : at_pc l = PLoad -> fld s (cur l) <> None;
    K_pres : at_pc l <> Idle -> present c (cur l) = true;
    K_rets : rets_sound s l
  }.

  Record Inv (s : state) : Prop := {
    I_index : forall m io, index s m = Some io -> ival io = build_index c m;
    I_pub   : forall f p, fld s f = Some p -> p < next s /\ heap s p = seq_result c f;
    I_wins  : forall f, wins s f = match fld s f with Some _ => 1 | None => 0 end;
    I_own   : forall t u, t <> u -> at_pc (thr s t) = PDecode -> at_pc (thr s u) = PDecode ->
                priv (thr s t) <> priv (thr s u);
    I_local : forall t, local_ok s (thr s t)
  }.

  Lemma I_rets s : Inv s -> forall t, rets_sound s (thr s t).
  Proof. intros I t. apply (K_rets s _ (I_local s I t)). Qed.

  Lemma I_priv s : Inv s -> forall t, at_pc (thr s t) = PDecode ->
    priv (thr s t) < next s /\
    heap s (priv (thr s t)) ++ todo (thr s t) = seq_result c (cur (thr s t)) /\
    (forall f, fld s f <> Some (priv (thr s t))) /\
    (forall u, u <> t -> at_pc (thr s u) = PDecode -> priv (thr s u) <> priv (thr s t)).
  Proof.
    intros I t H. destruct (K_priv s _ (I_local s I t) H) as (A & B & C). repeat split; auto.
    intros u Hu P. now apply (I_own s I).
  Qed.

  Lemma inv_init : Inv (init c).
  Proof.
    constructor; cbn.
    - intros m io H. destruct (preindexed c m); [injection H as <-; reflexivity | discriminate].
    - discriminate.
    - reflexivity.
    - discriminate.
    - (* every thread is idle and has returned nothing *)
      intros t. constructor; cbn; try discriminate; [contradiction | intros f r []].
  Qed.

  (* the pointer fields only ever go from nil to a pointer *)
  Lemma rets_sound_grow s s' l :
    (forall f, fld s' f = fld s f \/ fld s f = None) -> rets_sound s l -> rets_sound s' l.
  Proof.
    intros F E f r Hin. specialize (E f r Hin). destruct (present c f); [|exact E].
    destruct (F f) as [->|N]; [exact E|]. destruct E as [-> E]. contradiction.
  Qed.

  (* Under a thread the shared state may change by allocation, by writes to objects other
     than its private one, and by publication of pointers other than its private one. *)
  Lemma local_ok_frame s s' l :
    local_ok s l -> next s <= next s' ->
    (at_pc l = PDecode -> heap s' (priv l) = heap s (priv l)) ->
    (forall f, fld s' f = fld s f \/
               fld s f = None /\ (at_pc l = PDecode -> fld s' f <> Some (priv l))) ->
    local_ok s' l.
  Proof.
    intros [A B C D E] N H F. constructor; auto.
    - intros P. destruct (B P) as (B1 & B2 & B3). split; [lia|]. split; [now rewrite (H P)|].
      intros f. destruct (F f) as [->|[_ Q]]; [apply B3 | now apply Q].
    - intros P. destruct (F (cur l)) as [->|[N0 _]]; [now apply C | elim (C P N0)].
    - apply rets_sound_grow with s; [|exact E]. intros f. destruct (F f) as [->|[N0 _]]; auto.
  Qed.

  Lemma frame_locals s s' t l :
    Inv s -> (forall u, thr s' u = upd (thr s) t l u) -> next s <= next s' ->
    (forall u, u <> t -> at_pc (thr s u) = PDecode ->
       heap s' (priv (thr s u)) = heap s (priv (thr s u))) ->
    (forall u f, u <> t -> fld s' f = fld s f \/
       fld s f = None /\ (at_pc (thr s u) = PDecode -> fld s' f <> Some (priv (thr s u)))) ->
    local_ok s' l -> forall u, local_ok s' (thr s' u).
  Proof.
    intros I E N H F L u. rewrite E.
    destruct (Nat.eq_dec u t) as [->|Hu]; [now rewrite upd_same | rewrite upd_other by exact Hu].
    apply local_ok_frame with s; [apply (I_local s I) | exact N | exact (H u Hu) | intros f; exact (F u f Hu)].
  Qed.

  Lemma own_upd s s' t l :
    Inv s -> (forall u, thr s' u = upd (thr s) t l u) ->
    (at_pc l = PDecode -> forall u, u <> t -> at_pc (thr s u) = PDecode -> priv l <> priv (thr s u)) ->
    forall u v, u <> v -> at_pc (thr s' u) = PDecode -> at_pc (thr s' v) = PDecode ->
      priv (thr s' u) <> priv (thr s' v).
  Proof.
    intros I E H u v Huv. rewrite !E.
    destruct (Nat.eq_dec u t) as [->|Hu], (Nat.eq_dec v t) as [->|Hv];
      rewrite ?upd_same, ?upd_other by assumption.
    - contradiction.
    - intros P Q. now apply H.
    - intros P Q X. symmetry in X. revert X. now apply H.
    - now apply (I_own s I).
  Qed.

  Lemma inv_set_thr s t l : Inv s -> at_pc l <> PDecode -> local_ok s l -> Inv (set_thr s t l).
  Proof.
    intros I N L. constructor; cbn [set_thr fld heap next index wins]; try apply I.
    - apply own_upd with s t l; [exact I | reflexivity | contradiction].
    - apply frame_locals with s t l; auto.
      apply local_ok_frame with s; auto.
  Qed.

  (* thread t moves on within its call, to a pc that carries no obligation about idx or priv *)
  Lemma inv_with_pc s t p :
    Inv s -> at_pc (thr s t) <> Idle -> uses_idx p = false ->
    (p = PLoad -> fld s (cur (thr s t)) <> None) ->
    Inv (set_thr s t (with_pc (thr s t) p)).
  Proof.
    intros I Hpc H1 Hl. destruct (I_local s I t) as [A B C D E].
    apply inv_set_thr; [exact I | cbn; intros ->; discriminate |].
    constructor; cbn; auto.
    - rewrite H1. discriminate.
    - intros ->. discriminate.
  Qed.

  (* publishing the index value that buildIndex computes *)
  Lemma inv_set_index s m io :
    Inv s -> ival io = build_index c m ->
    Inv {| fld := fld s; heap := heap s; next := next s; index := upd (index s) m (Some io);
           wins := wins s; thr := thr s |}.
  Proof.
    intros I H. constructor; cbn [fld heap next index wins thr]; try apply I.
    - intros m' io' E. destruct (Nat.eq_dec m' m) as [->|N].
      + rewrite upd_same in E. injection E as <-. exact H.
      + rewrite upd_other in E by exact N. now apply (I_index s I).
    - intros t. apply local_ok_frame with s; auto. apply (I_local s I).
  Qed.

  (* allocation of a fresh private object by thread t (entering PDecode) *)
  Lemma inv_start_decode s t l iv :
    Inv s -> iv = build_index c (msg_of c (cur l)) -> present c (cur l) = true -> rets_sound s l ->
    Inv (start_decode c s t l iv).
  Proof.
    intros I Hiv Hpres Hrets.
    assert (Old : forall u, at_pc (thr s u) = PDecode -> priv (thr s u) < next s).
    { intros u P. apply (K_priv s _ (I_local s I u) P). }
    constructor; cbn [start_decode fld heap next index wins].
    - apply (I_index s I).
    - intros f p H. destruct (I_pub s I f p H) as [A B]. split; [lia|].
      rewrite upd_other by lia. exact B.
    - apply (I_wins s I).
    - eapply own_upd with (s := s) (t := t); [exact I | reflexivity |].
      cbn. intros _ u _ P. apply Old in P. lia.
    - eapply frame_locals with (s := s) (t := t); [exact I | reflexivity | cbn; lia | | auto |].
      + intros u _ P. cbn. apply upd_other. apply Old in P. lia.
      + constructor; cbn; auto; try discriminate.
        intros _. split; [lia|]. split; [rewrite upd_same; subst iv; reflexivity|].
        intros f E. destruct (I_pub s I f _ E). lia.
  Qed.

  Lemma inv_step s t a s' : Inv s -> step c s t a = Some s' -> Inv s'.
  Proof.
    intros I Hs. unfold step in Hs.
    (* With the clauses of I in the context, those a step leaves alone are closed by
       [assumption], and those about t become facts about its pc once the pc is known. *)
    pose proof I as [SI SP SW SO SL]. destruct (SL t) as [KI KP KL KS KR].
    destruct (at_pc (thr s t)) eqn:Hpc; destruct a; try discriminate.
    - (* Idle, ACall *)
      destruct (present c f) eqn:Hp; injection Hs as <-; (apply inv_set_thr; [exact I | discriminate |]);
        constructor; cbn; auto; try discriminate.
      intros g r [[= <- <-]|H]; [now rewrite Hp | now apply KR].
    - (* PCheck, ACheckNil *)
      destruct (fld s (cur (thr s t))) eqn:Hf; destruct saw_nil; try discriminate;
        injection Hs as <-; (apply inv_with_pc; [exact I | congruence | reflexivity | congruence]).
    - (* PIdxLoad, AIdxLoad *)
      destruct (index s (msg_of c (cur (thr s t)))) eqn:Hi; destruct saw_nil; try discriminate;
        injection Hs as <-.
      + apply inv_start_decode; [exact I | now apply SI | now apply KS | exact KR].
      + apply inv_with_pc; [exact I | congruence | reflexivity | congruence].
    - (* PIdxBuild, AIdxBuild *)
      injection Hs as <-. apply inv_set_thr; [exact I | discriminate |].
      constructor; cbn; auto; try discriminate.
      intros _. now apply KS.
    - (* PIdxStore, AIdxStore *)
      injection Hs as <-. apply inv_start_decode; cbn [thr fld].
      + apply inv_set_index; [exact I | exact (KI eq_refl)].
      + exact (KI eq_refl).
      + now apply KS.
      + exact KR.
    - (* PDecode, ADecode: a write to the private object *)
      destruct (todo (thr s t)) as [|x r] eqn:Ht; [discriminate|]. injection Hs as <-.
      destruct (KP eq_refl) as (A & B & C).
      constructor; cbn [fld heap next index wins]; try assumption.
      + intros f p H. destruct (SP f p H) as [P Q]. split; [exact P|].
        rewrite upd_other; [exact Q|]. intros ->. now apply (C f).
      + eapply own_upd with (s := s) (t := t); [exact I | reflexivity |].
        cbn. intros _ u Hu P. apply SO; auto.
      + eapply frame_locals with (s := s) (t := t); [exact I | reflexivity | auto | | auto |].
        * intros u Hu P. cbn. apply upd_other. apply SO; auto.
        * constructor; cbn; auto; try discriminate.
          intros _. split; [exact A|]. split; [|exact C].
          rewrite upd_same, <- app_assoc. cbn. now rewrite <- B.
    - (* PDecode, ACas *)
      destruct (todo (thr s t)) as [|x r] eqn:Ht; [|discriminate].
      destruct (KP eq_refl) as (A & B & C). rewrite app_nil_r in B.
      destruct (fld s (cur (thr s t))) eqn:Hf; destruct won; try discriminate; injection Hs as <-.
      + (* lost *)
        apply inv_with_pc; [exact I | congruence | reflexivity | congruence].
      + (* won: the complete private object is published *)
        assert (F : forall f, upd (fld s) (cur (thr s t)) (Some (priv (thr s t))) f = fld s f \/ fld s f = None).
        { intros f. destruct (Nat.eq_dec f (cur (thr s t))) as [->|N]; [now right | left; now apply upd_other]. }
        constructor; cbn [fld heap next index wins]; try assumption.
        * intros f p H. destruct (Nat.eq_dec f (cur (thr s t))) as [->|N].
          -- rewrite upd_same in H. injection H as <-. now split.
          -- rewrite upd_other in H by exact N. now apply SP.
        * intros f. destruct (Nat.eq_dec f (cur (thr s t))) as [->|N].
          -- rewrite !upd_same, SW, Hf. reflexivity.
          -- rewrite !upd_other by exact N. apply SW.
        * eapply own_upd with (s := s) (t := t); [exact I | reflexivity | discriminate].
        * eapply frame_locals with (s := s) (t := t); [exact I | reflexivity | auto | auto | |].
          -- intros u f Hu. cbn [fld]. destruct (F f) as [E|E]; [now left|]. right. split; [exact E|].
             intros P. destruct (Nat.eq_dec f (cur (thr s t))) as [->|N].
             ++ rewrite upd_same. intros [= X]. revert X. apply SO; auto.
             ++ rewrite upd_other, E by exact N. discriminate.
          -- constructor; cbn -[rets_sound]; auto; try discriminate.
             ++ intros _. rewrite upd_same. discriminate.
             ++ intros _. now apply KS.
             ++ apply rets_sound_grow with (s := s); [exact F | exact KR].
    - (* PLoad, ALoad *)
      injection Hs as <-. apply inv_set_thr; [exact I | discriminate |].
      constructor; cbn; auto; try discriminate.
      intros g r [[= <- <-]|H]; [|now apply KR].
      rewrite KS; [|discriminate]. split; [reflexivity | now apply KL].
  Qed.

  Lemma inv_run tr : forall s s', Inv s -> run_trace c tr s = Some s' -> Inv s'.
  Proof.
    induction tr as [|e r IH]; cbn; intros s s' I H.
    - now injection H as <-.
    - destruct (step c s (ev_tid e) (ev_act e)) eqn:E; [|discriminate].
      eapply IH; [|exact H]. eapply inv_step; eauto.
  Qed.

  Lemma inv_reachable s : reachable c s -> Inv s.
  Proof. intros [tr H]. eapply inv_run; [apply inv_init | exact H]. Qed.

  Lemma ret_published s t f p : Inv s -> In (f, Some p) (rets (thr s t)) -> fld s f = Some p.
  Proof.
    intros I H. pose proof (I_rets s I t f _ H) as E.
    destruct (present c f); [|discriminate]. now destruct E as [<- _].
  Qed.

  (* All returns for one field, by any threads, are the same pointer, it is the
     pointer published in the message (nil exactly when the presence bit is
     clear), and at most one CAS on the field ever succeeded. *)
  Theorem readers_agree s :
    reachable c s ->
    forall t1 t2 f r1 r2,
      In (f, r1) (rets (thr s t1)) -> In (f, r2) (rets (thr s t2)) ->
      r1 = r2 /\
      r1 = (if present c f then fld s f else None) /\
      (present c f = true -> exists p, r1 = Some p) /\
      wins s f <= 1.
  Proof.
    intros R t1 t2 f r1 r2 H1 H2. pose proof (inv_reachable s R) as I.
    pose proof (I_rets s I t1 f r1 H1) as A. pose proof (I_rets s I t2 f r2 H2) as B.
    pose proof (I_wins s I f) as W.
    destruct (present c f).
    - destruct A as [A1 A2], B as [B1 B2]. repeat split; try congruence.
      + intros _. destruct r1; [eauto | congruence].
      + destruct (fld s f); lia.
    - subst. repeat split; auto; [discriminate | destruct (fld s f); lia].
  Qed.

  (* The object behind every published and every returned pointer is the result
     of the sequential decode of that field. *)
  Theorem readers_equal_sequential s :
    reachable c s ->
    (forall f p, fld s f = Some p -> heap s p = seq_result c f) /\
    (forall t f p, In (f, Some p) (rets (thr s t)) -> heap s p = seq_result c f).
  Proof.
    intros R. pose proof (inv_reachable s R) as I. split.
    - intros f p H. now apply (I_pub s I).
    - intros t f p H. apply (I_pub s I), (ret_published s t f p I H).
  Qed.

  (* Publication comes after the private copy is complete: an object that is
     still being filled (some part not yet written) is not reachable from the
     message nor from any reader's return value, and no other thread writes to
     it (the writer of step ADecode is the owner of its private object). *)
  Theorem no_reader_sees_partial s :
    reachable c s ->
    forall t, at_pc (thr s t) = PDecode ->
      (forall f, fld s f <> Some (priv (thr s t))) /\
      (forall u f, ~ In (f, Some (priv (thr s t))) (rets (thr s u))) /\
      (forall u, u <> t -> at_pc (thr s u) = PDecode -> priv (thr s u) <> priv (thr s t)).
  Proof.
    intros R t H. pose proof (inv_reachable s R) as I.
    destruct (I_priv s I t H) as (A & B & C & D). split; [exact C|]. split; [|exact D].
    intros u f Hin. exact (C f (ret_published s u f _ I Hin)).
  Qed.

  (* No step of any thread changes a published object: allocation is fresh, and the only
     writes, those of ADecode, go to the writer's unpublished private object. *)
  Theorem published_heap_stable s t a s' :
    reachable c s -> step c s t a = Some s' ->
    forall f p, fld s f = Some p -> heap s' p = heap s p.
  Proof.
    intros R Hs f p H. pose proof (inv_reachable s R) as I.
    destruct (I_pub s I f p H) as [Lt _]. unfold step in Hs.
    destruct (at_pc (thr s t)) eqn:Hpc; destruct a; try discriminate.
    - (* ACall *) destruct (present c _); injection Hs as <-; reflexivity.
    - (* ACheckNil *)
      destruct (fld s (cur (thr s t))), saw_nil; try discriminate; injection Hs as <-; reflexivity.
    - (* AIdxLoad: a found index leads to the allocation of next s, and p < next s *)
      destruct (index s (msg_of c (cur (thr s t)))), saw_nil; try discriminate; injection Hs as <-;
        [|reflexivity].
      cbn. apply upd_other. lia.
    - (* AIdxBuild *) injection Hs as <-. reflexivity.
    - (* AIdxStore: allocation again *) injection Hs as <-. cbn. apply upd_other. lia.
    - (* ADecode: the write goes to the private object, which is not published *)
      destruct (todo (thr s t)); [discriminate|]. injection Hs as <-. cbn. apply upd_other.
      intros ->. destruct (I_priv s I t Hpc) as (_ & _ & C & _). now apply (C f).
    - (* ACas *)
      destruct (todo (thr s t)); [|discriminate].
      destruct (fld s (cur (thr s t))), won; try discriminate; injection Hs as <-; reflexivity.
    - (* ALoad *) injection Hs as <-. reflexivity.
  Qed.

  (* in particular a decode step never changes an object that is published or was returned *)
  Theorem published_objects_immutable s t s' :
    reachable c s -> step c s t ADecode = Some s' ->
    (forall f p, fld s f = Some p -> heap s' p = heap s p) /\
    (forall u f p, In (f, Some p) (rets (thr s u)) -> heap s' p = heap s p).
  Proof.
    intros R Hs. split; [exact (published_heap_stable s t _ s' R Hs)|].
    intros u f p Hin. apply (published_heap_stable s t _ s' R Hs f).
    exact (ret_published s u f p (inv_reachable s R) Hin).
  Qed.

  (* The index of a message is only ever published with the value buildIndex
     computes; every thread that uses an index value uses that value; storing it
     again does not change the value a later loader sees. *)
  Theorem index_publication_idempotent s :
    reachable c s ->
    (forall m io, index s m = Some io -> ival io = build_index c m) /\
    (forall t, at_pc (thr s t) = PDecode -> idx (thr s t) = build_index c (msg_of c (cur (thr s t)))) /\
    (forall t s', step c s t AIdxStore = Some s' ->
       forall m io, index s m = Some io -> exists io', index s' m = Some io' /\ ival io' = ival io).
  Proof.
    intros R. pose proof (inv_reachable s R) as I. split; [apply (I_index s I)|]. split.
    - intros t H. apply (K_idx s _ (I_local s I t)). now rewrite H.
    - intros t s' Hs m io Hm.
      unfold step in Hs. destruct (at_pc (thr s t)) eqn:Hpc; try discriminate.
      injection Hs as <-. cbn [start_decode index] in *.
      unfold upd. destruct (Nat.eqb m _) eqn:E.
      + eexists. split; [reflexivity|]. cbn. apply Nat.eqb_eq in E. subst m.
        rewrite (I_index s I _ _ Hm). apply (K_idx s _ (I_local s I t)). now rewrite Hpc.
      + eauto.
  Qed.
End Inv.

Lemma run_trace_app c tr1 : forall tr2 s s1,
  run_trace c tr1 s = Some s1 -> run_trace c (tr1 ++ tr2) s = run_trace c tr2 s1.
Proof.
  induction tr1 as [|e r IH]; cbn; intros tr2 s s1 H.
  - now injection H as <-.
  - destruct (step c s (ev_tid e) (ev_act e)); [|discriminate]. now apply IH.
Qed.

Lemma run_trace_snoc c tr s0 s t a s' :
  run_trace c tr s0 = Some s -> step c s t a = Some s' ->
  run_trace c (tr ++ [{| ev_tid := t; ev_act := a |}]) s0 = Some s'.
Proof. intros H E. rewrite (run_trace_app _ _ _ _ _ H). cbn. now rewrite E. Qed.

Lemma finish_call_trace c fuel : forall s t acc s0 s' tr,
  run_trace c (rev acc) s0 = Some s ->
  finish_call c fuel s t acc = Some (s', tr) ->
  run_trace c tr s0 = Some s'.
Proof.
  induction fuel as [|k IH]; intros s t acc s0 s' tr Hacc H; cbn in H.
  - destruct (at_pc (thr s t)); try discriminate. injection H as <- <-. exact Hacc.
  - destruct (at_pc (thr s t)) eqn:Hpc;
      try (injection H as <- <-; exact Hacc);
      (destruct (step c s t (next_action c s t 0)) eqn:E; [|discriminate];
       eapply IH; [|exact H]; cbn [rev]; eapply run_trace_snoc; eauto).
Qed.

Lemma call_solo_trace c s t f s' tr :
  call_solo c s t f = Some (s', tr) -> run_trace c tr s = Some s'.
Proof.
  unfold call_solo. destruct (at_pc (thr s t)); try discriminate.
  destruct (step c s t (ACall f)) eqn:E; [|discriminate].
  intros H. eapply finish_call_trace; [|exact H]. cbn. now rewrite E.
Qed.

Lemma rets_upd_mono s t l u x :
  (In x (rets (thr s t)) -> In x (rets l)) ->
  In x (rets (thr s u)) -> In x (rets (upd (thr s) t l u)).
Proof.
  intros H. destruct (Nat.eq_dec u t) as [->|N]; [now rewrite upd_same | now rewrite upd_other].
Qed.

(* every step leaves the returns of t alone or adds one (ACall on an absent field, ALoad) *)
Lemma step_rets_mono c s t a s' u x :
  step c s t a = Some s' -> In x (rets (thr s u)) -> In x (rets (thr s' u)).
Proof.
  intros E. unfold step in E.
  destruct (at_pc (thr s t)) eqn:Hpc; destruct a; try discriminate.
  - (* ACall *) destruct (present c f); injection E as <-; apply rets_upd_mono; cbn; auto.
  - (* ACheckNil *)
    destruct (fld s (cur (thr s t))), saw_nil; try discriminate; injection E as <-; now apply rets_upd_mono.
  - (* AIdxLoad *)
    destruct (index s (msg_of c (cur (thr s t)))), saw_nil; try discriminate; injection E as <-;
      now apply rets_upd_mono.
  - (* AIdxBuild *) injection E as <-. now apply rets_upd_mono.
  - (* AIdxStore *) injection E as <-. cbn [start_decode thr]. now apply rets_upd_mono.
  - (* ADecode *) destruct (todo (thr s t)); [discriminate|]. injection E as <-. now apply rets_upd_mono.
  - (* ACas *)
    destruct (todo (thr s t)); [|discriminate].
    destruct (fld s (cur (thr s t))), won; try discriminate; injection E as <-; now apply rets_upd_mono.
  - (* ALoad *) injection E as <-. apply rets_upd_mono. cbn. auto.
Qed.

Lemma run_rets_mono c u x tr : forall s s',
  run_trace c tr s = Some s' -> In x (rets (thr s u)) -> In x (rets (thr s' u)).
Proof.
  induction tr as [|e r IH]; cbn; intros s s' H Hin.
  - now injection H as <-.
  - destruct (step c s (ev_tid e) (ev_act e)) as [s1|] eqn:E; [|discriminate].
    apply (IH s1 s' H). eapply step_rets_mono; eauto.
Qed.

Lemma optnat_eqb_eq a b : optnat_eqb a b = true <-> a = b.
Proof.
  destruct a, b; cbn; try (split; congruence).
  rewrite Nat.eqb_eq. split; congruence.
Qed.

Lemma listN_eqb_eq a : forall b, listN_eqb a b = true <-> a = b.
Proof.
  induction a as [|x a IH]; destruct b as [|y b]; cbn; try (split; congruence).
  rewrite andb_true_iff, N.eqb_eq, IH. split; [intros [-> ->]; reflexivity | intros [= -> ->]; auto].
Qed.

Lemma reachable_run c s tr s' : reachable c s -> run_trace c tr s = Some s' -> reachable c s'.
Proof.
  intros [tr0 H0] H. exists (tr0 ++ tr). erewrite run_trace_app by exact H0. exact H.
Qed.

(* the comparison [replay] makes at a return of pointer q with observed class k and content *)
Definition content_ok (s : state) (q : option nat) (k : nat) (parts : list N) : bool :=
  match q with
  | Some p => negb (Nat.eqb k 0) && listN_eqb (heap s p) parts
  | None => Nat.eqb k 0
  end.

(* an accepted return carries the sequential result as content, and class 0 exactly for
   a field whose presence bit is clear *)
Lemma content_ok_sound c s t f q k parts :
  reachable c s -> In (f, q) (rets (thr s t)) -> content_ok s q k parts = true ->
  (k <> 0 -> parts = seq_result c f) /\ (k = 0 <-> present c f = false).
Proof.
  intros R Hin K. pose proof (I_rets c s (inv_reachable c s R) _ _ _ Hin) as P.
  destruct q as [q|]; cbn in K.
  - apply andb_prop in K. destruct K as [K1 K2]. apply negb_true_iff, Nat.eqb_neq in K1.
    apply listN_eqb_eq in K2. split.
    + intros _. rewrite <- K2. now apply (proj2 (readers_equal_sequential c s R) t).
    + destruct (present c f); [split; [tauto | discriminate] | discriminate].
  - apply Nat.eqb_eq in K. split; [tauto|].
    destruct (present c f); [destruct P; congruence | tauto].
Qed.

(* one round of [replay]: a complete call whose return is for the observed field and has
   acceptable content *)
Lemma replay_cons c o r s acc s' l :
  replay c (o :: r) s acc = Some (s', l) ->
  exists s1 evs q rest,
    call_solo c s (o_tid o) (o_fld o) = Some (s1, evs) /\
    rets (thr s1 (o_tid o)) = (o_fld o, q) :: rest /\
    content_ok s1 q (o_cls o) (o_parts o) = true /\
    replay c r s1 ((o_fld o, o_cls o, q) :: acc) = Some (s', l).
Proof.
  cbn. destruct (call_solo c s (o_tid o) (o_fld o)) as [[s1 evs]|]; [|discriminate].
  unfold last_ret. destruct (rets (thr s1 (o_tid o))) as [|[g q] rest] eqn:Hr; [discriminate|].
  fold (content_ok s1 q (o_cls o) (o_parts o)).
  destruct (Nat.eqb g (o_fld o)) eqn:G; [|discriminate]. apply Nat.eqb_eq in G. subst g.
  destruct (content_ok s1 q (o_cls o) (o_parts o)) eqn:K; [|discriminate].
  intros H. exists s1, evs, q, rest. auto.
Qed.

(* What an accepting [replay] establishes: it ran a trace of the model; the collected list
   extends acc by one triple per observation, each a return of the model in the final
   state; and every observation's content was the sequential result. *)
Lemma replay_spec c os : forall s acc s' l,
  reachable c s -> replay c os s acc = Some (s', l) ->
  (exists tr, run_trace c tr s = Some s') /\
  (forall x, In x acc -> In x l) /\
  (forall f k p, In (f, k, p) l -> In (f, k, p) acc \/ exists t, In (f, p) (rets (thr s' t))) /\
  (forall o, In o os ->
     (exists p, In (o_fld o, o_cls o, p) l) /\
     (o_cls o <> 0 -> o_parts o = seq_result c (o_fld o)) /\
     (o_cls o = 0 <-> present c (o_fld o) = false)).
Proof.
  induction os as [|o r IH]; intros s acc s' l R H.
  - injection H as <- <-. split; [now exists []|]. split; [auto|]. split; [auto|]. intros o [].
  - destruct (replay_cons _ _ _ _ _ _ _ H) as (s1 & evs & q & rest & E & Hr & K & H1).
    apply call_solo_trace in E.
    destruct (IH _ _ _ _ (reachable_run _ _ _ _ R E) H1) as ([tr T] & A & B & C).
    assert (Hin : In (o_fld o, q) (rets (thr s1 (o_tid o)))) by (rewrite Hr; now left).
    split; [|split; [|split]].
    + exists (evs ++ tr). now rewrite (run_trace_app _ _ _ _ _ E).
    + intros x Hx. apply A. now right.
    + intros f k p Hl. destruct (B f k p Hl) as [[X|X]|X]; auto.
      injection X as <- <- <-. right. exists (o_tid o). eapply run_rets_mono; eauto.
    + intros o' [<-|Ho]; [|now apply C]. split; [exists q; apply A; now left|].
      apply (content_ok_sound c s1 (o_tid o) _ q); [eapply reachable_run; eauto | exact Hin | exact K].
Qed.

(* If the checker accepts an observed execution then there is a model trace
   performing exactly those calls in which every observed call is a return of
   the model; the observed contents are the sequential results. *)
Theorem check_observed_sound c os :
  check_observed c os = true ->
  exists tr s, run_trace c tr (init c) = Some s /\
    forall o, In o os ->
      (exists t p, In (o_fld o, p) (rets (thr s t))) /\
    (o_cls o <> 0 -> o_parts o = seq_result c (o_fld o)) /\
    (o_cls o = 0 <-> present c (o_fld o) = false).
Proof.
  unfold check_observed. destruct (replay c os (init c) []) as [[s l]|] eqn:E; [|discriminate].
  intros _. destruct (replay_spec _ _ _ _ _ _ (ex_intro _ [] eq_refl) E) as ([tr H] & _ & B & C).
  exists tr, s. split; [exact H|].
  intros o Ho. destruct (C o Ho) as ([p P] & D). split; [|exact D].
  destruct (B _ _ _ P) as [[]|[t T]]. eauto.
Qed.

(* Accepted observations of the same field carry the same class: two different
   classes for one lazy submessage are never accepted. *)
Theorem check_observed_classes c os :
  check_observed c os = true ->
  forall o1 o2, In o1 os -> In o2 os -> o_fld o1 = o_fld o2 -> o_cls o1 = o_cls o2.
Proof.
  unfold check_observed. destruct (replay c os (init c) []) as [[s l]|] eqn:E; [|discriminate].
  intros Hc o1 o2 H1 H2 Hf.
  destruct (replay_spec _ _ _ _ _ _ (ex_intro _ [] eq_refl) E) as (R & _ & B & C).
  destruct (C o1 H1) as ([p1 P1] & _). destruct (C o2 H2) as ([p2 P2] & _).
  destruct (B _ _ _ P1) as [[]|[t1 T1]]. destruct (B _ _ _ P2) as [[]|[t2 T2]].
  rewrite Hf in T1.
  destruct (readers_agree c s R t1 t2 _ _ _ T1 T2) as [Heq _].
  unfold classes_ok in Hc. rewrite forallb_forall in Hc.
  specialize (Hc _ P1). rewrite forallb_forall in Hc. specialize (Hc _ P2).
  cbn in Hc. rewrite Hf, Nat.eqb_refl in Hc.
  apply eqb_prop in Hc.
  assert (X : optnat_eqb p1 p2 = true) by (apply optnat_eqb_eq; exact Heq).
  rewrite X in Hc. now apply Nat.eqb_eq.
Qed.

(* the scheduler-driven runner always produces a trace of the model *)
Lemma run_schedule_trace c sched : forall s acc s0 s' tr,
  run_trace c (rev acc) s0 = Some s ->
  run_schedule c sched s acc = Some (s', tr) ->
  run_trace c tr s0 = Some s'.
Proof.
  induction sched as [|[t f] r IH]; cbn; intros s acc s0 s' tr Hacc H.
  - injection H as <- <-. exact Hacc.
  - destruct (step c s t (next_action c s t f)) eqn:E; [|discriminate].
    eapply IH; [|exact H]. cbn [rev]. eapply run_trace_snoc; eauto.
Qed.

(* every action proposed by [next_action] is enabled: no schedule gets stuck *)
Lemma next_action_enabled c s t f : exists s', step c s t (next_action c s t f) = Some s'.
Proof.
  unfold next_action, step.
  destruct (at_pc (thr s t)); cbn.
  - destruct (present c f); eauto.
  - destruct (fld s (cur (thr s t))); eauto.
  - destruct (index s (msg_of c (cur (thr s t)))); eauto.
  - eauto.
  - eauto.
  - destruct (todo (thr s t)); [destruct (fld s (cur (thr s t))); eauto | eauto].
  - eauto.
Qed.

(* Two readers race on field 0 of a message whose index was not stored by
   Unmarshal: both see nil, both build and store the index, both decode a
   three-part object; thread 1 wins the CAS, thread 0 loses; both return. *)
Definition ex_cfg : config :=
  {| present := fun f => Nat.eqb f 0;
     msg_of := fun _ => 0;
     preindexed := fun _ => false;
     build_index := fun _ => 7%N;
     dec := fun iv _ => if N.eqb iv 7 then [1; 2; 3]%N else [] |}.

Definition ex_trace : list event :=
  map (fun p => {| ev_tid := fst p; ev_act := snd p |})
    [ (0, ACall 0); (0, ACheckNil true); (1, ACall 0); (1, ACheckNil true);
      (0, AIdxLoad true); (1, AIdxLoad true); (0, AIdxBuild); (1, AIdxBuild);
      (0, AIdxStore); (1, AIdxStore);
      (0, ADecode); (1, ADecode); (1, ADecode); (0, ADecode); (1, ADecode);
      (1, ACas true); (0, ADecode); (0, ACas false); (0, ALoad); (1, ALoad);
      (2, ACall 1); (2, ACall 0); (2, ACheckNil false); (2, ALoad) ].

Definition ex_state : state :=
  match run_trace ex_cfg ex_trace (init ex_cfg) with Some s => s | None => init ex_cfg end.

(* The state a trace leads to, with the initial state as default, is reachable whether or
   not the trace runs through. *)
Lemma run_default_reachable c tr :
  reachable c (match run_trace c tr (init c) with Some s => s | None => init c end).
Proof. destruct (run_trace c tr (init c)) eqn:E; [now exists tr | now exists []]. Qed.

Lemma ex_reachable : reachable ex_cfg ex_state.
Proof. apply run_default_reachable. Qed.

Lemma ex_two_readers :
  reachable ex_cfg ex_state /\
  In (0, Some 1) (rets (thr ex_state 0)) /\ In (0, Some 1) (rets (thr ex_state 1)) /\
  In (0, Some 1) (rets (thr ex_state 2)) /\ In (1, None) (rets (thr ex_state 2)) /\
  wins ex_state 0 = 1 /\ heap ex_state 1 = [1; 2; 3]%N /\ heap ex_state 0 = [1; 2; 3]%N /\
  fld ex_state 0 = Some 1.
Proof. split; [exact ex_reachable|]. vm_compute. intuition. Qed.

(* a reachable state in which a thread is in the middle of its private decode *)
Definition ex_mid_state : state :=
  match run_trace ex_cfg (firstn 12 ex_trace) (init ex_cfg) with Some s => s | None => init ex_cfg end.

Lemma ex_mid :
  reachable ex_cfg ex_mid_state /\ at_pc (thr ex_mid_state 0) = PDecode /\
  todo (thr ex_mid_state 0) = [2; 3]%N /\ at_pc (thr ex_mid_state 1) = PDecode /\
  (exists s', step ex_cfg ex_mid_state 1 ADecode = Some s').
Proof.
  split; [apply run_default_reachable|]. vm_compute. repeat split; eauto.
Qed.

(* a reachable state in which an index is published and another thread is about to store again *)
Definition ex_idx_state : state :=
  match run_trace ex_cfg (firstn 9 ex_trace) (init ex_cfg) with Some s => s | None => init ex_cfg end.

Lemma ex_idx :
  reachable ex_cfg ex_idx_state /\
  (exists io, index ex_idx_state 0 = Some io) /\
  (exists s', step ex_cfg ex_idx_state 1 AIdxStore = Some s').
Proof.
  split; [apply run_default_reachable|]. vm_compute. split; eauto.
Qed.

Definition ex_obs : list obs :=
  [ {| o_tid := 0; o_fld := 0; o_cls := 1; o_parts := [1; 2; 3]%N |};
    {| o_tid := 1; o_fld := 0; o_cls := 1; o_parts := [1; 2; 3]%N |};
    {| o_tid := 1; o_fld := 1; o_cls := 0; o_parts := [] |};
    {| o_tid := 0; o_fld := 0; o_cls := 1; o_parts := [1; 2; 3]%N |} ].

Lemma ex_obs_accepted : check_observed ex_cfg ex_obs = true.
Proof. vm_compute. reflexivity. Qed.

(* the checker rejects: two instances of one submessage; stale content; nil for a present field *)
Lemma ex_obs_rejected :
  check_observed ex_cfg
    [ {| o_tid := 0; o_fld := 0; o_cls := 1; o_parts := [1; 2; 3]%N |};
      {| o_tid := 1; o_fld := 0; o_cls := 2; o_parts := [1; 2; 3]%N |} ] = false /\
  check_observed ex_cfg
    [ {| o_tid := 0; o_fld := 0; o_cls := 1; o_parts := [1; 2]%N |} ] = false /\
  check_observed ex_cfg
    [ {| o_tid := 0; o_fld := 0; o_cls := 0; o_parts := [] |} ] = false.
Proof. vm_compute. auto. Qed.

(* finding FG1; witness: raw = two occurrences (10 bytes), re-encoding 7 bytes; the reader publishes between the passes *)
Lemma marshal_concurrent_reader_refuted :
  exists raw enc s a, passes_possible s a = true /\ marshal_size_check raw enc s a = false.
Proof. exists 10, 7, true, false. split; reflexivity. Qed.

Lemma marshal_concurrent_reader_except_FG1 raw enc s a :
  excl_FG1 raw enc = false -> marshal_size_check raw enc s a = true.
Proof.
  unfold excl_FG1, marshal_size_check, pass_len. intros H.
  apply negb_false_iff, Nat.eqb_eq in H. subst. destruct s, a; apply Nat.eqb_refl.
Qed.

(* without a concurrent reader both passes see the same state: the check always passes *)
Lemma marshal_sequential_ok raw enc s : marshal_size_check raw enc s s = true.
Proof. unfold marshal_size_check. apply Nat.eqb_refl. Qed.
