(* C19 — proofs about the first-use protocols (InitOnceModel.v). *)
From Coq Require Import List Arith Bool Lia.
From PB Require Import Conc.InitOnceModel.
Import ListNotations.

Lemma iupd_same {A} (f : nat -> A) k v : iupd f k v k = v.
Proof. unfold iupd. now rewrite Nat.eqb_refl. Qed.
Lemma iupd_other {A} (f : nat -> A) k v x : x <> k -> iupd f k v x = f x.
Proof. unfold iupd. intros H. apply Nat.eqb_neq in H. now rewrite H. Qed.

Definition holds_pc (p : ipc) : bool :=
  match p with IRecheck | IBody | IStore | IUnlock => true | _ => false end.

Definition past_check (p : ipc) : bool :=
  match p with IStore | IUnlock | IRet => true | _ => false end.

Section InitOnce.
  Variable c : iconfig.

  (* Whenever the mutex is free, and still when its new holder is about to re-check, the
     three witnesses of a completed initialisation agree: the flag is set iff the body
     has been entered iff a thread that knew has unlocked. *)
  Definition settled (s : istate) : Prop :=
    mu_rel s = flag s /\ flag s = negb (body_runs s =? 0).

  (* what the local state l of thread t requires of the shared state *)
  Record local_ok (s : istate) (t : nat) (l : ilocal) : Prop := {
    L_hold  : holds_pc (i_pc l) = true -> mu s = Some t;
    L_check : i_pc l = IRecheck -> settled s /\ i_knows l = flag s;
    L_body  : i_pc l = IBody -> body_runs s = 1 /\ flag s = false /\ data s <= body_len c;
    L_past  : past_check (i_pc l) = true -> i_knows l = true;
    L_knows : i_knows l = true -> flag s = true;
    L_rets  : forall r, In r (i_rets l) -> r = (true, true, body_len c)
  }.

  Record IInv (s : istate) : Prop := {
    J_runs  : body_runs s <= 1;
    J_wad   : writes_after_done s = 0;
    J_flag  : flag s = true -> data s = body_len c /\ body_runs s = 1 /\ flag_rel s = true;
    J_runs0 : body_runs s = 0 -> data s = 0;
    J_free  : mu s = None -> settled s;
    J_local : forall t, local_ok s t (ithr s t)
  }.

  Lemma iinv_init : IInv iinit.
  Proof.
    constructor; cbn.
    - apply Nat.le_0_l.
    - reflexivity.
    - discriminate.
    - reflexivity.
    - intros _. now split.
    - (* every thread is idle, knows nothing and has returned nothing *)
      intros t. constructor; cbn; try discriminate. intros r [].
  Qed.

  Lemma local_ok_ext s s' t l :
    flag s' = flag s -> mu s' = mu s -> mu_rel s' = mu_rel s -> data s' = data s ->
    body_runs s' = body_runs s -> local_ok s t l -> local_ok s' t l.
  Proof.
    intros E1 E2 E3 E4 E5 [A B C D E F].
    constructor; unfold settled in *; rewrite ?E1, ?E2, ?E3, ?E4, ?E5; assumption.
  Qed.

  (* A thread outside the critical section only needs the flag to stay set. *)
  Lemma local_ok_outside s s' t l :
    holds_pc (i_pc l) = false -> (flag s = true -> flag s' = true) ->
    local_ok s t l -> local_ok s' t l.
  Proof.
    intros N F [A B C D E G].
    constructor; auto; intros H; rewrite H in N; discriminate.
  Qed.

  Lemma iinv_set_ithr s t l : IInv s -> local_ok s t l -> IInv (set_ithr s t l).
  Proof.
    intros [A B C D E F] L. constructor; try assumption.
    intros u. apply local_ok_ext with s; try reflexivity. cbn.
    destruct (Nat.eq_dec u t) as [->|N]; [now rewrite iupd_same | rewrite iupd_other by exact N; apply F].
  Qed.

  (* a step of the thread in the critical section: nobody else holds the mutex *)
  Lemma step_locals s s' t l :
    IInv s -> mu s = None \/ mu s = Some t -> (flag s = true -> flag s' = true) ->
    (forall u, ithr s' u = iupd (ithr s) t l u) -> local_ok s' t l ->
    forall u, local_ok s' u (ithr s' u).
  Proof.
    intros I M F E L u. rewrite E.
    destruct (Nat.eq_dec u t) as [->|N]; [now rewrite iupd_same | rewrite iupd_other by exact N].
    apply local_ok_outside with s; [|exact F|apply (J_local s I)].
    destruct (holds_pc (i_pc (ithr s u))) eqn:H; [|reflexivity].
    apply (L_hold s u _ (J_local s I u)) in H. destruct M; congruence.
  Qed.

  Lemma iinv_step s t a s' : IInv s -> istep c s t a = Some s' -> IInv s'.
  Proof.
    intros I Hs. unfold istep in Hs.
    (* With the clauses of I in the context, those a step leaves alone are closed by
       [assumption], and those about t become facts about its pc once the pc is known. *)
    pose proof I as [SR SW SF S0 SM SL]. destruct (SL t) as [LH LC LB LP LK LR].
    destruct (i_pc (ithr s t)) eqn:Hpc; destruct a; try discriminate.
    - (* IIdle, ICall *)
      injection Hs as <-. apply iinv_set_ithr; [exact I|].
      constructor; cbn; try discriminate; assumption.
    - (* IFast, AFast *)
      destruct (Bool.eqb saw_set (flag s)); [|discriminate].
      destruct (flag s) eqn:Hf; injection Hs as <-; (apply iinv_set_ithr; [exact I|]).
      + (* flag set: fast return; acquire edge from the store *)
        destruct (SF eq_refl) as (_ & _ & FR).
        constructor; cbn; try discriminate; auto.
        intros _. rewrite FR. apply orb_true_r.
      + (* flag clear: go and lock *)
        constructor; cbn; try discriminate; rewrite ?Hf; assumption.
    - (* ILock, ALock *)
      destruct (mu s) eqn:Hmu; [discriminate|]. injection Hs as <-.
      destruct (SM eq_refl) as [MR FB].
      constructor; cbn [flag flag_rel mu mu_rel data body_runs writes_after_done]; try assumption.
      + discriminate.
      + eapply step_locals with (s := s) (t := t); [exact I | now left | auto | reflexivity |].
        constructor; cbn; try discriminate; auto.
        * intros _. split; [split; assumption|].
          rewrite MR. destruct (flag s) eqn:Hf; [apply orb_true_r|].
          destruct (i_knows (ithr s t)); [symmetry; apply LK|]; reflexivity.
        * rewrite MR. intros [K|K]%orb_true_iff; auto.
    - (* IRecheck, ARecheck: what the re-check reads is the flag, in both variants *)
      destruct (LC eq_refl) as [[MR FB] K]. pose proof (LH eq_refl) as Hh.
      replace (if recheck_data c then _ else _) with (flag s) in Hs by (now destruct (recheck_data c)).
      destruct (Bool.eqb done (flag s)); [|discriminate].
      destruct (flag s) eqn:Hf; injection Hs as <-.
      + (* already initialised *)
        apply iinv_set_ithr; [exact I|].
        destruct (recheck_data c); constructor; cbn; try discriminate; auto.
      + (* not initialised: enter the body *)
        symmetry in FB. apply negb_false_iff, Nat.eqb_eq in FB.
        constructor; cbn [flag flag_rel mu mu_rel data body_runs writes_after_done];
          try assumption; try discriminate.
        * lia.
        * rewrite Hh. discriminate.
        * eapply step_locals with (s := s) (t := t); [exact I | now right | cbn; congruence | reflexivity |].
          constructor; cbn; try discriminate; try assumption.
          intros _. rewrite FB, (S0 FB). repeat split. apply Nat.le_0_l.
    - (* IBody, ABody *)
      destruct (Nat.ltb (data s) (body_len c)) eqn:Hlt; [|discriminate]. apply Nat.ltb_lt in Hlt.
      destruct (LB eq_refl) as (B1 & F0 & DL). pose proof (LH eq_refl) as Hh.
      injection Hs as <-. rewrite F0 in *.
      constructor; cbn [flag flag_rel mu mu_rel data body_runs writes_after_done];
        try assumption; try discriminate.
      + rewrite B1. discriminate.
      + rewrite Hh. discriminate.
      + apply step_locals with (s := s) (t := t) (l := ithr s t); [exact I | now right | cbn; congruence | |].
        * intros u. cbn. destruct (Nat.eq_dec u t) as [->|N]; [now rewrite iupd_same | now rewrite iupd_other].
        * (* Hlt is the new bound on data *)
          constructor; rewrite ?Hpc; cbn; try discriminate; auto.
    - (* IBody, AStore *)
      destruct (Nat.ltb (data s) (body_len c)) eqn:Hlt; [discriminate|]. apply Nat.ltb_ge in Hlt.
      destruct (LB eq_refl) as (B1 & F0 & DL). pose proof (LH eq_refl) as Hh.
      injection Hs as <-.
      constructor; cbn [flag flag_rel mu mu_rel data body_runs writes_after_done]; try assumption.
      + intros _. repeat split; [lia | exact B1].
      + rewrite Hh. discriminate.
      + eapply step_locals with (s := s) (t := t); [exact I | now right | auto | reflexivity |].
        constructor; cbn; try discriminate; auto.
    - (* IStore, AStore *)
      pose proof (LH eq_refl) as Hh. pose proof (LP eq_refl) as Hk. pose proof (LK Hk) as Hf.
      injection Hs as <-.
      constructor; cbn [flag flag_rel mu mu_rel data body_runs writes_after_done]; try assumption.
      + intros _. destruct (SF Hf) as (A & B & _). auto.
      + rewrite Hh. discriminate.
      + eapply step_locals with (s := s) (t := t); [exact I | now right | auto | reflexivity |].
        constructor; cbn; try discriminate; auto.
    - (* IUnlock, AUnlock *)
      pose proof (LH eq_refl) as Hh. pose proof (LP eq_refl) as Hk. pose proof (LK Hk) as Hf.
      injection Hs as <-.
      constructor; cbn [flag flag_rel mu mu_rel data body_runs writes_after_done]; try assumption.
      + intros _. destruct (SF Hf) as (_ & B1 & _).
        unfold settled; cbn. rewrite Hk, Hf, B1, orb_true_r. now split.
      + eapply step_locals with (s := s) (t := t); [exact I | now right | auto | reflexivity |].
        constructor; cbn; try discriminate; auto.
    - (* IRet, ARet *)
      pose proof (LP eq_refl) as Hk. pose proof (LK Hk) as Hf. destruct (SF Hf) as (DD & _).
      injection Hs as <-. apply iinv_set_ithr; [exact I|].
      constructor; cbn; try discriminate; auto.
      intros r [<-|H]; [|auto]. now rewrite Hf, Hk, DD.
  Qed.

  Lemma iinv_run tr : forall s s', IInv s -> irun_trace c tr s = Some s' -> IInv s'.
  Proof.
    induction tr as [|e r IH]; cbn; intros s s' I H.
    - now injection H as <-.
    - destruct (istep c s (ie_tid e) (ie_act e)) eqn:E; [|discriminate].
      eapply IH; [|exact H]. eapply iinv_step; eauto.
  Qed.

  Lemma iinv_reachable s : ireachable c s -> IInv s.
  Proof. intros [tr H]. eapply iinv_run; [apply iinv_init | exact H]. Qed.

  (* The initialisation body is entered at most once, by a thread holding the
     mutex, and nothing is written to the initialised data after the flag is set. *)
  Theorem init_body_at_most_once s :
    ireachable c s ->
    body_runs s <= 1 /\ writes_after_done s = 0 /\
    (forall t u, i_pc (ithr s t) = IBody -> i_pc (ithr s u) = IBody -> t = u) /\
    (forall t, i_pc (ithr s t) = IBody -> mu s = Some t /\ flag s = false).
  Proof.
    intros R. pose proof (iinv_reachable s R) as I.
    assert (H : forall t, i_pc (ithr s t) = IBody -> mu s = Some t /\ flag s = false).
    { intros t Ht. split; [apply (L_hold s t _ (J_local s I t)); now rewrite Ht|].
      apply (L_body s t _ (J_local s I t) Ht). }
    split; [apply (J_runs s I)|]. split; [apply (J_wad s I)|]. split; [|exact H].
    intros t u Ht Hu. destruct (H t Ht) as [Mt _], (H u Hu) as [Mu _]. congruence.
  Qed.

  (* Every return from init — by the fast path, after waiting for the lock, or
     after running the body — saw the flag set, has a happens-before edge from
     the completed body, and reads the completely initialised data. *)
  Theorem return_implies_initialized s :
    ireachable c s ->
    forall t r, In r (i_rets (ithr s t)) -> r = (true, true, body_len c).
  Proof. intros R t. apply (L_rets s t _ (J_local s (iinv_reachable s R) t)). Qed.

  (* the same at the moment of return, and for a thread that merely knows *)
  Theorem returning_thread_synchronised s :
    ireachable c s ->
    forall t, i_pc (ithr s t) = IRet \/ i_knows (ithr s t) = true ->
      data s = body_len c /\ body_runs s = 1 /\ (forall u, i_pc (ithr s u) <> IBody).
  Proof.
    intros R t H. pose proof (iinv_reachable s R) as I.
    assert (F : flag s = true).
    { apply (L_knows s t _ (J_local s I t)). destruct H as [H|H]; [|exact H].
      apply (L_past s t _ (J_local s I t)). now rewrite H. }
    destruct (J_flag s I F) as (A & B & _). split; [exact A|]. split; [exact B|].
    intros u Hu. destruct (L_body s u _ (J_local s I u) Hu) as (_ & F0 & _). congruence.
  Qed.
End InitOnce.

Lemma irun_trace_app c tr1 : forall tr2 s s1,
  irun_trace c tr1 s = Some s1 -> irun_trace c (tr1 ++ tr2) s = irun_trace c tr2 s1.
Proof.
  induction tr1 as [|e r IH]; cbn; intros tr2 s s1 H.
  - now injection H as <-.
  - destruct (istep c s (ie_tid e) (ie_act e)); [|discriminate]. now apply IH.
Qed.

Lemma irun_trace_snoc c tr s0 s t a s' :
  irun_trace c tr s0 = Some s -> istep c s t a = Some s' ->
  irun_trace c (tr ++ [{| ie_tid := t; ie_act := a |}]) s0 = Some s'.
Proof. intros H E. rewrite (irun_trace_app _ _ _ _ _ H). cbn. now rewrite E. Qed.

Lemma ireachable_step c s t a s' : ireachable c s -> istep c s t a = Some s' -> ireachable c s'.
Proof. intros [tr H] E. eexists. eapply irun_trace_snoc; eauto. Qed.

Lemma ifinish_call_reach c fuel : forall s t s',
  ireachable c s -> ifinish_call c fuel s t = Some s' -> ireachable c s'.
Proof.
  induction fuel as [|k IH]; intros s t s' R H; cbn in H.
  - destruct (i_pc (ithr s t)); try discriminate. now injection H as <-.
  - destruct (i_pc (ithr s t)); try (now injection H as <-);
      (destruct (inext_action c s t) as [a|]; [|discriminate];
       destruct (istep c s t a) eqn:E; [|discriminate];
       eapply IH; [|exact H]; eapply ireachable_step; eauto).
Qed.

Lemma icall_solo_reach c s t s' : ireachable c s -> icall_solo c s t = Some s' -> ireachable c s'.
Proof.
  unfold icall_solo. intros R. destruct (i_pc (ithr s t)); try discriminate.
  destruct (istep c s t ICall) eqn:E; [|discriminate].
  apply ifinish_call_reach. eapply ireachable_step; eauto.
Qed.

(* the observation checker accepts only executions in which every call saw the initialised state *)
Theorem icheck_observed_sound c os : forall s,
  ireachable c s -> icheck_observed c os s = true -> forall t saw, In (t, saw) os -> saw = true.
Proof.
  induction os as [|[t0 saw0] r IH]; cbn; intros s R H t saw Hin; [tauto|].
  destruct (icall_solo c s t0) as [s1|] eqn:E; [|discriminate].
  pose proof (icall_solo_reach _ _ _ _ R E) as R1.
  destruct (i_rets (ithr s1 t0)) as [|[[f k] d] rest] eqn:Hr; [discriminate|].
  apply andb_prop in H. destruct H as [H1 H2].
  destruct Hin as [Hin|Hin]; [|eapply IH; eauto].
  injection Hin as <- <-.
  assert (X : (f, k, d) = (true, true, body_len c)).
  { apply (return_implies_initialized c s1 R1 t0). rewrite Hr. now left. }
  injection X as -> -> ->. rewrite Nat.eqb_refl in H1. cbn in H1. now apply eqb_prop in H1.
Qed.

Lemma irun_schedule_trace c sched : forall s acc s0 s' tr,
  irun_trace c (rev acc) s0 = Some s ->
  irun_schedule c sched s acc = Some (s', tr) ->
  irun_trace c tr s0 = Some s'.
Proof.
  induction sched as [|t r IH]; cbn; intros s acc s0 s' tr Hacc H.
  - injection H as <- <-. exact Hacc.
  - destruct (inext_action c s t) as [a|]; [|eapply IH; eauto].
    destruct (istep c s t a) eqn:E; [|discriminate].
    eapply IH; [|exact H]. cbn [rev]. eapply irun_trace_snoc; eauto.
Qed.

Definition prefix (a b : list nat) : Prop := exists r, b = a ++ r.

Lemma prefix_refl a : prefix a a.
Proof. exists []. now rewrite app_nil_r. Qed.
Lemma prefix_trans a b d : prefix a b -> prefix b d -> prefix a d.
Proof. intros [r ->] [r' ->]. exists (r ++ r'). now rewrite app_assoc. Qed.
Lemma prefix_app a r : prefix a (a ++ r).
Proof. now exists r. Qed.

Lemma in_remove_one t u l : u <> t -> In u l -> In u (remove_one t l).
Proof.
  intros Hne. induction l as [|x r IH]; cbn; [tauto|].
  destruct (Nat.eqb x t) eqn:E; intros [->|H]; auto.
  - apply Nat.eqb_eq in E. congruence.
  - now left.
  - right. auto.
Qed.

Lemma contents_app c a b : contents c (a ++ b) = contents c a ++ contents c b.
Proof. unfold contents. apply flat_map_app. Qed.

Definition rlocked (p : rpc) : bool := match p with RRHeld | RRRel => true | _ => false end.
Definition rbefore (p : rpc) : bool := match p with RRWait | RRHeld => true | _ => false end.

Section Registry.
  Variable c : rconfig.

  Definition seen_ok (s : rstate) (pre seen : list nat) : Prop :=
    exists C, seen = contents c C /\ prefix pre C /\ prefix C (completed s).

  Record rlocal_ok (s : rstate) (t : nat) (l : rlocal) : Prop := {
    Q_ins  : forall r todo, r_pc l = RWIns r todo ->
               writer s = Some t /\ rmap s ++ todo = contents c (completed s ++ [r]) /\
               started s = completed s ++ [r];
    Q_held : rlocked (r_pc l) = true -> In t (readers s);
    Q_pre  : rbefore (r_pc l) = true -> prefix (r_pre l) (completed s);
    Q_seen : r_pc l = RRRel -> seen_ok s (r_pre l) (r_seen l);
    Q_done : forall lk, In lk (r_done l) -> seen_ok s (l_pre lk) (l_seen lk)
  }.

  Record RInv (s : rstate) : Prop := {
    R_free  : writer s = None -> rmap s = contents c (completed s) /\ started s = completed s;
    R_excl  : forall w, writer s = Some w -> readers s = [];
    R_local : forall t, rlocal_ok s t (rthr s t)
  }.

  Lemma R_done s :
    RInv s -> forall t lk, In lk (r_done (rthr s t)) -> seen_ok s (l_pre lk) (l_seen lk).
  Proof. intros I t. apply (Q_done s t _ (R_local s I t)). Qed.

  Lemma rinv_init : RInv rinit.
  Proof.
    constructor; cbn.
    - intros _. now split.
    - reflexivity.
    - (* every thread is idle and has finished no lookup *)
      intros t. constructor; cbn; try discriminate. intros lk [].
  Qed.

  Lemma seen_ok_mono s s' pre seen :
    prefix (completed s) (completed s') -> seen_ok s pre seen -> seen_ok s' pre seen.
  Proof. intros P (C & A & B & D). exists C. repeat split; auto. eapply prefix_trans; eauto. Qed.

  (* A thread that is not writing only needs completed to grow and its read lock to stay. *)
  Lemma rlocal_ok_other s s' u l :
    writer s <> Some u -> prefix (completed s) (completed s') ->
    (In u (readers s) -> In u (readers s')) ->
    rlocal_ok s u l -> rlocal_ok s' u l.
  Proof.
    intros W P R [A B C D E]. constructor.
    - intros r todo H. now destruct (A r todo H).
    - auto.
    - intros H. eapply prefix_trans; [exact (C H) | exact P].
    - intros H. apply seen_ok_mono with s; auto.
    - intros lk H. apply seen_ok_mono with s; auto.
  Qed.

  Lemma rlocal_ok_ext s s' t l :
    rmap s' = rmap s -> completed s' = completed s -> started s' = started s ->
    writer s' = writer s -> readers s' = readers s -> rlocal_ok s t l -> rlocal_ok s' t l.
  Proof.
    intros E1 E2 E3 E4 E5 [A B C D E].
    constructor; unfold seen_ok in *; rewrite ?E1, ?E2, ?E3, ?E4, ?E5; assumption.
  Qed.

  Lemma rinv_set_rthr s t l : RInv s -> rlocal_ok s t l -> RInv (set_rthr s t l).
  Proof.
    intros [A B C] L. constructor; try assumption.
    intros u. apply rlocal_ok_ext with s; try reflexivity. cbn.
    destruct (Nat.eq_dec u t) as [->|N]; [now rewrite iupd_same | rewrite iupd_other by exact N; apply C].
  Qed.

  (* a step of t that changes the shared state: nobody else is writing *)
  Lemma rstep_locals s s' t l :
    RInv s -> writer s = None \/ writer s = Some t ->
    prefix (completed s) (completed s') ->
    (forall u, u <> t -> In u (readers s) -> In u (readers s')) ->
    (forall u, rthr s' u = iupd (rthr s) t l u) -> rlocal_ok s' t l ->
    forall u, rlocal_ok s' u (rthr s' u).
  Proof.
    intros I W P R E L u. rewrite E.
    destruct (Nat.eq_dec u t) as [->|N]; [now rewrite iupd_same | rewrite iupd_other by exact N].
    apply rlocal_ok_other with s; [|exact P|exact (R u N)|apply (R_local s I)].
    intros H. destruct W; congruence.
  Qed.

  Lemma reader_no_writer s t : RInv s -> In t (readers s) -> writer s = None.
  Proof.
    intros I Hin. destruct (writer s) as [w|] eqn:E; [|reflexivity].
    rewrite (R_excl s I w E) in Hin. destruct Hin.
  Qed.

  Lemma rinv_step s t a s' : RInv s -> rstep c s t a = Some s' -> RInv s'.
  Proof.
    intros I Hs. unfold rstep in Hs.
    pose proof I as [SF SE SL]. destruct (SL t) as [QI QH QP QS QD].
    destruct (r_pc (rthr s t)) as [|r|r [|x todo]| | |] eqn:Hpc; destruct a; try discriminate.
    - (* RIdle, RCallRegister *)
      injection Hs as <-. apply rinv_set_rthr; [exact I|].
      constructor; cbn; try discriminate; assumption.
    - (* RIdle, RCallLookup *)
      injection Hs as <-. apply rinv_set_rthr; [exact I|].
      constructor; cbn; try discriminate; auto.
      intros _. apply prefix_refl.
    - (* RWWait, RWLock *)
      destruct (writer s) eqn:Hw; [discriminate|]. destruct (readers s) eqn:Hr; [|discriminate].
      injection Hs as <-. destruct (SF eq_refl) as [F1 F2].
      constructor; cbn [rmap completed started writer readers].
      + discriminate.
      + reflexivity.
      + eapply rstep_locals with (s := s) (t := t); [exact I | now left | apply prefix_refl | | reflexivity |].
        * intros u _. now rewrite Hr.
        * constructor; cbn; try discriminate; auto.
          intros r0 todo [= <- <-]. split; [reflexivity|]. split; [|congruence].
          rewrite F1. unfold contents. rewrite flat_map_app. cbn. now rewrite app_nil_r.
    - (* RWIns [], RWUnlock *)
      injection Hs as <-.
      destruct (QI r [] eq_refl) as (Hw & C & D). rewrite app_nil_r in C.
      constructor; cbn [rmap completed started writer readers].
      + intros _. split; [exact C | exact D].
      + discriminate.
      + eapply rstep_locals with (s := s) (t := t); [exact I | now right | apply prefix_app | auto | reflexivity |].
        constructor; cbn; try discriminate.
        intros lk H. apply seen_ok_mono with s; [apply prefix_app | auto].
    - (* RWIns (x :: todo), RInsert *)
      injection Hs as <-.
      destruct (QI r _ eq_refl) as (Hw & C & D).
      constructor; cbn [rmap completed started writer readers]; try assumption.
      + rewrite Hw. discriminate.
      + eapply rstep_locals with (s := s) (t := t); [exact I | now right | apply prefix_refl | auto | reflexivity |].
        constructor; cbn; try discriminate; auto.
        intros r0 todo0 [= <- <-]. rewrite <- app_assoc. auto.
    - (* RRWait, RRLock *)
      destruct (writer s) eqn:Hw; [discriminate|]. injection Hs as <-.
      constructor; cbn [rmap completed started writer readers]; try assumption.
      + discriminate.
      + eapply rstep_locals with (s := s) (t := t); [exact I | now left | apply prefix_refl | | reflexivity |].
        * intros u _ H. now right.
        * constructor; cbn; try discriminate; auto.
    - (* RRHeld, RRead *)
      injection Hs as <-.
      destruct (SF (reader_no_writer s t I (QH eq_refl))) as [F1 F2].
      apply rinv_set_rthr; [exact I|].
      constructor; cbn; try discriminate; auto.
      intros _. exists (completed s). split; [exact F1|]. split; [auto | apply prefix_refl].
    - (* RRRel, RRUnlock *)
      injection Hs as <-.
      pose proof (reader_no_writer s t I (QH eq_refl)) as Hw.
      constructor; cbn [rmap completed started writer readers]; try assumption.
      + rewrite Hw. discriminate.
      + eapply rstep_locals with (s := s) (t := t); [exact I | now left | apply prefix_refl | | reflexivity |].
        * intros u N H. now apply in_remove_one.
        * constructor; cbn; try discriminate.
          intros lk [<-|H]; [now apply QS | now apply QD].
  Qed.

  Lemma rinv_run tr : forall s s', RInv s -> rrun_trace c tr s = Some s' -> RInv s'.
  Proof.
    induction tr as [|e r IH]; cbn; intros s s' I H.
    - now injection H as <-.
    - destruct (rstep c s (re_tid e) (re_act e)) eqn:E; [|discriminate].
      eapply IH; [|exact H]. eapply rinv_step; eauto.
  Qed.

  Lemma rinv_reachable s : rreachable c s -> RInv s.
  Proof. intros [tr H]. eapply rinv_run; [apply rinv_init | exact H]. Qed.

  (* Every finished lookup saw exactly the items of a prefix C of the sequence
     of completed registrations, and C contains every registration that had
     completed when the lookup was invoked: it sees all registrations completed
     before it started, only completed ones, each of them entirely. *)
  Theorem registry_lookup_sees_completed_registrations s :
    rreachable c s ->
    forall t lk, In lk (r_done (rthr s t)) ->
      exists C, l_seen lk = contents c C /\ prefix (l_pre lk) C /\ prefix C (completed s).
  Proof. intros R t lk H. exact (R_done s (rinv_reachable s R) t lk H). Qed.

  Lemma prefix_comparable (a b d : list nat) : prefix a d -> prefix b d -> prefix a b \/ prefix b a.
  Proof.
    revert b d. induction a as [|x a IH]; intros b d [r ->] [r' H].
    - left. now exists b.
    - destruct b as [|y b]; [right; now exists (x :: a)|].
      cbn in H. injection H as -> H.
      destruct (IH b (a ++ r) (prefix_app a r) (ex_intro _ r' H)) as [[q ->]|[q ->]].
      + left. now exists q.
      + right. now exists q.
  Qed.

  (* Any two lookups, by any threads, are ordered: one saw a prefix of what the other saw. *)
  Theorem registry_lookups_totally_ordered s :
    rreachable c s ->
    forall t1 t2 k1 k2, In k1 (r_done (rthr s t1)) -> In k2 (r_done (rthr s t2)) ->
      (exists r, l_seen k2 = l_seen k1 ++ r) \/ (exists r, l_seen k1 = l_seen k2 ++ r).
  Proof.
    intros R t1 t2 k1 k2 H1 H2. pose proof (rinv_reachable s R) as I.
    destruct (R_done s I t1 k1 H1) as (C1 & E1 & _ & P1).
    destruct (R_done s I t2 k2 H2) as (C2 & E2 & _ & P2).
    destruct (prefix_comparable _ _ _ P1 P2) as [[q ->]|[q ->]].
    - left. exists (contents c q). now rewrite E1, E2, contents_app.
    - right. exists (contents c q). now rewrite E1, E2, contents_app.
  Qed.

  (* writers exclude everybody, readers exclude writers *)
  Theorem registry_mutual_exclusion s :
    rreachable c s ->
    (forall t u r1 d1 r2 d2, r_pc (rthr s t) = RWIns r1 d1 -> r_pc (rthr s u) = RWIns r2 d2 -> t = u) /\
    (forall t u r1 d1, r_pc (rthr s t) = RWIns r1 d1 ->
       r_pc (rthr s u) <> RRHeld /\ r_pc (rthr s u) <> RRRel).
  Proof.
    intros R. pose proof (rinv_reachable s R) as I.
    assert (W : forall t r d, r_pc (rthr s t) = RWIns r d -> writer s = Some t).
    { intros t r d H. apply (Q_ins s t _ (R_local s I t) r d H). }
    split.
    - intros t u r1 d1 r2 d2 H1 H2. apply W in H1, H2. congruence.
    - intros t u r1 d1 H1. apply W, (R_excl s I) in H1.
      split; intros H; (assert (X : In u (readers s)) by (apply (Q_held s u _ (R_local s I u)); now rewrite H));
        rewrite H1 in X; destruct X.
  Qed.
End Registry.

(* The state a trace leads to, with the initial state as default, is reachable whether or
   not the trace runs through. *)
Lemma irun_default_reachable c tr :
  ireachable c (match irun_trace c tr iinit with Some s => s | None => iinit end).
Proof. destruct (irun_trace c tr iinit) eqn:E; [now exists tr | now exists []]. Qed.

Lemma rrun_default_reachable c tr :
  rreachable c (match rrun_trace c tr rinit with Some s => s | None => rinit end).
Proof. destruct (rrun_trace c tr rinit) eqn:E; [now exists tr | now exists []]. Qed.

Definition ex_icfg (d : bool) : iconfig := {| body_len := 2; recheck_data := d |}.

(* threads 0 and 1 both miss the fast path; 0 initialises; 1 waits for the lock and re-checks;
   thread 2 arrives later and takes the fast path *)
Definition ex_itrace (d : bool) : list ievent :=
  map (fun p => {| ie_tid := fst p; ie_act := snd p |})
    ([ (0, ICall); (1, ICall); (0, AFast false); (1, AFast false); (0, ALock); (0, ARecheck false);
       (0, ABody); (0, ABody); (0, AStore); (2, ICall); (2, AFast true); (0, AUnlock);
       (1, ALock); (1, ARecheck true) ] ++
     (if d then [ (1, AStore) ] else []) ++
     [ (1, AUnlock); (0, ARet); (1, ARet); (2, ARet) ]).

Definition ex_istate (d : bool) : istate :=
  match irun_trace (ex_icfg d) (ex_itrace d) iinit with Some s => s | None => iinit end.

Lemma ex_init_once d :
  ireachable (ex_icfg d) (ex_istate d) /\
  i_rets (ithr (ex_istate d) 0) = [(true, true, 2)] /\
  i_rets (ithr (ex_istate d) 1) = [(true, true, 2)] /\
  i_rets (ithr (ex_istate d) 2) = [(true, true, 2)] /\
  body_runs (ex_istate d) = 1.
Proof.
  split; [apply irun_default_reachable|]. destruct d; vm_compute; auto.
Qed.

Definition ex_rcfg : rconfig := {| items := fun r => [10 * r; 10 * r + 1] |}.

(* thread 0 registers 1, thread 1 looks up while 0 is inserting (blocked until the unlock),
   thread 2 registers 2, thread 1 looks up again *)
Definition ex_rtrace : list revent :=
  map (fun p => {| re_tid := fst p; re_act := snd p |})
    [ (0, RCallRegister 1); (1, RCallLookup); (0, RWLock); (0, RInsert); (2, RCallRegister 2);
      (0, RInsert); (0, RWUnlock); (1, RRLock); (1, RRead); (1, RRUnlock);
      (2, RWLock); (2, RInsert); (2, RInsert); (2, RWUnlock);
      (1, RCallLookup); (1, RRLock); (1, RRead); (1, RRUnlock) ].

Definition ex_rstate : rstate :=
  match rrun_trace ex_rcfg ex_rtrace rinit with Some s => s | None => rinit end.

Lemma ex_registry :
  rreachable ex_rcfg ex_rstate /\
  r_done (rthr ex_rstate 1) =
    [ {| l_pre := [1; 2]; l_seen := [10; 11; 20; 21] |}; {| l_pre := []; l_seen := [10; 11] |} ] /\
  completed ex_rstate = [1; 2].
Proof.
  split; [apply rrun_default_reachable|]. vm_compute. auto.
Qed.

(* a reader cannot take the lock while a writer is inserting: the step is not enabled *)
Lemma ex_reader_blocked :
  exists s, rrun_trace ex_rcfg (firstn 4 ex_rtrace) rinit = Some s /\
            rstep ex_rcfg s 1 RRLock = None.
Proof.
  destruct (rrun_trace ex_rcfg (firstn 4 ex_rtrace) rinit) as [s|] eqn:E.
  - exists s. split; [reflexivity|]. vm_compute in E. injection E as <-. vm_compute. reflexivity.
  - vm_compute in E. discriminate.
Qed.

Lemma subset_prefix a b : prefix a b -> subset a b = true.
Proof.
  intros [r ->]. unfold subset. apply forallb_forall. intros x Hx.
  apply existsb_exists. exists x. split; [apply in_or_app; now left | apply Nat.eqb_refl].
Qed.

(* for any two finished lookups of a reachable registry state there are registration
   sequences C1, C2 explaining what they saw, and the observation predicate holds of them *)
Theorem robs_ok_of_model c s :
  rreachable c s ->
  forall t1 t2 k1 k2, In k1 (r_done (rthr s t1)) -> In k2 (r_done (rthr s t2)) ->
  exists C1 C2, l_seen k1 = contents c C1 /\ l_seen k2 = contents c C2 /\
    robs_ok [(l_pre k1, C1); (l_pre k2, C2)] = true.
Proof.
  intros R t1 t2 k1 k2 H1 H2. pose proof (rinv_reachable c s R) as I.
  destruct (R_done c s I t1 k1 H1) as (C1 & E1 & Q1 & P1).
  destruct (R_done c s I t2 k2 H2) as (C2 & E2 & Q2 & P2).
  exists C1, C2. split; [exact E1|]. split; [exact E2|].
  unfold robs_ok. cbn [forallb fst snd].
  rewrite (subset_prefix _ _ Q1), (subset_prefix _ _ Q2), (subset_prefix _ _ (prefix_refl C1)),
    (subset_prefix _ _ (prefix_refl C2)).
  destruct (prefix_comparable _ _ _ P1 P2) as [P|P]; rewrite (subset_prefix _ _ P);
    cbn [andb orb]; rewrite ?orb_true_r; reflexivity.
Qed.
