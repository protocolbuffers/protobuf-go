(* Proofs about CodeGen/EmitModel.v: the import block is strictly sorted by import
   path and does not depend on the order in which Content ranges over its maps. *)
From Coq Require Import List NArith Bool Lia Permutation Sorted.
From Coq Require Import ZifyBool ZifyNat ZifyN.
From PB Require Import Base.PBytes Base.ListP CodeGen.NamesModel CodeGen.NamesP CodeGen.UniqueModel CodeGen.UniqueP
  CodeGen.MapRangeModel CodeGen.MapRangeP CodeGen.EmitModel.
Import ListNotations.
Open Scope N_scope.

Lemma bytes_ltb_irrefl a : bytes_ltb a a = false.
Proof.
  induction a as [|x a IH]; cbn [bytes_ltb]; [reflexivity|].
  rewrite N.ltb_irrefl. exact IH.
Qed.

Lemma bytes_ltb_trans : forall a b c, bytes_ltb a b = true -> bytes_ltb b c = true -> bytes_ltb a c = true.
Proof.
  induction a as [|x a IH]; intros [|y b] [|z c]; cbn [bytes_ltb]; try discriminate; try reflexivity.
  destruct (b2n x <? b2n y) eqn:E1.
  - intros _. destruct (b2n y <? b2n z) eqn:E2.
    + intros _. replace (b2n x <? b2n z) with true by lia. reflexivity.
    + destruct (b2n z <? b2n y) eqn:E3; [discriminate|]. intros _.
      replace (b2n x <? b2n z) with true by lia. reflexivity.
  - destruct (b2n y <? b2n x) eqn:E2; [discriminate|]. intros H1.
    destruct (b2n y <? b2n z) eqn:E3.
    + intros _. replace (b2n x <? b2n z) with true by lia. reflexivity.
    + destruct (b2n z <? b2n y) eqn:E4; [discriminate|]. intros H2.
      replace (b2n x <? b2n z) with false by lia. replace (b2n z <? b2n x) with false by lia.
      now apply (IH b c).
Qed.

Lemma bytes_ltb_total : forall a b, bytes_ltb a b = false -> bytes_ltb b a = false -> a = b.
Proof.
  induction a as [|x a IH]; intros [|y b]; cbn [bytes_ltb]; try discriminate; [reflexivity|].
  destruct (b2n x <? b2n y) eqn:E1; [discriminate|].
  destruct (b2n y <? b2n x) eqn:E2; [discriminate|].
  intros H1 H2. f_equal; [apply b2n_inj; lia|now apply IH].
Qed.

Lemma assoc_name_none l p : assoc_name l p = None <-> ~ In p (map fst l).
Proof.
  induction l as [|[q n] t IH]; cbn [assoc_name map fst In]; [tauto|].
  destruct (bytes_eqb p q) eqn:E.
  - apply bytes_eqb_eq in E. subst. split; [discriminate|]. intros H. exfalso. apply H. now left.
  - apply bytes_eqb_neq in E. rewrite IH. split.
    + intros H [H1|H1]; [congruence|contradiction].
    + intros H H1. apply H. now right.
Qed.

Definition wf (g : gfile) : Prop := NoDup (map fst (g_pkgs g)) /\ NoDup (g_manual g).

Lemma apply_op_wf g o : wf g -> wf (apply_op g o).
Proof.
  intros [H1 H2]. destruct o as [p|p]; cbn [apply_op].
  - unfold qualified. destruct (bytes_eqb p (g_own g)); [now split|].
    destruct (assoc_name (g_pkgs g) p) eqn:E; [now split|].
    split; cbn [g_pkgs g_manual map fst]; [|exact H2]. constructor; [|exact H1]. now apply assoc_name_none.
  - unfold manual_import. destruct (mem_name p (g_manual g)) eqn:E; [now split|].
    split; cbn [g_pkgs g_manual]; [exact H1|]. constructor; [|exact H2].
    intros H. apply mem_name_in in H. congruence.
Qed.

Lemma run_ops_wf own ops : wf (run_ops own ops).
Proof.
  unfold run_ops.
  assert (G : forall g, wf g -> wf (fold_left apply_op ops g)).
  { induction ops as [|o t IH]; intros g H; cbn [fold_left]; [exact H|]. apply IH. now apply apply_op_wf. }
  apply G. split; constructor.
Qed.

Definition collected (g : gfile) (pk man : list path) : list (name * path) :=
  map (fun p => (name_of g p, p)) pk ++ map (fun p => ([ch_us], p)) (filter (fun p => negb (has_pkg g p)) man).

Lemma collected_paths g pk man :
  map snd (collected g pk man) = pk ++ filter (fun p => negb (has_pkg g p)) man.
Proof.
  unfold collected. rewrite map_app, !map_map. cbn [snd]. now rewrite !map_id.
Qed.

Lemma collected_nodup g pk man :
  wf g -> Permutation pk (map fst (g_pkgs g)) -> Permutation man (g_manual g) ->
  NoDup (map snd (collected g pk man)).
Proof.
  intros [W1 W2] P1 P2. rewrite collected_paths.
  assert (N1 : NoDup pk) by (apply (Permutation_NoDup (Permutation_sym P1)); exact W1).
  assert (N2 : NoDup man) by (apply (Permutation_NoDup (Permutation_sym P2)); exact W2).
  apply list_nodup_app_intro; [exact N1|now apply NoDup_filter|].
  intros p Hp Hf. apply filter_In in Hf as [_ Hf]. apply negb_true_iff in Hf.
  unfold has_pkg in Hf. destruct (assoc_name (g_pkgs g) p) eqn:E; [discriminate|].
  apply assoc_name_none in E. apply E. now apply (Permutation_in _ P1).
Qed.

Theorem import_entries_order_invariant own ops :
  let g := run_ops own ops in
  forall pk man, Permutation pk (map fst (g_pkgs g)) -> Permutation man (g_manual g) ->
  import_entries g pk man = import_block g.
Proof.
  cbn zeta. intros pk man P1 P2. unfold import_block, import_entries.
  apply (sort_by_order_invariant snd bytes_ltb bytes_ltb_irrefl bytes_ltb_trans bytes_ltb_total).
  - apply Permutation_app; [now apply Permutation_map|]. apply Permutation_map. now apply list_perm_filter.
  - apply (collected_nodup _ pk man); [apply run_ops_wf|exact P1|exact P2].
Qed.

Theorem import_block_strictly_sorted own ops :
  StronglySorted (fun a b => bytes_ltb (snd a) (snd b) = true) (import_block (run_ops own ops)).
Proof.
  unfold import_block, import_entries.
  apply (sorted_strict snd bytes_ltb bytes_ltb_total).
  - apply (sort_by_sorted snd bytes_ltb bytes_ltb_irrefl bytes_ltb_trans bytes_ltb_total).
  - set (g := run_ops own ops).
    apply (Permutation_NoDup (l := map snd (collected g (map fst (g_pkgs g)) (g_manual g)))).
    + apply Permutation_map, Permutation_sym, sort_by_perm.
    + apply collected_nodup; [apply run_ops_wf|apply Permutation_refl|apply Permutation_refl].
Qed.

Theorem import_block_paths own ops p :
  let g := run_ops own ops in
  In p (map snd (import_block g)) <-> In p (map fst (g_pkgs g)) \/ In p (g_manual g).
Proof.
  cbn zeta. set (g := run_ops own ops). unfold import_block, import_entries.
  assert (P : Permutation (map snd (sort_by snd bytes_ltb (collected g (map fst (g_pkgs g)) (g_manual g))))
                          (map snd (collected g (map fst (g_pkgs g)) (g_manual g))))
    by apply Permutation_map, sort_by_perm.
  fold (collected g (map fst (g_pkgs g)) (g_manual g)).
  split.
  - intros H. apply (Permutation_in _ P) in H. rewrite collected_paths, in_app_iff in H.
    destruct H as [H|H]; [now left|]. apply filter_In in H. tauto.
  - intros H. apply (Permutation_in _ (Permutation_sym P)). rewrite collected_paths, in_app_iff.
    destruct H as [H|H]; [now left|].
    destruct (has_pkg g p) eqn:E.
    + left. unfold has_pkg in E. destruct (assoc_name (g_pkgs g) p) eqn:E2; [|discriminate].
      destruct (in_dec (list_eq_dec Byte.byte_eq_dec) p (map fst (g_pkgs g))) as [I|I]; [exact I|].
      apply assoc_name_none in I. congruence.
    + right. apply filter_In. split; [exact H|]. now rewrite E.
Qed.
