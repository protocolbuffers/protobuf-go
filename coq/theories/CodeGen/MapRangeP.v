(* Proofs about CodeGen/MapRangeModel.v: every safe loop shape yields the same
   result for every iteration order (permutation of the key list). *)
From Coq Require Import List Bool Permutation Sorted.
From PB Require Import Base.ListP CodeGen.MapRangeModel.
Import ListNotations.

Section SortP.
  Context {A K : Type} (key : A -> K) (ltb : K -> K -> bool).
  (* a strict total order on keys *)
  Hypothesis ltb_irrefl : forall a, ltb a a = false.
  Hypothesis ltb_trans : forall a b c, ltb a b = true -> ltb b c = true -> ltb a c = true.
  Hypothesis ltb_total : forall a b, ltb a b = false -> ltb b a = false -> a = b.

  Definition key_le (a b : A) : Prop := ltb (key b) (key a) = false.

  Lemma ltb_asym a b : ltb a b = true -> ltb b a = false.
  Proof.
    intros H. destruct (ltb b a) eqn:E; [|reflexivity].
    pose proof (ltb_trans _ _ _ H E) as C. rewrite ltb_irrefl in C. discriminate.
  Qed.

  Lemma key_le_trans a b c : key_le a b -> key_le b c -> key_le a c.
  Proof.
    unfold key_le. intros H1 H2. destruct (ltb (key c) (key a)) eqn:E; [|reflexivity].
    destruct (ltb (key b) (key c)) eqn:E2.
    - pose proof (ltb_trans _ _ _ E2 E). congruence.
    - pose proof (ltb_total _ _ E2 H2) as Q. rewrite Q in H1. congruence.
  Qed.

  Lemma insert_by_perm x l : Permutation (insert_by key ltb x l) (x :: l).
  Proof.
    induction l as [|y t IH]; cbn [insert_by]; [apply Permutation_refl|].
    destruct (ltb (key x) (key y)); [apply Permutation_refl|].
    apply Permutation_trans with (y :: x :: t); [now apply perm_skip|apply perm_swap].
  Qed.

  Lemma sort_by_perm l : Permutation (sort_by key ltb l) l.
  Proof.
    induction l as [|x t IH]; cbn [sort_by fold_right]; [apply perm_nil|].
    eapply Permutation_trans; [apply insert_by_perm|]. now apply perm_skip.
  Qed.

  Lemma insert_by_sorted x l :
    StronglySorted key_le l -> StronglySorted key_le (insert_by key ltb x l).
  Proof.
    induction l as [|y t IH]; intros H; cbn [insert_by].
    - constructor; constructor.
    - inversion H as [|? ? Ht Hy]; subst.
      destruct (ltb (key x) (key y)) eqn:E.
      + constructor; [exact H|]. constructor.
        * unfold key_le. now apply ltb_asym.
        * eapply Forall_impl; [|exact Hy]. intros z Hz. apply key_le_trans with y; [|exact Hz].
          unfold key_le. now apply ltb_asym.
      + constructor; [now apply IH|].
        apply (Permutation_Forall (Permutation_sym (insert_by_perm x t))).
        constructor; [exact E|exact Hy].
  Qed.

  Lemma sort_by_sorted l : StronglySorted key_le (sort_by key ltb l).
  Proof.
    induction l as [|x t IH]; cbn [sort_by fold_right]; [constructor|]. now apply insert_by_sorted.
  Qed.

  (* a list with distinct keys has exactly one sorted arrangement *)
  Lemma sorted_perm_unique : forall l1 l2,
    StronglySorted key_le l1 -> StronglySorted key_le l2 -> Permutation l1 l2 ->
    NoDup (map key l1) -> l1 = l2.
  Proof.
    induction l1 as [|a t1 IH]; intros l2 S1 S2 P N.
    - apply Permutation_nil in P. now subst.
    - destruct l2 as [|b t2]; [apply Permutation_sym, Permutation_nil in P; discriminate|].
      inversion S1 as [|? ? St1 Ha]; subst. inversion S2 as [|? ? St2 Hb]; subst.
      assert (Ia : In a (b :: t2)) by (apply (Permutation_in _ P); now left).
      assert (Ib : In b (a :: t1)) by (apply (Permutation_in _ (Permutation_sym P)); now left).
      assert (Lab : key_le a b).
      { destruct Ib as [<-|Ib]; [apply ltb_irrefl|]. rewrite Forall_forall in Ha. now apply Ha. }
      assert (Lba : key_le b a).
      { destruct Ia as [<-|Ia]; [apply ltb_irrefl|]. rewrite Forall_forall in Hb. now apply Hb. }
      assert (E : a = b).
      { apply (list_nodup_map_inj key (a :: t1)); [exact N|now left|exact Ib|]. symmetry. now apply ltb_total. }
      subst b. f_equal. apply IH; [assumption|assumption|now apply Permutation_cons_inv in P|].
      cbn [map] in N. now inversion N.
  Qed.

  Theorem sort_by_order_invariant l1 l2 :
    Permutation l1 l2 -> NoDup (map key l1) -> sort_by key ltb l1 = sort_by key ltb l2.
  Proof.
    intros P N. apply sorted_perm_unique; try apply sort_by_sorted.
    - eapply Permutation_trans; [apply sort_by_perm|].
      eapply Permutation_trans; [exact P|apply Permutation_sym, sort_by_perm].
    - apply (Permutation_NoDup (l := map key l1)); [|exact N].
      apply Permutation_map, Permutation_sym, sort_by_perm.
  Qed.

  (* the sorted result is strictly increasing when the keys are distinct *)
  Lemma sorted_strict l :
    StronglySorted key_le l -> NoDup (map key l) ->
    StronglySorted (fun a b => ltb (key a) (key b) = true) l.
  Proof.
    induction l as [|a t IH]; intros S N; [constructor|].
    inversion S as [|? ? St Ha]; subst. cbn [map] in N. inversion N as [|? ? Na Nt]; subst.
    constructor; [now apply IH|]. rewrite Forall_forall in *. intros b Hb.
    destruct (ltb (key a) (key b)) eqn:E; [reflexivity|]. exfalso. apply Na.
    rewrite (ltb_total _ _ E (Ha b Hb)). now apply in_map.
  Qed.
End SortP.

Theorem collect_then_sort_invariant {K A KS} (guard : K -> bool) (f : K -> A) (key : A -> KS)
    (ltb : KS -> KS -> bool) :
  (forall a, ltb a a = false) ->
  (forall a b c, ltb a b = true -> ltb b c = true -> ltb a c = true) ->
  (forall a b, ltb a b = false -> ltb b a = false -> a = b) ->
  forall o1 o2, Permutation o1 o2 -> NoDup (map key (map f (filter guard o1))) ->
  collect_then_sort guard f key ltb o1 = collect_then_sort guard f key ltb o2.
Proof.
  intros I T Tot o1 o2 P N. unfold collect_then_sort.
  apply sort_by_order_invariant; try assumption.
  apply Permutation_map. now apply list_perm_filter.
Qed.

(* membership in the built set, whatever the order: some guarded key maps to x *)
Lemma insert_into_set_mem {K X} (eqb : X -> X -> bool) (guard : K -> bool) (f : K -> X) x :
  forall order acc,
  set_mem eqb (fold_left (fun s k => if guard k then f k :: s else s) order acc) x =
  existsb (fun k => guard k && eqb x (f k)) order || set_mem eqb acc x.
Proof.
  induction order as [|k t IH]; intros acc; cbn [fold_left existsb]; [reflexivity|].
  rewrite IH. destruct (guard k); cbn [andb orb]; [|reflexivity].
  unfold set_mem. cbn [existsb]. now rewrite !orb_assoc, (orb_comm (eqb x (f k))).
Qed.

(* holds for any test eqb, not only a decidable equality *)
Theorem insert_into_set_invariant {K X} (eqb : X -> X -> bool) (guard : K -> bool) (f : K -> X) :
  forall o1 o2, Permutation o1 o2 ->
  forall x, set_mem eqb (insert_into_set guard f o1) x = set_mem eqb (insert_into_set guard f o2) x.
Proof.
  intros o1 o2 P x. unfold insert_into_set. rewrite !insert_into_set_mem.
  f_equal. now apply list_perm_existsb.
Qed.

Lemma insert_into_map_lookup {K V} (eqb : K -> K -> bool) (guard : K -> bool) (g : K -> V) :
  (forall a b, eqb a b = true <-> a = b) ->
  forall order acc k,
  map_lookup eqb (fold_left (fun m k => if guard k then (k, g k) :: m else m) order acc) k =
  if existsb (fun k' => eqb k k' && guard k') order then Some (g k) else map_lookup eqb acc k.
Proof.
  intros Heq. induction order as [|k0 t IH]; intros acc k; cbn [fold_left existsb]; [reflexivity|].
  rewrite IH. destruct (existsb (fun k' => eqb k k' && guard k') t); [now rewrite orb_true_r|].
  rewrite orb_false_r. destruct (guard k0) eqn:G; [|now rewrite andb_false_r].
  rewrite andb_true_r. cbn [map_lookup]. destruct (eqb k k0) eqn:E; [|reflexivity].
  apply Heq in E. now subst.
Qed.

Theorem insert_into_map_invariant {K V} (eqb : K -> K -> bool) (guard : K -> bool) (g : K -> V) :
  (forall a b, eqb a b = true <-> a = b) ->
  forall o1 o2, Permutation o1 o2 ->
  forall k, map_lookup eqb (insert_into_map guard g o1) k = map_lookup eqb (insert_into_map guard g o2) k.
Proof.
  intros Heq o1 o2 P k. unfold insert_into_map. rewrite !(insert_into_map_lookup eqb guard g Heq).
  now rewrite (list_perm_existsb _ _ _ P).
Qed.

Theorem order_fold_invariant {K B} (op : B -> B -> B) (f : K -> B) :
  (forall a b c, op (op a b) c = op (op a c) b) ->
  forall o1 o2, Permutation o1 o2 -> forall init, order_fold op f init o1 = order_fold op f init o2.
Proof.
  intros Hc o1 o2 P. unfold order_fold. induction P; intros init; cbn [fold_left].
  - reflexivity.
  - apply IHP.
  - now rewrite Hc.
  - now rewrite IHP1.
Qed.

Theorem return_error_invariant {K} (bad : K -> bool) :
  forall o1 o2, Permutation o1 o2 ->
  is_some (return_error bad o1) = is_some (return_error bad o2).
Proof.
  intros o1 o2 P. unfold return_error.
  assert (F : forall o, is_some (find bad o) = existsb bad o).
  { induction o as [|k t IH]; cbn [find existsb]; [reflexivity|]. destruct (bad k); [reflexivity|exact IH]. }
  rewrite !F. now apply list_perm_existsb.
Qed.

Definition strict_total {K} (ltb : K -> K -> bool) : Prop :=
  (forall a, ltb a a = false) /\
  (forall a b c, ltb a b = true -> ltb b c = true -> ltb a c = true) /\
  (forall a b, ltb a b = false -> ltb b a = false -> a = b).

Theorem safe_shapes_order_invariant :
  (* CollectThenSort: distinct sort keys under a strict total order *)
  (forall K A KS (guard : K -> bool) (f : K -> A) (key : A -> KS) (ltb : KS -> KS -> bool),
     strict_total ltb -> forall o1 o2, Permutation o1 o2 ->
     NoDup (map key (map f (filter guard o1))) ->
     collect_then_sort guard f key ltb o1 = collect_then_sort guard f key ltb o2) /\
  (* InsertIntoMapOrSet, set form: same members *)
  (forall K X (eqb : X -> X -> bool) (guard : K -> bool) (f : K -> X),
     (forall a b, eqb a b = true <-> a = b) -> forall o1 o2, Permutation o1 o2 ->
     forall x, set_mem eqb (insert_into_set guard f o1) x = set_mem eqb (insert_into_set guard f o2) x) /\
  (* InsertIntoMapOrSet, map indexed by the range key: same bindings *)
  (forall K V (eqb : K -> K -> bool) (guard : K -> bool) (g : K -> V),
     (forall a b, eqb a b = true <-> a = b) -> forall o1 o2, Permutation o1 o2 ->
     forall k, map_lookup eqb (insert_into_map guard g o1) k = map_lookup eqb (insert_into_map guard g o2) k) /\
  (* OrderInsensitiveFold: a right-commutative operation (sum, max, or, and) *)
  (forall K B (op : B -> B -> B) (f : K -> B),
     (forall a b c, op (op a b) c = op (op a c) b) -> forall o1 o2, Permutation o1 o2 ->
     forall init, order_fold op f init o1 = order_fold op f init o2) /\
  (* ReturnError: whether an error is returned (not which key it names) *)
  (forall K (bad : K -> bool) o1 o2, Permutation o1 o2 ->
     is_some (return_error bad o1) = is_some (return_error bad o2)).
Proof.
  repeat split.
  - intros K A KS guard f key ltb [I [T Tot]]. now apply collect_then_sort_invariant.
  - intros. now apply insert_into_set_invariant.
  - intros. now apply insert_into_map_invariant.
  - intros. now apply order_fold_invariant.
  - intros. now apply return_error_invariant.
Qed.

(* the site table is regenerated from the source on every run *)
From PB Require Import Gen.MapRangeSites.
Theorem all_sites_safe : forall s, In s sites -> site_ok s = true.
Proof. apply forallb_forall. vm_compute. reflexivity. Qed.
Theorem all_nondet_ok : forall n, In n nondet_sources -> nondet_ok n = true.
Proof. apply forallb_forall. vm_compute. reflexivity. Qed.
Theorem all_marshal_sites_ok : forall m, In m marshal_sites -> marshal_ok m = true.
Proof. apply forallb_forall. vm_compute. reflexivity. Qed.
