(* Proofs about CodeGen/NamesModel.v (C42): GoCamelCase of a protobuf identifier is an
   exported Go identifier; JSONSnakeCase inverts JSONCamelCase exactly on [snake_ok] names,
   which is what marshalFieldMask accepts; GoSanitized yields a Go identifier that is not a
   keyword.  The statement on byte strings is in NamesUtf8P.v. *)
From Coq Require Import List NArith ZArith Bool Lia.
From Coq Require Import ZifyBool ZifyNat ZifyN.
From PB Require Import Base.PBytes CodeGen.NamesModel.
From PB Require Export Base.PBytesP.
Import ListNotations.
Open Scope N_scope.

Lemma b2n_n2b' n : n < 256 -> b2n (n2b n) = n.
Proof. apply b2n_n2b. Qed.

Lemma bytes_eqb_eq a : forall b, bytes_eqb a b = true <-> a = b.
Proof. exact (b2n_list_eqb_eq a). Qed.
Lemma bytes_eqb_refl a : bytes_eqb a a = true.
Proof. exact (b2n_list_eqb_refl a). Qed.
Lemma bytes_eqb_neq a b : bytes_eqb a b = false <-> a <> b.
Proof.
  destruct (bytes_eqb a b) eqn:E.
  - apply bytes_eqb_eq in E. split; [discriminate|congruence].
  - split; [|reflexivity]. intros _ H. apply bytes_eqb_eq in H. congruence.
Qed.

Ltac cls := unfold is_letter_digit_b, is_letter_b, is_lower, is_upper, is_digit, is_us, is_dot,
              to_upper, to_lower, ch_us, ch_X in *.

Lemma b2n_to_upper c : is_lower c = true -> b2n (to_upper c) = b2n c - 32.
Proof. cls. intros H. pose proof (b2n_lt c). rewrite b2n_n2b; lia. Qed.
Lemma b2n_to_lower c : is_upper c = true -> b2n (to_lower c) = b2n c + 32.
Proof. cls. intros H. pose proof (b2n_lt c). rewrite b2n_n2b; lia. Qed.

Lemma to_upper_is_upper c : is_lower c = true -> is_upper (to_upper c) = true.
Proof. intros H. pose proof (b2n_to_upper c H) as E. cls. lia. Qed.
Lemma to_lower_is_lower c : is_upper c = true -> is_lower (to_lower c) = true.
Proof. intros H. pose proof (b2n_to_lower c H) as E. cls. lia. Qed.
Lemma to_lower_to_upper c : is_lower c = true -> to_lower (to_upper c) = c.
Proof.
  intros H. apply b2n_inj. rewrite b2n_to_lower by now apply to_upper_is_upper.
  rewrite b2n_to_upper by assumption. cls. lia.
Qed.

Lemma b2n_ch_us : b2n ch_us = 95. Proof. reflexivity. Qed.
Lemma b2n_ch_X : b2n ch_X = 88. Proof. reflexivity. Qed.

Lemma is_us_eq c : is_us c = true -> c = ch_us.
Proof. intros H. apply b2n_inj. rewrite b2n_ch_us. unfold is_us in H. lia. Qed.

Lemma camel_aux_ident : forall s start inword,
  forallb is_letter_digit_b s = true ->
  forallb is_letter_digit_b (camel_aux start inword s) = true.
Proof.
  induction s as [|c r IH]; intros start inword H; [reflexivity|].
  cbn [forallb] in H. apply andb_true_iff in H as [Hc Hr].
  cbn [camel_aux].
  assert (Hup : is_lower c = true -> is_letter_digit_b (to_upper c) = true).
  { intros L. pose proof (to_upper_is_upper c L). cls. lia. }
  assert (HX : is_letter_digit_b ch_X = true) by reflexivity.
  assert (HU : is_letter_digit_b ch_us = true) by reflexivity.
  (* whichever arm of camel_aux is taken, it emits c, to_upper c, '_', 'X' or nothing and
     continues on r *)
  repeat match goal with
  | |- context [if ?b then _ else _] => destruct b eqn:?
  end; cbn [forallb]; rewrite ?IH by assumption; rewrite ?Hc, ?HX, ?HU, ?Hup by assumption; reflexivity.
Qed.

(* the first byte of an identifier yields an upper-case letter: 'X' for '_', else the letter *)
Lemma camel_head c r :
  is_letter_b c = true -> exists x t, go_camel_case (c :: r) = x :: t /\ is_upper x = true.
Proof.
  intros Hc. unfold go_camel_case. cbn [camel_aux andb].
  assert (Hd : is_dot c = false) by (cls; lia). rewrite Hd. cbn [andb].
  destruct (is_us c) eqn:Eu; cbn [andb]; [now eexists _, _|].
  assert (Hg : is_digit c = false) by (cls; lia). rewrite Hg.
  destruct (is_lower c) eqn:El; eexists _, _; (split; [reflexivity|]).
  - now apply to_upper_is_upper.
  - cls. lia.
Qed.

Theorem camel_exported_identifier s :
  proto_ident s = true ->
  exists c r, go_camel_case s = c :: r /\ is_upper c = true /\
              forallb is_letter_digit_b (c :: r) = true.
Proof.
  destruct s as [|c r]; [discriminate|]. cbn [proto_ident]. intros H.
  apply andb_true_iff in H as [Hc Hr].
  destruct (camel_head c r Hc) as (x & t & E & U). exists x, t.
  split; [exact E|]. split; [exact U|]. rewrite <- E.
  apply camel_aux_ident. cbn [forallb]. rewrite Hr, andb_true_r.
  unfold is_letter_digit_b. now rewrite Hc.
Qed.

Lemma json_camel_no_us : forall s w, forallb (fun c => negb (is_us c)) (json_camel_aux w s) = true.
Proof.
  induction s as [|c r IH]; intros w; [reflexivity|]. cbn [json_camel_aux].
  destruct (is_us c) eqn:Eu; [apply IH|]. cbn [forallb]. rewrite IH, andb_true_r.
  destruct (w && is_lower c) eqn:E; [|now rewrite Eu].
  apply andb_true_iff in E as [_ L]. pose proof (b2n_to_upper c L). cls. lia.
Qed.

Lemma snake_ok_of_no_us : forall t,
  forallb (fun c => negb (is_us c)) t = true -> snake_ok (json_snake_case t) = true.
Proof.
  induction t as [|c r IH]; intros H; [reflexivity|].
  cbn [forallb] in H. apply andb_true_iff in H as [Hc Hr]. specialize (IH Hr).
  cbn [json_snake_case]. destruct (is_upper c) eqn:U.
  - pose proof (to_lower_is_lower c U) as L. cbn [snake_ok next_is_lower]. rewrite IH, L.
    assert (is_upper (to_lower c) = false) by (cls; lia).
    assert (is_us (to_lower c) = false) by (cls; lia).
    assert (is_upper ch_us = false) by reflexivity. assert (is_us ch_us = true) by reflexivity.
    repeat match goal with H : _ = _ |- _ => rewrite H end. reflexivity.
  - cbn [snake_ok]. rewrite IH, U. apply negb_true_iff in Hc. rewrite Hc. reflexivity.
Qed.

Lemma snake_camel_forward : forall n s, (length s <= n)%nat -> snake_ok s = true ->
  json_snake_case (json_camel_aux false s) = s.
Proof.
  induction n as [|n IH]; intros s Hl H.
  - destruct s; [reflexivity|cbn in Hl; lia].
  - destruct s as [|c r]; [reflexivity|]. cbn [length] in Hl.
    cbn [snake_ok] in H. apply andb_true_iff in H as [H Hr]. apply andb_true_iff in H as [Hu Hn].
    apply negb_true_iff in Hu. cbn [json_camel_aux]. destruct (is_us c) eqn:Eu.
    + destruct r as [|d r']; [discriminate|]. cbn [next_is_lower] in Hn.
      assert (Ed : is_us d = false) by (cls; lia).
      cbn [json_camel_aux]. rewrite Ed, Hn. cbn [andb json_snake_case].
      rewrite (to_upper_is_upper d Hn), (to_lower_to_upper d Hn).
      cbn [snake_ok] in Hr. apply andb_true_iff in Hr as [_ Hr'].
      cbn [length] in Hl. rewrite IH by (assumption || (clear - Hl; lia)).
      now rewrite (is_us_eq c Eu).
    + cbn [andb json_snake_case]. rewrite Hu, IH by (assumption || (clear - Hl; lia)). reflexivity.
Qed.

Theorem snake_camel_inverse s :
  json_snake_case (json_camel_case s) = s <-> snake_ok s = true.
Proof.
  split.
  - intros H. rewrite <- H. apply snake_ok_of_no_us, json_camel_no_us.
  - apply (snake_camel_forward (length s)). lia.
Qed.

(* what marshalFieldMask accepts *)
Theorem fieldmask_accepts_iff s :
  fst (fieldmask_path s) = 0 <-> fullname_valid s = true /\ snake_ok s = true.
Proof.
  unfold fieldmask_path. destruct (fullname_valid s); cbn [negb].
  - destruct (bytes_eqb s (json_snake_case (json_camel_case s))) eqn:E; cbn [fst].
    + apply bytes_eqb_eq in E. symmetry in E. apply snake_camel_inverse in E. tauto.
    + apply bytes_eqb_neq in E. split; [discriminate|]. intros [_ H].
      apply snake_camel_inverse in H. congruence.
  - cbn [fst]. split; [discriminate|]. intros [H _]. discriminate.
Qed.

Theorem fieldmask_accepted_roundtrip s out :
  fieldmask_path s = (0, out) -> out = json_camel_case s /\ json_snake_case out = s.
Proof.
  unfold fieldmask_path. destruct (fullname_valid s); cbn [negb]; [|discriminate].
  destruct (bytes_eqb s (json_snake_case (json_camel_case s))) eqn:E; [|discriminate].
  intros [= <-]. apply bytes_eqb_eq in E. auto.
Qed.

Lemma keyword_not_us_first m : is_keyword (95 :: m) = false.
Proof. reflexivity. Qed.

Section SanitizedP.
  Variable u_letter u_digit : N -> bool.
  (* the one fact about unicode.IsLetter that the result depends on:
     U+FFFD (what DecodeRuneInString returns for "") is not a letter *)
  Hypothesis rune_error_not_letter : u_letter rune_error = false.

  Lemma sanitize_rune_part r : ident_part u_letter u_digit (sanitize_rune u_letter u_digit r) = true.
  Proof.
    unfold sanitize_rune, ident_part. destruct (u_letter r || u_digit r) eqn:E.
    - apply orb_true_iff in E as [-> | ->]; [reflexivity|]. now rewrite orb_true_r.
    - now rewrite N.eqb_refl, orb_true_r.
  Qed.

  Theorem sanitized_valid_nonkeyword rs :
    go_identifier u_letter u_digit (go_sanitized_runes u_letter u_digit rs) = true.
  Proof.
    unfold go_sanitized_runes.
    set (m := map (sanitize_rune u_letter u_digit) rs).
    assert (Hall : forallb (ident_part u_letter u_digit) m = true).
    { apply forallb_forall. intros x Hx. apply in_map_iff in Hx as [r [<- _]]. apply sanitize_rune_part. }
    destruct (is_keyword m || negb (u_letter match m with r :: _ => r | [] => rune_error end)) eqn:E.
    - cbn [go_identifier]. rewrite Hall, keyword_not_us_first. unfold ident_start.
      now rewrite N.eqb_refl, orb_true_r.
    - apply orb_false_iff in E as [Ek El]. apply negb_false_iff in El.
      destruct m as [|r t]; [congruence|]. cbn [go_identifier]. cbn [forallb] in Hall.
      apply andb_true_iff in Hall as [_ Ht]. rewrite Ht, Ek. unfold ident_start. now rewrite El.
  Qed.
End SanitizedP.
