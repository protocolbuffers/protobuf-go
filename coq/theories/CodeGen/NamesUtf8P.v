(* GoSanitized on byte strings: the UTF-8 decoder and encoder of NamesModel are those of
   Base/Utf8Valid, whose round trip carries the rune-level result over to strings. *)
From Coq Require Import List Arith NArith Bool Lia.
From PB Require Base.Utf8Valid Base.Utf8ValidP Base.PBytesP.
From PB Require Import Base.PBytes CodeGen.NamesModel CodeGen.NamesP.
Import ListNotations.
Open Scope N_scope.

Lemma decode_rune_eq bs : decode_rune bs = Utf8Valid.decode_rune bs.
Proof. reflexivity. Qed.
Lemma encode_rune_eq r : encode_rune r = Utf8Valid.encode_rune r.
Proof. reflexivity. Qed.

Lemma decode_encode_rune r rest :
  Utf8Valid.scalar r -> decode_rune (encode_rune r ++ rest) = (r, length (encode_rune r)).
Proof. rewrite encode_rune_eq, decode_rune_eq. apply Utf8ValidP.decode_encode_rune. Qed.

Lemma encode_rune_len r : (1 <= length (encode_rune r) <= 4)%nat.
Proof. rewrite encode_rune_eq. apply Utf8ValidP.encode_rune_length. Qed.

(* DecodeRune yields a scalar value on every input: RuneError where it fails *)
Lemma decode_rune_scalar bs : Utf8Valid.scalar (fst (decode_rune bs)).
Proof.
  assert (VE : Utf8Valid.scalar rune_error) by (unfold Utf8Valid.scalar, rune_error; lia).
  destruct bs as [|b t]; [exact VE|]. rewrite decode_rune_eq.
  destruct (Utf8Valid.decode_rune (b :: t)) as [r n] eqn:D. destruct (Utf8Valid.decode_bad (r, n)) eqn:B.
  - apply andb_prop in B as [B _]. apply N.eqb_eq in B. cbn [fst] in *. now rewrite B.
  - now apply (Utf8ValidP.decode_rune_sound _ _ _ D B).
Qed.

Lemma decode_runes_fuel_valid : forall fuel bs, Forall Utf8Valid.scalar (decode_runes_fuel fuel bs).
Proof.
  induction fuel as [|f IH]; intros bs; cbn [decode_runes_fuel]; [constructor|].
  destruct bs as [|b t]; [constructor|].
  pose proof (decode_rune_scalar (b :: t)) as V.
  destruct (decode_rune (b :: t)) as [r n]. constructor; [exact V|apply IH].
Qed.

Lemma decode_runes_fuel_encode : forall rs fuel,
  Forall Utf8Valid.scalar rs -> (length (encode_runes rs) <= fuel)%nat ->
  decode_runes_fuel fuel (encode_runes rs) = rs.
Proof.
  induction rs as [|r t IH]; intros fuel V L.
  - destruct fuel; reflexivity.
  - inversion V as [|? ? Vr Vt]; subst.
    unfold encode_runes in *. cbn [flat_map] in *. rewrite app_length in L.
    pose proof (encode_rune_len r) as Lr.
    destruct fuel as [|f]; [lia|]. cbn [decode_runes_fuel].
    destruct (encode_rune r ++ flat_map encode_rune t) as [|b0 bt] eqn:EB.
    { apply (f_equal (@length _)) in EB. rewrite app_length in EB. cbn in EB. lia. }
    rewrite <- EB. rewrite (decode_encode_rune r _ Vr).
    replace (Nat.max 1 (length (encode_rune r))) with (length (encode_rune r)) by lia.
    rewrite ListP.skipn_app_len.
    f_equal. apply IH; [exact Vt|lia].
Qed.

Lemma decode_encode_runes rs : Forall Utf8Valid.scalar rs -> decode_runes (encode_runes rs) = rs.
Proof. intros V. apply decode_runes_fuel_encode; [exact V|apply Nat.le_refl]. Qed.

Section SanitizedBytesP.
  Variable u_letter u_digit : N -> bool.
  Hypothesis rune_error_not_letter : u_letter rune_error = false.

  (* the statement on strings: ranging over the result of GoSanitized yields a
     Go identifier, for every byte string (valid UTF-8 or not) *)
  Theorem sanitized_valid_nonkeyword_bytes s :
    go_identifier u_letter u_digit (decode_runes (go_sanitized u_letter u_digit s)) = true.
  Proof.
    unfold go_sanitized. rewrite decode_encode_runes.
    - now apply sanitized_valid_nonkeyword.
    - unfold go_sanitized_runes.
      assert (V95 : Utf8Valid.scalar 95) by (unfold Utf8Valid.scalar; lia).
      assert (VM : Forall Utf8Valid.scalar (map (sanitize_rune u_letter u_digit) (decode_runes s))).
      { apply Forall_forall. intros x Hx. apply in_map_iff in Hx as [r [<- Hr]].
        unfold sanitize_rune. destruct (u_letter r || u_digit r); [|exact V95].
        pose proof (decode_runes_fuel_valid (length s) s) as F. rewrite Forall_forall in F. now apply F. }
      match goal with |- context [if ?c then _ else _] => destruct c end; [constructor; assumption|exact VM].
  Qed.
End SanitizedBytesP.
