(* Proofs about generated file naming (GenFileModel.v, C41).  Everything rests on
   [strip_proto_ext_app]: path.Ext of a path ending in ".proto" is ".proto", so the prefix of
   the output name is the source path without it; injectivity and the source_relative form
   follow, the variant and suffix facts are by length and shape. *)
From Coq Require Import List NArith Bool Arith Lia.
Require Import PB.Base.PBytes PB.Base.ListEqbP PB.Base.PBytesP PB.CodeGen.GenFileModel.
Import ListNotations.
Open Scope nat_scope.

Lemma gf_eqb_eq a b : gf_eqb a b = true <-> a = b.
Proof. exact (b2n_eqb_eq a b). Qed.

Lemma gf_bytes_eqb_eq : forall a b, gf_bytes_eqb a b = true <-> a = b.
Proof. exact b2n_list_eqb_eq. Qed.

(* characters that are neither '.' nor '/' *)
Definition plain (c : byte) : Prop := gf_eqb c gf_dot = false /\ gf_eqb c gf_slash = false.

Lemma ext_scan_plain : forall w rs acc, Forall plain w -> ext_scan (rev w ++ rs) acc = ext_scan rs (w ++ acc).
Proof.
  induction w as [|c w IH] using rev_ind; intros rs acc Hw; [reflexivity|].
  apply Forall_app in Hw. destruct Hw as [Hw Hc]. inversion Hc as [|? ? [Hd Hs] _]; subst.
  rewrite rev_app_distr. cbn [rev app]. cbn [ext_scan]. rewrite Hd, Hs.
  rewrite IH by assumption. now rewrite <- app_assoc.
Qed.

(* path.Ext (p ++ "." ++ w) = "." ++ w when w has no dot and no slash *)
Lemma path_ext_app p w : Forall plain w -> path_ext (p ++ gf_dot :: w) = gf_dot :: w.
Proof.
  intros Hw. unfold path_ext. rewrite rev_app_distr. cbn [rev]. rewrite <- app_assoc. cbn [app].
  rewrite ext_scan_plain by assumption. cbn [ext_scan].
  assert (gf_eqb gf_dot gf_dot = true) as -> by now apply gf_eqb_eq. now rewrite app_nil_r.
Qed.

Lemma proto_plain : Forall plain (tl ext_proto).
Proof. repeat constructor; vm_compute; reflexivity. Qed.

Lemma ext_proto_split : ext_proto = gf_dot :: tl ext_proto.
Proof. reflexivity. Qed.

Lemma path_ext_proto p : path_ext (p ++ ext_proto) = ext_proto.
Proof. rewrite ext_proto_split. apply path_ext_app, proto_plain. Qed.

Lemma strip_proto_ext_app p : strip_proto_ext (p ++ ext_proto) = p.
Proof.
  unfold strip_proto_ext. rewrite !path_ext_proto.
  assert (gf_bytes_eqb ext_proto ext_proto = true) as -> by now apply gf_bytes_eqb_eq.
  cbn [orb]. rewrite app_length. replace (length p + length ext_proto - length ext_proto) with (length p) by lia.
  rewrite firstn_app. replace (length p - length p) with 0 by lia. rewrite firstn_all. cbn [firstn]. apply app_nil_r.
Qed.

(* paths=source_relative: distinct .proto files get distinct outputs (same variant) *)
Theorem generated_filename_injective :
  forall ip p1 p2 v,
    gen_filename false ip (p1 ++ ext_proto) v = gen_filename false ip (p2 ++ ext_proto) v ->
    p1 ++ ext_proto = p2 ++ ext_proto.
Proof.
  intros ip p1 p2 v H. unfold gen_filename, gen_prefix in H. rewrite !strip_proto_ext_app in H.
  apply app_inv_tail in H. now subst.
Qed.

(* the two files of the hybrid API never coincide *)
Theorem generated_filename_variants_distinct :
  forall m ip n, gen_filename m ip n false <> gen_filename m ip n true.
Proof.
  intros m ip n H. unfold gen_filename in H. apply (f_equal (@length byte)) in H.
  rewrite !app_length in H. cbn in H. lia.
Qed.

(* every generated file name ends in ".pb.go" *)
Theorem generated_filename_suffix :
  forall m ip n v, exists q, gen_filename m ip n v = q ++ suffix_pb_go.
Proof.
  intros m ip n v. unfold gen_filename. eexists. rewrite app_assoc. reflexivity.
Qed.

(* source_relative output of a .proto file is the source path with the suffix replaced *)
Theorem generated_filename_source_relative :
  forall ip p, gen_filename false ip (p ++ ext_proto) false = p ++ suffix_pb_go.
Proof. intros. unfold gen_filename, gen_prefix. now rewrite strip_proto_ext_app. Qed.

(* module= trimming inverts prefixing *)
Lemma strip_prefix_app p s : strip_prefix p (p ++ s) = Some s.
Proof. exact (list_strip_prefix_app gf_eqb (fun x => proj2 (gf_eqb_eq x x) eq_refl) p s). Qed.

Theorem response_name_module :
  forall m rest, m <> [] -> response_name m (m ++ gf_slash :: rest) = Some rest.
Proof.
  intros m rest Hm. unfold response_name. destruct m as [|x m]; [congruence|].
  replace ((x :: m) ++ gf_slash :: rest) with (((x :: m) ++ [gf_slash]) ++ rest) by now rewrite <- app_assoc.
  apply strip_prefix_app.
Qed.
