(* Proofs about CodeGen/UniqueModel.v: what makeNameUnique guarantees, for every
   sequence of calls, and exactly when the resulting identifiers are distinct. *)
From Coq Require Import List NArith Bool Lia Arith.
From PB Require Import Base.PBytes CodeGen.NamesModel CodeGen.NamesP CodeGen.UniqueModel.
Import ListNotations.

Lemma lookup_set m k v k' :
  lookup (set_used m k v) k' = if bytes_eqb k' k then v else lookup m k'.
Proof. reflexivity. Qed.

Lemma lookup_true_len m k : lookup m k = true -> (length k <= max_key_len m)%nat.
Proof.
  induction m as [|[k' v] t IH]; cbn [lookup max_key_len]; [discriminate|].
  destruct (bytes_eqb k k') eqn:E.
  - apply bytes_eqb_eq in E. subst. lia.
  - intros H. specialize (IH H). lia.
Qed.

Lemma lookup_init l k : lookup (map (fun k => (k, true)) l) k = true <-> In k l.
Proof.
  induction l as [|x l IH]; cbn [map lookup In]; [split; [discriminate|tauto]|].
  destruct (bytes_eqb k x) eqn:E.
  - apply bytes_eqb_eq in E. subst. tauto.
  - apply bytes_eqb_neq in E. rewrite IH. split; [tauto|]. intros [H|H]; [congruence|assumption].
Qed.

Lemma getter_inj a b : getter a = getter b -> a = b.
Proof. unfold getter. apply app_inv_head. Qed.
Lemma getter_neq n : getter n <> n.
Proof. intros H. apply (f_equal (@length _)) in H. unfold getter in H. rewrite app_length in H. cbn in H. lia. Qed.
Lemma getter_len n : length (getter n) = (3 + length n)%nat.
Proof. reflexivity. Qed.
Lemma reserved_no_get k n : In k reserved -> k <> getter n.
Proof.
  unfold reserved, getter, str_get. cbn [In app].
  intros H. repeat (destruct H as [<-|H]; [discriminate|]). destruct H.
Qed.

Lemma mnu_loop_spec : forall fuel m n hg,
  (max_key_len m < length n + fuel)%nat ->
  lookup m (mnu_loop fuel m n hg) = false /\
  (hg = true -> lookup m (getter (mnu_loop fuel m n hg)) = false).
Proof.
  induction fuel as [|f IH]; intros m n hg Hlen; cbn [mnu_loop].
  - assert (L : forall x, (length n <= length x)%nat -> lookup m x = false).
    { intros x Hx. destruct (lookup m x) eqn:E; [|reflexivity]. apply lookup_true_len in E. lia. }
    split; [apply L; lia|]. intros _. apply L. rewrite getter_len. lia.
  - destruct (lookup m n || (hg && lookup m (getter n))) eqn:E.
    + apply IH. rewrite app_length. cbn [length]. lia.
    + apply orb_false_iff in E as [E1 E2]. split; [exact E1|]. intros ->. exact E2.
Qed.

(* every result is the requested name followed by underscores *)
Lemma mnu_loop_underscores : forall fuel m n hg, exists k, mnu_loop fuel m n hg = n ++ repeat ch_us k.
Proof.
  induction fuel as [|f IH]; intros m n hg; cbn [mnu_loop]; [exists O; cbn; now rewrite app_nil_r|].
  destruct (lookup m n || (hg && lookup m (getter n))); [|exists O; cbn; now rewrite app_nil_r].
  destruct (IH m (n ++ [ch_us]) hg) as [k C]. exists (S k). rewrite C, <- app_assoc. reflexivity.
Qed.

Lemma make_name_unique_spec m n hg :
  let n' := fst (make_name_unique m n hg) in
  lookup m n' = false /\ (hg = true -> lookup m (getter n') = false) /\
  snd (make_name_unique m n hg) = set_used (set_used m n' true) (getter n') hg.
Proof.
  unfold make_name_unique. cbn [fst snd].
  destruct (mnu_loop_spec (S (max_key_len m)) m n hg) as [A B]; [lia|].
  repeat split; assumption.
Qed.

Definition Inv (m : used_map) (h : hist) : Prop := forall k, lookup m k = true <-> In k (true_keys h).
(* no oneof's getter name is also a result *)
Definition getter_free (h : hist) : Prop := forall n, In (n, false) h -> ~ In (getter n) (map fst h).

Lemma full_names_flat h : full_names h = flat_map (fun e : name * bool => [fst e; getter (fst e)]) h ++ reserved.
Proof. induction h as [|[n hg] t IH]; cbn [full_names flat_map fst app]; now rewrite ?IH. Qed.

Lemma true_keys_flat h :
  true_keys h = flat_map (fun e : name * bool => fst e :: if snd e then [getter (fst e)] else []) h ++ reserved.
Proof.
  induction h as [|[n hg] t IH]; cbn [true_keys flat_map fst snd app]; [reflexivity|].
  now rewrite IH, app_assoc.
Qed.

Lemma in_full_names h x :
  In x (full_names h) <-> In x reserved \/ exists n hg, In (n, hg) h /\ (x = n \/ x = getter n).
Proof.
  rewrite full_names_flat, in_app_iff, in_flat_map. split.
  - intros [[[n hg] [H [<-|[<-|[]]]]]|H]; [right; exists n, hg; auto ..|now left].
  - intros [H|[n [hg [H E]]]]; [now right|]. left. exists (n, hg). split; [exact H|]. destruct E as [->| ->]; cbn; auto.
Qed.

Lemma in_true_keys h x :
  In x (true_keys h) <->
  In x reserved \/ exists n hg, In (n, hg) h /\ (x = n \/ (hg = true /\ x = getter n)).
Proof.
  rewrite true_keys_flat, in_app_iff, in_flat_map. split.
  - intros [[[n hg] [H [<-|G]]]|H]; [right; exists n, hg; auto| |now left].
    cbn [fst snd] in G. destruct hg; [|destruct G]. destruct G as [<-|[]]. right. exists n, true. auto.
  - intros [H|[n [hg [H E]]]]; [now right|]. left. exists (n, hg). split; [exact H|].
    destruct E as [->|[-> ->]]; cbn; auto.
Qed.

Lemma true_keys_incl_full h : incl (true_keys h) (full_names h).
Proof.
  intros x H. apply in_true_keys in H. apply in_full_names.
  destruct H as [H|[n [hg [H1 H2]]]]; [tauto|]. right. exists n, hg. tauto.
Qed.

Lemma Inv_set_used m h n' hg :
  Inv m h -> ~ In (getter n') (full_names h) ->
  Inv (set_used (set_used m n' true) (getter n') hg) ((n', hg) :: h).
Proof.
  intros HI N2 k. rewrite !lookup_set. cbn [true_keys In]. rewrite in_app_iff.
  destruct (bytes_eqb k (getter n')) eqn:E1.
  + apply bytes_eqb_eq in E1. subst k. destruct hg.
    * split; [intros _; right; left; now left|reflexivity].
    * split; [discriminate|]. intros [H|[[]|H]].
      -- symmetry in H. now apply getter_neq in H.
      -- exfalso. apply N2. now apply true_keys_incl_full.
  + apply bytes_eqb_neq in E1. destruct (bytes_eqb k n') eqn:E2.
    * apply bytes_eqb_eq in E2. subst k. split; [intros _; now left|reflexivity].
    * apply bytes_eqb_neq in E2. rewrite (HI k). split; [tauto|].
      intros [H|[H|H]]; [congruence| |exact H].
      destruct hg; [|destruct H]. destruct H as [H|[]]. congruence.
Qed.

Lemma run_hist_incl : forall evs m h, incl h (run_hist evs m h).
Proof.
  induction evs as [|[n hg] t IH]; intros m h; cbn [run_hist]; [apply incl_refl|].
  destruct (make_name_unique m n hg) as [n' m'].
  intros x Hx. apply IH. now right.
Qed.

Lemma run_hist_nodup : forall evs m h,
  Inv m h -> NoDup (full_names h) -> getter_free (run_hist evs m h) ->
  NoDup (full_names (run_hist evs m h)).
Proof.
  induction evs as [|[nm hg] t IH]; intros m h HI HN HF; cbn [run_hist] in *; [exact HN|].
  pose proof (make_name_unique_spec m nm hg) as S.
  destruct (make_name_unique m nm hg) as [n' m'] eqn:EM. cbn [fst snd] in S.
  destruct S as [L1 [L2 Em]].
  assert (Hsub : incl ((n', hg) :: h) (run_hist t m' ((n', hg) :: h))) by apply run_hist_incl.
  (* the side condition, restricted to what exists now *)
  assert (Fa : forall n, In (n, false) ((n', hg) :: h) -> ~ In (getter n) (map fst ((n', hg) :: h))).
  { intros n Hn Hg. apply (HF n); [now apply Hsub|].
    apply in_map_iff in Hg as [[a b] [E Hab]]. apply in_map_iff. exists (a, b). split; [exact E|now apply Hsub]. }
  assert (Nk : forall x, In x (true_keys h) -> lookup m x = true) by (intros x; apply HI).
  assert (N1 : ~ In n' (full_names h)).
  { intros H. apply in_full_names in H. destruct H as [H|[n [hg0 [H1 [->| ->]]]]].
    - assert (lookup m n' = true) by (apply Nk, in_true_keys; tauto). congruence.
    - assert (lookup m n = true) by (apply Nk, in_true_keys; right; exists n, hg0; tauto). congruence.
    - destruct hg0.
      + assert (lookup m (getter n) = true) by (apply Nk, in_true_keys; right; exists n, true; tauto). congruence.
      + apply (Fa n); [now right|]. cbn [map fst In]. now left. }
  assert (N2 : ~ In (getter n') (full_names h)).
  { intros H. apply in_full_names in H. destruct H as [H|[n [hg0 [H1 [E|E]]]]].
    - now apply (reserved_no_get _ n') in H.
    - destruct hg.
      + assert (lookup m n = true) by (apply Nk, in_true_keys; right; exists n, hg0; tauto).
        rewrite <- E, L2 in H; [discriminate|reflexivity].
      + apply (Fa n'); [now left|]. cbn [map fst In]. right. apply in_map_iff. exists (n, hg0). split; [now rewrite E|exact H1].
    - apply getter_inj in E. subst n.
      assert (lookup m n' = true) by (apply Nk, in_true_keys; right; exists n', hg0; tauto). congruence. }
  apply IH.
  - subst m'. now apply Inv_set_used.
  - cbn [full_names]. constructor.
    + intros [H|H]; [now apply getter_neq in H|exact (N1 H)].
    + constructor; assumption.
  - exact HF.
Qed.

Lemma nodup_getter_free h : NoDup (full_names h) -> getter_free h.
Proof.
  intros HN.
  assert (G : forall n hg n' hg', In (n, hg) h -> In (n', hg') h -> getter n <> n').
  { induction h as [|[a ha] t IH]; [intros ? ? ? ? []|].
    cbn [full_names] in HN. inversion HN as [|? ? Ha HN']; subst. inversion HN' as [|? ? Hga HN'']; subst.
    intros n hg n' hg' [[= <- <-]|H1] [[= <- <-]|H2].
    - apply getter_neq.
    - intros E. apply Hga. apply in_full_names. right. exists n', hg'. split; [exact H2|]. left. now rewrite E.
    - intros E. apply Ha. right. apply in_full_names. right. exists n, hg. split; [exact H1|]. right. now rewrite E.
    - now apply (IH HN'' n hg n' hg'). }
  intros n Hn Hg. apply in_map_iff in Hg as [[a b] [E Hab]]. cbn [fst] in E. subst a.
  now apply (G n false (getter n) b).
Qed.

Lemma mem_name_in x l : mem_name x l = true <-> In x l.
Proof.
  induction l as [|y t IH]; cbn [mem_name In]; [split; [discriminate|tauto]|].
  rewrite orb_true_iff, IH, bytes_eqb_eq. split; intros [H|H]; auto.
Qed.
Lemma nodupb_nodup l : nodupb l = true <-> NoDup l.
Proof.
  induction l as [|x t IH]; cbn [nodupb]; [split; [constructor|reflexivity]|].
  rewrite andb_true_iff, negb_true_iff, IH. split.
  - intros [H1 H2]. constructor; [|exact H2]. intros H. apply mem_name_in in H. congruence.
  - intros H. inversion H; subst. split; [|assumption].
    destruct (mem_name x t) eqn:E; [|reflexivity]. apply mem_name_in in E. contradiction.
Qed.
Lemma oneof_getter_free_iff h : oneof_getter_free h = true <-> getter_free h.
Proof.
  unfold oneof_getter_free, getter_free. rewrite forallb_forall. split.
  - intros H n Hn Hg. specialize (H _ Hn). cbn [fst snd orb] in H.
    apply negb_true_iff in H. apply mem_name_in in Hg. congruence.
  - intros H [n hg] Hn. cbn [fst snd]. destruct hg; [reflexivity|]. cbn [orb].
    apply negb_true_iff. destruct (mem_name (getter n) (map fst h)) eqn:E; [|reflexivity].
    apply mem_name_in in E. now apply H in Hn.
Qed.

Lemma inv_init : Inv init_used [].
Proof. intros k. unfold init_used. cbn [true_keys]. apply lookup_init. Qed.
Lemma nodup_reserved : NoDup reserved.
Proof. apply nodupb_nodup. reflexivity. Qed.

(* The identifiers (results, their Get-forms, the reserved method names) are
   pairwise distinct exactly when no oneof's getter name is also a result. *)
Theorem names_distinct_iff evs :
  let h := run_hist evs init_used [] in
  NoDup (full_names h) <-> getter_free h.
Proof.
  cbn zeta. split; [apply nodup_getter_free|].
  apply run_hist_nodup; [apply inv_init|apply nodup_reserved].
Qed.

Lemma run_hist_flags : forall evs m h x,
  (forall e, In e evs -> snd e = true) -> In x (run_hist evs m h) -> In x h \/ snd x = true.
Proof.
  induction evs as [|[n hg] t IH]; intros m h x He Hx; cbn [run_hist] in Hx; [now left|].
  destruct (make_name_unique m n hg) as [n' m'].
  destruct (IH _ _ _ (fun e H => He e (or_intror H)) Hx) as [[<-|H]|H].
  - right. cbn [snd]. apply (He (n, hg)). now left.
  - now left.
  - now right.
Qed.

(* every call with hasGetter = true (a message without oneofs): always distinct *)
Theorem names_distinct_fields evs :
  (forall e, In e evs -> snd e = true) ->
  NoDup (full_names (run_hist evs init_used [])).
Proof.
  intros He. apply names_distinct_iff. intros n Hn _.
  destruct (run_hist_flags _ _ _ _ He Hn) as [[]|H]. discriminate.
Qed.

Lemma events_of_no_oneof : forall fs onames seen,
  (forall f, In f fs -> f_oneof f = None) ->
  forall e, In e (events_of fs onames seen) -> snd e = true.
Proof.
  induction fs as [|f t IH]; intros onames seen H e He; cbn [events_of] in He; [destruct He|].
  rewrite (H f (or_introl eq_refl)) in He. destruct He as [<-|He]; [reflexivity|].
  apply (IH onames seen); [|exact He]. intros f' Hf'. apply H. now right.
Qed.

Theorem message_names_distinct_iff fs onames :
  nodupb (full_names (message_hist fs onames)) = oneof_getter_free (message_hist fs onames).
Proof.
  unfold message_hist.
  pose proof (names_distinct_iff (events_of fs onames [])) as H. cbn zeta in H.
  rewrite <- oneof_getter_free_iff, <- nodupb_nodup in H.
  destruct (nodupb _), (oneof_getter_free _); try reflexivity; destruct H as [H1 H2];
    [discriminate (H1 eq_refl)|discriminate (H2 eq_refl)].
Qed.

Theorem message_names_distinct_no_oneof fs onames :
  (forall f, In f fs -> f_oneof f = None) ->
  NoDup (full_names (message_hist fs onames)).
Proof.
  intros H. apply names_distinct_fields. now apply events_of_no_oneof.
Qed.

Lemma run_hist_len : forall evs m h, length (run_hist evs m h) = (length evs + length h)%nat.
Proof.
  induction evs as [|[n hg] t IH]; intros m h; cbn [run_hist length]; [reflexivity|].
  destruct (make_name_unique m n hg) as [n' m']. rewrite IH. cbn [length]. lia.
Qed.

Lemma mem_name_len x l : mem_name x l = true -> (length x <= max_name_len l)%nat.
Proof.
  induction l as [|y t IH]; cbn [mem_name max_name_len]; [discriminate|].
  destruct (bytes_eqb x y) eqn:E; cbn [orb].
  - apply bytes_eqb_eq in E. subst. lia.
  - intros H. specialize (IH H). lia.
Qed.
Lemma wrapper_loop_spec : forall fuel taken n,
  (max_name_len taken < length n + fuel)%nat -> mem_name (wrapper_loop fuel taken n) taken = false.
Proof.
  induction fuel as [|f IH]; intros taken n H; cbn [wrapper_loop].
  - destruct (mem_name n taken) eqn:E; [|reflexivity]. apply mem_name_len in E. lia.
  - destruct (mem_name n taken) eqn:E; [|exact E]. apply IH. rewrite app_length. cbn [length]. lia.
Qed.
Theorem wrapper_not_taken msg taken g : ~ In (wrapper_name msg taken g) taken.
Proof.
  intros H. apply mem_name_in in H. unfold wrapper_name in H.
  rewrite wrapper_loop_spec in H; [discriminate|lia].
Qed.
