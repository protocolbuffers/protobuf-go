(* go_eq_spec for internal/strs/strings.go as translated by srcmodel_strs
   (Gen/StrsGo.v).  isASCIILower/Upper/Digit, JSONCamelCase, JSONSnakeCase and
   GoCamelCase (nested loop that advances i) equal the hand model of
   CodeGen/NamesModel.v on every string shorter than 2^63 bytes (every Go
   string); TrimEnumPrefix (loop with continue, unicode.ToLower, strings.TrimLeft)
   equals the hand model of CodeGen/StrsTrimModel.v on all strings.  In particular
   none of them returns Panic (an index out of range) or Fuel.  Each loop is first
   identified, by conversion ([reflexivity]), with the iteration of a loop body
   written out below, so a change to the loops in strings.go breaks these proofs. *)
From Coq Require Import List Arith NArith ZArith Lia Bool.
From Coq Require Import ZifyBool ZifyNat ZifyN.
From PB Require Import Base.PBytes Base.GoInt Base.GoIntP CodeGen.NamesModel CodeGen.NamesP CodeGen.StrsGoBase CodeGen.StrsTrimModel.
From PB Require Import Gen.StrsGo.
Import ListNotations.
Open Scope Z_scope.

(* a Go byte / string as the translation sees it *)
Definition zc (c : byte) : Z := Z.of_N (b2n c).
Definition zb (s : list byte) : list Z := map zc s.
(* len(s) fits an int *)
Definition go_len_ok (s : list byte) : Prop := Z.of_nat (length s) < 9223372036854775808.

Lemma zc_range c : 0 <= zc c < 256.
Proof. unfold zc. pose proof (b2n_lt c). lia. Qed.
Lemma zb_app a b : zb (a ++ b) = zb a ++ zb b.
Proof. apply map_app. Qed.
Lemma zb_length s : length (zb s) = length s.
Proof. apply map_length. Qed.
Lemma len_zb s : len (zb s) = Z.of_nat (length s).
Proof. apply len_map. Qed.
Lemma len_snoc {A} (p : list A) c : len (p ++ [c]) = len p + 1.
Proof. apply len_app. Qed.
Lemma zb_inj a : forall b, zb a = zb b -> a = b.
Proof.
  induction a as [|x a IH]; intros [|y b] H; try discriminate; [reflexivity|].
  cbn in H. injection H as H1 H2. f_equal; [|now apply IH].
  apply b2n_inj, N2Z.inj, H1.
Qed.

(* a cursor i = len p into s = p ++ r *)
Lemma split_snoc {A} (p : list A) c r : p ++ c :: r = (p ++ [c]) ++ r.
Proof. now rewrite <- app_assoc. Qed.

Lemma index_zb p c r : index (zb (p ++ c :: r)) (len p) = Val (zc c).
Proof. exact (index_map_app zc p c r). Qed.

Lemma at_end s p : s = p ++ [] -> (len p <? len (zb s)) = false.
Proof. intros ->. rewrite app_nil_r, len_zb. apply Z.ltb_irrefl. Qed.

Lemma at_cons s p c r : s = p ++ c :: r ->
  (len p <? len (zb s)) = true /\ index (zb s) (len p) = Val (zc c).
Proof.
  intros ->. split; [|apply index_zb].
  rewrite len_zb, app_length. unfold len. cbn [length]. apply Z.ltb_lt. lia.
Qed.

(* the position of a cursor is an int *)
Lemma wrap_len s p r : s = p ++ r -> go_len_ok s -> wrap_i64 (len p) = len p.
Proof.
  intros -> H. apply wrap_i64_small. unfold go_len_ok in H. rewrite app_length in H. unfold len. lia.
Qed.

(* i++ *)
Lemma step_i s p c r : s = p ++ c :: r -> go_len_ok s -> wrap_i64 (len p + 1) = len (p ++ [c]).
Proof. intros E H. rewrite <- (len_snoc p c). apply (wrap_len s (p ++ [c]) r); [now rewrite <- split_snoc | exact H]. Qed.

(* the comparisons of the translation against constants are those of the model on b2n *)
Lemma lower_zc c : go_isASCIILower (zc c) = is_lower c.
Proof. exact (f_equal2 andb (of_N_leb 97 (b2n c)) (of_N_leb (b2n c) 122)). Qed.
Lemma upper_zc c : go_isASCIIUpper (zc c) = is_upper c.
Proof. exact (f_equal2 andb (of_N_leb 65 (b2n c)) (of_N_leb (b2n c) 90)). Qed.
Lemma digit_zc c : go_isASCIIDigit (zc c) = is_digit c.
Proof. exact (f_equal2 andb (of_N_leb 48 (b2n c)) (of_N_leb (b2n c) 57)). Qed.
Lemma us_zc c : (zc c =? 95) = is_us c.
Proof. exact (of_N_eqb (b2n c) 95). Qed.
Lemma dot_zc c : (zc c =? 46) = is_dot c.
Proof. exact (of_N_eqb (b2n c) 46). Qed.
(* c -= 'a' - 'A' at uint8 *)
Lemma to_upper_zc c : is_lower c = true -> wrap_u8 (zc c - 32) = zc (to_upper c).
Proof.
  intros H. unfold zc. rewrite (b2n_to_upper c H). unfold is_lower in H.
  rewrite wrap_u8_small; lia.
Qed.
(* c += 'a' - 'A' at uint8 *)
Lemma to_lower_zc c : is_upper c = true -> wrap_u8 (zc c + 32) = zc (to_lower c).
Proof.
  intros H. unfold zc. rewrite (b2n_to_lower c H). unfold is_upper in H.
  rewrite wrap_u8_small; lia.
Qed.

(* the classes on arbitrary int values that are bytes: the translated
   predicates are the model predicates *)
Theorem go_isASCIILower_eq c : go_isASCIILower (zc c) = is_lower c.
Proof. exact (lower_zc c). Qed.
Theorem go_isASCIIUpper_eq c : go_isASCIIUpper (zc c) = is_upper c.
Proof. exact (upper_zc c). Qed.
Theorem go_isASCIIDigit_eq c : go_isASCIIDigit (zc c) = is_digit c.
Proof. exact (digit_zc c). Qed.

(* JSONSnakeCase: one iteration; [rec] is the rest of the loop *)
Definition js_body (v_s : list Z) (rec : list Z -> Z -> outcome (list Z)) (v_b : list Z) (v_i : Z) :=
  if v_i <? len v_s then
    bind (index v_s v_i) (fun v_c =>
    if go_isASCIIUpper v_c then rec ((v_b ++ [95]) ++ [wrap_u8 (v_c + 32)]) (wrap_i64 (v_i + 1))
    else rec (v_b ++ [v_c]) (wrap_i64 (v_i + 1)))
  else Val v_b.

Definition js_loop (v_s : list Z) :=
  fix loop1 (lfuel : nat) (v_b : list Z) (v_i : Z) {struct lfuel} : outcome (list Z) :=
    match lfuel with
    | O => Fuel
    | S lfuel' => js_body v_s (loop1 lfuel') v_b v_i
    end.

Lemma go_JSONSnakeCase_shape s :
  go_JSONSnakeCase s = js_loop s (S (length (@nil Z) + length s)) [] 0.
Proof. reflexivity. Qed.

Lemma js_loop_S s fuel b i : js_loop s (S fuel) b i = js_body s (js_loop s fuel) b i.
Proof. reflexivity. Qed.

Lemma js_loop_ok s : go_len_ok s -> forall r p b fuel,
  s = p ++ r -> (length r < fuel)%nat ->
  js_loop (zb s) fuel b (len p) = Val (b ++ zb (json_snake_case r)).
Proof.
  intros Hs. induction r as [|c r IH]; intros p b fuel E Hf; (destruct fuel as [|fuel]; [cbn [length] in Hf; lia|]);
    rewrite js_loop_S; unfold js_body.
  - rewrite (at_end s p E). cbn [json_snake_case zb map]. now rewrite app_nil_r.
  - destruct (at_cons s p c r E) as [A1 A2]. rewrite A1, A2. cbn [bind].
    rewrite upper_zc, (step_i s p c r E Hs).
    assert (NX : forall b', js_loop (zb s) fuel b' (len (p ++ [c])) = Val (b' ++ zb (json_snake_case r))).
    { intros b'. apply IH; [now rewrite <- split_snoc | cbn [length] in Hf; lia]. }
    cbn [json_snake_case]. destruct (is_upper c) eqn:U.
    + rewrite (to_lower_zc c U), NX, <- !app_assoc. reflexivity.
    + rewrite NX, <- app_assoc. reflexivity.
Qed.

Theorem go_JSONSnakeCase_eq s : go_len_ok s ->
  go_JSONSnakeCase (zb s) = Val (zb (json_snake_case s)).
Proof.
  intros Hs. rewrite go_JSONSnakeCase_shape.
  change 0 with (len (@nil byte)). rewrite (js_loop_ok s Hs s [] []); [reflexivity|reflexivity|].
  rewrite zb_length. cbn [length]. lia.
Qed.

(* JSONCamelCase *)
Definition jc_body (v_s : list Z) (rec : list Z -> bool -> Z -> outcome (list Z))
    (v_b : list Z) (v_wasUnderscore : bool) (v_i : Z) :=
  if v_i <? len v_s then
    bind (index v_s v_i) (fun v_c =>
    if negb (v_c =? 95) then
      if v_wasUnderscore && go_isASCIILower v_c then
        rec (v_b ++ [wrap_u8 (v_c - 32)]) (wrap_u8 (v_c - 32) =? 95) (wrap_i64 (v_i + 1))
      else rec (v_b ++ [v_c]) (v_c =? 95) (wrap_i64 (v_i + 1))
    else rec v_b (v_c =? 95) (wrap_i64 (v_i + 1)))
  else Val v_b.

Definition jc_loop (v_s : list Z) :=
  fix loop1 (lfuel : nat) (v_b : list Z) (v_wasUnderscore : bool) (v_i : Z) {struct lfuel} : outcome (list Z) :=
    match lfuel with
    | O => Fuel
    | S lfuel' => jc_body v_s (loop1 lfuel') v_b v_wasUnderscore v_i
    end.

Lemma go_JSONCamelCase_shape s :
  go_JSONCamelCase s = jc_loop s (S (length (@nil Z) + length s)) [] false 0.
Proof. reflexivity. Qed.

Lemma jc_loop_S s fuel b w i : jc_loop s (S fuel) b w i = jc_body s (jc_loop s fuel) b w i.
Proof. reflexivity. Qed.

Lemma upper_not_us c : is_lower c = true -> is_us (to_upper c) = false.
Proof. intros H. pose proof (b2n_to_upper c H) as E. cls. lia. Qed.

Lemma jc_loop_ok s : go_len_ok s -> forall r p b w fuel,
  s = p ++ r -> (length r < fuel)%nat ->
  jc_loop (zb s) fuel b w (len p) = Val (b ++ zb (json_camel_aux w r)).
Proof.
  intros Hs. induction r as [|c r IH]; intros p b w fuel E Hf; (destruct fuel as [|fuel]; [cbn [length] in Hf; lia|]);
    rewrite jc_loop_S; unfold jc_body.
  - rewrite (at_end s p E). cbn [json_camel_aux zb map]. now rewrite app_nil_r.
  - destruct (at_cons s p c r E) as [A1 A2]. rewrite A1, A2. cbn [bind].
    rewrite us_zc, lower_zc, (step_i s p c r E Hs).
    assert (NX : forall b' w', jc_loop (zb s) fuel b' w' (len (p ++ [c])) = Val (b' ++ zb (json_camel_aux w' r))).
    { intros b' w'. apply IH; [now rewrite <- split_snoc | cbn [length] in Hf; lia]. }
    cbn [json_camel_aux]. destruct (is_us c) eqn:U; cbn [negb]; [apply NX|].
    destruct (w && is_lower c) eqn:L.
    + apply andb_true_iff in L as [_ L]. rewrite (to_upper_zc c L), us_zc, (upper_not_us c L).
      rewrite NX, <- app_assoc. reflexivity.
    + rewrite NX, <- app_assoc. reflexivity.
Qed.

Theorem go_JSONCamelCase_eq s : go_len_ok s ->
  go_JSONCamelCase (zb s) = Val (zb (json_camel_case s)).
Proof.
  intros Hs. rewrite go_JSONCamelCase_shape.
  change 0 with (len (@nil byte)). unfold json_camel_case.
  rewrite (jc_loop_ok s Hs s [] [] false); [reflexivity|reflexivity|].
  rewrite zb_length. cbn [length]. lia.
Qed.

(* GoCamelCase.  i+1 < len(s) && isASCIILower(s[i+1]), guarded by g *)
Definition peekl (v_s : list Z) (g : bool) (v_i : Z) : outcome bool :=
  if g && (wrap_i64 (v_i + 1) <? len v_s)
  then bind (index v_s (wrap_i64 (v_i + 1))) (fun t => Val (go_isASCIILower t))
  else Val false.
(* c == '_' && (i == 0 || s[i-1] == '.') *)
Definition startl (v_s : list Z) (v_c v_i : Z) : outcome bool :=
  if v_c =? 95
  then bind (if v_i =? 0 then Val true
             else bind (index v_s (wrap_i64 (v_i - 1))) (fun t4 => Val (t4 =? 46))) (fun t5 => Val t5)
  else Val false.

(* the inner loop of the default arm; [k] is the rest of the outer loop *)
Definition gc_inner_body (v_s : list Z) (k rec : list Z -> Z -> outcome (list Z)) (v_b : list Z) (v_i : Z) :=
  bind (peekl v_s true v_i) (fun t10 =>
  if t10 then
    bind (index v_s (wrap_i64 (v_i + 1))) (fun t11 =>
    rec (v_b ++ [t11]) (wrap_i64 (v_i + 1)))
  else k v_b (wrap_i64 (v_i + 1))).

Definition gc_inner (v_s : list Z) (k : list Z -> Z -> outcome (list Z)) :=
  fix loop2 (lfuel2 : nat) (v_b : list Z) (v_i : Z) {struct lfuel2} : outcome (list Z) :=
    match lfuel2 with
    | O => Fuel
    | S lfuel2' => gc_inner_body v_s k (loop2 lfuel2') v_b v_i
    end.

Definition gc_outer_body (v_s : list Z) (rec : list Z -> Z -> outcome (list Z)) (v_b : list Z) (v_i : Z) :=
  if v_i <? len v_s then
    bind (index v_s v_i) (fun v_c =>
    bind (peekl v_s (v_c =? 46) v_i) (fun t3 =>
    if t3 then rec v_b (wrap_i64 (v_i + 1))
    else if v_c =? 46 then rec (v_b ++ [95]) (wrap_i64 (v_i + 1))
    else
      bind (startl v_s v_c v_i) (fun t6 =>
      if t6 then rec (v_b ++ [88]) (wrap_i64 (v_i + 1))
      else
        bind (peekl v_s (v_c =? 95) v_i) (fun t8 =>
        if t8 then rec v_b (wrap_i64 (v_i + 1))
        else if go_isASCIIDigit v_c then rec (v_b ++ [v_c]) (wrap_i64 (v_i + 1))
        else if go_isASCIILower v_c then
          gc_inner v_s rec
            (S (length (v_b ++ [wrap_u8 (v_c - 32)]) + length v_s)) (v_b ++ [wrap_u8 (v_c - 32)]) v_i
        else
          gc_inner v_s rec (S (length (v_b ++ [v_c]) + length v_s)) (v_b ++ [v_c]) v_i))))
  else Val v_b.

Definition gc_outer (v_s : list Z) :=
  fix loop1 (lfuel : nat) (v_b : list Z) (v_i : Z) {struct lfuel} : outcome (list Z) :=
    match lfuel with
    | O => Fuel
    | S lfuel' => gc_outer_body v_s (loop1 lfuel') v_b v_i
    end.

Lemma go_GoCamelCase_shape s :
  go_GoCamelCase s = gc_outer s (S (length (@nil Z) + length s)) [] 0.
Proof. reflexivity. Qed.

Lemma gc_inner_S s k fuel b i :
  gc_inner s k (S fuel) b i = gc_inner_body s k (gc_inner s k fuel) b i.
Proof. reflexivity. Qed.

Lemma gc_outer_S s fuel b i : gc_outer s (S fuel) b i = gc_outer_body s (gc_outer s fuel) b i.
Proof. reflexivity. Qed.

(* (i == 0 || s[i-1] == '.') for i = len p *)
Definition start_of (p : list byte) : bool :=
  match rev p with [] => true | c :: _ => is_dot c end.
Lemma start_of_snoc p c : start_of (p ++ [c]) = is_dot c.
Proof. unfold start_of. now rewrite rev_unit. Qed.

Lemma peekl_ok s p c r g : s = p ++ c :: r -> go_len_ok s ->
  peekl (zb s) g (len p) = Val (g && next_is_lower r).
Proof.
  intros E Hs. unfold peekl. rewrite (step_i s p c r E Hs). rewrite split_snoc in E.
  destruct r as [|d r]; cbn [next_is_lower].
  - rewrite (at_end _ _ E), !andb_false_r. reflexivity.
  - destruct (at_cons _ _ _ _ E) as [A1 A2]. rewrite A1, andb_true_r.
    destruct g; [|reflexivity]. rewrite A2. cbn [bind]. now rewrite lower_zc.
Qed.

Lemma startl_ok s p c r : s = p ++ c :: r -> go_len_ok s ->
  startl (zb s) (zc c) (len p) = Val (is_us c && start_of p).
Proof.
  intros E Hs. unfold startl. rewrite us_zc. destruct (is_us c); [|reflexivity]. cbn [andb].
  destruct p as [|d q _] using rev_ind; [reflexivity|].
  rewrite start_of_snoc, <- app_assoc in *. cbn [app] in E.
  rewrite len_snoc. replace (len q + 1 =? 0) with false by (unfold len; lia).
  replace (len q + 1 - 1) with (len q) by ring. rewrite (wrap_len s q _ E Hs).
  destruct (at_cons s q d _ E) as [_ A2]. rewrite A2. cbn [bind]. now rewrite dot_zc.
Qed.

Lemma camel_aux_inword st r : next_is_lower r = false -> camel_aux st true r = camel_aux st false r.
Proof.
  destruct r as [|c r]; [reflexivity|]. cbn [next_is_lower camel_aux]. intros ->. reflexivity.
Qed.

Lemma gc_inner_ok s k : go_len_ok s -> forall r p c b fuel,
  s = p ++ c :: r -> (length r < fuel)%nat -> is_dot c = false ->
  (forall r' p' b', s = p' ++ r' -> (length r' <= length r)%nat -> start_of p' = false ->
                    k b' (len p') = Val (b' ++ zb (camel_aux false false r'))) ->
  gc_inner (zb s) k fuel b (len p) = Val (b ++ zb (camel_aux false true r)).
Proof.
  intros Hs. induction r as [|d r IH]; intros p c b fuel E Hf Hc K;
    (destruct fuel as [|fuel]; [cbn [length] in Hf; lia|]);
    rewrite gc_inner_S; unfold gc_inner_body; rewrite (peekl_ok s p c _ true E Hs); cbn [bind andb next_is_lower];
    rewrite (step_i s p c _ E Hs).
  - rewrite (K [] (p ++ [c]) b); [reflexivity|now rewrite <- split_snoc|lia|].
    now rewrite start_of_snoc.
  - destruct (is_lower d) eqn:L.
    + rewrite split_snoc in E. destruct (at_cons _ _ _ _ E) as [_ A2]. rewrite A2. cbn [bind].
      assert (Hd : is_dot d = false) by (clear - L; cls; lia).
      rewrite (IH (p ++ [c]) d); [| exact E | cbn [length] in Hf; lia | exact Hd |].
      * cbn [camel_aux andb]. rewrite L. rewrite <- app_assoc. reflexivity.
      * intros r' p' b' E' Hl Hst. apply K; [exact E' | apply le_S, Hl | exact Hst].
    + rewrite (K (d :: r) (p ++ [c]) b); [|now rewrite <- split_snoc|lia|now rewrite start_of_snoc].
      rewrite camel_aux_inword; [reflexivity|]. cbn [next_is_lower]. exact L.
Qed.

Lemma gc_outer_ok s : go_len_ok s -> forall fuel r p b,
  s = p ++ r -> (length r < fuel)%nat ->
  gc_outer (zb s) fuel b (len p) = Val (b ++ zb (camel_aux (start_of p) false r)).
Proof.
  intros Hs. induction fuel as [|fuel IH]; intros r p b E Hf; [lia|].
  rewrite gc_outer_S. unfold gc_outer_body. destruct r as [|c r].
  - rewrite (at_end s p E). cbn [camel_aux zb map]. now rewrite app_nil_r.
  - destruct (at_cons s p c r E) as [A1 A2]. rewrite A1, A2. cbn [bind].
    cbn [length] in Hf.
    (* the rest of the outer loop, and the inner loop running into it *)
    assert (NX : forall b', gc_outer (zb s) fuel b' (len (p ++ [c])) =
                            Val (b' ++ zb (camel_aux (is_dot c) false r))).
    { intros b'. rewrite (IH r (p ++ [c]) b'); [now rewrite start_of_snoc|now rewrite <- split_snoc|lia]. }
    assert (INNER : is_dot c = false -> forall b',
              gc_inner (zb s) (gc_outer (zb s) fuel) (S (length b' + length (zb s))) b' (len p) =
              Val (b' ++ zb (camel_aux false true r))).
    { intros D b'. apply (gc_inner_ok s _ Hs r p c); [exact E | | exact D |].
      - rewrite zb_length. subst s. rewrite app_length. cbn [length]. lia.
      - intros r' p' b'' E' Hl Hst. rewrite (IH r' p' b'' E'); [now rewrite Hst|lia]. }
    rewrite (peekl_ok s p c r _ E Hs). cbn [bind].
    rewrite dot_zc, us_zc, digit_zc, lower_zc, (step_i s p c r E Hs).
    cbn [camel_aux andb].
    destruct (is_dot c) eqn:D; cbn [andb].
    + destruct (next_is_lower r) eqn:NL.
      * apply NX.
      * rewrite NX, <- app_assoc. reflexivity.
    + rewrite (startl_ok s p c r E Hs). cbn [bind].
      destruct (is_us c) eqn:U; cbn [andb].
      * destruct (start_of p) eqn:ST.
        -- rewrite NX, <- app_assoc. reflexivity.
        -- rewrite (peekl_ok s p c r _ E Hs). cbn [bind andb].
           destruct (next_is_lower r) eqn:NL; [apply NX|].
           assert (DG : is_digit c = false) by (clear - U; cls; lia).
           assert (LW : is_lower c = false) by (clear - U; cls; lia).
           rewrite DG, LW, (INNER eq_refl), <- app_assoc. reflexivity.
      * rewrite (peekl_ok s p c r _ E Hs). cbn [bind andb].
        destruct (is_digit c) eqn:DG.
        -- rewrite NX, <- app_assoc. reflexivity.
        -- destruct (is_lower c) eqn:LW.
           ++ rewrite (to_upper_zc c LW), (INNER eq_refl), <- app_assoc. reflexivity.
           ++ rewrite (INNER eq_refl), <- app_assoc. reflexivity.
Qed.

Theorem go_GoCamelCase_eq s : go_len_ok s ->
  go_GoCamelCase (zb s) = Val (zb (go_camel_case s)).
Proof.
  intros Hs. rewrite go_GoCamelCase_shape.
  change 0 with (len (@nil byte)). unfold go_camel_case.
  rewrite (gc_outer_ok s Hs _ s [] []); [reflexivity|reflexivity|].
  rewrite zb_length. cbn [length]. lia.
Qed.

Lemma json_camel_aux_length : forall s w, (length (json_camel_aux w s) <= length s)%nat.
Proof.
  induction s as [|c r IH]; intros w; [reflexivity|]. cbn [json_camel_aux length].
  destruct (is_us c); [specialize (IH true)|specialize (IH false)]; cbn [length]; lia.
Qed.

(* the translated GoCamelCase maps every protobuf identifier to an exported Go
   identifier: non-empty, first byte an upper-case ASCII letter (as decided by
   the translated isASCIIUpper), all bytes in [A-Za-z0-9_] *)
Theorem go_GoCamelCase_exported_identifier s : go_len_ok s -> proto_ident s = true ->
  exists c r, go_GoCamelCase (zb s) = Val (zb (c :: r)) /\ go_isASCIIUpper (zc c) = true /\
              forallb is_letter_digit_b (c :: r) = true.
Proof.
  intros Hs H. destruct (camel_exported_identifier s H) as (c & r & E & U & F).
  exists c, r. rewrite (go_GoCamelCase_eq s Hs), E, upper_zc. auto.
Qed.

(* JSONSnakeCase(JSONCamelCase(s)) == s in the translated source, exactly when
   s has no upper-case letter and every '_' is followed by a lower-case letter *)
Theorem go_snake_camel_inverse s : go_len_ok s ->
  (bind (go_JSONCamelCase (zb s)) go_JSONSnakeCase = Val (zb s) <-> snake_ok s = true).
Proof.
  intros Hs. rewrite (go_JSONCamelCase_eq s Hs). cbn [bind].
  rewrite go_JSONSnakeCase_eq.
  2:{ unfold go_len_ok in *. unfold json_camel_case. pose proof (json_camel_aux_length s false). lia. }
  rewrite <- snake_camel_inverse. split.
  - intros [= H]. now apply zb_inj.
  - intros ->. reflexivity.
Qed.

(* none of the translated functions can panic (index out of range) or run out
   of the fuel the translation gave its loops *)
Theorem go_strs_total s : go_len_ok s ->
  (exists o, go_GoCamelCase (zb s) = Val o) /\ (exists o, go_JSONCamelCase (zb s) = Val o) /\
  (exists o, go_JSONSnakeCase (zb s) = Val o).
Proof.
  intros Hs. rewrite (go_GoCamelCase_eq s Hs), (go_JSONCamelCase_eq s Hs), (go_JSONSnakeCase_eq s Hs). repeat split; eexists; reflexivity.
Qed.

Theorem go_isASCII_eq c :
  go_isASCIILower (zc c) = is_lower c /\ go_isASCIIUpper (zc c) = is_upper c /\ go_isASCIIDigit (zc c) = is_digit c.
Proof. auto using lower_zc, upper_zc, digit_zc. Qed.

(* TrimEnumPrefix *)
Definition te_body (v_s0 : list Z) (rec : list Z -> list Z -> outcome (list Z)) (v_s v_prefix : list Z) :=
  if (0 <? len v_s) && (0 <? len v_prefix) then
    bind (index v_s 0) (fun t1 =>
    if t1 =? 95 then bind (slice_lo v_s 1) (fun t2 => rec t2 v_prefix)
    else
      bind (index v_s 0) (fun t3 =>
      bind (index v_prefix 0) (fun t4 =>
      if negb (unicode_ToLower (wrap_i32 t3) =? wrap_i32 t4) then Val v_s0
      else bind (slice_lo v_s 1) (fun t5 => bind (slice_lo v_prefix 1) (fun t6 => rec t5 t6)))))
  else if 0 <? len v_prefix then Val v_s0
  else if len (strings_TrimLeft v_s [95]) =? 0 then Val v_s0
  else Val (strings_TrimLeft v_s [95]).

Definition te_loop (v_s0 : list Z) :=
  fix loop1 (lfuel : nat) (v_s : list Z) (v_prefix : list Z) {struct lfuel} : outcome (list Z) :=
    match lfuel with
    | O => Fuel
    | S lfuel' => te_body v_s0 (loop1 lfuel') v_s v_prefix
    end.

Lemma go_TrimEnumPrefix_shape s prefix :
  go_TrimEnumPrefix s prefix = te_loop s (S (length s + length prefix)) s prefix.
Proof. reflexivity. Qed.

Lemma te_loop_S s0 fuel s prefix :
  te_loop s0 (S fuel) s prefix = te_body s0 (te_loop s0 fuel) s prefix.
Proof. reflexivity. Qed.

(* unicode.ToLower on a byte, as the translation computes it *)
Lemma unicode_ToLower_zc c : unicode_ToLower (zc c) = Z.of_N (lower_latin1 c).
Proof.
  unfold unicode_ToLower, lower_latin1. cbv zeta.
  replace ((65 <=? zc c) && (zc c <=? 90) || (192 <=? zc c) && (zc c <=? 214) || (216 <=? zc c) && (zc c <=? 222))
    with ((65 <=? b2n c) && (b2n c <=? 90) || (192 <=? b2n c) && (b2n c <=? 214) || (216 <=? b2n c) && (b2n c <=? 222))%N.
  - destruct (_ || _)%N; [symmetry; apply (N2Z.inj_add (b2n c) 32) | reflexivity].
  - symmetry.
    exact (f_equal2 orb (f_equal2 orb (f_equal2 andb (of_N_leb 65 (b2n c)) (of_N_leb (b2n c) 90))
                                      (f_equal2 andb (of_N_leb 192 (b2n c)) (of_N_leb (b2n c) 214)))
                        (f_equal2 andb (of_N_leb 216 (b2n c)) (of_N_leb (b2n c) 222))).
Qed.

(* unicode.ToLower(rune(c)) == rune(p) *)
Lemma tolower_zc c p :
  (unicode_ToLower (wrap_i32 (zc c)) =? wrap_i32 (zc p)) = (lower_latin1 c =? b2n p)%N.
Proof.
  pose proof (zc_range c). pose proof (zc_range p).
  rewrite !wrap_i32_small by lia. rewrite unicode_ToLower_zc. apply of_N_eqb.
Qed.

Lemma trimleft_zb s : strings_TrimLeft (zb s) [95] = zb (trim_us s).
Proof.
  induction s as [|c r IH]; [reflexivity|]. cbn [zb map strings_TrimLeft trim_us existsb].
  rewrite orb_false_r, us_zc. destruct (is_us c); [exact IH|reflexivity].
Qed.

Lemma index0_zb c r : index (zb (c :: r)) 0 = Val (zc c).
Proof. reflexivity. Qed.
Lemma slice1_zb c r : slice_lo (zb (c :: r)) 1 = Val (zb r).
Proof.
  unfold slice_lo. rewrite len_zb. cbn [length].
  replace ((1 <? 0) || (Z.of_nat (S (length r)) <? 1)) with false by lia. reflexivity.
Qed.
Lemma len_pos_zb c r : (0 <? len (zb (c :: r))) = true.
Proof. rewrite len_zb. cbn [length]. apply Z.ltb_lt. lia. Qed.

Definition trim_result (s0 : list byte) (o : option (list byte)) : list byte :=
  match o with
  | None => s0
  | Some r => match trim_us r with [] => s0 | r' => r' end
  end.

Lemma te_tail s0 r :
  (if len (strings_TrimLeft (zb r) [95]) =? 0 then Val (zb s0) else Val (strings_TrimLeft (zb r) [95])) =
  Val (zb (trim_result s0 (Some r))).
Proof.
  rewrite trimleft_zb, len_zb. cbn [trim_result]. destruct (trim_us r) as [|x t]; [reflexivity|].
  cbn [length]. replace (Z.of_nat (S (length t)) =? 0) with false by lia. reflexivity.
Qed.

Lemma te_loop_ok s0 : forall s prefix fuel, (length s + length prefix < fuel)%nat ->
  te_loop (zb s0) fuel (zb s) (zb prefix) = Val (zb (trim_result s0 (trim_aux s prefix))).
Proof.
  induction s as [|c r IH]; intros prefix fuel Hf; (destruct fuel as [|fuel]; [lia|]);
    rewrite te_loop_S; unfold te_body.
  - change (0 <? len (zb [])) with false. cbn [andb]. destruct prefix as [|p q].
    + apply (te_tail s0 []).
    + rewrite len_pos_zb. reflexivity.
  - rewrite len_pos_zb. cbn [andb]. destruct prefix as [|p q].
    + apply (te_tail s0 (c :: r)).
    + cbn [length] in *. rewrite len_pos_zb, !index0_zb. cbn [bind]. rewrite us_zc. cbn [trim_aux].
      destruct (is_us c).
      * rewrite slice1_zb. cbn [bind]. apply (IH (p :: q)). cbn [length]. lia.
      * rewrite tolower_zc.
        destruct (lower_latin1 c =? b2n p)%N; cbn [negb]; [|reflexivity].
        rewrite !slice1_zb. cbn [bind]. apply IH. lia.
Qed.

Theorem go_TrimEnumPrefix_eq s prefix :
  go_TrimEnumPrefix (zb s) (zb prefix) = Val (zb (trim_enum_prefix s prefix)).
Proof.
  rewrite go_TrimEnumPrefix_shape, (te_loop_ok s s prefix); [reflexivity|]. rewrite !zb_length. lia.
Qed.

(* TrimEnumPrefix never returns the empty string for a non-empty name, and what
   it returns is a suffix of the name *)
Lemma trim_us_suffix s : exists p, s = p ++ trim_us s.
Proof.
  induction s as [|c r [p IH]]; [now exists []|]. cbn [trim_us].
  destruct (is_us c); [|now exists []]. exists (c :: p). cbn [app]. now rewrite <- IH.
Qed.
Lemma trim_aux_suffix : forall s prefix r, trim_aux s prefix = Some r -> exists p, s = p ++ r.
Proof.
  induction s as [|c t IH]; intros prefix r H.
  - destruct prefix; [|discriminate]. injection H as <-. now exists [].
  - cbn [trim_aux] in H. destruct prefix as [|p q]; [injection H as <-; now exists []|].
    destruct (is_us c).
    + destruct (IH _ _ H) as [x ->]. now exists (c :: x).
    + destruct (lower_latin1 c =? b2n p)%N; [|discriminate]. destruct (IH _ _ H) as [x ->]. now exists (c :: x).
Qed.
Theorem trim_enum_prefix_suffix_nonempty s prefix :
  (exists p, s = p ++ trim_enum_prefix s prefix) /\ (s <> [] -> trim_enum_prefix s prefix <> []).
Proof.
  unfold trim_enum_prefix. destruct (trim_aux s prefix) as [r|] eqn:E.
  - destruct (trim_us r) as [|x t] eqn:T.
    + split; [now exists []|auto].
    + split; [|discriminate]. destruct (trim_aux_suffix _ _ _ E) as [p1 ->].
      destruct (trim_us_suffix r) as [p2 E2]. rewrite T in E2. exists (p1 ++ p2). rewrite <- app_assoc. now rewrite <- E2.
  - split; [now exists []|auto].
Qed.
Theorem go_TrimEnumPrefix_suffix_nonempty s prefix :
  exists p o, go_TrimEnumPrefix (zb s) (zb prefix) = Val (zb o) /\ s = p ++ o /\ (s <> [] -> o <> []).
Proof.
  destruct (trim_enum_prefix_suffix_nonempty s prefix) as [[p E] N].
  exists p, (trim_enum_prefix s prefix). rewrite go_TrimEnumPrefix_eq. auto.
Qed.
